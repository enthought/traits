(* C09 — IN-PLACE CONTAINER MUTATION (Dyn.DSetItems: list / dict / set items, event.removed / event.added) as an
   instance of the slot theorem of DynCount.v, and the operations of histories with link reassignments and container
   mutations together. *)
From Coq Require Import List Arith Bool PeanoNat Lia Permutation.
From TV Require Import C09.Model C09.Dyn C09.Law C09.Proofs C09.LawProofs C09.DynProofs C09.DynCount.
Import ListNotations.

Lemma mkind_eqb_sym a b : mkind_eqb a b = mkind_eqb b a.
Proof. apply eq_true_iff_eq. rewrite !mkind_eqb_spec. split; congruence. Qed.

Section Slot.
  Variable h : heap.
  Variable hits : node -> oid -> bool.
  Variables olds news : list oid.
  Fixpoint svisits (g : graph) (x : oid) {struct g} : bool :=
    match g with
    | G n cs => hits n x || existsb (fun c => existsb (fun y => svisits c y) (nexts h n x)) cs
    end.
  Definition sacyclic : Prop := forall ch y, In y olds \/ In y news -> svisits ch y = false.
End Slot.

Section Items.
  Variable h : heap.
  Variable c0 : oid.
  Variable v removed added rest : list oid.
  Let h' := set_items h c0 v.
  Let olds := items h c0.
  Hypothesis Pold : Permutation olds (removed ++ rest).
  Hypothesis Pnew : Permutation v (added ++ rest).

  Definition ihits (n : node) (x : oid) : bool :=
    match n with
    | NItems ck _ _ => is_cont h x ck && Nat.eqb x c0
    | NNamed _ _ _ => false
    end.
  Lemma i_new n x : objects h' n x = if ihits n x then Some v else objects h n x.
  Proof.
    destruct n as [f nt opt|ck nt opt]; cbn [objects ihits]; [reflexivity|].
    unfold h', is_cont. cbn [kind_of items set_items].
    destruct (match kind_of h x with KCont c' => ckind_eqb ck c' | _ => false end); cbn [andb]; [|reflexivity].
    destruct (Nat.eqb x c0); reflexivity.
  Qed.
  Lemma ihits_slot n x : ihits n x = true -> exists ck nt opt, n = NItems ck nt opt /\ x = c0 /\ is_cont h c0 ck = true.
  Proof.
    destruct n as [f nt opt|ck nt opt]; cbn [ihits]; [discriminate|]. intros H.
    apply andb_true_iff in H. destruct H as [T Q]. apply Nat.eqb_eq in Q. subst x. exists ck, nt, opt. auto.
  Qed.
  Lemma i_old n x : ihits n x = true -> objects h n x = Some olds.
  Proof. intros H. destruct (ihits_slot n x H) as (ck & nt & opt & -> & -> & T). cbn [objects]. rewrite T. reflexivity. Qed.
  (* an item node on the container hooks exactly its items; of the other nodes only a named one could hook
     (c0, F_ITEMS), with maintainers the loop of a container does not run *)
  Lemma i_slot n x : match observables h n x with
                     | Some os => if ihits n x then os = [(c0, F_ITEMS)] /\ runs false (node_mk n) = true
                                  else In (c0, F_ITEMS) os -> runs false (node_mk n) = false
                     | None => ihits n x = false
                     end.
  Proof.
    destruct (ihits n x) eqn:Hh.
    - destruct (ihits_slot n x Hh) as (ck & nt & opt & -> & -> & T). cbn [observables]. rewrite T. split; reflexivity.
    - destruct n as [f nt opt|ck nt opt]; cbn [observables].
      + destruct (has_trait h x f); [reflexivity|destruct opt; [intros []|reflexivity]].
      + cbn [ihits] in Hh. destruct (is_cont h x ck); [|destruct opt; [intros []|reflexivity]].
        intros [E|[]]. inversion E; subst. rewrite Nat.eqb_refl in Hh. discriminate.
  Qed.

  Definition iacyclic : Prop := sacyclic h ihits olds v.

  Theorem items_step (A : iacyclic) R H s : dinv h H R -> flags_ok h' R ->
    dead_handlers s = [] -> dead_objs s = [] ->
    exists H' calls, run_notifiers h' s false (H (c0, F_ITEMS)) removed added H [] = (H', calls, None) /\ dinv h' H' R.
  Proof.
    apply (slot_step h h' ihits c0 (svisits h ihits)) with (olds := olds) (news := v) (rest := rest).
    - reflexivity.
    - intros n x Hh. split; [reflexivity|]. rewrite i_new, Hh. reflexivity.
    - reflexivity.
    - intros n x Hh. destruct (ihits_slot n x Hh) as (_ & _ & _ & _ & -> & _). reflexivity.
    - intros n x c y Hh Hy. apply A. left. unfold nexts in Hy. rewrite (i_old n x Hh) in Hy. exact Hy.
    - reflexivity.
    - intros n x Hh. rewrite i_new, Hh. reflexivity.
    - exact i_old.
    - exact i_slot.
    - exact Pold.
    - exact Pnew.
  Qed.
End Items.

Inductive cop2 :=
| C1 (c : cop)
| CItems (c0 : oid) (v removed added rest : list oid).     (* in-place mutation: the container then holds v *)
Definition dop_of2 (c : cop2) : dop :=
  match c with C1 c' => dop_of c' | CItems c0 v removed added _ => DSetItems c0 v removed added true end.
Definition live_after2 (R : list reg) (c : cop2) (ob : obs) : list reg :=
  match c with C1 c' => live_after R c' ob | CItems _ _ _ _ _ => R end.
(* a container mutation is admissible on a heap where only HasTraits objects have traits, of an object that is not one,
   if the event is a faithful delta (old = removed + kept, new = added + kept), the
   container is reachable neither from its old nor from its new items, and the live registrations stay valid *)
Definition admissible2 (h : heap) (R : list reg) (c : cop2) : Prop :=
  match c with
  | C1 c' => admissible h R c'
  | CItems c0 v removed added rest =>
      heap_wf h /\ is_ht h c0 = false /\
      Permutation (items h c0) (removed ++ rest) /\ Permutation v (added ++ rest) /\
      sacyclic h (ihits h c0) (items h c0) v /\ flags_ok (set_items h c0 v) R
  end.
Fixpoint crun2 (d : dstate) (R : list reg) (ops : list cop2) : dstate * list reg * list (cop2 * obs) :=
  match ops with
  | [] => (d, R, [])
  | c :: r => let '(d1, ob) := dstep d (dop_of2 c) in
              let '(d2, R2, tr) := crun2 d1 (live_after2 R c ob) r in (d2, R2, (c, ob) :: tr)
  end.
Fixpoint admissible_run2 (d : dstate) (R : list reg) (ops : list cop2) : Prop :=
  match ops with
  | [] => True
  | c :: r => admissible2 (d_heap d) R c /\
              admissible_run2 (fst (dstep d (dop_of2 c))) (live_after2 R c (snd (dstep d (dop_of2 c)))) r
  end.
Definition quiet_outcome (c : cop2) (ob : obs) : Prop :=
  match c with
  | C1 (CUnreg _ _ _ _) | C1 (CLink _ _ _) | CItems _ _ _ _ _ => o_out ob = None
  | _ => True
  end.

Lemma cstep2 d R c d1 ob : dstate_inv d R -> admissible2 (d_heap d) R c -> dstep d (dop_of2 c) = (d1, ob) ->
  dstate_inv d1 (live_after2 R c ob) /\ quiet_outcome c ob.
Proof.
  intros I Ad S. destruct c as [c'|c0 v removed added rest]; cbn [dop_of2 live_after2 admissible2 quiet_outcome] in *.
  - destruct (cstep d R c' d1 ob I Ad S) as [I1 O1]. split; [exact I1|]. destruct c'; exact O1.
  - destruct I as [I [Dh Do]]. destruct Ad as (Wf & Hc0 & Po & Pn & A & F').
    cbn [dstep] in S.
    destruct (items_step (d_heap d) c0 v removed added rest Po Pn A R (st_hooks (d_st d)) (d_st d) I F' Dh Do)
      as (H' & calls & E & I').
    rewrite E in S. inversion S; subst d1 ob. cbn [o_out]. split; [|reflexivity].
    split; [exact I'|split; assumption].
Qed.

Lemma slot_calls (h hrun : heap) R H s sg t olds news H' calls k :
  dinv h H R -> wfH H -> dead_handlers s = [] -> dead_objs s = [] ->
  run_notifiers hrun s t (H sg) olds news H [] = (H', calls, None) ->
  (ncalls k calls <= 1) /\
  (ncalls k calls = 1 <-> exists g x, In (k, g, x) R /\ l_matched h g x sg = true).
Proof.
  intros I W Dh Do Rn. rewrite (run_notifiers_calls _ _ _ _ _ _ _ _ _ _ Rn). apply (calls_once_iff_matched _ _ _ _ _ _ I W Dh Do).
Qed.
