(* C09 — the well-formedness invariant of the hook state survives heap mutations (Dyn.v), so the
   per-step theorems of Props.v (failure_atomic, extra_unregister_raises_and_inert, once-per-change,
   registration_raises_iff_structural: all stated for ANY heap and ANY well-formed state) apply at every
   registration step of every history that also mutates the object graph. *)
From Coq Require Import List Arith Bool PeanoNat Lia Permutation.
From TV Require Import C09.Model C09.Dyn C09.Proofs.
Import ListNotations.

Lemma walk_outer_wf h k rm g x H H' e : wfH H -> walk_outer h k rm g x H = (H', e) -> wfH H'.
Proof.
  intros [P U] W. split; [apply (walk_outer_spec _ _ _ _ _ _ _ _ P W)|apply (walk_outer_uniq _ _ _ _ _ _ _ _ U W)].
Qed.

Lemma maint_each_wf h k rm sw g : forall ys H H' e, wfH H -> maint_each h k rm sw g ys H = (H', e) -> wfH H'.
Proof.
  induction ys as [|y r IH]; intros H H' e W M; cbn [maint_each] in M.
  - inversion M; subst. exact W.
  - destruct (walk_outer h k rm g y H) as [H1 [x|]] eqn:Wo; pose proof (walk_outer_wf _ _ _ _ _ _ _ _ W Wo) as W1.
    + destruct x; try (inversion M; subst; exact W1).
      destruct sw; [apply (IH _ _ _ W1 M)|inversion M; subst; exact W1].
    + apply (IH _ _ _ W1 M).
Qed.
Lemma maint_run_wf h k sw g olds news H H' e : wfH H -> maint_run h k sw g olds news H = (H', e) -> wfH H'.
Proof.
  intros W M. unfold maint_run in M.
  destruct (maint_each h k true sw g olds H) as [H1 [x|]] eqn:E1; pose proof (maint_each_wf _ _ _ _ _ _ _ _ _ W E1) as W1.
  - inversion M; subst. exact W1.
  - apply (maint_each_wf _ _ _ _ _ _ _ _ _ W1 M).
Qed.
Lemma run_notifiers_wf h s t : forall ns olds news H calls H' calls' e, wfH H ->
  run_notifiers h s t ns olds news H calls = (H', calls', e) -> wfH H'.
Proof.
  induction ns as [|n r IH]; intros olds news H calls H' calls' e W R; cbn [run_notifiers] in R.
  - inversion R; subst. exact W.
  - destruct n as [k rc|m g k|i]; try (apply (IH _ _ _ _ _ _ _ W R)).
    destruct (alive s k); [|apply (IH _ _ _ _ _ _ _ W R)].
    destruct m, t; try (apply (IH _ _ _ _ _ _ _ W R)).
    + destruct (maint_run h k true g olds news H) as [H1 [x|]] eqn:M;
        pose proof (maint_run_wf _ _ _ _ _ _ _ _ _ W M) as W1; [inversion R; subst; exact W1|apply (IH _ _ _ _ _ _ _ W1 R)].
    + destruct (maint_run h k false g olds news H) as [H1 [x|]] eqn:M;
        pose proof (maint_run_wf _ _ _ _ _ _ _ _ _ W M) as W1; [inversion R; subst; exact W1|apply (IH _ _ _ _ _ _ _ W1 R)].
Qed.

Lemma walk_plan_add_wf p H H' e : wfH H -> walk_plan p false H = (H', e) -> wfH H'.
Proof.
  intros [P U] W. destruct p as [es sf]. unfold walk_plan in W.
  destruct (exec_add es H []) as (H1 & E1 & C1 & P1). rewrite E1 in W. cbn [app] in W.
  pose proof (exec_uniq _ _ _ _ _ _ _ U E1) as U1. destruct sf.
  - destruct (undo_restores false es H1 (P1 P)) as (H2 & X & P2 & _).
    { intros _ o c. rewrite C1. lia. }
    rewrite X in W. inversion W; subst. split; [exact P2|apply (undo_uniq _ _ _ _ _ U1 X)].
  - inversion W; subst. split; [apply P1, P|exact U1].
Qed.
Lemma run_ta_notifiers_wf h s x f : forall ns H calls H' calls' e, wfH H ->
  run_ta_notifiers h s x f ns H calls = (H', calls', e) -> wfH H'.
Proof.
  induction ns as [|n r IH]; intros H calls H' calls' e W R; cbn [run_ta_notifiers] in R.
  - inversion R; subst. exact W.
  - destruct n as [k rc|m g k|i]; try (apply (IH _ _ _ _ _ W R)).
    destruct m; try (apply (IH _ _ _ _ _ W R)).
    destruct g as [[f' nt opt|c nt opt] cs]; try (apply (IH _ _ _ _ _ W R)).
    destruct (alive s k && Nat.eqb f' f); [|apply (IH _ _ _ _ _ W R)].
    destruct (walk_plan (plan_restricted h k (G (NNamed f' nt opt) cs) x) false H) as [H1 [y|]] eqn:Wp;
      pose proof (walk_plan_add_wf _ _ _ _ W Wp) as W1; [inversion R; subst; exact W1|apply (IH _ _ _ _ _ W1 R)].
Qed.

(* a notifier loop that does not raise has called the live handlers of its list, in order *)
Lemma run_notifiers_calls h s t : forall ns olds news H calls H' calls',
  run_notifiers h s t ns olds news H calls = (H', calls', None) -> calls' = calls ++ calls_of s ns.
Proof.
  induction ns as [|n r IH]; intros olds news H calls H' calls' R; cbn [run_notifiers] in R.
  - inversion R; subst. unfold calls_of. cbn. rewrite app_nil_r. reflexivity.
  - change (calls_of s (n :: r)) with
      ((match n with NUser k' _ => if alive s k' then [k'] else [] | _ => [] end) ++ calls_of s r).
    destruct n as [k rc|m g k|i].
    + rewrite (IH _ _ _ _ _ _ R). destruct (alive s k); [rewrite <- app_assoc|]; reflexivity.
    + cbn [app]. destruct (alive s k); [|apply (IH _ _ _ _ _ _ R)].
      destruct m, t; try (apply (IH _ _ _ _ _ _ R)).
      * destruct (maint_run h k true g olds news H) as [H1 [e|]]; [discriminate|apply (IH _ _ _ _ _ _ R)].
      * destruct (maint_run h k false g olds news H) as [H1 [e|]]; [discriminate|apply (IH _ _ _ _ _ _ R)].
    + cbn [app]. apply (IH _ _ _ _ _ _ R).
Qed.
Lemma run_ta_notifiers_calls h s x f : forall ns H calls H' calls',
  run_ta_notifiers h s x f ns H calls = (H', calls', None) -> calls' = calls ++ calls_of s ns.
Proof.
  induction ns as [|n r IH]; intros H calls H' calls' R; cbn [run_ta_notifiers] in R.
  - inversion R; subst. unfold calls_of. cbn. rewrite app_nil_r. reflexivity.
  - change (calls_of s (n :: r)) with
      ((match n with NUser k' _ => if alive s k' then [k'] else [] | _ => [] end) ++ calls_of s r).
    destruct n as [k rc|m g k|i].
    + rewrite (IH _ _ _ _ R). destruct (alive s k); [rewrite <- app_assoc|]; reflexivity.
    + cbn [app]. destruct m; try (apply (IH _ _ _ _ R)).
      destruct g as [[f' nt opt|ck nt opt] cs]; [|apply (IH _ _ _ _ R)].
      destruct (alive s k && Nat.eqb f' f); [|apply (IH _ _ _ _ R)].
      destruct (walk_plan _ false H) as [H1 [e|]]; [discriminate|apply (IH _ _ _ _ R)].
    + cbn [app]. apply (IH _ _ _ _ R).
Qed.

Lemma dstep_wf d o d' ob : wfH (st_hooks (d_st d)) -> dstep d o = (d', ob) -> wfH (st_hooks (d_st d')).
Proof.
  intros W S. destruct o as [o|x f v|c v removed added fired|x f v]; cbn [dstep] in S.
  - destruct (step (d_heap d) (d_st d) o) as [s' ob'] eqn:St. inversion S; subst. cbn [d_st].
    apply (step_wf _ _ _ _ _ W St).
  - destruct (run_notifiers _ _ _ _ _ _ _ _) as [[H calls] e] eqn:R. inversion S; subst. cbn [d_st with_hooks st_hooks].
    apply (run_notifiers_wf _ _ _ _ _ _ _ _ _ _ _ W R).
  - destruct fired.
    + destruct (run_notifiers _ _ _ _ _ _ _ _) as [[H calls] e] eqn:R. inversion S; subst. cbn [d_st with_hooks st_hooks].
      apply (run_notifiers_wf _ _ _ _ _ _ _ _ _ _ _ W R).
    + inversion S; subst. exact W.
  - destruct (has_trait (d_heap d) x f); [inversion S; subst; exact W|].
    destruct (run_ta_notifiers _ _ _ _ _ _ _) as [[H calls] e] eqn:R. inversion S; subst. cbn [d_st with_hooks st_hooks].
    apply (run_ta_notifiers_wf _ _ _ _ _ _ _ _ _ _ W R).
Qed.

Fixpoint drun (d : dstate) (ops : list dop) : list (dop * obs) * dstate :=
  match ops with
  | [] => ([], d)
  | o :: r => let '(d1, ob) := dstep d o in let '(tr, d2) := drun d1 r in ((o, ob) :: tr, d2)
  end.

Lemma drun_wf : forall ops d tr d', wfH (st_hooks (d_st d)) -> drun d ops = (tr, d') -> wfH (st_hooks (d_st d')).
Proof.
  induction ops as [|o ops IH]; intros d tr d' W R; cbn [drun] in R.
  - inversion R; subst. exact W.
  - destruct (dstep d o) as [d1 ob] eqn:S. destruct (drun d1 ops) as [tr1 d2] eqn:R1. inversion R; subst.
    apply (IH _ _ _ (dstep_wf _ _ _ _ W S) R1).
Qed.

(* hence: at any point of any history with heap mutations, a raising registration or removal leaves
   every notifier list a permutation of what it was *)
Lemma failure_atomic_dyn : forall ops d tr d1 o d2 ob,
  wfH (st_hooks (d_st d)) -> drun d ops = (tr, d1) -> dstep d1 (DStatic o) = (d2, ob) -> o_out ob <> None ->
  forall o', Permutation (st_hooks (d_st d2) o') (st_hooks (d_st d1) o').
Proof.
  intros ops d tr d1 o d2 ob W R S N. pose proof (drun_wf _ _ _ _ W R) as W1.
  cbn [dstep] in S. destruct (step (d_heap d1) (d_st d1) o) as [s' ob'] eqn:St. inversion S; subst. cbn [d_st].
  apply (failure_atomic_perm _ _ _ _ _ W1 St N).
Qed.
