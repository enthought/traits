(* C09 — property theorems only.  Each theorem applies (in one to three lines) a lemma of Proofs.v, LawProofs.v,
   DynProofs.v, DynCount.v, DynSlot.v or DynAdd.v and is followed by Print Assumptions; the Examples at the end
   (non-vacuity) are not.  The statements about a static heap hold for every heap (also cyclic), every graph
   shape and depth, every number of parallel graphs, every handler/target/dispatcher identity, every initial
   notifier population satisfying [wfH] (stored reference counts positive, at most one user
   notifier per identity on a list — both are invariants, [wf_is_invariant]) and every history. *)
From Coq Require Import List Arith Bool PeanoNat Permutation.
From TV Require Import C09.Model C09.Dyn C09.Law C09.Proofs C09.LawProofs C09.DynProofs C09.DynCount C09.DynSlot C09.DynAdd.
Import ListNotations.

Theorem wf_is_invariant : forall h ops s tr s',
  wfH (st_hooks s) -> run h s ops = (tr, s') -> wfH (st_hooks s').
Proof. exact run_wf. Qed.
Print Assumptions wf_is_invariant.

(* The accounting equation: after ANY history (successful and failing registrations and removals of
   any handlers and expressions, interleaved with changes and collections), every count of every
   notifier list (reference counts of user notifiers, multiplicities of maintainers and of foreign
   elements) is its initial value plus what the successful registrations planned minus what the
   successful removals planned. *)
Theorem registration_accounting : forall h ops s tr s',
  posH (st_hooks s) -> run h s ops = (tr, s') ->
  posH (st_hooks s') /\
  forall o c, cntH (st_hooks s') o c + sigs_cnt h (ok_unregs tr) o c
              = cntH (st_hooks s) o c + sigs_cnt h (ok_regs tr) o c.
Proof. exact accounting. Qed.
Print Assumptions registration_accounting.

(* n registrations and n removals (for any number of handlers, interleaved in any order): every
   notifier list is a permutation of its initial value — same size, same notifiers, same counts. *)
Theorem register_n_unregister_n_identity : forall h ops s tr s',
  wfH (st_hooks s) -> run h s ops = (tr, s') ->
  Permutation (ok_regs tr) (ok_unregs tr) ->
  forall o, Permutation (st_hooks s' o) (st_hooks s o).
Proof.
  intros h ops s tr s' W R B. exact (run_counts_perm _ _ _ _ _ W R (balanced_identity h ops s tr s' (proj1 W) R B)).
Qed.
Print Assumptions register_n_unregister_n_identity.

(* In between: for a handler k that has no user notifier on the list of o.f initially (fourth hypothesis), a change
   of o.f calls k exactly once iff k's owner and target are alive and the registrations of k that match (o, f)
   outnumber its removals; otherwise not at all.  In particular no call after everything was removed.
   (Proofs.calls_after is the same for any initial count.) *)
Theorem once_per_change_in_between : forall h ops s tr s1 o f s2 ob k,
  wfH (st_hooks s) -> run h s ops = (tr, s1) -> step h s1 (Change o f) = (s2, ob) ->
  cntH (st_hooks s) (o, f) (CK (AUser k)) = 0 ->
  ncalls k (o_calls ob) =
    if alive s1 k && (sigs_cnt h (ok_unregs tr) (o, f) (CK (AUser k)) <? sigs_cnt h (ok_regs tr) (o, f) (CK (AUser k)))
    then 1 else 0.
Proof. intros h ops s tr s1 o f s2 ob k W R S Z. rewrite (calls_after h ops s tr s1 o f s2 ob k W R S), Z. reflexivity. Qed.
Print Assumptions once_per_change_in_between.

(* A removal of something that is not completely there raises (NotifierNotFound when no node of the
   expression fails to apply) and leaves every list as it was. *)
Theorem extra_unregister_raises_and_inert : forall h s x hd dp gs s' ob,
  wfH (st_hooks s) ->
  (exists o c, cntH (st_hooks s) o c < gsum h (hd, x, dp) gs x o c) ->
  step h s (Unregister x hd dp gs) = (s', ob) ->
  (exists y, o_out ob = Some y /\
             ((forall g, In g gs -> snd (plan h (hd, x, dp) false g x) = false) -> y = NotifierNotFound))
  /\ forall o, Permutation (st_hooks s' o) (st_hooks s o).
Proof.
  intros h s x hd dp gs s' ob W X S. destruct (extra_unregister h s x hd dp gs s' ob (proj1 W) X S) as [E C].
  split; [exact E|exact (step_counts_perm _ _ _ _ _ W S C)].
Qed.
Print Assumptions extra_unregister_raises_and_inert.

(* A registration or removal that raises — at any depth of the walk, in any of several parallel
   graphs — leaves every notifier list a permutation of what it was. *)
Theorem failure_atomic : forall h s o s' ob,
  wfH (st_hooks s) -> step h s o = (s', ob) -> o_out ob <> None ->
  forall o', Permutation (st_hooks s' o') (st_hooks s o').
Proof. exact failure_atomic_perm. Qed.
Print Assumptions failure_atomic.

(* A registration raises iff some node of some graph does not apply where it is not optional, and then
   it raises ValueError. *)
Theorem registration_raises_iff_structural : forall h s x hd dp gs s' ob,
  posH (st_hooks s) -> step h s (Register x hd dp gs) = (s', ob) ->
  (o_out ob = None <-> forall g, In g gs -> snd (plan h (hd, x, dp) false g x) = false)
  /\ (forall y, o_out ob = Some y -> y = ValueError).
Proof. exact register_outcome. Qed.
Print Assumptions registration_raises_iff_structural.

(* Once a handler's owner or target is dead it stays dead, is never called and no change raises. *)
Theorem dead_target_silent : forall h ops s tr s' k,
  run h s ops = (tr, s') -> alive s k = false ->
  alive s' k = false /\
  forall o f ob, In (Change o f, ob) tr -> ~ In k (o_calls ob) /\ o_out ob = None.
Proof. exact dead_silent. Qed.
Print Assumptions dead_target_silent.

Theorem collection_mutes : forall h s o s' ob, step h s o = (s', ob) ->
  match o with
  | CollectOwner hd => forall t dp, alive s' (hd, t, dp) = false
  | CollectObj t => forall hd dp, alive s' (hd, t, dp) = false
  | _ => True
  end.
Proof. exact collect_kills. Qed.
Print Assumptions collection_mutes.

(* The removal walk touches exactly what the registration walk touches (as multisets), although it
   runs the four steps in reverse order. *)
Theorem removal_plan_is_registration_plan : forall h k o c g x,
  snd (plan h k true g x) = snd (plan h k false g x) /\
  (snd (plan h k false g x) = false ->
   ecnt o c (fst (plan h k true g x)) = ecnt o c (fst (plan h k false g x))).
Proof. exact plan_rm_equiv. Qed.
Print Assumptions removal_plan_is_registration_plan.

(* The whole boolean law of Law.v (clauses 1-6, 8 and 9: failed operation changed nothing, balanced => initial
   populations, call counts, extra removal raises, weak references, changes never raise, a handler whose
   registrations are all removed is on no list, the removal of a live registration does not raise) evaluates to
   "no failure" on the model's own observations of EVERY history, for every heap in which only HasTraits
   objects have traits, every universe of observables that covers the initial notifier population and
   every well-formed start state.  The same term is what ./check evaluates on the implementation. *)
Theorem law_holds_on_every_history : forall (h : heap) (univ : list obsv) (s0 : state) (ops : list op),
  heap_wf h -> wfH (st_hooks s0) -> (forall o, ~ In o univ -> st_hooks s0 o = []) ->
  law_hist h univ (snap_of_hooks univ (st_hooks s0)) 0 (mkL [] []) (dead_handlers s0) (dead_objs s0)
           (snap_of_hooks univ (st_hooks s0)) (observe univ h s0 ops) = [].
Proof. exact law_holds_on_model. Qed.
Print Assumptions law_holds_on_every_history.

(* what ./check evaluates (law_hist_dyn, which follows heap mutations of dynamic cases) is this law on
   every history without heap mutation *)
Theorem checked_law_is_the_law : forall h univ init hist i L dh dobj prev,
  law_hist_dyn univ init i h L dh dobj prev (map (fun p => (LStatic (fst p), snd p)) hist)
  = law_hist h univ init i L dh dobj prev hist.
Proof. exact law_hist_dyn_static. Qed.
Print Assumptions checked_law_is_the_law.

Theorem correspondence_heaps_are_wf : forall ds, heap_wf (TV.C09.Corr.heap_of ds).
Proof. exact heap_of_wf. Qed.
Print Assumptions correspondence_heaps_are_wf.

(* Histories that also mutate the object graph (Dyn.v: Instance links reassigned, containers mutated in
   place, maintainers re-hooking the downstream graph): the well-formedness invariant survives, so the
   per-step theorems above (stated for any heap and any well-formed state) apply at every registration
   step; in particular failure atomicity holds at any point of any such history. *)
Theorem wf_is_invariant_under_graph_mutation : forall ops d tr d',
  wfH (st_hooks (d_st d)) -> drun d ops = (tr, d') -> wfH (st_hooks (d_st d')).
Proof. exact drun_wf. Qed.
Print Assumptions wf_is_invariant_under_graph_mutation.

Theorem failure_atomic_after_graph_mutations : forall ops d tr d1 o d2 ob,
  wfH (st_hooks (d_st d)) -> drun d ops = (tr, d1) -> dstep d1 (DStatic o) = (d2, ob) -> o_out ob <> None ->
  forall o', Permutation (st_hooks (d_st d2) o') (st_hooks (d_st d1) o').
Proof. exact failure_atomic_dyn. Qed.
Print Assumptions failure_atomic_after_graph_mutations.

(* The counting theorems on a changing object graph (DynCount.v).
   Histories of registrations, removals of live registrations, scalar changes and Instance-link reassignments
   (Dyn.DSetLink, maintainers re-hooking the downstream graph), for any number of live registrations of any
   handlers and graphs.  Side conditions ([admissible]): a reassigned slot is reachable neither from its old nor
   from its new value by ANY graph (acyclicity of the heap at the slot, not relative to the live registrations as
   C08's edge_acyclic — cycles through the slot are finding F14 of C08), and the live
   registrations stay structurally valid on the new heap (otherwise the maintainer raises out of the
   assignment).  Then at every moment every count of every notifier list is what the live registrations plan ON
   THE CURRENT HEAP, and neither a link reassignment nor the removal of a live registration ever raises. *)
Theorem hooks_are_expected_under_link_reassignment : forall ops d R d' R' tr,
  dstate_inv d R -> admissible_run d R ops -> crun d R ops = (d', R', tr) ->
  dstate_inv d' R' /\
  forall c ob, In (c, ob) tr -> match c with CUnreg _ _ _ _ | CLink _ _ _ => o_out ob = None | _ => True end.
(* crun / admissible_run are the generic grun / gadm of DynCount.v at this instance, by computation; the same holds
   for crun2 and crun3 below *)
Proof. exact (grun_inv cop dop_of live_after admissible _ cstep). Qed.
Print Assumptions hooks_are_expected_under_link_reassignment.

(* one reassignment: the maintainers found on the slot turn "planned on the old heap" into "planned on the new heap" *)
Theorem link_reassignment_maintains_the_hooks : forall h x0 f0 news, acyclic h x0 f0 news ->
  forall R H s, dinv h H R -> flags_ok (set_links h x0 f0 news) R -> dead_handlers s = [] -> dead_objs s = [] ->
  exists H' calls,
    run_notifiers (set_links h x0 f0 news) s true (H (x0, f0)) (links h x0 f0) news H [] = (H', calls, None)
    /\ dinv (set_links h x0 f0 news) H' R.
Proof. exact link_step. Qed.
Print Assumptions link_reassignment_maintains_the_hooks.

(* once per change, with respect to the heap as it is now *)
Theorem once_per_change_on_the_current_heap : forall d R o f s' ob k,
  dstate_inv d R -> wfH (st_hooks (d_st d)) -> step (d_heap d) (d_st d) (Change o f) = (s', ob) ->
  (ncalls k (o_calls ob) <= 1) /\
  (ncalls k (o_calls ob) = 1 <-> exists g x, In (k, g, x) R /\ l_matched (d_heap d) g x (o, f) = true).
Proof. exact dyn_once_per_change. Qed.
Print Assumptions once_per_change_on_the_current_heap.

(* where such a history ends with no live registration (dstate_inv d' [] from
   hooks_are_expected_under_link_reassignment), nothing of any handler is left anywhere *)
Theorem all_removed_after_reassignments : forall d,
  dstate_inv d [] -> forall o a, cntH (st_hooks (d_st d)) o (CK a) = 0.
Proof. intros d [(_ & Inv & _) _] o a. rewrite Inv. reflexivity. Qed.
Print Assumptions all_removed_after_reassignments.

(* ... and with IN-PLACE CONTAINER MUTATIONS (Dyn.DSetItems: list / dict / set, event.removed / event.added) as well
   (DynSlot.v): the event must be a faithful delta (old = removed + kept, new = added + kept) and the container
   reachable neither from its old nor from its new items. *)
Theorem hooks_are_expected_under_graph_mutation : forall ops d R d' R' tr,
  dstate_inv d R -> admissible_run2 d R ops -> crun2 d R ops = (d', R', tr) ->
  dstate_inv d' R' /\ forall c ob, In (c, ob) tr -> quiet_outcome c ob.
Proof. exact (grun_inv cop2 dop_of2 live_after2 admissible2 quiet_outcome cstep2). Qed.
Print Assumptions hooks_are_expected_under_graph_mutation.

Theorem container_mutation_maintains_the_hooks : forall h c0 v removed added rest,
  heap_wf h -> is_ht h c0 = false ->
  Permutation (items h c0) (removed ++ rest) -> Permutation v (added ++ rest) ->
  sacyclic h (ihits h c0) (items h c0) v ->
  forall R H s, dinv h H R -> flags_ok (set_items h c0 v) R -> dead_handlers s = [] -> dead_objs s = [] ->
  exists H' calls,
    run_notifiers (set_items h c0 v) s false (H (c0, F_ITEMS)) removed added H [] = (H', calls, None)
    /\ dinv (set_items h c0 v) H' R.
Proof. intros h c0 v removed added rest _ _. exact (items_step h c0 v removed added rest). Qed.
Print Assumptions container_mutation_maintains_the_hooks.

(* who is called by a mutation of the object graph: the notifier loop of the mutated slot (a reassigned Instance
   link or a mutated container) calls handler k exactly once iff a live registration of k matches the slot.
   hrun, t, olds, news are free: who is called depends only on the list H sg the loop runs over *)
Theorem mutation_calls_once_iff_matched : forall (h hrun : heap) R H s sg t olds news H' calls k,
  dinv h H R -> wfH H -> dead_handlers s = [] -> dead_objs s = [] ->
  run_notifiers hrun s t (H sg) olds news H [] = (H', calls, None) ->
  (ncalls k calls <= 1) /\
  (ncalls k calls = 1 <-> exists g x, In (k, g, x) R /\ l_matched h g x sg = true).
Proof. exact slot_calls. Qed.
Print Assumptions mutation_calls_once_iff_matched.

(* ... and with obj.add_trait (Dyn.DAddTrait) as well (DynAdd.v): registrations with an OPTIONAL node on a name that is
   not yet a trait hook nothing below that node; when the trait is added (possibly already holding a value), the
   trait_added maintainers complete every live registration naming it, so that the hooks again are exactly what the
   live registrations plan on the NEW heap.  The name must be new on a HasTraits object and the object's new trait
   not reachable from the value it starts with. *)
Theorem hooks_are_expected_under_add_trait : forall ops d R d' R' tr,
  dstate_inv d R -> admissible_run3 d R ops -> crun3 d R ops = (d', R', tr) ->
  dstate_inv d' R' /\ forall c ob, In (c, ob) tr -> quiet_outcome3 c ob.
Proof. exact (grun_inv cop3 dop_of3 live_after3 admissible3 quiet_outcome3 cstep3). Qed.
Print Assumptions hooks_are_expected_under_add_trait.

Theorem add_trait_completes_the_registrations : forall h x0 f0 v,
  has_trait h x0 f0 = false -> is_ht h x0 = true -> aacyclic h x0 f0 v ->
  forall R H s, dinv h H R -> flags_ok (add_trait_h h x0 f0 v) R -> dead_handlers s = [] -> dead_objs s = [] ->
  exists H' calls,
    run_ta_notifiers (add_trait_h h x0 f0 v) s x0 f0 (H (x0, F_TA)) H [] = (H', calls, None)
    /\ dinv (add_trait_h h x0 f0 v) H' R.
Proof. exact add_trait_step. Qed.
Print Assumptions add_trait_completes_the_registrations.

(* who is called by add_trait: handler k exactly once iff a live registration of k matches the object's trait_added *)
Theorem add_trait_calls_once_iff_matched : forall (h hrun : heap) R H s x f H' calls k,
  dinv h H R -> wfH H -> dead_handlers s = [] -> dead_objs s = [] ->
  run_ta_notifiers hrun s x f (H (x, F_TA)) H [] = (H', calls, None) ->
  (ncalls k calls <= 1) /\
  (ncalls k calls = 1 <-> exists g y, In (k, g, y) R /\ l_matched h g y (x, F_TA) = true).
Proof. exact add_trait_calls. Qed.
Print Assumptions add_trait_calls_once_iff_matched.

(* who is called, for every step of such a history: a step that fires a slot (scalar change, link reassignment,
   container mutation, add_trait -> the object's trait_added) calls handler k exactly once iff a live registration of k
   matches the slot on the heap as it is at that moment; registrations, removals and re-definitions call nobody *)
Theorem history_steps_call_once_iff_matched : forall d R c d1 ob k,
  dstate_inv d R -> wfH (st_hooks (d_st d)) -> admissible3 (d_heap d) R c ->
  dstep d (dop_of3 c) = (d1, ob) ->
  match slot_of3 c with
  | Some sg => ncalls k (o_calls ob) <= 1 /\
               (ncalls k (o_calls ob) = 1 <-> exists g x, In (k, g, x) R /\ l_matched (d_heap d) g x sg = true)
  | None => o_calls ob = []
  end.
Proof. exact cstep3_calls. Qed.
Print Assumptions history_steps_call_once_iff_matched.

(* Non-vacuity.  Object 0 has kids = list 5 = [1; 2; 3], f = 1, g = 2; objects 1, 2 have `value` (field 2), object 3
   has not.  Fields: 2 value, 3 f, 4 g, 5 kids, 9 nonexist. *)
Definition ex_heap : heap :=
  mkHeap (fun x => if x <? 4 then KObj else if x =? 5 then KCont CList else KOther)
         (fun x f => match x with
                     | 0 => (f =? 1) || (f =? 2) || (f =? 3) || (f =? 4) || (f =? 5)
                     | 1 | 2 => (f =? 1) || (f =? 2) | 3 => (f =? 1) | _ => false end)
         (fun x f => match x, f with 0, 5 => [5] | 0, 3 => [1] | 0, 4 => [2] | _, _ => [] end)
         (fun x => if x =? 5 then [1; 2; 3] else []).
Definition g_value := G (NNamed 2 true false) [].
Definition g_kids_items_value := G (NNamed 5 true false) [G (NItems CList true false) [g_value]].
Definition g_f_value := G (NNamed 3 true false) [g_value].
Definition g_g_value := G (NNamed 4 true false) [g_value].
Definition s0 := mkState (fun _ => []) [] [].

Example wf_initial : wfH (st_hooks s0).
Proof. exact wf_empty. Qed.

(* the three shapes of finding F8 raise and leave nothing behind; in between the handler is
   called once per change; after n = 2 registrations and removals one more removal raises *)
Example history_nontrivial :
  let ops := [Register 0 7 0 [g_kids_items_value];              (* third item lacks `value` *)
              Register 0 7 0 [g_value; G (NNamed 9 true false) []]; (* "value, nonexist" *)
              Register 0 7 0 [g_f_value];
              Unregister 0 7 0 [g_f_value; g_g_value];          (* only f.value was registered *)
              Change 1 2;
              Register 0 7 0 [g_f_value]; Change 1 2;
              Unregister 0 7 0 [g_f_value]; Unregister 0 7 0 [g_f_value]; Change 1 2;
              Unregister 0 7 0 [g_f_value];
              Register 0 7 0 [g_f_value]; CollectOwner 7; Change 1 2] in
  let '(tr, s) := run ex_heap s0 ops in
  map (fun p => (o_out (snd p), length (o_calls (snd p)))) tr =
    [(Some ValueError, 0); (Some ValueError, 0); (None, 0); (Some NotifierNotFound, 0); (None, 1);
     (None, 0); (None, 1); (None, 0); (None, 0); (None, 0); (Some NotifierNotFound, 0);
     (None, 0); (None, 0); (None, 0)]
  /\ map (fun o => length (st_hooks s o)) [(0, 1); (0, 3); (1, 1); (1, 2); (2, 2)] = [1; 2; 1; 1; 0].
Proof. vm_compute. split; reflexivity. Qed.

Example ex_heap_wf : heap_wf ex_heap.
Proof.
  intros x f. unfold ex_heap, is_ht. cbn [has_trait kind_of].
  destruct x as [|[|[|[|x]]]]; cbn; try reflexivity. discriminate.
Qed.
(* the law is not vacuous: on a history where a handler is silently left attached it fails *)
Example law_detects_partial_rollback :
  let univ := [(0, 1); (0, 5); (1, 2); (2, 2); (3, 1); (5, 0)] in
  let bad := mkI (Some ValueError) [] [((1, 2), [NUser (7, 0, 0) 1])] None in
  law_hist ex_heap univ [] 0 (mkL [] []) [] [] [] [(Register 0 7 0 [g_kids_items_value], bad)] <> [].
Proof. vm_compute. discriminate. Qed.

(* no node leads anywhere from objects 1, 2, 3.  (The ex_* facts below are used by the histories after them; they are
   Examples because ./check takes every Lemma of this file for a property theorem.) *)
Example ex_leaf n y : y = 1 \/ y = 2 \/ y = 3 -> nexts ex_heap n y = [].
Proof.
  intros [-> | [-> | ->]]; destruct n as [f nt opt|ck nt opt]; unfold nexts; cbn;
    repeat (match goal with |- context [if ?b then _ else _] => destruct b end; try reflexivity).
Qed.
Example ex_leaf_unreachable y : y = 1 \/ y = 2 -> forall ch, visits ex_heap 0 3 ch y = false.
Proof.
  intros Hy. apply (vis_leaf ex_heap (hits ex_heap 0 3) _ (fun _ _ _ => eq_refl)); intros n; [|apply ex_leaf; tauto].
  destruct n; cbn [hits]; [|reflexivity]. destruct Hy; subst; cbn; rewrite ?andb_false_r; reflexivity.
Qed.
(* non-vacuity of the dynamic theorems: object 0 observes f.value; f is reassigned from 1 to 2; the handler then
   follows object 2 and not object 1; the removal succeeds and leaves nothing *)
Example dyn_history_nontrivial :
  let d0 := mkD ex_heap s0 in
  let ops := [CReg 0 7 0 g_f_value; CChange 1 2; CLink 0 3 [2]; CChange 2 2; CChange 1 2; CUnreg 0 7 0 g_f_value; CChange 2 2] in
  dstate_inv d0 [] /\ admissible_run d0 [] ops /\
  let '(d', R', tr) := crun d0 [] ops in
  R' = [] /\ map (fun p => (o_out (snd p), length (o_calls (snd p)))) tr
             = [(None, 0); (None, 1); (None, 1); (None, 1); (None, 0); (None, 0); (None, 0)].
Proof.
  split; [|split].
  - split; [apply dinv_empty|split; reflexivity].
  - cbn [admissible_run admissible]. repeat split; try exact I.
    + intros ch y [Hy|Hy]; apply ex_leaf_unreachable; cbn in Hy; intuition.
    + intros k g x Hin. vm_compute in Hin. destruct Hin as [E|[]]. inversion E; subst. vm_compute. reflexivity.
    + vm_compute. left. reflexivity.
  - vm_compute. split; reflexivity.
Qed.

(* non-vacuity with a container mutation: kids.items.<field 1> on the list 5 = [1; 2; 3]; item 3 is removed and item 2
   inserted a second time in one event; the handler then follows 1 and 2 (once each) and not 3 *)
Definition g_kids_items_f1 := G (NNamed 5 true false) [G (NItems CList true false) [G (NNamed 1 true false) []]].
Example ex_item_unreachable y : y = 1 \/ y = 2 \/ y = 3 -> forall ch, svisits ex_heap (ihits ex_heap 5) ch y = false.
Proof.
  intros Hy. apply (vis_leaf ex_heap (ihits ex_heap 5) _ (fun _ _ _ => eq_refl)); intros n; [|apply ex_leaf, Hy].
  destruct n; cbn [ihits]; [reflexivity|]. destruct Hy as [Hy|[Hy|Hy]]; subst; cbn; rewrite ?andb_false_r; reflexivity.
Qed.
Example dyn_items_history_nontrivial :
  let d0 := mkD ex_heap s0 in
  let ops := [C1 (CReg 0 7 0 g_kids_items_f1); C1 (CChange 3 1); CItems 5 [1; 2; 2] [3] [2] [1; 2];
              C1 (CChange 3 1); C1 (CChange 2 1); C1 (CUnreg 0 7 0 g_kids_items_f1); C1 (CChange 2 1)] in
  dstate_inv d0 [] /\ admissible_run2 d0 [] ops /\
  let '(d', R', tr) := crun2 d0 [] ops in
  R' = [] /\ map (fun p => (o_out (snd p), length (o_calls (snd p)))) tr
             = [(None, 0); (None, 1); (None, 1); (None, 0); (None, 1); (None, 0); (None, 0)].
Proof.
  split; [|split].
  - split; [apply dinv_empty|split; reflexivity].
  - cbn [admissible_run2 admissible2 admissible]. repeat split; try exact I.
    + exact ex_heap_wf.
    + apply Permutation_sym. apply (Permutation_cons_append [1; 2] 3).
    + apply perm_swap.
    + intros ch y [Hy|Hy]; apply ex_item_unreachable; vm_compute in Hy; intuition.
    + intros k g x Hin. vm_compute in Hin. destruct Hin as [E|[]]. inversion E; subst. vm_compute. reflexivity.
    + vm_compute. left. reflexivity.
  - vm_compute. split; reflexivity.
Qed.

(* non-vacuity with add_trait: object 0 observes the optional, not yet defined trait 9 and below it `value`; nothing is
   hooked on object 1 until the trait is added holding object 1; then the handler follows object 1, also after the
   trait has been re-defined with add_trait (no trait_added, the hooks stay); the removal
   succeeds on the new heap and leaves nothing *)
Definition g_opt9_value := G (NNamed 9 true true) [g_value].
Example ex_added_unreachable : forall ch, avisits ex_heap 0 9 ch 1 = false.
Proof.
  apply (vis_leaf ex_heap (ahits 0 9) _ (fun _ _ _ => eq_refl)); intros n; [destruct n; reflexivity|apply ex_leaf; tauto].
Qed.
Example dyn_add_trait_history_nontrivial :
  let d0 := mkD ex_heap s0 in
  let ops := [C2 (C1 (CReg 0 7 0 g_opt9_value)); C2 (C1 (CChange 1 2)); CAdd 0 9 [1];
              C2 (C1 (CChange 1 2)); CReAdd 0 9 []; C2 (C1 (CChange 1 2));
              C2 (C1 (CUnreg 0 7 0 g_opt9_value)); C2 (C1 (CChange 1 2))] in
  dstate_inv d0 [] /\ admissible_run3 d0 [] ops /\
  let '(d', R', tr) := crun3 d0 [] ops in
  R' = [] /\ map (fun p => (o_out (snd p), length (o_calls (snd p)))) tr
             = [(None, 0); (None, 0); (None, 0); (None, 1); (None, 0); (None, 1); (None, 0); (None, 0)].
Proof.
  split; [|split].
  - split; [apply dinv_empty|split; reflexivity].
  - cbn [admissible_run3 admissible3 admissible2 admissible]. repeat split; try exact I.
    + intros ch y [<-|[]]. apply ex_added_unreachable.
    + intros k g x Hin. vm_compute in Hin. destruct Hin as [E|[]]. inversion E; subst. vm_compute. reflexivity.
    + vm_compute. left. reflexivity.
  - vm_compute. split; reflexivity.
Qed.
