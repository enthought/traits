(* C09 — the counting theorems lifted from static heaps to histories that mutate the object graph between
   registrations.  One argument serves every mutation (Instance-link reassignment here, in-place container
   mutation in DynSlot.v, add_trait in DynAdd.v): a mutation changes what the nodes that "hit" one slot see; a
   walk differs on the two heaps exactly at its hit occurrences ([decomp]); the registration placed one maintainer
   per occurrence on the slot ([on_slot]), so the maintainers FOUND on the slot are those the live registrations
   planned there ([found_are_planned]), and running them turns "planned on the old heap" into "planned on the new
   heap".  Hence at every moment
        every count of every notifier list = what the live registrations plan ON THE CURRENT HEAP.   *)
From Coq Require Import List Arith Bool PeanoNat Lia Permutation.
From TV Require Import C09.Model C09.Dyn C09.Law C09.Proofs C09.LawProofs C09.DynProofs.
Import ListNotations.

Fixpoint lsum {A} (F : A -> nat) (l : list A) : nat :=
  match l with [] => 0 | a :: r => F a + lsum F r end.
Lemma lsum_app {A} (F : A -> nat) a b : lsum F (a ++ b) = lsum F a + lsum F b.
Proof. induction a; cbn; lia. Qed.
Lemma lsum_ext {A} (F G : A -> nat) l : (forall a, In a l -> F a = G a) -> lsum F l = lsum G l.
Proof.
  induction l as [|a l IH]; intros E; [reflexivity|]. cbn. rewrite (E a (or_introl eq_refl)), IH; [reflexivity|].
  intros; apply E; right; assumption.
Qed.
Lemma lsum_plus {A} (F G : A -> nat) l : lsum (fun a => F a + G a) l = lsum F l + lsum G l.
Proof. induction l; cbn; lia. Qed.
Lemma lsum_zero {A} (F : A -> nat) l : (forall a, In a l -> F a = 0) -> lsum F l = 0.
Proof. apply (sum_zero F (lsum F)); reflexivity. Qed.
Lemma lsum_le {A} (F G : A -> nat) l : (forall a, In a l -> F a <= G a) -> lsum F l <= lsum G l.
Proof.
  induction l as [|a l IH]; intros E; [cbn; lia|]. cbn. specialize (E a (or_introl eq_refl)) as E1.
  assert (lsum F l <= lsum G l) by (apply IH; intros; apply E; right; assumption). lia.
Qed.
Lemma lsum_flat_map {A B} (F : B -> nat) (g : A -> list B) l : lsum F (flat_map g l) = lsum (fun a => lsum F (g a)) l.
Proof. induction l; cbn; [reflexivity|]. rewrite lsum_app. lia. Qed.
Lemma lsum_map {X Y} (F : Y -> nat) (f : X -> Y) l : lsum F (map f l) = lsum (fun a => F (f a)) l.
Proof. induction l; cbn; congruence. Qed.
Lemma lsum_perm {A} (F : A -> nat) l1 l2 : Permutation l1 l2 -> lsum F l1 = lsum F l2.
Proof. induction 1; cbn; lia. Qed.
Lemma lsum_split {A B} (Q : A -> B -> nat) l l1 l2 cs : Permutation l (l1 ++ l2) ->
  lsum (fun a => lsum (Q a) l) cs = lsum (fun a => lsum (Q a) l1) cs + lsum (fun a => lsum (Q a) l2) cs.
Proof. intros Pm. rewrite <- lsum_plus. apply lsum_ext. intros a _. rewrite (lsum_perm _ _ _ Pm). apply lsum_app. Qed.
Lemma flat_map_nil {A B} (f : A -> list B) l : (forall a, In a l -> f a = []) -> flat_map f l = [].
Proof. induction l as [|a l IH]; intros E; [reflexivity|]. cbn. rewrite (E a), IH; auto using in_eq, in_cons. Qed.

(* sums over lists with equal counts *)
Section ByCounts.
  Context {A : Type} (eqb : A -> A -> bool).
  Hypothesis eqb_spec : forall a b, eqb a b = true <-> a = b.
  Definition cntA (a : A) (l : list A) : nat := lsum (fun b => b2n (eqb b a)) l.
  Lemma cntA_pos_in a l : 0 < cntA a l -> In a l.
  Proof.
    intros P. apply (sum_pos (fun b => b2n (eqb b a)) (cntA a)) in P; try reflexivity. destruct P as (b & Hb & Pb).
    destruct (eqb b a) eqn:Q; [|inversion Pb]. apply eqb_spec in Q. subst. exact Hb.
  Qed.
  Lemma eqb_refl' a : eqb a a = true.
  Proof. apply eqb_spec. reflexivity. Qed.
  Lemma lsum_by_counts (Q : A -> nat) : forall l1 l2, (forall a, cntA a l1 = cntA a l2) -> lsum Q l1 = lsum Q l2.
  Proof.
    induction l1 as [|a r IH]; intros l2 C.
    - destruct l2 as [|b l2]; [reflexivity|]. specialize (C b). cbn [cntA lsum] in C. rewrite eqb_refl' in C. cbn in C. lia.
    - assert (In a l2) as Hin.
      { apply cntA_pos_in. rewrite <- C. cbn [cntA lsum]. rewrite eqb_refl'. cbn. lia. }
      destruct (in_split _ _ Hin) as (u & v & ->). rewrite lsum_app. cbn [lsum].
      rewrite (IH (u ++ v)); [rewrite lsum_app; lia|].
      intros b. specialize (C b). unfold cntA in *. rewrite lsum_app in *. cbn [lsum] in C. lia.
  Qed.
End ByCounts.

Lemma graph_eqb_sym a b : graph_eqb a b = graph_eqb b a.
Proof. apply eq_true_iff_eq. rewrite !graph_eqb_spec. split; congruence. Qed.

Lemma pl_all_ecnt {A} o c (f : A -> pl) l : snd (pl_all f l) = false ->
  ecnt o c (fst (pl_all f l)) = lsum (fun a => ecnt o c (fst (f a))) l.
Proof.
  induction l as [|b l IH]; intros F; [reflexivity|].
  change (pl_all f (b :: l)) with (pseq (f b) (pl_all f l)) in *. apply pseq_flag_false in F.
  destruct F as [Fb Fl]. rewrite (pseq_ecnt o c _ _ Fb), (IH Fl). reflexivity.
Qed.
Lemma pl_all_ext_in {A} (f g : A -> pl) l : (forall a, In a l -> f a = g a) -> pl_all f l = pl_all g l.
Proof.
  induction l as [|b l IH]; intros E; [reflexivity|].
  change (pl_all f (b :: l)) with (pseq (f b) (pl_all f l)). change (pl_all g (b :: l)) with (pseq (g b) (pl_all g l)).
  rewrite (E b (or_introl eq_refl)), IH; [reflexivity|]. intros; apply E; right; assumption.
Qed.
Lemma ecnt_zero o c es : (forall e, In e es -> fst e = o -> CK (snd e) = c -> False) -> ecnt o c es = 0.
Proof.
  intros N. destruct (ecnt o c es) eqn:E; [reflexivity|].
  destruct (ecnt_pos_in o c es) as (e & He & Eo & Ec); [lia|]. elim (N e He Eo Ec).
Qed.
Lemma ecnt_map_maint sg mk0 c0 k o' mk cs :
  ecnt sg (CK (AMaint mk0 c0 k)) (map (fun c => (o', AMaint mk c k)) cs)
  = if obsv_eqb o' sg && mkind_eqb mk mk0 then lsum (fun ch => b2n (graph_eqb ch c0)) cs else 0.
Proof.
  induction cs as [|ch cs IH]; cbn [map ecnt lsum]; [destruct (_ && _); reflexivity|].
  rewrite IH. unfold eind. cbn [fst snd ckey_eqb akey_eqb]. rewrite key_eqb_refl, andb_true_r.
  destruct (obsv_eqb o' sg); cbn [andb]; [|reflexivity].
  destruct (mkind_eqb mk mk0); cbn [andb]; [|reflexivity]. reflexivity.
Qed.

(* the objects the children of a node are applied to (none when the node raises or is skipped) *)
Definition nexts (h : heap) (n : node) (x : oid) : list oid :=
  match objects h n x with Some ys => ys | None => [] end.

(* what a node hooks on x itself: user notifier, maintainers, trait_added maintainer *)
Definition loc1 (h : heap) (k : key) (n : node) (x : oid) (o : obsv) (c : ckey) : nat :=
  ecnt o c (fst (if node_notify n then
                   match observables h n x with None => p_fail | Some os => p_ok (map (fun o => (o, AUser k)) os) end
                 else p_ok [])).
Definition loc2 (h : heap) (k : key) (n : node) (cs : list graph) (x : oid) (o : obsv) (c : ckey) : nat :=
  ecnt o c (fst (match observables h n x with
                 | None => p_fail
                 | Some os => p_ok (flat_map (fun o => map (fun c => (o, AMaint (node_mk n) c k)) cs) os)
                 end)).
Definition loc4 (h : heap) (k : key) (g : graph) (x : oid) (o : obsv) (c : ckey) : nat :=
  ecnt o c (fst (match g with
                 | G (NNamed _ _ opt) _ => if is_ht h x then p_ok [((x, F_TA), AMaint MTA g k)]
                                           else if opt then p_ok [] else p_fail
                 | G (NItems _ _ _) _ => p_ok []
                 end)).
Definition loc (h : heap) (k : key) (g : graph) (x : oid) (o : obsv) (c : ckey) : nat :=
  match g with G n cs => loc1 h k n x o c + loc2 h k n cs x o c + loc4 h k g x o c end.

Lemma loc_ext h h' k n cs x o c : observables h' n x = observables h n x -> is_ht h' x = is_ht h x ->
  loc h' k (G n cs) x o c = loc h k (G n cs) x o c.
Proof. intros Eo Eh. unfold loc, loc1, loc2, loc4. rewrite Eo, Eh. reflexivity. Qed.
Lemma loc1_maint h k n x o m c k' : loc1 h k n x o (CK (AMaint m c k')) = 0.
Proof.
  apply ecnt_zero. intros e He _ Ek. destruct (node_notify n); [|destruct He]. destruct (observables h n x); [|destruct He].
  apply in_map_iff in He. destruct He as (o' & <- & _). discriminate Ek.
Qed.
Lemma loc2_ta h k n cs x o c k' : loc2 h k n cs x o (CK (AMaint MTA c k')) = 0.
Proof.
  apply ecnt_zero. intros e He _ Ek. destruct (observables h n x); [|destruct He]. apply in_flat_map in He.
  destruct He as (o' & _ & He). apply in_map_iff in He. destruct He as (ch & <- & _). destruct n; discriminate Ek.
Qed.
Lemma loc4_not_ta h k g x o m c k' : m <> MTA -> loc4 h k g x o (CK (AMaint m c k')) = 0.
Proof.
  intros N. apply ecnt_zero. intros e He _ Ek. destruct g as [[f nt opt|ck nt opt] cs]; [|destruct He].
  destruct (is_ht h x); [|destruct opt; destruct He]. destruct He as [<-|[]]. inversion Ek. congruence.
Qed.

Definition pcount (h : heap) (k : key) (g : graph) (x : oid) (o : obsv) (c : ckey) : nat :=
  ecnt o c (fst (plan h k false g x)).

Lemma plan_cnt h k n cs x o c : snd (plan h k false (G n cs) x) = false ->
  pcount h k (G n cs) x o c
  = loc h k (G n cs) x o c + lsum (fun ch => lsum (fun y => pcount h k ch y o c) (nexts h n x)) cs.
Proof.
  unfold pcount. intros F. cbn [plan] in *.
  apply pseq_flag_false in F. destruct F as [F1 F]. apply pseq_flag_false in F. destruct F as [F2 F].
  apply pseq_flag_false in F. destruct F as [F3 F4].
  rewrite (pseq_ecnt _ _ _ _ F1), (pseq_ecnt _ _ _ _ F2), (pseq_ecnt _ _ _ _ F3).
  rewrite (pl_all_ecnt _ _ _ _ F3).
  match goal with |- context [lsum ?F cs] =>
    rewrite (lsum_ext F (fun ch => lsum (fun y => ecnt o c (fst (plan h k false ch y))) (nexts h n x)) cs) end.
  - unfold loc. fold (loc1 h k n x o c). fold (loc2 h k n cs x o c).
    assert (forall a b s d, a + (b + (s + d)) = a + b + d + s) as R by (intros; lia). rewrite R. f_equal; try (f_equal; unfold loc4; destruct n; reflexivity).
  - intros ch Hch. pose proof (pl_all_flag _ _ F3 ch Hch) as Fc. unfold nexts. cbn beta in *.
    destruct (objects h n x) as [ys|]; [|discriminate Fc]. apply (pl_all_ecnt _ _ _ _ Fc).
Qed.

Lemma plan_sub_flag h k n cs x : snd (plan h k false (G n cs) x) = false ->
  forall ch y, In ch cs -> In y (nexts h n x) -> snd (plan h k false ch y) = false.
Proof.
  intros F ch y Hch Hy. cbn [plan] in F.
  apply pseq_flag_false in F. destruct F as [_ F]. apply pseq_flag_false in F. destruct F as [_ F].
  apply pseq_flag_false in F. destruct F as [F3 _]. pose proof (pl_all_flag _ _ F3 ch Hch) as Fc.
  unfold nexts in Hy. destruct (objects h n x) as [ys|]; [|destruct Hy]. apply (pl_all_flag _ _ Fc y Hy).
Qed.

Lemma pcount_foreign h k g x o i : pcount h k g x o (CF i) = 0.
Proof. apply plan_no_foreign. Qed.
Lemma pcount_other_key h k g x o a : akey_key a <> k -> pcount h k g x o (CK a) = 0.
Proof. apply plan_other_key. Qed.

Definition reg := (key * graph * oid)%type.
Definition tot (h : heap) (R : list reg) (o : obsv) (c : ckey) : nat :=
  lsum (fun r : reg => let '(k, g, x) := r in pcount h k g x o c) R.
Definition flags_ok (h : heap) (R : list reg) : Prop :=
  forall k g x, In (k, g, x) R -> snd (plan h k false g x) = false.
(* the hooks are exactly what the live registrations plan on the current heap *)
Definition dinv (h : heap) (H : hooks) (R : list reg) : Prop :=
  posH H /\ (forall o a, cntH H o (CK a) = tot h R o (CK a)) /\ flags_ok h R.

Lemma tot_pos h R o c : 0 < tot h R o c <-> exists k g x, In (k, g, x) R /\ 0 < pcount h k g x o c.
Proof.
  unfold tot. rewrite (sum_pos _ (lsum _)) by reflexivity. split.
  - intros ([[k g] x] & Hin & P). eauto.
  - intros (k & g & x & Hin & P). exists (k, g, x). auto.
Qed.
Lemma tot_user_matched h R k sg : flags_ok h R ->
  0 < tot h R sg (CK (AUser k)) <-> exists g x, In (k, g, x) R /\ l_matched h g x sg = true.
Proof.
  intros F. split.
  - intros Z. apply tot_pos in Z. destruct Z as (k' & g & x & Hin & Pp).
    assert (k' = k) as ->.
    { destruct (key_eqb k' k) eqn:Q; [apply key_eqb_spec, Q|]. rewrite pcount_other_key in Pp; [lia|].
      cbn [akey_key]. intros E. subst. rewrite key_eqb_refl in Q. discriminate. }
    exists g, x. split; [exact Hin|]. apply (plan_matched _ k g x sg (F k g x Hin)). exact Pp.
  - intros (g & x & Hin & M). apply tot_pos. exists k, g, x. split; [exact Hin|]. apply (plan_matched _ k g x sg (F k g x Hin)), M.
Qed.
Lemma in_cnt_pos n l : posb l = true -> In n l -> 0 < cnt (ckey_of n) l.
Proof.
  intros P Hin. destruct (in_split _ _ Hin) as (l1 & l2 & ->). rewrite cnt_mid.
  destruct (posb_mid _ _ _ P) as [Pn _]. pose proof (weight_own n Pn). lia.
Qed.

(* removing (rm) or adding the child graph c at every object of ys, each an outermost walk; a removal needs what
   it un-hooks to be there *)
Lemma maint_each_ok hh k rm sw c : forall ys H, posH H ->
  (forall y, In y ys -> snd (plan hh k false c y) = false) ->
  (rm = true -> forall o cc, lsum (fun y => pcount hh k c y o cc) ys <= cntH H o cc) ->
  exists H1, maint_each hh k rm sw c ys H = (H1, None) /\ posH H1 /\
             shifted rm H H1 (fun o cc => lsum (fun y => pcount hh k c y o cc) ys).
Proof.
  induction ys as [|y ys IH]; intros H P F C; cbn [maint_each].
  - exists H. split; [reflexivity|]. split; [exact P|]. intros o cc. destruct rm; cbn; lia.
  - assert (snd (plan hh k false c y) = false) as Fy by (apply F; left; reflexivity).
    assert (forall o cc, pcnt hh k rm c y o cc = pcount hh k c y o cc) as Ec
        by (intros o cc; destruct rm; [apply (plan_rm_cnt _ _ _ _ _ _ Fy)|reflexivity]).
    assert (exists H1, walk_outer hh k rm c y H = (H1, None)) as [H1 W].
    { destruct rm; [|apply (walk_outer_add_succeeds hh k c y H P Fy)].
      apply (walk_outer_rm_succeeds hh k c y H P); [rewrite plan_rm_flag; exact Fy|].
      intros o cc. rewrite Ec. specialize (C eq_refl o cc). cbn [lsum] in C. lia. }
    rewrite W. destruct (walk_outer_spec _ _ _ _ _ _ _ _ P W) as [P1 [_ S1]].
    destruct (IH H1 P1) as (H2 & E2 & P2 & C2).
    { intros; apply F; right; assumption. }
    { intros -> o cc. specialize (C eq_refl o cc). specialize (S1 o cc). cbn [lsum] in C. cbn beta iota in S1. rewrite Ec in S1. lia. }
    exists H2. split; [exact E2|]. split; [exact P2|]. intros o cc. specialize (S1 o cc). specialize (C2 o cc).
    rewrite Ec in S1. destruct rm; cbn [lsum]; lia.
Qed.
Lemma maint_run_ok hh k sw c removed added H : posH H ->
  (forall y, In y removed -> snd (plan hh k false c y) = false) ->
  (forall y, In y added -> snd (plan hh k false c y) = false) ->
  (forall o cc, lsum (fun y => pcount hh k c y o cc) removed <= cntH H o cc) ->
  exists H2, maint_run hh k sw c removed added H = (H2, None) /\ posH H2 /\
    forall o cc, cntH H2 o cc + lsum (fun y => pcount hh k c y o cc) removed
                 = cntH H o cc + lsum (fun y => pcount hh k c y o cc) added.
Proof.
  intros P Fr Fa C. unfold maint_run.
  destruct (maint_each_ok hh k true sw c removed H P Fr (fun _ => C)) as (H1 & E1 & P1 & C1). rewrite E1.
  destruct (maint_each_ok hh k false false c added H1 P1 Fa) as (H2 & E2 & P2 & C2); [discriminate|]. rewrite E2.
  exists H2. split; [reflexivity|]. split; [exact P2|]. intros o cc. specialize (C1 o cc). specialize (C2 o cc).
  cbn beta iota in C1, C2. lia.
Qed.

(* the maintainers of a notifier list, as (kind, graph, key) *)
Definition mg := (mkind * graph)%type.
Definition mg_eqb (a b : mg) : bool := mkind_eqb (fst a) (fst b) && graph_eqb (snd a) (snd b).
Definition mgk := (mg * key)%type.
Definition mgk_eqb (a b : mgk) : bool := mg_eqb (fst a) (fst b) && key_eqb (snd a) (snd b).
Lemma mgk_eqb_spec a b : mgk_eqb a b = true <-> a = b.
Proof.
  destruct a as [[m c] k], b as [[m' c'] k']. unfold mgk_eqb, mg_eqb. cbn [fst snd].
  rewrite !andb_true_iff, mkind_eqb_spec, graph_eqb_spec, key_eqb_spec.
  split; [intros [[-> ->] ->]; reflexivity|intros [= -> -> ->]; auto].
Qed.
Lemma mgk_eqb_matches m c k m' c' k' : mgk_eqb ((m', c'), k') ((m, c), k) = matches (AMaint m c k) (NMaint m' c' k').
Proof.
  apply eq_true_iff_eq. rewrite mgk_eqb_spec. cbn [matches].
  rewrite !andb_true_iff, mkind_eqb_spec, graph_eqb_spec, key_eqb_spec.
  split; [intros [= -> -> ->]; auto|intros [[-> ->] ->]; reflexivity].
Qed.
Lemma mgk_eqb_key mc k' m c k :
  b2n (mgk_eqb (mc, k') ((m, c), k)) = if key_eqb k' k then b2n (mg_eqb mc (m, c)) else 0.
Proof. unfold mgk_eqb. cbn [fst snd]. destruct (key_eqb k' k); [rewrite andb_true_r|rewrite andb_false_r]; reflexivity. Qed.

Section Found.
  (* [sel]: the maintainers a notifier loop runs *)
  Variable sel : mkind -> graph -> bool.
  Definition maints (ns : list notifier) : list mgk :=
    flat_map (fun n => match n with NMaint m c k => if sel m c then [((m, c), k)] else [] | _ => [] end) ns.
  Definition per_maint (Q : mgk -> nat) (n : notifier) : nat :=
    match n with NMaint m c k => if sel m c then Q ((m, c), k) else 0 | _ => 0 end.
  Lemma lsum_maints Q ns : lsum (per_maint Q) ns = lsum Q (maints ns).
  Proof.
    unfold maints. rewrite lsum_flat_map. apply lsum_ext. intros [k rc|m c k|i] _; try reflexivity.
    cbn [per_maint]. destruct (sel m c); cbn [lsum]; lia.
  Qed.
  Lemma cnt_maints m c k ns :
    cntA mgk_eqb ((m, c), k) (maints ns) = if sel m c then cnt (CK (AMaint m c k)) ns else 0.
  Proof.
    unfold cntA. rewrite <- lsum_maints. induction ns as [|n r IH]; [destruct (sel m c); reflexivity|].
    cbn [lsum cnt]. rewrite IH. destruct n as [k' rc|m' c' k'|i]; cbn [per_maint weight]; try (destruct (sel m c); reflexivity).
    rewrite mgk_eqb_matches. destruct (matches (AMaint m c k) (NMaint m' c' k')) eqn:Q.
    - apply matches_spec in Q. inversion Q; subst. destruct (sel m c); reflexivity.
    - destruct (sel m' c'), (sel m c); reflexivity.
  Qed.

  (* [pl g x]: the maintainers (kind, graph) a registration of g at x placed on the slot *)
  Variable pl : graph -> oid -> list mg.
  Definition planned (R : list reg) : list mgk :=
    flat_map (fun r : reg => let '(k, g, x) := r in map (fun mc => (mc, k)) (pl g x)) R.
  Lemma lsum_planned (Q : mgk -> nat) R :
    lsum Q (planned R) = lsum (fun r : reg => let '(k, g, x) := r in lsum (fun mc => Q (mc, k)) (pl g x)) R.
  Proof. unfold planned. rewrite lsum_flat_map. apply lsum_ext. intros [[k g] x] _. apply lsum_map. Qed.

  (* [pl] is, for every live registration, what its plan put on the slot sg *)
  Variables (h : heap) (sg : obsv) (R : list reg).
  Hypothesis On : forall k g x, In (k, g, x) R -> forall m c,
    cntA mg_eqb (m, c) (pl g x) = if sel m c then pcount h k g x sg (CK (AMaint m c k)) else 0.
  Lemma cnt_planned m c k :
    cntA mgk_eqb ((m, c), k) (planned R) = if sel m c then tot h R sg (CK (AMaint m c k)) else 0.
  Proof.
    unfold cntA. rewrite lsum_planned.
    rewrite (lsum_ext _ (fun r : reg => let '(k', g, x) := r in
                           if sel m c then pcount h k' g x sg (CK (AMaint m c k)) else 0) R).
    - destruct (sel m c); [reflexivity|]. apply lsum_zero. intros [[k' g] x] _. reflexivity.
    - intros [[k' g] x] Hr. rewrite (lsum_ext _ _ _ (fun mc _ => mgk_eqb_key mc k' m c k)).
      destruct (key_eqb k' k) eqn:Q.
      + apply key_eqb_spec in Q. subst k'. apply (On k g x Hr).
      + rewrite lsum_zero by reflexivity. rewrite pcount_other_key; [destruct (sel m c); reflexivity|].
        cbn [akey_key]. intros <-. rewrite key_eqb_refl in Q. discriminate.
  Qed.
  (* then under the invariant the maintainers found on sg are (as a multiset) the planned ones, and each comes
     from a live registration *)
  Lemma found_are_planned H : dinv h H R ->
    (forall Q : mgk -> nat, lsum Q (maints (H sg)) = lsum Q (planned R)) /\
    (forall m c k, In (NMaint m c k) (H sg) -> sel m c = true ->
       exists g x, In (k, g, x) R /\ In (m, c) (pl g x)).
  Proof.
    intros (P & Inv & F). split.
    - intros Q. apply (lsum_by_counts mgk_eqb mgk_eqb_spec). intros [[m c] k]. rewrite cnt_maints, cnt_planned.
      destruct (sel m c); [apply Inv|reflexivity].
    - intros m c k Hin S. pose proof (in_cnt_pos _ _ (P sg) Hin) as Pos. cbn [ckey_of] in Pos.
      assert (0 < cntA mgk_eqb ((m, c), k) (planned R)) as Pp by (rewrite cnt_planned, S, <- Inv; exact Pos).
      apply (cntA_pos_in mgk_eqb mgk_eqb_spec) in Pp. apply in_flat_map in Pp. destruct Pp as ([[k' g] x] & Hr & Hm).
      apply in_map_iff in Hm. destruct Hm as (mc & E & Hmc). inversion E; subst. exists g, x. split; assumption.
  Qed.
End Found.

(* the loop of a trait slot (t = true) runs the MNamed maintainers, that of a container the MItems ones *)
Definition runs (t : bool) (m : mkind) : bool :=
  match m, t with MNamed, true | MItems _, false => true | _, _ => false end.
(* what the running maintainers of a list hook on the objects ys *)
Definition mrem (t : bool) (hh : heap) (ys : list oid) (o : obsv) (cc : ckey) : notifier -> nat :=
  per_maint (fun m _ => runs t m) (fun p : mgk => lsum (fun y => pcount hh (snd p) (snd (fst p)) y o cc) ys).

Lemma run_slot_notifiers hh s t removed added : dead_handlers s = [] -> dead_objs s = [] ->
  forall ns H calls, posH H ->
  (forall m c k, In (NMaint m c k) ns -> runs t m = true ->
     (forall y, In y removed -> snd (plan hh k false c y) = false) /\
     (forall y, In y added -> snd (plan hh k false c y) = false)) ->
  (forall o cc, lsum (mrem t hh removed o cc) ns <= cntH H o cc) ->
  exists H' calls', run_notifiers hh s t ns removed added H calls = (H', calls', None) /\ posH H' /\
    forall o cc, cntH H' o cc + lsum (mrem t hh removed o cc) ns = cntH H o cc + lsum (mrem t hh added o cc) ns.
Proof.
  intros Dh Do. assert (forall k, alive s k = true) as Al by (intros k; unfold alive; rewrite Dh, Do; reflexivity).
  induction ns as [|n r IH]; intros H calls P F C; cbn [run_notifiers].
  - exists H, calls. split; [reflexivity|]. split; [exact P|]. intros; reflexivity.
  - assert (forall m c k, In (NMaint m c k) r -> runs t m = true ->
              (forall y, In y removed -> snd (plan hh k false c y) = false) /\
              (forall y, In y added -> snd (plan hh k false c y) = false)) as Fr
        by (intros m c k Hin; apply F; right; exact Hin).
    (* a notifier the loop passes over *)
    assert (forall calls0, (forall ys o cc, mrem t hh ys o cc n = 0) ->
              exists H' calls', run_notifiers hh s t r removed added H calls0 = (H', calls', None) /\ posH H' /\
                forall o cc, cntH H' o cc + lsum (mrem t hh removed o cc) (n :: r)
                             = cntH H o cc + lsum (mrem t hh added o cc) (n :: r)) as Skip.
    { intros calls0 Z. destruct (IH H calls0 P Fr) as (H' & calls' & E & P' & C').
      { intros o cc. specialize (C o cc). cbn [lsum] in C. lia. }
      exists H', calls'. split; [exact E|]. split; [exact P'|]. intros o cc. cbn [lsum]. rewrite !Z. apply C'. }
    (* a maintainer the loop runs (swallowing NotifierNotFound or not): its child graph moves, then the rest *)
    assert (forall sw m c k, n = NMaint m c k -> runs t m = true ->
              exists H' calls',
                (let '(H1, e) := maint_run hh k sw c removed added H in
                 match e with None => run_notifiers hh s t r removed added H1 calls | Some x => (H1, calls, Some x) end)
                = (H', calls', None) /\ posH H' /\
                forall o cc, cntH H' o cc + lsum (mrem t hh removed o cc) (n :: r)
                             = cntH H o cc + lsum (mrem t hh added o cc) (n :: r)) as Run.
    { intros sw m c k -> Rm. destruct (F m c k (or_introl eq_refl) Rm) as [Fo Fn].
      assert (forall ys o cc, mrem t hh ys o cc (NMaint m c k) = lsum (fun y => pcount hh k c y o cc) ys) as Em
          by (intros; cbn [mrem per_maint]; rewrite Rm; reflexivity).
      destruct (maint_run_ok hh k sw c removed added H P Fo Fn) as (H2 & E2 & P2 & C2).
      { intros o cc. specialize (C o cc). cbn [lsum] in C. rewrite Em in C. lia. }
      rewrite E2. destruct (IH H2 calls P2 Fr) as (H' & calls' & E & P' & C').
      { intros o cc. specialize (C o cc). specialize (C2 o cc). cbn [lsum] in C. rewrite Em in C. lia. }
      exists H', calls'. split; [exact E|]. split; [exact P'|]. intros o cc.
      specialize (C' o cc). specialize (C2 o cc). cbn [lsum]. rewrite !Em. lia. }
    destruct n as [k rc|m c k|i]; [apply Skip; reflexivity| |apply Skip; reflexivity].
    rewrite Al. destruct m as [|ck|], t; try (apply Skip; reflexivity).
    + apply (Run true _ _ _ eq_refl eq_refl).
    + apply (Run false _ _ _ eq_refl eq_refl).
Qed.

(* Two heaps h (before) and h' (after a mutation) on which a walk sees the same except at the nodes hitting one slot. *)
Section Walk.
  Variables h h' : heap.
  Variable hits : node -> oid -> bool.           (* the node, applied to the object, sees the mutated slot *)
  Variable xs : oid.                             (* the object that carries the slot *)
  (* [vis g x]: the walk of g from x reaches the slot on h.  Left abstract with its unfolding equation, which the
     reachability functions of the three mutations (visits, DynSlot.svisits, DynAdd.avisits) satisfy by computation *)
  Variable vis : graph -> oid -> bool.
  Hypothesis Hvis : forall n cs x,
    vis (G n cs) x = hits n x || existsb (fun c => existsb (fun y => vis c y) (nexts h n x)) cs.
  Hypothesis Hsame : forall n x, hits n x = false ->
    observables h' n x = observables h n x /\ objects h' n x = objects h n x.
  Hypothesis Hht : forall x, is_ht h' x = is_ht h x.
  Hypothesis Hxs : forall n x, hits n x = true -> x = xs.
  (* the slot is not reached again below a node that hits it *)
  Hypothesis Hbelow : forall n x c y, hits n x = true -> In y (nexts h n x) -> vis c y = false.

  Lemma vis_false n cs x : vis (G n cs) x = false ->
    hits n x = false /\ forall c y, In c cs -> In y (nexts h n x) -> vis c y = false.
  Proof.
    rewrite Hvis. intros V. apply orb_false_iff in V. destruct V as [Hh Vc]. split; [exact Hh|]. intros c y Hc Hy.
    destruct (vis c y) eqn:Vy; [|reflexivity]. rewrite <- Vc. symmetry.
    apply existsb_exists. exists c. split; [exact Hc|]. apply existsb_exists. exists y. split; assumption.
  Qed.
  Lemma vis_leaf y : (forall n, hits n y = false) -> (forall n, nexts h n y = []) -> forall g, vis g y = false.
  Proof. intros Hh Hn [n cs]. rewrite Hvis, Hh, Hn. cbn [orb]. induction cs; cbn; auto. Qed.
  Lemma nexts_same n x : hits n x = false -> nexts h' n x = nexts h n x.
  Proof. intros Hh. unfold nexts. rewrite (proj2 (Hsame n x Hh)). reflexivity. Qed.

  Lemma frame k rm g : forall x, vis g x = false -> plan h' k rm g x = plan h k rm g x.
  Proof.
    induction g as [n cs IH] using graph_ind'. intros x V. rewrite Forall_forall in IH.
    destruct (vis_false n cs x V) as [Hh Vc]. destruct (Hsame n x Hh) as [Eo Eb]. cbn [plan]. rewrite Eo, Eb, Hht.
    rewrite (pl_all_ext_in _ (fun c => match objects h n x with
                                       | Some ys => pl_all (fun y => plan h k rm c y) ys | None => p_fail end) cs);
      [reflexivity|].
    intros c Hc. destruct (objects h n x) as [ys|] eqn:O; [|reflexivity]. apply pl_all_ext_in. intros y Hy.
    apply (IH c Hc), (Vc c y Hc). unfold nexts. rewrite O. exact Hy.
  Qed.

  (* the hit occurrences of a walk: the sub-graphs whose root node, applied to xs, sees the slot *)
  Fixpoint occ (g : graph) (x : oid) {struct g} : list graph :=
    match g with
    | G n cs => (if hits n x then [G n cs] else []) ++ flat_map (fun c => flat_map (fun y => occ c y) (nexts h n x)) cs
    end.
  Lemma occ_nil g : forall x, vis g x = false -> occ g x = [].
  Proof.
    induction g as [n cs IH] using graph_ind'. intros x V. rewrite Forall_forall in IH.
    destruct (vis_false n cs x V) as [Hh Vc]. cbn [occ]. rewrite Hh. cbn [app].
    apply flat_map_nil. intros c Hc. apply flat_map_nil. intros y Hy. apply (IH c Hc), (Vc c y Hc Hy).
  Qed.
  Lemma occ_hit n cs x : hits n x = true -> occ (G n cs) x = [G n cs].
  Proof.
    intros Hh. cbn [occ]. rewrite Hh. cbn [app]. f_equal.
    apply flat_map_nil. intros c _. apply flat_map_nil. intros y Hy. apply occ_nil, (Hbelow n x c y Hh Hy).
  Qed.
  Lemma occ_root g : forall x g', In g' (occ g x) -> exists n cs, g' = G n cs /\ hits n xs = true.
  Proof.
    induction g as [n cs IH] using graph_ind'. intros x g' Hin. rewrite Forall_forall in IH. cbn [occ] in Hin.
    apply in_app_or in Hin. destruct Hin as [Hin|Hin].
    - destruct (hits n x) eqn:Hh; [|destruct Hin]. destruct Hin as [<-|[]]. rewrite <- (Hxs n x Hh). eauto.
    - apply in_flat_map in Hin. destruct Hin as (c & Hc & Hin). apply in_flat_map in Hin. destruct Hin as (y & _ & Hin).
      apply (IH c Hc y g' Hin).
  Qed.

  (* the walks on the two heaps differ exactly at the hit occurrences *)
  Lemma decomp k o c g : forall x,
    snd (plan h k false g x) = false -> snd (plan h' k false g x) = false ->
    pcount h' k g x o c + lsum (fun g' => pcount h k g' xs o c) (occ g x)
    = pcount h k g x o c + lsum (fun g' => pcount h' k g' xs o c) (occ g x).
  Proof.
    induction g as [n cs IH] using graph_ind'. intros x F F'. rewrite Forall_forall in IH.
    destruct (hits n x) eqn:Hh.
    - rewrite (occ_hit n cs x Hh), (Hxs n x Hh). cbn [lsum]. lia.
    - rewrite (plan_cnt h' k n cs x o c F'), (plan_cnt h k n cs x o c F), (nexts_same n x Hh).
      rewrite (loc_ext h h' k n cs x o c (proj1 (Hsame n x Hh)) (Hht x)).
      cbn [occ]. rewrite Hh. cbn [app]. rewrite !lsum_flat_map.
      assert (lsum (fun ch => lsum (fun y => pcount h' k ch y o c) (nexts h n x)) cs
              + lsum (fun a => lsum (fun g' => pcount h k g' xs o c) (flat_map (fun y => occ a y) (nexts h n x))) cs
              = lsum (fun ch => lsum (fun y => pcount h k ch y o c) (nexts h n x)) cs
                + lsum (fun a => lsum (fun g' => pcount h' k g' xs o c) (flat_map (fun y => occ a y) (nexts h n x))) cs) as E.
      { rewrite <- !lsum_plus. apply lsum_ext. intros ch Hch. rewrite !lsum_flat_map, <- !lsum_plus.
        apply lsum_ext. intros y Hy. apply (IH ch Hch y).
        - apply (plan_sub_flag h k n cs x F ch y Hch Hy).
        - apply (plan_sub_flag h' k n cs x F' ch y Hch). rewrite (nexts_same n x Hh). exact Hy. }
      lia.
  Qed.

  Lemma occ_flags hh k (Hn : forall n x, hits n x = false -> nexts hh n x = nexts h n x) g : forall x,
    snd (plan hh k false g x) = false -> forall g', In g' (occ g x) -> snd (plan hh k false g' xs) = false.
  Proof.
    induction g as [n cs IH] using graph_ind'. intros x F g' Hin. rewrite Forall_forall in IH.
    destruct (hits n x) eqn:Hh.
    - rewrite (occ_hit n cs x Hh) in Hin. destruct Hin as [<-|[]]. rewrite <- (Hxs n x Hh). exact F.
    - cbn [occ] in Hin. rewrite Hh in Hin. cbn [app] in Hin.
      apply in_flat_map in Hin. destruct Hin as (c & Hc & Hin). apply in_flat_map in Hin. destruct Hin as (y & Hy & Hin).
      apply (IH c Hc y); [|exact Hin]. apply (plan_sub_flag hh k n cs x F c y Hc). rewrite (Hn n x Hh). exact Hy.
  Qed.
  Lemma occ_included k o c g : forall x, snd (plan h k false g x) = false ->
    lsum (fun g' => pcount h k g' xs o c) (occ g x) <= pcount h k g x o c.
  Proof.
    induction g as [n cs IH] using graph_ind'. intros x F. rewrite Forall_forall in IH.
    destruct (hits n x) eqn:Hh.
    - rewrite (occ_hit n cs x Hh), (Hxs n x Hh). cbn [lsum]. lia.
    - rewrite (plan_cnt h k n cs x o c F). cbn [occ]. rewrite Hh. cbn [app]. rewrite lsum_flat_map.
      assert (lsum (fun a => lsum (fun g' => pcount h k g' xs o c) (flat_map (fun y => occ a y) (nexts h n x))) cs
              <= lsum (fun ch => lsum (fun y => pcount h k ch y o c) (nexts h n x)) cs) as L.
      { apply lsum_le. intros ch Hch. rewrite lsum_flat_map. apply lsum_le. intros y Hy.
        apply (IH ch Hch y). apply (plan_sub_flag h k n cs x F ch y Hch Hy). }
      lia.
  Qed.

  (* the maintainers of the kinds and graphs [sel] that a walk places on the slot sg are those of its hit
     occurrences, [mine g'] for each, if that is so for every single node *)
  Section OnSlot.
    Variable sg : obsv.
    Variable sel : mkind -> graph -> bool.
    Variable mine : graph -> list mg.
    Hypothesis Hloc : forall k n cs x m c, sel m c = true -> snd (plan h k false (G n cs) x) = false ->
      loc h k (G n cs) x sg (CK (AMaint m c k)) = if hits n x then cntA mg_eqb (m, c) (mine (G n cs)) else 0.
    Definition placed (g : graph) (x : oid) : list mg := flat_map mine (occ g x).
    Lemma on_slot k m c g : sel m c = true -> forall x, snd (plan h k false g x) = false ->
      pcount h k g x sg (CK (AMaint m c k)) = cntA mg_eqb (m, c) (placed g x).
    Proof.
      intros S. unfold placed, cntA. induction g as [n cs IH] using graph_ind'. intros x F. rewrite Forall_forall in IH.
      rewrite (plan_cnt h k n cs x _ _ F), (Hloc k n cs x m c S F). cbn [occ].
      rewrite flat_map_app, lsum_app. f_equal.
      - destruct (hits n x); cbn [flat_map]; [rewrite app_nil_r|]; reflexivity.
      - rewrite !lsum_flat_map. apply lsum_ext. intros ch Hch. rewrite !lsum_flat_map. apply lsum_ext. intros y Hy.
        rewrite <- lsum_flat_map. apply (IH ch Hch y), (plan_sub_flag h k n cs x F ch y Hch Hy).
    Qed.
  End OnSlot.

  (* A slot whose hit nodes see [olds] on h and [news] on h', the same observables on both, and whose maintainers
     are told [removed] and [added] with old = removed + kept, new = added + kept (for a link: everything removed,
     everything added). *)
  Section Slot.
    Variable sg : obsv.
    Variable t : bool.                             (* sg is a trait (else a container's items) *)
    Variables olds news removed added rest : list oid.
    Hypothesis Hobs : forall n x, hits n x = true -> observables h' n x = observables h n x.
    Hypothesis Hnew : forall n x, hits n x = true -> objects h' n x = Some news.
    Hypothesis Hold : forall n x, hits n x = true -> objects h n x = Some olds.
    (* a node that hits the slot hooks exactly the slot, with maintainers the slot's loop runs; no other node
       places such maintainers there *)
    Hypothesis Hslot : forall n x, match observables h n x with
                                   | Some os => if hits n x then os = [sg] /\ runs t (node_mk n) = true
                                                else In sg os -> runs t (node_mk n) = false
                                   | None => hits n x = false
                                   end.
    Hypothesis Pold : Permutation olds (removed ++ rest).
    Hypothesis Pnew : Permutation news (added ++ rest).

    (* the maintainers (kind, child graph) of a hit occurrence *)
    Definition kids (g' : graph) : list mg := match g' with G n cs => map (pair (node_mk n)) cs end.

    Lemma hit_new k n cs o c : hits n xs = true -> snd (plan h' k false (G n cs) xs) = false ->
      pcount h' k (G n cs) xs o c
      = loc h k (G n cs) xs o c + lsum (fun ch => lsum (fun y => pcount h' k ch y o c) news) cs.
    Proof.
      intros Hh F. rewrite (plan_cnt h' k n cs xs o c F), (loc_ext h h' k n cs xs o c (Hobs n xs Hh) (Hht xs)).
      unfold nexts. rewrite (Hnew n xs Hh). reflexivity.
    Qed.
    Lemma hit_old k n cs o c : hits n xs = true -> snd (plan h k false (G n cs) xs) = false ->
      pcount h k (G n cs) xs o c
      = loc h k (G n cs) xs o c + lsum (fun ch => lsum (fun y => pcount h' k ch y o c) olds) cs.
    Proof.
      intros Hh F. rewrite (plan_cnt h k n cs xs o c F). f_equal. pose proof (Hbelow n xs) as B.
      unfold nexts in *. rewrite (Hold n xs Hh) in *.
      apply lsum_ext. intros ch _. apply lsum_ext. intros y Hy. unfold pcount. rewrite (frame k false ch y (B ch y Hh Hy)).
      reflexivity.
    Qed.
    Lemma kids_sum (Q : graph -> nat) n cs : lsum (fun mc : mg => Q (snd mc)) (kids (G n cs)) = lsum Q cs.
    Proof. cbn [kids]. rewrite lsum_map. reflexivity. Qed.

    (* the substitution theorem: re-hooking the child graphs of the maintainers placed on the slot from the removed
       to the added objects turns the plan on the old heap into the plan on the new heap *)
    Lemma slot_subst k o c g x :
      snd (plan h k false g x) = false -> snd (plan h' k false g x) = false ->
      pcount h' k g x o c + lsum (fun mc : mg => lsum (fun y => pcount h' k (snd mc) y o c) removed) (placed kids g x)
      = pcount h k g x o c + lsum (fun mc : mg => lsum (fun y => pcount h' k (snd mc) y o c) added) (placed kids g x).
    Proof.
      intros F F'. pose proof (decomp k o c g x F F') as D. unfold placed. rewrite !lsum_flat_map.
      assert (forall g', In g' (occ g x) ->
                pcount h' k g' xs o c + lsum (fun mc : mg => lsum (fun y => pcount h' k (snd mc) y o c) removed) (kids g')
                = pcount h k g' xs o c + lsum (fun mc : mg => lsum (fun y => pcount h' k (snd mc) y o c) added) (kids g')) as E.
      { intros g' Hin. destruct (occ_root g x g' Hin) as (n & cs & -> & Hh).
        rewrite (hit_new k n cs o c Hh (occ_flags h' k nexts_same g x F' _ Hin)).
        rewrite (hit_old k n cs o c Hh (occ_flags h k (fun _ _ _ => eq_refl) g x F _ Hin)).
        rewrite (kids_sum (fun ch => lsum (fun y => pcount h' k ch y o c) removed)),
                (kids_sum (fun ch => lsum (fun y => pcount h' k ch y o c) added)).
        rewrite (lsum_split (fun ch y => pcount h' k ch y o c) _ _ _ cs Pnew),
                (lsum_split (fun ch y => pcount h' k ch y o c) _ _ _ cs Pold). lia. }
      apply lsum_ext in E. rewrite !lsum_plus in E. lia.
    Qed.
    Lemma slot_included k o c g x : snd (plan h k false g x) = false ->
      lsum (fun mc : mg => lsum (fun y => pcount h' k (snd mc) y o c) removed) (placed kids g x) <= pcount h k g x o c.
    Proof.
      intros F. eapply Nat.le_trans; [|apply (occ_included k o c g x F)]. unfold placed. rewrite lsum_flat_map.
      apply lsum_le. intros g' Hin. destruct (occ_root g x g' Hin) as (n & cs & -> & Hh).
      rewrite (hit_old k n cs o c Hh (occ_flags h k (fun _ _ _ => eq_refl) g x F _ Hin)).
      rewrite (kids_sum (fun ch => lsum (fun y => pcount h' k ch y o c) removed)),
              (lsum_split (fun ch y => pcount h' k ch y o c) _ _ _ cs Pold). lia.
    Qed.
    Lemma slot_flags k g x mc y : In mc (placed kids g x) ->
      (snd (plan h k false g x) = false -> In y removed -> snd (plan h' k false (snd mc) y) = false) /\
      (snd (plan h' k false g x) = false -> In y added -> snd (plan h' k false (snd mc) y) = false).
    Proof.
      intros Hmc. apply in_flat_map in Hmc. destruct Hmc as (g' & Hin & Hmc).
      destruct (occ_root g x g' Hin) as (n & cs & -> & Hh). apply in_map_iff in Hmc. destruct Hmc as (ch & <- & Hch).
      cbn [snd]. split; intros F Hy.
      - assert (In y (nexts h n xs)) as Hy'.
        { unfold nexts. rewrite (Hold n xs Hh). apply (Permutation_in _ (Permutation_sym Pold)), in_or_app. left. exact Hy. }
        rewrite (frame k false ch y (Hbelow n xs ch y Hh Hy')).
        apply (plan_sub_flag h k n cs xs (occ_flags h k (fun _ _ _ => eq_refl) g x F _ Hin) ch y Hch Hy').
      - apply (plan_sub_flag h' k n cs xs (occ_flags h' k nexts_same g x F _ Hin) ch y Hch).
        unfold nexts. rewrite (Hnew n xs Hh). apply (Permutation_in _ (Permutation_sym Pnew)), in_or_app. left. exact Hy.
    Qed.

    Lemma slot_loc k n cs x m c : runs t m = true ->
      loc h k (G n cs) x sg (CK (AMaint m c k)) = if hits n x then cntA mg_eqb (m, c) (kids (G n cs)) else 0.
    Proof.
      intros Rm. unfold loc. rewrite loc1_maint, loc4_not_ta by (intros ->; destruct t; discriminate Rm).
      rewrite Nat.add_0_l, Nat.add_0_r. unfold loc2. pose proof (Hslot n x) as Hs.
      destruct (observables h n x) as [os|]; [|rewrite Hs; reflexivity]. destruct (hits n x).
      - destruct Hs as [-> _]. cbn [p_ok fst flat_map]. rewrite app_nil_r, ecnt_map_maint, obsv_eqb_refl. cbn [andb].
        unfold cntA. cbn [kids]. rewrite lsum_map. unfold mg_eqb. cbn [fst snd]. destruct (mkind_eqb (node_mk n) m); [reflexivity|]. symmetry. apply lsum_zero. reflexivity.
      - apply ecnt_zero. intros e He Ee Ek. apply in_flat_map in He. destruct He as (o' & Ho' & He).
        apply in_map_iff in He. destruct He as (ch & <- & _). cbn [fst snd] in *. subst o'. inversion Ek; subst m.
        rewrite (Hs Ho') in Rm. discriminate.
    Qed.

    (* ONE MUTATION of the slot: its notifier loop turns "planned on the old heap" into "planned on the new heap",
       and none of its maintainers raises *)
    Theorem slot_step R H s : dinv h H R -> flags_ok h' R -> dead_handlers s = [] -> dead_objs s = [] ->
      exists H' calls, run_notifiers h' s t (H sg) removed added H [] = (H', calls, None) /\ dinv h' H' R.
    Proof.
      intros I F' Dh Do. pose proof I as (P & Inv & F).
      destruct (fun On => found_are_planned (fun m _ => runs t m) (placed kids) h sg R On H I) as [Sum Src].
      { intros k g x Hr m c. destruct (runs t m) eqn:Rm.
        - symmetry. apply (on_slot sg (fun m _ => runs t m) kids); [|exact Rm|exact (F k g x Hr)].
          intros k0 n cs x1 m0 c1 Rm0 _. apply slot_loc, Rm0.
        - apply lsum_zero. intros mc Hmc. apply in_flat_map in Hmc. destruct Hmc as (g' & Hin & Hmc).
          destruct (occ_root g x g' Hin) as (n & cs & -> & Hh). apply in_map_iff in Hmc. destruct Hmc as (ch & <- & _).
          pose proof (Hslot n xs) as Hs. rewrite Hh in Hs. destruct (observables h n xs); [|discriminate Hs].
          unfold mg_eqb. cbn [fst snd]. destruct (mkind_eqb (node_mk n) m) eqn:Q; [|reflexivity].
          apply mkind_eqb_spec in Q. subst m. rewrite (proj2 Hs) in Rm. discriminate. }
      assert (forall ys o cc, lsum (mrem t h' ys o cc) (H sg)
                = lsum (fun r : reg => let '(k, g, x) := r in
                          lsum (fun mc : mg => lsum (fun y => pcount h' k (snd mc) y o cc) ys) (placed kids g x)) R) as Sm.
      { intros ys o cc. unfold mrem. rewrite lsum_maints, Sum, lsum_planned. reflexivity. }
      destruct (run_slot_notifiers h' s t removed added Dh Do (H sg) H [] P) as (H' & calls & E & P' & C).
      { intros m c k Hin Rm. destruct (Src m c k Hin Rm) as (g & x & Hr & Hc). split; intros y Hy.
        - apply (proj1 (slot_flags k g x (m, c) y Hc) (F k g x Hr) Hy).
        - apply (proj2 (slot_flags k g x (m, c) y Hc) (F' k g x Hr) Hy). }
      { intros o cc. rewrite Sm. destruct cc as [a|i].
        - rewrite Inv. apply lsum_le. intros [[k g] x] Hr. apply slot_included, (F k g x Hr).
        - rewrite lsum_zero; [lia|]. intros [[k g] x] _. apply lsum_zero. intros mc _. apply lsum_zero. intros y _.
          apply pcount_foreign. }
      exists H', calls. split; [exact E|]. split; [exact P'|]. split; [|exact F'].
      intros o a. specialize (C o (CK a)). rewrite !Sm, Inv in C.
      enough (tot h' R o (CK a) + lsum (fun r : reg => let '(k, g, x) := r in
                lsum (fun mc : mg => lsum (fun y => pcount h' k (snd mc) y o (CK a)) removed) (placed kids g x)) R
              = tot h R o (CK a) + lsum (fun r : reg => let '(k, g, x) := r in
                  lsum (fun mc : mg => lsum (fun y => pcount h' k (snd mc) y o (CK a)) added) (placed kids g x)) R) by lia.
      unfold tot. rewrite <- !lsum_plus. apply lsum_ext. intros [[k g] x] Hr.
      apply (slot_subst k o (CK a) g x (F k g x Hr) (F' k g x Hr)).
    Qed.
  End Slot.
End Walk.

(* An Instance-link reassignment x0.f0 := news is a mutation of the trait slot (x0, f0) with everything old removed
   and everything new added. *)
Section Link.
  Variable h : heap.
  Variable x0 : oid.
  Variable f0 : fname.
  Variable news : list oid.
  Let h' := set_links h x0 f0 news.
  Let olds := links h x0 f0.

  (* the node hooks the reassigned slot *)
  Definition hits (n : node) (x : oid) : bool :=
    match n with
    | NNamed f _ _ => has_trait h x f && (Nat.eqb x x0 && Nat.eqb f f0)
    | NItems _ _ _ => false
    end.
  (* the walk of g from x reaches the slot *)
  Fixpoint visits (g : graph) (x : oid) {struct g} : bool :=
    match g with
    | G n cs => hits n x || existsb (fun c => existsb (fun y => visits c y) (nexts h n x)) cs
    end.

  Lemma objects_new n x : objects h' n x = if hits n x then Some news else objects h n x.
  Proof.
    destruct n as [f nt opt|ck nt opt]; cbn [objects hits]; [|reflexivity].
    unfold h'. cbn [has_trait links set_links]. destruct (has_trait h x f); cbn [andb]; [|reflexivity].
    destruct (Nat.eqb x x0 && Nat.eqb f f0); reflexivity.
  Qed.
  Lemma hits_slot n x : hits n x = true -> exists nt opt, n = NNamed f0 nt opt /\ x = x0 /\ has_trait h x0 f0 = true.
  Proof.
    destruct n as [f nt opt|ck nt opt]; cbn [hits]; [|discriminate]. intros H.
    apply andb_true_iff in H. destruct H as [T Q]. apply andb_true_iff in Q. destruct Q as [Qx Qf].
    apply Nat.eqb_eq in Qx. apply Nat.eqb_eq in Qf. subst. eauto.
  Qed.
  Lemma objects_old n x : hits n x = true -> objects h n x = Some olds.
  Proof. intros H. destruct (hits_slot n x H) as (nt & opt & -> & -> & T). cbn [objects]. rewrite T. reflexivity. Qed.

  (* acyclicity of the reassignment: the slot is reached neither from its old nor from its new value -- by the walk
     of ANY graph, i.e. a condition on the heap alone; C08's edge_acyclic asks it only of the residual graphs the live
     registrations placed on the slot, and is therefore weaker (admits more reassignments) *)
  Definition acyclic : Prop := forall ch y, In y olds \/ In y news -> visits ch y = false.

  Theorem link_step (A : acyclic) R H s : dinv h H R -> flags_ok h' R ->
    dead_handlers s = [] -> dead_objs s = [] ->
    exists H' calls, run_notifiers h' s true (H (x0, f0)) olds news H [] = (H', calls, None) /\ dinv h' H' R.
  Proof.
    apply (slot_step h h' hits x0 visits) with (olds := olds) (news := news) (rest := []).
    - reflexivity.
    - intros n x Hh. split; [reflexivity|]. rewrite objects_new, Hh. reflexivity.
    - reflexivity.
    - intros n x Hh. destruct (hits_slot n x Hh) as (_ & _ & _ & -> & _). reflexivity.
    - intros n x c y Hh Hy. apply A. left. unfold nexts in Hy. rewrite (objects_old n x Hh) in Hy. exact Hy.
    - reflexivity.
    - intros n x Hh. rewrite objects_new, Hh. reflexivity.
    - exact objects_old.
    - intros n x. destruct (hits n x) eqn:Hh.
      + destruct (hits_slot n x Hh) as (nt & opt & -> & -> & T). cbn [observables]. rewrite T. split; reflexivity.
      + destruct n as [f nt opt|ck nt opt]; cbn [observables]; [|destruct (is_cont h x ck); [reflexivity|destruct opt; [intros []|reflexivity]]].
        cbn [hits] in Hh. destruct (has_trait h x f); [|destruct opt; [intros []|reflexivity]].
        intros [E|[]]. inversion E; subst. rewrite !Nat.eqb_refl in Hh. discriminate.
    - rewrite app_nil_r. reflexivity.
    - rewrite app_nil_r. reflexivity.
  Qed.
End Link.

Lemma register_step h H R x hd dp g s s' ob : dinv h H R -> st_hooks s = H ->
  step h s (Register x hd dp [g]) = (s', ob) ->
  dinv h (st_hooks s') (if is_none (o_out ob) then ((hd, x, dp), g, x) :: R else R).
Proof.
  intros (P & Inv & F) <- S. destruct (step_spec _ _ _ _ _ P S) as [P' Q]. cbn beta iota in Q.
  destruct (register_outcome _ _ _ _ _ _ _ _ P S) as [RO _].
  destruct (o_out ob) as [y|] eqn:E; cbn [is_none].
  - destruct Q as [Q _]. split; [exact P'|]. split; [|exact F]. intros o a. rewrite (Q o (CK a)). apply Inv.
  - split; [exact P'|]. split.
    + intros o a. specialize (Q o (CK a)). cbn beta iota in Q. cbn [gsum] in Q. unfold tot. cbn [lsum].
      rewrite Q, Inv. unfold tot, pcount, pcnt. lia.
    + intros k' g' x' [Eq|Hin]; [inversion Eq; subst; apply (proj1 RO eq_refl); left; reflexivity|apply (F _ _ _ Hin)].
Qed.

Lemma dinv_empty h : dinv h (fun _ => []) [].
Proof. split; [intros o; reflexivity|split; [intros; reflexivity|intros ? ? ? []]]. Qed.
Lemma register_first h x hd dp g :
  let r := step h (mkState (fun _ => []) [] []) (Register x hd dp [g]) in
  o_out (snd r) = None -> dinv h (st_hooks (fst r)) [((hd, x, dp), g, x)].
Proof.
  intros r Ok. pose proof (register_step h _ [] x hd dp g (mkState (fun _ => []) [] []) (fst r) (snd r) (dinv_empty h) eq_refl) as Rs.
  rewrite Ok in Rs. apply Rs, surjective_pairing.
Qed.

Definition reg_eqb (a b : reg) : bool :=
  let '(k, g, x) := a in let '(k', g', x') := b in key_eqb k k' && graph_eqb g g' && Nat.eqb x x'.
Fixpoint remove_reg (r : reg) (R : list reg) : list reg :=
  match R with [] => [] | a :: R' => if reg_eqb r a then R' else a :: remove_reg r R' end.
Lemma reg_eqb_spec a b : reg_eqb a b = true <-> a = b.
Proof.
  destruct a as [[k g] x], b as [[k' g'] x']. cbn. rewrite !andb_true_iff, key_eqb_spec, graph_eqb_spec, Nat.eqb_eq.
  split; [intros [[-> ->] ->]; reflexivity|intros [= -> -> ->]; auto].
Qed.
Lemma tot_remove h r R o c : In r R ->
  tot h R o c = (let '(k, g, x) := r in pcount h k g x o c) + tot h (remove_reg r R) o c.
Proof.
  induction R as [|a R IH]; intros Hin; [destruct Hin|]. cbn [remove_reg]. destruct (reg_eqb r a) eqn:Q.
  - apply reg_eqb_spec in Q. subst. reflexivity.
  - destruct Hin as [->|Hin]; [rewrite (proj2 (reg_eqb_spec r r) eq_refl) in Q; discriminate|].
    unfold tot in *. cbn [lsum]. rewrite (IH Hin). lia.
Qed.
Lemma in_remove_reg r a R : In a (remove_reg r R) -> In a R.
Proof.
  induction R as [|b R IH]; [intros []|]. cbn [remove_reg]. destruct (reg_eqb r b); [right; assumption|].
  intros [->|H]; [left; reflexivity|right; apply IH, H].
Qed.

Lemma unregister_step h H R x hd dp g s s' ob : dinv h H R -> st_hooks s = H ->
  In ((hd, x, dp), g, x) R ->
  step h s (Unregister x hd dp [g]) = (s', ob) ->
  o_out ob = None /\ dinv h (st_hooks s') (remove_reg ((hd, x, dp), g, x) R).
Proof.
  intros (P & Inv & F) <- Hin S. set (k := (hd, x, dp)) in *.
  assert (snd (plan h k false g x) = false) as Fg by (apply (F k g x Hin)).
  destruct (walk_outer_rm_succeeds h k g x (st_hooks s) P) as [H1 W].
  { rewrite plan_rm_flag. exact Fg. }
  { intros o c. rewrite (plan_rm_cnt _ _ _ _ _ _ Fg). destruct c as [a|i].
    - rewrite Inv, (tot_remove h (k, g, x) R o (CK a) Hin). unfold pcount, pcnt. lia.
    - unfold pcnt. rewrite plan_no_foreign. lia. }
  cbn [step] in S. unfold apply_observers in S. cbn [apply_loop] in S. fold k in S. rewrite W in S.
  inversion S; subst s' ob. cbn [o_out st_hooks]. split; [reflexivity|].
  destruct (walk_outer_spec _ _ _ _ _ _ _ _ P W) as [P1 [_ S1]]. split; [exact P1|]. split.
  - intros o a. specialize (S1 o (CK a)). cbn beta iota in S1. rewrite (plan_rm_cnt _ _ _ _ _ _ Fg) in S1.
    rewrite Inv, (tot_remove h (k, g, x) R o (CK a) Hin) in S1. unfold pcount, pcnt in *. lia.
  - intros k' g' x' Hr. apply (F k' g' x'). apply (in_remove_reg _ _ _ Hr).
Qed.

Definition no_dead (d : dstate) : Prop := dead_handlers (d_st d) = [] /\ dead_objs (d_st d) = [].
Definition dstate_inv (d : dstate) (R : list reg) : Prop :=
  dinv (d_heap d) (st_hooks (d_st d)) R /\ no_dead d.

(* Histories over any type C of operations, each with its dop, the live registrations it leaves and its side
   condition.  [crun] / [admissible_run] below, DynSlot.crun2 and DynAdd.crun3 are the same fixpoints written out for
   their operation types, hence convertible with [grun] / [gadm] there: that is how the lemmas of this section are
   applied to them.  If every admissible step keeps the invariant, so does every admissible history. *)
Section Hist.
  Variable C : Type.
  Variable dopof : C -> dop.
  Variable live : list reg -> C -> obs -> list reg.
  Variable adm : heap -> list reg -> C -> Prop.
  Variable quiet : C -> obs -> Prop.
  Fixpoint grun (d : dstate) (R : list reg) (ops : list C) : dstate * list reg * list (C * obs) :=
    match ops with
    | [] => (d, R, [])
    | c :: r => let '(d1, ob) := dstep d (dopof c) in
                let '(d2, R2, tr) := grun d1 (live R c ob) r in (d2, R2, (c, ob) :: tr)
    end.
  Fixpoint gadm (d : dstate) (R : list reg) (ops : list C) : Prop :=
    match ops with
    | [] => True
    | c :: r => adm (d_heap d) R c /\ gadm (fst (dstep d (dopof c))) (live R c (snd (dstep d (dopof c)))) r
    end.
  Hypothesis Hstep : forall d R c d1 ob, dstate_inv d R -> adm (d_heap d) R c -> dstep d (dopof c) = (d1, ob) ->
    dstate_inv d1 (live R c ob) /\ quiet c ob.
  Lemma grun_inv : forall ops d R d' R' tr, dstate_inv d R -> gadm d R ops -> grun d R ops = (d', R', tr) ->
    dstate_inv d' R' /\ forall c ob, In (c, ob) tr -> quiet c ob.
  Proof.
    induction ops as [|c ops IH]; intros d R d' R' tr I Ad Cr; cbn [grun] in Cr.
    - inversion Cr; subst. split; [exact I|intros ? ? []].
    - destruct Ad as [Ad1 Ad2]. destruct (dstep d (dopof c)) as [d1 ob] eqn:S. cbn [fst snd] in Ad2.
      destruct (grun d1 (live R c ob) ops) as [[d2 R2] tr2] eqn:Cr2. inversion Cr; subst.
      destruct (Hstep d R c d1 ob I Ad1 S) as [I1 O1]. destruct (IH _ _ _ _ _ I1 Ad2 Cr2) as [I2 O2].
      split; [exact I2|]. intros c' ob' [E|Hin]; [inversion E; subst; exact O1|apply (O2 _ _ Hin)].
  Qed.
  Lemma grun_wf : forall ops d R d' R' tr, wfH (st_hooks (d_st d)) -> grun d R ops = (d', R', tr) ->
    wfH (st_hooks (d_st d')).
  Proof.
    induction ops as [|c ops IH]; intros d R d' R' tr W Cr; cbn [grun] in Cr.
    - inversion Cr; subst. exact W.
    - destruct (dstep d (dopof c)) as [d1 ob] eqn:S.
      destruct (grun d1 (live R c ob) ops) as [[d2 R2] tr2] eqn:Cr2. inversion Cr; subst.
      apply (IH _ _ _ _ _ (dstep_wf _ _ _ _ W S) Cr2).
  Qed.
End Hist.

Inductive cop :=
| CReg (x : oid) (hd dp : nat) (g : graph)
| CUnreg (x : oid) (hd dp : nat) (g : graph)
| CChange (o : oid) (f : fname)
| CLink (x0 : oid) (f0 : fname) (news : list oid).
Definition dop_of (c : cop) : dop :=
  match c with
  | CReg x hd dp g => DStatic (Register x hd dp [g])
  | CUnreg x hd dp g => DStatic (Unregister x hd dp [g])
  | CChange o f => DStatic (Change o f)
  | CLink x0 f0 v => DSetLink x0 f0 v
  end.
Definition live_after (R : list reg) (c : cop) (ob : obs) : list reg :=
  match c with
  | CReg x hd dp g => if is_none (o_out ob) then ((hd, x, dp), g, x) :: R else R
  | CUnreg x hd dp g => if is_none (o_out ob) then remove_reg ((hd, x, dp), g, x) R else R
  | _ => R
  end.
(* side conditions: removals concern live registrations (removing a sub-expression of another registration
   is outside the statement, DESIGN 6a); a reassigned slot is reachable neither from its old nor from its new
   value; the live registrations stay structurally valid on the new heap (else the maintainers raise) *)
Definition admissible (h : heap) (R : list reg) (c : cop) : Prop :=
  match c with
  | CUnreg x hd dp g => In ((hd, x, dp), g, x) R
  | CLink x0 f0 v => acyclic h x0 f0 v /\ flags_ok (set_links h x0 f0 v) R
  | _ => True
  end.
Fixpoint crun (d : dstate) (R : list reg) (ops : list cop) : dstate * list reg * list (cop * obs) :=
  match ops with
  | [] => (d, R, [])
  | c :: r => let '(d1, ob) := dstep d (dop_of c) in
              let '(d2, R2, tr) := crun d1 (live_after R c ob) r in (d2, R2, (c, ob) :: tr)
  end.
Fixpoint admissible_run (d : dstate) (R : list reg) (ops : list cop) : Prop :=
  match ops with
  | [] => True
  | c :: r => admissible (d_heap d) R c /\
              admissible_run (fst (dstep d (dop_of c))) (live_after R c (snd (dstep d (dop_of c)))) r
  end.

Lemma step_reg_frame h s o s' ob : step h s o = (s', ob) ->
  match o with
  | Register _ _ _ _ | Unregister _ _ _ _ =>
      o_calls ob = [] /\ dead_handlers s' = dead_handlers s /\ dead_objs s' = dead_objs s
  | _ => True
  end.
Proof.
  destruct o; try exact (fun _ => I); cbn [step]; destruct (apply_observers _ _ _ _ _ _); intros [= <- <-]; auto.
Qed.

Lemma cstep d R c d1 ob : dstate_inv d R -> admissible (d_heap d) R c -> dstep d (dop_of c) = (d1, ob) ->
  dstate_inv d1 (live_after R c ob) /\
  match c with CUnreg _ _ _ _ | CLink _ _ _ => o_out ob = None | _ => True end.
Proof.
  intros [I [Dh Do]] Ad S. destruct c as [x hd dp g|x hd dp g|o f|x0 f0 v]; cbn [dop_of dstep live_after] in *.
  - destruct (step (d_heap d) (d_st d) (Register x hd dp [g])) as [s' ob'] eqn:St. inversion S; subst d1 ob.
    split; [|exact Logic.I]. split; [apply (register_step _ _ _ _ _ _ _ _ _ _ I eq_refl St)|].
    destruct (step_reg_frame _ _ _ _ _ St) as (_ & Eh & Eo). split; cbn [d_st]; congruence.
  - destruct (step (d_heap d) (d_st d) (Unregister x hd dp [g])) as [s' ob'] eqn:St. inversion S; subst d1 ob.
    destruct (unregister_step _ _ _ _ _ _ _ _ _ _ I eq_refl Ad St) as [Ok I']. rewrite Ok. cbn [is_none].
    split; [|reflexivity]. split; [exact I'|].
    destruct (step_reg_frame _ _ _ _ _ St) as (_ & Eh & Eo). split; cbn [d_st]; congruence.
  - inversion S; subst d1 ob. split; [|exact Logic.I]. split; [exact I|split; assumption].
  - destruct Ad as [A F'].
    destruct (link_step (d_heap d) x0 f0 v A R (st_hooks (d_st d)) (d_st d) I F' Dh Do) as (H' & calls & E & I').
    rewrite E in S. inversion S; subst d1 ob. cbn [o_out]. split; [|reflexivity].
    split; [exact I'|split; assumption].
Qed.

Lemma crun_wf : forall ops d R d' R' tr, wfH (st_hooks (d_st d)) -> crun d R ops = (d', R', tr) ->
  wfH (st_hooks (d_st d')).
Proof. exact (grun_wf cop dop_of live_after). Qed.

(* the notifiers of a slot call handler k exactly once iff some live registration of k matches the slot on the
   heap as it is now, and not at all otherwise *)
Lemma calls_once_iff_matched h H R s sg k : dinv h H R -> wfH H -> dead_handlers s = [] -> dead_objs s = [] ->
  (ncalls k (calls_of s (H sg)) <= 1) /\
  (ncalls k (calls_of s (H sg)) = 1 <-> exists g x, In (k, g, x) R /\ l_matched h g x sg = true).
Proof.
  intros (P & Inv & F) W Dh Do. rewrite (calls_count s (H sg) k (proj1 W sg) (proj2 W sg)).
  assert (alive s k = true) as -> by (unfold alive; rewrite Dh, Do; reflexivity). cbn [andb].
  rewrite <- (tot_user_matched h R k sg F), <- Inv. unfold cntH.
  destruct (0 <? cnt (CK (AUser k)) (H sg)) eqn:Z; [apply Nat.ltb_lt in Z|apply Nat.ltb_ge in Z]; lia.
Qed.

Lemma dyn_once_per_change d R o f s' ob k : dstate_inv d R -> wfH (st_hooks (d_st d)) ->
  step (d_heap d) (d_st d) (Change o f) = (s', ob) ->
  (ncalls k (o_calls ob) <= 1) /\
  (ncalls k (o_calls ob) = 1 <-> exists g x, In (k, g, x) R /\ l_matched (d_heap d) g x (o, f) = true).
Proof.
  intros [I [Dh Do]] W S. cbn [step] in S. inversion S; subst. apply (calls_once_iff_matched _ _ _ _ _ _ I W Dh Do).
Qed.

