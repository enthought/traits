(* C09 — the counting argument.  A notifier list is described by its counts per identity ([cnt]); add_to /
   remove_from move one count by one; a walk, a call of `observe`, a history move the counts by what was
   planned, or not at all when they raise.  Equal counts on well-formed lists mean equal lists up to order. *)
From Coq Require Import List Arith Bool PeanoNat Lia Permutation.
From TV Require Import C09.Model.
Import ListNotations.

Lemma graph_ind' (P : graph -> Prop) :
  (forall n cs, Forall P cs -> P (G n cs)) -> forall g, P g.
Proof.
  intros H. fix IH 1. intros [n cs]. apply H.
  induction cs as [|c cs IHcs]; constructor; [apply IH|apply IHcs].
Qed.

(* All counting functions below ([cnt], [ecnt], [gsum], ...) are sums of one term per list element:
   such a sum is positive iff one of its terms is. *)
Section Sums.
  Context {A : Type} (f : A -> nat) (S : list A -> nat).
  Hypothesis S_nil : S [] = 0.
  Hypothesis S_cons : forall a l, S (a :: l) = f a + S l.

  Lemma sum_pos l : 0 < S l <-> exists a, In a l /\ 0 < f a.
  Proof.
    induction l as [|a l IH]; [rewrite S_nil; split; [lia|intros (a & [] & _)]|]. rewrite S_cons. split.
    - intros P. destruct (Nat.eq_dec (f a) 0) as [Z|Z].
      + destruct (proj1 IH) as (b & Hb & Pb); [lia|]. exists b. split; [right; exact Hb|exact Pb].
      + exists a. split; [left; reflexivity|lia].
    - intros (b & [->|Hb] & Pb); [lia|]. assert (0 < S l) by (apply IH; eauto). lia.
  Qed.
  Lemma sum_zero l : (forall a, In a l -> f a = 0) -> S l = 0.
  Proof.
    intros Z. destruct (Nat.eq_dec (S l) 0) as [E|E]; [exact E|].
    destruct (proj1 (sum_pos l)) as (a & Ha & Pa); [lia|]. rewrite (Z a Ha) in Pa. lia.
  Qed.
End Sums.

Lemma eqb_sym_of_spec {A} (eqb : A -> A -> bool) :
  (forall a b, eqb a b = true <-> a = b) -> forall a b, eqb a b = eqb b a.
Proof.
  intros Sp a b. destruct (eqb a b) eqn:E, (eqb b a) eqn:F; try reflexivity.
  - apply Sp in E. subst. rewrite (proj2 (Sp b b) eq_refl) in F. discriminate.
  - apply Sp in F. subst. rewrite (proj2 (Sp a a) eq_refl) in E. discriminate.
Qed.

Lemma ckind_eqb_spec a b : ckind_eqb a b = true <-> a = b.
Proof. destruct a, b; cbn; split; congruence. Qed.
Lemma node_eqb_spec a b : node_eqb a b = true <-> a = b.
Proof.
  destruct a, b; cbn; try (split; congruence);
    rewrite !andb_true_iff, ?Nat.eqb_eq, ?ckind_eqb_spec, !eqb_true_iff;
    (split; [intros [[-> ->] ->]; reflexivity | intros [= -> -> ->]; auto]).
Qed.
Lemma graph_eqb_spec g1 : forall g2, graph_eqb g1 g2 = true <-> g1 = g2.
Proof.
  induction g1 as [n1 cs1 IH] using graph_ind'. intros [n2 cs2]. cbn [graph_eqb].
  rewrite andb_true_iff, node_eqb_spec.
  assert ((fix go (l1 l2 : list graph) : bool :=
             match l1, l2 with
             | [], [] => true
             | a :: l1', b :: l2' => graph_eqb a b && go l1' l2'
             | _, _ => false
             end) cs1 cs2 = true <-> cs1 = cs2) as L.
  { revert cs2. induction cs1 as [|a cs1 IHcs]; intros [|b cs2]; try (split; discriminate).
    - split; reflexivity.
    - inversion IH as [|? ? Ha Hcs]; subst. rewrite andb_true_iff, (Ha b), (IHcs Hcs cs2).
      split; [intros [-> ->]; reflexivity|intros [= -> ->]; split; reflexivity]. }
  rewrite L. split; [intros [-> ->]; reflexivity|intros [= -> ->]; split; reflexivity].
Qed.
Lemma key_eqb_spec a b : key_eqb a b = true <-> a = b.
Proof.
  destruct a as [[h t] d], b as [[h' t'] d']. cbn. rewrite !andb_true_iff, !Nat.eqb_eq.
  split; [intros [[-> ->] ->]; reflexivity|intros [= -> -> ->]; auto].
Qed.
Lemma key_eqb_refl k : key_eqb k k = true.
Proof. apply key_eqb_spec. reflexivity. Qed.
Lemma key_eqb_sym a b : key_eqb a b = key_eqb b a.
Proof. apply eqb_sym_of_spec, key_eqb_spec. Qed.
Lemma mkind_eqb_spec a b : mkind_eqb a b = true <-> a = b.
Proof.
  destruct a, b; cbn; try (split; congruence).
  rewrite ckind_eqb_spec. split; [intros ->; reflexivity|intros [= ->]; reflexivity].
Qed.
Lemma akey_eqb_spec a b : akey_eqb a b = true <-> a = b.
Proof.
  destruct a, b; cbn; try (split; congruence).
  - rewrite key_eqb_spec. split; [intros ->; reflexivity|intros [= ->]; reflexivity].
  - rewrite !andb_true_iff, mkind_eqb_spec, graph_eqb_spec, key_eqb_spec.
    split; [intros [[-> ->] ->]; reflexivity|intros [= -> -> ->]; auto].
Qed.
Lemma obsv_eqb_spec a b : obsv_eqb a b = true <-> a = b.
Proof.
  destruct a, b. unfold obsv_eqb. cbn. rewrite andb_true_iff, !Nat.eqb_eq.
  split; [intros [-> ->]; reflexivity|intros [= -> ->]; auto].
Qed.
Lemma obsv_eqb_refl a : obsv_eqb a a = true.
Proof. apply obsv_eqb_spec. reflexivity. Qed.
Lemma obsv_eqb_sym a b : obsv_eqb a b = obsv_eqb b a.
Proof. apply eqb_sym_of_spec, obsv_eqb_spec. Qed.

(* what is counted: a (handler, graph) identity or a foreign element *)
Inductive ckey := CK (a : akey) | CF (id : nat).
Definition ckey_eqb (a b : ckey) : bool :=
  match a, b with
  | CK x, CK y => akey_eqb x y
  | CF i, CF j => Nat.eqb i j
  | _, _ => false
  end.
Lemma ckey_eqb_spec a b : ckey_eqb a b = true <-> a = b.
Proof.
  destruct a, b; cbn; try (split; congruence).
  - rewrite akey_eqb_spec. split; [intros ->; reflexivity|intros [= ->]; reflexivity].
  - rewrite Nat.eqb_eq. split; [intros ->; reflexivity|intros [= ->]; reflexivity].
Qed.
Lemma ckey_eqb_refl c : ckey_eqb c c = true.
Proof. apply ckey_eqb_spec. reflexivity. Qed.
Definition b2n (b : bool) : nat := if b then 1 else 0.

(* the identity a list element is counted under; [matches] (the code's `equals`) compares it *)
Definition ckey_of (n : notifier) : ckey :=
  match n with
  | NUser k _ => CK (AUser k)
  | NMaint m g k => CK (AMaint m g k)
  | NForeign i => CF i
  end.
Lemma matches_ckey a n : matches a n = ckey_eqb (CK a) (ckey_of n).
Proof. destruct a, n; reflexivity. Qed.
Lemma matches_ckey_spec a n : matches a n = true <-> ckey_of n = CK a.
Proof. rewrite matches_ckey, ckey_eqb_spec. split; congruence. Qed.
Definition akey_of (n : notifier) : option akey :=
  match n with
  | NUser k _ => Some (AUser k)
  | NMaint m g k => Some (AMaint m g k)
  | NForeign _ => None
  end.
Lemma matches_spec a n : matches a n = true <-> akey_of n = Some a.
Proof. rewrite matches_ckey_spec. destruct n; cbn; split; congruence. Qed.

(* multiplicity of c carried by one list element: a user notifier counts its reference count *)
Definition weight (c : ckey) (n : notifier) : nat :=
  match c, n with
  | CK a, NUser _ rc => if matches a n then rc else 0
  | CK a, NMaint _ _ _ => b2n (matches a n)
  | CF i, NForeign j => b2n (Nat.eqb i j)
  | _, _ => 0
  end.
Definition mult (n : notifier) : nat := match n with NUser _ rc => rc | _ => 1 end.
Lemma weight_ckey c n : weight c n = if ckey_eqb c (ckey_of n) then mult n else 0.
Proof. destruct c as [[]|], n; reflexivity. Qed.
Lemma weight_match a n c : matches a n = true -> weight c n = if ckey_eqb (CK a) c then mult n else 0.
Proof.
  intros M. apply matches_ckey_spec in M. rewrite weight_ckey, M.
  rewrite (eqb_sym_of_spec _ ckey_eqb_spec c). reflexivity.
Qed.
Lemma weight_nomatch a n : matches a n = false -> weight (CK a) n = 0.
Proof. intros M. rewrite weight_ckey, <- matches_ckey, M. reflexivity. Qed.
Lemma weight_pos_inv c n : 0 < weight c n -> ckey_of n = c.
Proof.
  rewrite weight_ckey. destruct (ckey_eqb c (ckey_of n)) eqn:E; [|lia].
  intros _. symmetry. apply ckey_eqb_spec, E.
Qed.

Fixpoint cnt (c : ckey) (l : list notifier) : nat :=
  match l with [] => 0 | n :: r => weight c n + cnt c r end.
Lemma cnt_app c l1 l2 : cnt c (l1 ++ l2) = cnt c l1 + cnt c l2.
Proof. induction l1; cbn; lia. Qed.
Lemma cnt_mid c l1 n l2 : cnt c (l1 ++ n :: l2) = weight c n + cnt c (l1 ++ l2).
Proof. rewrite !cnt_app. cbn [cnt]. lia. Qed.
Lemma cnt_pos_in c l : 0 < cnt c l -> exists n, In n l /\ 0 < weight c n.
Proof. apply (sum_pos (weight c) (cnt c)); reflexivity. Qed.
Lemma nomatch_cnt a l : existsb (matches a) l = false -> cnt (CK a) l = 0.
Proof.
  intros E. apply (sum_zero (weight (CK a)) (cnt (CK a))); try reflexivity.
  intros n Hn. apply weight_nomatch. destruct (matches a n) eqn:M; [|reflexivity].
  rewrite <- E. symmetry. apply existsb_exists. eauto.
Qed.

(* invariants of one list: stored reference counts are positive; at most one user notifier per identity *)
Definition posb (l : list notifier) : bool :=
  forallb (fun n => match n with NUser _ rc => Nat.ltb 0 rc | _ => true end) l.
Fixpoint uniqb (l : list notifier) : bool :=
  match l with
  | [] => true
  | n :: r => match n with
              | NUser k _ => negb (existsb (matches (AUser k)) r)
              | _ => true
              end && uniqb r
  end.

Lemma posb_app l1 l2 : posb (l1 ++ l2) = posb l1 && posb l2.
Proof. apply forallb_app. Qed.
Lemma posb_cons n r : posb (n :: r) = posb [n] && posb r.
Proof. apply (posb_app [n]). Qed.
Lemma posb_mid l1 n l2 : posb (l1 ++ n :: l2) = true -> posb [n] = true /\ posb (l1 ++ l2) = true.
Proof.
  rewrite !posb_app, (posb_cons n), !andb_true_iff. tauto.
Qed.
Lemma weight_own n : posb [n] = true -> 0 < weight (ckey_of n) n.
Proof.
  rewrite weight_ckey, ckey_eqb_refl. destruct n; cbn [posb forallb mult]; [|lia|lia].
  rewrite andb_true_r. apply Nat.ltb_lt.
Qed.

(* the notifier add_to appends when it finds none equal *)
Definition fresh (a : akey) : notifier :=
  match a with AUser k => NUser k 1 | AMaint m g k => NMaint m g k end.
Lemma matches_fresh a : matches a (fresh a) = true.
Proof. apply matches_ckey_spec. destruct a; reflexivity. Qed.

Lemma bump_first_some k l : forall l', bump_first (AUser k) l = Some l' ->
  forall c, cnt c l' = cnt c l + b2n (ckey_eqb (CK (AUser k)) c).
Proof.
  induction l as [|n r IH]; intros l' E c; [discriminate|]. cbn [bump_first] in E.
  destruct (matches (AUser k) n) eqn:M.
  - destruct n as [k' rc| |]; try discriminate M. injection E as <-. cbn [cnt].
    rewrite (weight_match (AUser k) (NUser k' (S rc)) c M), (weight_match _ _ c M).
    destruct (ckey_eqb _ c); cbn; lia.
  - destruct (bump_first (AUser k) r) as [r'|]; [|discriminate]. injection E as <-.
    cbn [cnt]. rewrite (IH r' eq_refl c). lia.
Qed.
Lemma bump_first_none a l : bump_first a l = None -> existsb (matches a) l = false.
Proof.
  induction l as [|m r IH]; [reflexivity|]. cbn [bump_first existsb].
  destruct (matches a m); [destruct m; discriminate|].
  destruct (bump_first a r); [discriminate|]. exact IH.
Qed.

Lemma cnt_l_add a l c : cnt c (l_add a l) = cnt c l + b2n (ckey_eqb (CK a) c).
Proof.
  assert (cnt c (l ++ [fresh a]) = cnt c l + b2n (ckey_eqb (CK a) c)) as F.
  { rewrite cnt_app. cbn [cnt]. rewrite (weight_match a _ c (matches_fresh a)).
    destruct a, (ckey_eqb _ c); cbn; lia. }
  destruct a as [k|m g k]; cbn [l_add]; [|exact F].
  destruct (bump_first (AUser k) l) as [l'|] eqn:B; [apply (bump_first_some _ _ _ B)|exact F].
Qed.

Lemma l_rem_ok a l : forall l', l_rem a l = inl l' ->
  forall c, cnt c l = cnt c l' + b2n (ckey_eqb (CK a) c).
Proof.
  induction l as [|n r IH]; intros l' E c; [discriminate|]. cbn [l_rem] in E.
  destruct (matches a n) eqn:M.
  - cbn [cnt]. rewrite (weight_match a n c M).
    destruct n as [k [|[|rc]]| |]; try discriminate E; injection E as <-; cbn [cnt mult].
    2: rewrite (weight_match a (NUser k (S rc)) c M); cbn [mult].
    all: destruct (ckey_eqb _ c); cbn; lia.
  - destruct (l_rem a r) as [r'|e]; [|discriminate]. injection E as <-.
    cbn [cnt]. rewrite (IH r' eq_refl c). lia.
Qed.

Lemma l_rem_err a l e : posb l = true -> l_rem a l = inr e -> e = NotifierNotFound /\ cnt (CK a) l = 0.
Proof.
  induction l as [|n r IH]; intros P E; cbn [l_rem] in E.
  - injection E as <-. split; reflexivity.
  - rewrite posb_cons in P. apply andb_true_iff in P. destruct P as [Pn Pr].
    destruct (matches a n) eqn:M.
    + destruct n as [k [|[|rc]]|m g k|i]; discriminate.
    + destruct (l_rem a r) as [r'|e'] eqn:R; [discriminate|]. injection E as <-.
      destruct (IH Pr eq_refl) as [-> C]. split; [reflexivity|]. cbn [cnt].
      rewrite (weight_nomatch _ _ M), C. reflexivity.
Qed.
Lemma l_rem_succeeds a l : posb l = true -> 0 < cnt (CK a) l -> exists l', l_rem a l = inl l'.
Proof.
  intros P C. destruct (l_rem a l) as [l'|e] eqn:R; [eauto|].
  destruct (l_rem_err _ _ _ P R) as [_ Z]. lia.
Qed.

Lemma posb_bump a l : forall l', bump_first a l = Some l' -> posb l = true -> posb l' = true.
Proof.
  induction l as [|n r IH]; intros l' E P; [discriminate|]. cbn [bump_first] in E.
  cbn [posb forallb] in P. apply andb_true_iff in P. destruct P as [Pn Pr].
  destruct (matches a n).
  - destruct n; injection E as <-; cbn [posb forallb]; rewrite ?Pn; exact Pr.
  - destruct (bump_first a r) as [r'|]; [|discriminate]. injection E as <-.
    cbn [posb forallb]. rewrite Pn. apply (IH r' eq_refl Pr).
Qed.
Lemma posb_l_add a l : posb l = true -> posb (l_add a l) = true.
Proof.
  intros P. assert (posb (l ++ [fresh a]) = true) as F by (rewrite posb_app, P; destruct a; reflexivity).
  destruct a as [k|m g k]; cbn [l_add]; [|exact F].
  destruct (bump_first (AUser k) l) as [l'|] eqn:B; [apply (posb_bump _ _ _ B P)|exact F].
Qed.
Lemma posb_l_rem a l : forall l', l_rem a l = inl l' -> posb l = true -> posb l' = true.
Proof.
  induction l as [|n r IH]; intros l' E P; [discriminate|]. cbn [l_rem] in E.
  cbn [posb forallb] in P. apply andb_true_iff in P. destruct P as [Pn Pr].
  destruct (matches a n).
  - destruct n as [k [|[|rc]]|m g k|i]; inversion E; subst; try exact Pr; cbn [posb forallb]; exact Pr.
  - destruct (l_rem a r) as [r'|e]; [|discriminate]. injection E as <-.
    cbn [posb forallb]. rewrite Pn. apply (IH r' eq_refl Pr).
Qed.

Definition posH (H : hooks) : Prop := forall o, posb (H o) = true.
Definition cntH (H : hooks) (o : obsv) (c : ckey) : nat := cnt c (H o).
Definition eind (e : entry) (o : obsv) (c : ckey) : nat :=
  b2n (obsv_eqb (fst e) o && ckey_eqb (CK (snd e)) c).
Fixpoint ecnt (o : obsv) (c : ckey) (es : list entry) : nat :=
  match es with [] => 0 | e :: r => eind e o c + ecnt o c r end.
Lemma ecnt_app o c l1 l2 : ecnt o c (l1 ++ l2) = ecnt o c l1 + ecnt o c l2.
Proof. induction l1; cbn; lia. Qed.
Lemma ecnt_rev o c l : ecnt o c (rev l) = ecnt o c l.
Proof. induction l; cbn; [reflexivity|]. rewrite ecnt_app. cbn. lia. Qed.
Lemma eind_self e : eind e (fst e) (CK (snd e)) = 1.
Proof. unfold eind. rewrite obsv_eqb_refl, ckey_eqb_refl. reflexivity. Qed.

Lemma eind_eq o0 a o c : eind (o0, a) o c = if obsv_eqb o o0 then b2n (ckey_eqb (CK a) c) else 0.
Proof. unfold eind. cbn [fst snd]. rewrite (obsv_eqb_sym o0 o). destruct (obsv_eqb o o0); reflexivity. Qed.
Lemma ecnt_pos_in o c es : 0 < ecnt o c es -> exists e, In e es /\ fst e = o /\ CK (snd e) = c.
Proof.
  intros P. apply (sum_pos (fun e => eind e o c) (ecnt o c)) in P; try reflexivity.
  destruct P as (e & He & P). exists e. split; [exact He|]. unfold eind in P.
  destruct (obsv_eqb (fst e) o) eqn:Q1, (ckey_eqb (CK (snd e)) c) eqn:Q2; cbn in P; try lia.
  split; [apply obsv_eqb_spec, Q1|apply ckey_eqb_spec, Q2].
Qed.

Lemma cntH_upd H o0 l o c :
  cntH (upd H o0 l) o c = if obsv_eqb o o0 then cnt c l else cntH H o c.
Proof. unfold cntH, upd. destruct (obsv_eqb o o0); reflexivity. Qed.

Lemma do_add e H : exists H', do_entry false e H = inl H' /\
  forall o c, cntH H' o c = cntH H o c + eind e o c.
Proof.
  destruct e as [o0 a]. cbn [do_entry]. eexists. split; [reflexivity|].
  intros o c. rewrite cntH_upd, eind_eq. destruct (obsv_eqb o o0) eqn:Q; [|lia].
  apply obsv_eqb_spec in Q. subst. apply cnt_l_add.
Qed.
Lemma do_rem_ok e H H' : do_entry true e H = inl H' ->
  forall o c, cntH H o c = cntH H' o c + eind e o c.
Proof.
  destruct e as [o0 a]. cbn [do_entry]. destruct (l_rem a (H o0)) as [l|x] eqn:R; [|discriminate].
  intros [= <-] o c. rewrite cntH_upd, eind_eq. destruct (obsv_eqb o o0) eqn:Q; [|lia].
  apply obsv_eqb_spec in Q. subst. apply (l_rem_ok _ _ _ R).
Qed.
Lemma do_rem_err e H x : posH H -> do_entry true e H = inr x ->
  x = NotifierNotFound /\ cntH H (fst e) (CK (snd e)) = 0.
Proof.
  destruct e as [o0 a]. cbn [do_entry fst snd]. intros P.
  destruct (l_rem a (H o0)) as [l|y] eqn:R; [discriminate|]. intros [= <-].
  apply (l_rem_err _ _ _ (P o0) R).
Qed.
Lemma do_rem_succeeds e H : posH H -> 0 < cntH H (fst e) (CK (snd e)) -> exists H', do_entry true e H = inl H'.
Proof.
  destruct e as [o0 a]. cbn [do_entry fst snd]. intros P C.
  destruct (l_rem_succeeds a (H o0) (P o0) C) as [l ->]. eauto.
Qed.

Lemma undo_exec rm es : forall H L0,
  undo rm es H = let '(H', _, e) := exec (negb rm) es H L0 in (H', e).
Proof.
  induction es as [|a es IH]; intros H L0; cbn [undo exec]; [reflexivity|].
  destruct (do_entry (negb rm) a H) as [H1|x]; [apply IH|reflexivity].
Qed.

(* Every operation only ever performs add_to / remove_from on notifier lists, so whatever these two keep
   on one list holds of every list after any walk, call, step or history. *)
Section Keeps.
  Variable Q : list notifier -> Prop.
  Hypothesis Q_add : forall a l, Q l -> Q (l_add a l).
  Hypothesis Q_rem : forall a l l', l_rem a l = inl l' -> Q l -> Q l'.
  Let QH (H : hooks) : Prop := forall o, Q (H o).

  Lemma do_entry_keeps rm e H H' : QH H -> do_entry rm e H = inl H' -> QH H'.
  Proof.
    destruct e as [o0 a]. intros K D o. destruct rm; cbn [do_entry] in D.
    - destruct (l_rem a (H o0)) as [l|x] eqn:R; [|discriminate]. injection D as <-.
      unfold upd. destruct (obsv_eqb o o0); [apply (Q_rem _ _ _ R), K|apply K].
    - injection D as <-. unfold upd. destruct (obsv_eqb o o0); [apply Q_add, K|apply K].
  Qed.
  Lemma exec_keeps rm es : forall H L H' L' e, QH H -> exec rm es H L = (H', L', e) -> QH H'.
  Proof.
    induction es as [|a es IH]; intros H L H' L' e K E; cbn [exec] in E.
    - injection E as <- _ _. exact K.
    - destruct (do_entry rm a H) as [H1|x] eqn:D.
      + apply (IH _ _ _ _ _ (do_entry_keeps _ _ _ _ K D) E).
      + injection E as <- _ _. exact K.
  Qed.
  Lemma undo_keeps rm es H H' e : QH H -> undo rm es H = (H', e) -> QH H'.
  Proof.
    intros K X. rewrite (undo_exec rm es H []) in X.
    destruct (exec (negb rm) es H []) as [[H1 L1] e1] eqn:E. injection X as <- _.
    apply (exec_keeps _ _ _ _ _ _ _ K E).
  Qed.
  Lemma walk_outer_keeps h k rm g x H H' e : QH H -> walk_outer h k rm g x H = (H', e) -> QH H'.
  Proof.
    intros K W. unfold walk_outer in W. destruct (plan h k rm g x) as [es sf].
    destruct (exec rm es H []) as [[H1 L] e0] eqn:E. pose proof (exec_keeps _ _ _ _ _ _ _ K E) as K1.
    destruct (undo rm (rev L) H1) as [H2 e2] eqn:X. pose proof (undo_keeps _ _ _ _ _ K1 X) as K2.
    destruct e0 as [y|]; [|destruct sf]; try (destruct e2; injection W as <- _; exact K2).
    injection W as <- _. exact K1.
  Qed.
  Lemma reapply_keeps h k rm x : forall applied H H' e, QH H -> reapply h k rm applied x H = (H', e) -> QH H'.
  Proof.
    induction applied as [|g r IH]; intros H H' e K R; cbn [reapply] in R.
    - injection R as <- _. exact K.
    - destruct (walk_outer h k rm g x H) as [H1 [y|]] eqn:W; pose proof (walk_outer_keeps _ _ _ _ _ _ _ _ K W) as K1.
      + injection R as <- _. exact K1.
      + apply (IH _ _ _ K1 R).
  Qed.
  Lemma apply_loop_keeps h k rm x : forall gs H applied H' e, QH H ->
    apply_loop h k rm gs x H applied = (H', e) -> QH H'.
  Proof.
    induction gs as [|g gs IH]; intros H applied H' e K A; cbn [apply_loop] in A.
    - injection A as <- _. exact K.
    - destruct (walk_outer h k rm g x H) as [H1 [y|]] eqn:W; pose proof (walk_outer_keeps _ _ _ _ _ _ _ _ K W) as K1.
      + destruct (reapply h k (negb rm) applied x H1) as [H2 e2] eqn:R.
        pose proof (reapply_keeps _ _ _ _ _ _ _ _ K1 R) as K2. destruct e2; injection A as <- _; exact K2.
      + apply (IH _ _ _ _ K1 A).
  Qed.
  Lemma step_keeps h s o s' ob : QH (st_hooks s) -> step h s o = (s', ob) -> QH (st_hooks s').
  Proof.
    intros K S. destruct o as [x hd dp gs|x hd dp gs|o f|hd|t]; cbn [step] in S.
    1,2: destruct (apply_observers _ _ _ _ _ _) as [H e] eqn:A; injection S as <- _;
         apply (apply_loop_keeps _ _ _ _ _ _ _ _ _ K A).
    all: injection S as <- _; exact K.
  Qed.
  Lemma run_keeps h : forall ops s tr s', QH (st_hooks s) -> run h s ops = (tr, s') -> QH (st_hooks s').
  Proof.
    induction ops as [|o ops IH]; intros s tr s' K R; cbn [run] in R.
    - injection R as _ <-. exact K.
    - destruct (step h s o) as [s1 ob] eqn:S. destruct (run h s1 ops) as [tr1 s2] eqn:R1.
      injection R as _ <-. apply (IH _ _ _ (step_keeps _ _ _ _ _ K S) R1).
  Qed.
End Keeps.

Definition do_entry_pos : forall rm e H H', posH H -> do_entry rm e H = inl H' -> posH H' :=
  do_entry_keeps _ posb_l_add posb_l_rem.
Definition exec_pos : forall rm es H L H' L' e, posH H -> exec rm es H L = (H', L', e) -> posH H' :=
  exec_keeps _ posb_l_add posb_l_rem.

Lemma exec_add es : forall H L, exists H', exec false es H L = (H', L ++ es, None) /\
  (forall o c, cntH H' o c = cntH H o c + ecnt o c es) /\ (posH H -> posH H').
Proof.
  induction es as [|e es IH]; intros H L; cbn [exec].
  - exists H. rewrite app_nil_r. repeat split; auto; intros; cbn; lia.
  - destruct (do_add e H) as (H1 & D & C1). rewrite D.
    destruct (IH H1 (L ++ [e])) as (H2 & -> & C2 & P2). exists H2.
    rewrite <- app_assoc. repeat split.
    + intros o c. rewrite C2, C1. cbn. lia.
    + intros P. exact (P2 (do_entry_pos _ _ _ _ P D)).
Qed.

(* a removal stops at the first entry that is not there; what it did remove is logged *)
Lemma exec_rm es : forall H L H' L' e, posH H -> exec true es H L = (H', L', e) ->
  exists done, L' = L ++ done /\
    (forall o c, cntH H o c = cntH H' o c + ecnt o c done) /\
    (e = None -> done = es) /\ (forall x, e = Some x -> x = NotifierNotFound).
Proof.
  induction es as [|a es IH]; intros H L H' L' e P E; cbn [exec] in E.
  - injection E as <- <- <-. exists []. rewrite app_nil_r. repeat split; (discriminate || intros; cbn; lia).
  - destruct (do_entry true a H) as [H1|x] eqn:D.
    + destruct (IH _ _ _ _ _ (do_entry_pos _ _ _ _ P D) E) as (done & -> & C2 & N & X).
      exists (a :: done). rewrite <- app_assoc. repeat split; [|intros ->; rewrite N; reflexivity|exact X].
      intros o c. rewrite (do_rem_ok _ _ _ D), C2. cbn. lia.
    + injection E as <- <- <-. exists []. rewrite app_nil_r. repeat split; try discriminate; [intros; cbn; lia|].
      intros y [= <-]. apply (do_rem_err _ _ _ P D).
Qed.

Lemma exec_rm_succeeds es : forall H L, posH H -> (forall o c, ecnt o c es <= cntH H o c) ->
  exists H', exec true es H L = (H', L ++ es, None).
Proof.
  induction es as [|a es IH]; intros H L P C; cbn [exec].
  - exists H. rewrite app_nil_r. reflexivity.
  - destruct (do_rem_succeeds a H P) as [H1 D].
    { specialize (C (fst a) (CK (snd a))). cbn [ecnt] in C. rewrite eind_self in C. lia. }
    rewrite D. destruct (IH H1 (L ++ [a]) (do_entry_pos _ _ _ _ P D)) as [H2 E2].
    { intros o c. specialize (C o c). cbn [ecnt] in C. rewrite (do_rem_ok _ _ _ D) in C. lia. }
    exists H2. rewrite E2, <- app_assoc. reflexivity.
Qed.

Definition pcnt (h : heap) (k : key) (rm : bool) (g : graph) (x : oid) (o : obsv) (c : ckey) : nat :=
  ecnt o c (fst (plan h k rm g x)).

Definition shifted (rm : bool) (H H' : hooks) (d : obsv -> ckey -> nat) : Prop :=
  forall o c, if rm then cntH H o c = cntH H' o c + d o c else cntH H' o c = cntH H o c + d o c.
Definition same_counts (H H' : hooks) : Prop := forall o c, cntH H' o c = cntH H o c.

(* undoing a log whose entries are all accounted for in the current state *)
Lemma undo_restores rm L H1 : posH H1 ->
  (rm = false -> forall o c, ecnt o c L <= cntH H1 o c) ->
  exists H2, undo rm (rev L) H1 = (H2, None) /\ posH H2 /\
    forall o c, if rm then cntH H2 o c = cntH H1 o c + ecnt o c L
                else cntH H1 o c = cntH H2 o c + ecnt o c L.
Proof.
  intros P C. rewrite (undo_exec rm (rev L) H1 []). destruct rm; cbn [negb].
  - destruct (exec_add (rev L) H1 []) as (H2 & -> & C2 & P2). exists H2.
    split; [reflexivity|]. split; [auto|]. intros o c. rewrite C2, ecnt_rev. reflexivity.
  - destruct (exec_rm_succeeds (rev L) H1 [] P) as [H2 E2].
    { intros o c. rewrite ecnt_rev. apply C. reflexivity. }
    rewrite E2. destruct (exec_rm _ _ _ _ _ _ P E2) as (done & _ & C2 & N & _).
    exists H2. split; [reflexivity|]. split; [apply (exec_pos _ _ _ _ _ _ _ P E2)|].
    intros o c. rewrite (N eq_refl) in C2. rewrite C2, ecnt_rev. reflexivity.
Qed.

Lemma walk_outer_spec h k rm g x H H' e : posH H -> walk_outer h k rm g x H = (H', e) ->
  posH H' /\
  match e with
  | None => snd (plan h k rm g x) = false /\ shifted rm H H' (pcnt h k rm g x)
  | Some y => same_counts H H' /\
              ((y = ValueError /\ snd (plan h k rm g x) = true) \/ (y = NotifierNotFound /\ rm = true))
  end.
Proof.
  intros P W. split; [exact (walk_outer_keeps _ posb_l_add posb_l_rem _ _ _ _ _ _ _ _ P W)|]. revert W.
  unfold walk_outer, pcnt, shifted, same_counts.
  destruct (plan h k rm g x) as [es sf]. cbn [fst snd]. destruct rm.
  - destruct (exec true es H []) as [[H1 L] e0] eqn:E.
    destruct (exec_rm _ _ _ _ _ _ P E) as (done & Ld & C1 & N & X). cbn [app] in Ld. subst L.
    destruct (undo_restores true done H1 (exec_pos _ _ _ _ _ _ _ P E)) as (H2 & U & _ & C2); [discriminate|].
    destruct e0 as [y|]; [|rewrite (N eq_refl) in *; destruct sf]; rewrite ?U; intros [= <- <-].
    + split; [|right; split; [apply X|]; reflexivity]. intros o c. rewrite C2, C1. reflexivity.
    + split; [|left; split; reflexivity]. intros o c. rewrite C2, C1. reflexivity.
    + split; [reflexivity|exact C1].
  - destruct (exec_add es H []) as (H1 & -> & C1 & P1). cbn [app]. destruct sf.
    + destruct (undo_restores false es H1 (P1 P)) as (H2 & -> & _ & C2).
      { intros _ o c. rewrite C1. lia. }
      intros [= <- <-]. split; [|left; split; reflexivity].
      intros o c. specialize (C2 o c). rewrite C1 in C2. lia.
    + intros [= <- <-]. split; [reflexivity|exact C1].
Qed.

Lemma pseq_snd p q : snd (pseq p q) = snd p || snd q.
Proof. destruct p as [l [|]]; reflexivity. Qed.
Lemma pseq_ecnt o c p q : snd p = false -> ecnt o c (fst (pseq p q)) = ecnt o c (fst p) + ecnt o c (fst q).
Proof. destruct p as [l [|]]; cbn; [discriminate|]. intros _. apply ecnt_app. Qed.

Definition pleq (o : obsv) (c : ckey) (p q : pl) : Prop :=
  snd p = snd q /\ (snd q = false -> ecnt o c (fst p) = ecnt o c (fst q)).
Lemma pleq_refl o c p : pleq o c p p.
Proof. split; auto. Qed.
Lemma pleq_pseq o c p p' q q' : pleq o c p p' -> pleq o c q q' -> pleq o c (pseq p q) (pseq p' q').
Proof.
  intros [F1 E1] [F2 E2]. split.
  - rewrite !pseq_snd. congruence.
  - rewrite pseq_snd. intros F. apply orb_false_iff in F. destruct F as [Fa Fb].
    rewrite !pseq_ecnt by congruence. rewrite E1, E2 by assumption. reflexivity.
Qed.
Lemma pleq_pl_all {A} o c (f g : A -> pl) l :
  (forall a, In a l -> pleq o c (f a) (g a)) -> pleq o c (pl_all f l) (pl_all g l).
Proof.
  induction l as [|a l IH]; intros Hl; [apply pleq_refl|].
  change (pl_all f (a :: l)) with (pseq (f a) (pl_all f l)).
  change (pl_all g (a :: l)) with (pseq (g a) (pl_all g l)).
  apply pleq_pseq; [apply Hl; left; reflexivity|apply IH; intros; apply Hl; right; assumption].
Qed.
(* the four steps in reverse order *)
Lemma pleq_four o c s1 s2 s3 s3' s4 :
  pleq o c s3 s3' -> pleq o c (pseq s4 (pseq s3 (pseq s2 s1))) (pseq s1 (pseq s2 (pseq s3' s4))).
Proof.
  intros [F E]. split.
  - rewrite !pseq_snd, F. destruct (snd s1), (snd s2), (snd s3'), (snd s4); reflexivity.
  - rewrite !pseq_snd. intros Q.
    destruct (snd s1) eqn:Q1; [discriminate|]. destruct (snd s2) eqn:Q2; [discriminate|].
    destruct (snd s3') eqn:Q3; [discriminate|]. destruct (snd s4) eqn:Q4; [discriminate|].
    rewrite !pseq_ecnt; rewrite ?pseq_snd, ?F, ?Q1, ?Q2, ?Q3, ?Q4; try reflexivity.
    rewrite (E eq_refl). lia.
Qed.

Lemma plan_rm_equiv h k o c g : forall x, pleq o c (plan h k true g x) (plan h k false g x).
Proof.
  induction g as [n cs IH] using graph_ind'. intros x. cbn [plan].
  apply pleq_four. apply pleq_pl_all. intros ch Hc.
  destruct (objects h n x) as [ys|]; [|apply pleq_refl].
  apply pleq_pl_all. intros y _. rewrite Forall_forall in IH. apply (IH ch Hc y).
Qed.

Lemma plan_rm_flag h k g x : snd (plan h k true g x) = snd (plan h k false g x).
Proof. apply (plan_rm_equiv h k (0, 0) (CF 0) g x). Qed.
Lemma plan_rm_cnt h k g x o c : snd (plan h k false g x) = false ->
  pcnt h k true g x o c = pcnt h k false g x o c.
Proof. intros F. apply (plan_rm_equiv h k o c g x). exact F. Qed.

Fixpoint gsum (h : heap) (k : key) (gs : list graph) (x : oid) (o : obsv) (c : ckey) : nat :=
  match gs with [] => 0 | g :: r => pcnt h k false g x o c + gsum h k r x o c end.

Lemma walk_outer_add_succeeds h k g x H : posH H -> snd (plan h k false g x) = false ->
  exists H', walk_outer h k false g x H = (H', None).
Proof.
  intros P F. destruct (walk_outer h k false g x H) as [H' [y|]] eqn:W; [|eauto].
  destruct (walk_outer_spec _ _ _ _ _ _ _ _ P W) as [_ [_ [[_ T]|[_ T]]]]; congruence.
Qed.
Lemma walk_outer_rm_succeeds h k g x H : posH H -> snd (plan h k true g x) = false ->
  (forall o c, pcnt h k true g x o c <= cntH H o c) ->
  exists H', walk_outer h k true g x H = (H', None).
Proof.
  intros P F C. unfold walk_outer, pcnt in *. destruct (plan h k true g x) as [es sf]. cbn [fst snd] in *.
  subst sf. destruct (exec_rm_succeeds es H [] P C) as [H1 ->]. eauto.
Qed.

(* both directions at once, in terms of the registration plan *)
Lemma walk_outer_succeeds h k rm g x H : posH H -> snd (plan h k false g x) = false ->
  (rm = true -> forall o c, pcnt h k false g x o c <= cntH H o c) ->
  exists H', walk_outer h k rm g x H = (H', None).
Proof.
  intros P F C. destruct rm; [|apply (walk_outer_add_succeeds _ _ _ _ _ P F)].
  apply (walk_outer_rm_succeeds _ _ _ _ _ P); [rewrite plan_rm_flag; exact F|].
  intros o c. rewrite (plan_rm_cnt _ _ _ _ _ _ F). apply C. reflexivity.
Qed.
Lemma walk_outer_done h k rm g x H H' : posH H -> walk_outer h k rm g x H = (H', None) ->
  posH H' /\ snd (plan h k false g x) = false /\ shifted rm H H' (pcnt h k false g x).
Proof.
  intros P W. destruct (walk_outer_spec _ _ _ _ _ _ _ _ P W) as [P' [F S]].
  assert (snd (plan h k false g x) = false) as Fg by (destruct rm; [rewrite <- plan_rm_flag|]; exact F).
  split; [exact P'|]. split; [exact Fg|]. intros o c. specialize (S o c).
  destruct rm; [rewrite (plan_rm_cnt _ _ _ _ _ _ Fg) in S|]; exact S.
Qed.

Lemma reapply_restores h k rm x : forall applied H0 H1, posH H1 ->
  (forall g, In g applied -> snd (plan h k false g x) = false) ->
  shifted rm H0 H1 (gsum h k applied x) ->
  exists H2, reapply h k (negb rm) applied x H1 = (H2, None) /\ posH H2 /\ same_counts H0 H2.
Proof.
  induction applied as [|g r IH]; intros H0 H1 P F S; cbn [reapply].
  - exists H1. split; [reflexivity|]. split; [exact P|]. intros o c. specialize (S o c).
    cbn [gsum] in S. destruct rm; lia.
  - destruct (walk_outer_succeeds h k (negb rm) g x H1 P (F g (or_introl eq_refl))) as [H1' W].
    { intros E o c. destruct rm; [discriminate E|]. specialize (S o c). cbn [gsum] in S. cbn beta iota in S. lia. }
    rewrite W. destruct (walk_outer_done _ _ _ _ _ _ _ P W) as (P' & _ & S').
    apply (IH H0 H1' P'); [intros; apply F; right; assumption|].
    intros o c. specialize (S o c). specialize (S' o c). cbn [gsum] in S.
    destruct rm; cbn [negb] in S'; cbn beta iota in *; lia.
Qed.

(* where an exception of a registration call comes from: ValueError from a node that does not apply
   (iter_observables / iter_objects), NotifierNotFound from remove_from during a removal *)
Definition exn_ok (h : heap) (k : key) (rm : bool) (x : oid) (gs : list graph) (y : exn) : Prop :=
  (y = ValueError /\ exists g, In g gs /\ snd (plan h k false g x) = true)
  \/ (y = NotifierNotFound /\ rm = true).

Lemma apply_loop_spec h k rm x : forall gs H applied H0 H' e, posH H ->
  (forall g, In g applied -> snd (plan h k false g x) = false) ->
  shifted rm H0 H (gsum h k applied x) ->
  apply_loop h k rm gs x H applied = (H', e) ->
  posH H' /\
  match e with
  | None => shifted rm H H' (gsum h k gs x) /\ (forall g, In g gs -> snd (plan h k false g x) = false)
  | Some y => same_counts H0 H' /\ exn_ok h k rm x gs y
  end.
Proof.
  induction gs as [|g gs IH]; intros H applied H0 H' e P F S A; cbn [apply_loop] in A.
  - injection A as <- <-. split; [exact P|]. split; [|intros g []]. intros o c. cbn [gsum]. destruct rm; lia.
  - destruct (walk_outer h k rm g x H) as [H1 [y|]] eqn:W.
    + destruct (walk_outer_spec _ _ _ _ _ _ _ _ P W) as [P1 [S1 X1]].
      destruct (reapply_restores h k rm x applied H0 H1 P1 F) as (H2 & R & P2 & S2).
      { intros o c. specialize (S o c). specialize (S1 o c). destruct rm; lia. }
      rewrite R in A. injection A as <- <-. split; [exact P2|]. split; [exact S2|].
      destruct X1 as [[-> T]|[-> ->]]; [left; split; [reflexivity|]|right; split; reflexivity].
      exists g. split; [left; reflexivity|]. destruct rm; [rewrite <- plan_rm_flag|]; exact T.
    + destruct (walk_outer_done _ _ _ _ _ _ _ P W) as (P1 & Fg & S1).
      destruct (IH H1 (g :: applied) H0 H' e P1) as [P' R]; [| |exact A|].
      * intros g' [<-|Hg]; [exact Fg|apply F; exact Hg].
      * intros o c. specialize (S o c). specialize (S1 o c). cbn [gsum]. destruct rm; lia.
      * split; [exact P'|]. destruct e as [y|].
        { destruct R as [R1 [[-> (g' & Hg' & T)]|R2]]; (split; [exact R1|]); [left|right; exact R2].
          split; [reflexivity|]. exists g'. split; [right; exact Hg'|exact T]. }
        destruct R as [R1 R2]. split.
        -- intros o c. specialize (R1 o c). specialize (S1 o c). cbn [gsum]. destruct rm; lia.
        -- intros g' [<-|Hg]; [exact Fg|apply R2; exact Hg].
Qed.

Lemma apply_observers_spec h k rm gs x H H' e : posH H -> apply_observers h k rm gs x H = (H', e) ->
  posH H' /\
  match e with
  | None => shifted rm H H' (gsum h k gs x) /\ (forall g, In g gs -> snd (plan h k false g x) = false)
  | Some y => same_counts H H' /\ exn_ok h k rm x gs y
  end.
Proof.
  intros P A. apply (apply_loop_spec h k rm x gs H [] H H' e P); [intros g []| |exact A].
  intros o c. cbn [gsum]. destruct rm; lia.
Qed.

Lemma apply_loop_rm_succeeds h k x : forall gs H applied, posH H ->
  (forall g, In g gs -> snd (plan h k false g x) = false) ->
  (forall o c, gsum h k gs x o c <= cntH H o c) ->
  exists H', apply_loop h k true gs x H applied = (H', None).
Proof.
  induction gs as [|g gs IH]; intros H applied P F C; cbn [apply_loop]; [eauto|].
  destruct (walk_outer_succeeds h k true g x H P (F g (or_introl eq_refl))) as [H1 W].
  { intros _ o c. specialize (C o c). cbn [gsum] in C. lia. }
  rewrite W. destruct (walk_outer_done _ _ _ _ _ _ _ P W) as (P1 & _ & S1).
  apply (IH H1 (g :: applied) P1); [intros; apply F; right; assumption|].
  intros o c. specialize (C o c). specialize (S1 o c). cbn beta iota in S1. cbn [gsum] in C. lia.
Qed.

Definition rsig := (oid * nat * nat * list graph)%type.
Definition sig_cnt (h : heap) (s : rsig) (o : obsv) (c : ckey) : nat :=
  let '(x, hd, dp, gs) := s in gsum h (hd, x, dp) gs x o c.
Fixpoint sigs_cnt (h : heap) (l : list rsig) (o : obsv) (c : ckey) : nat :=
  match l with [] => 0 | s :: r => sig_cnt h s o c + sigs_cnt h r o c end.

(* the successful registrations / removals of a trace *)
Fixpoint ok_regs (tr : list (op * obs)) : list rsig :=
  match tr with
  | [] => []
  | (Register x hd dp gs, ob) :: r =>
      match o_out ob with None => (x, hd, dp, gs) :: ok_regs r | Some _ => ok_regs r end
  | _ :: r => ok_regs r
  end.
Fixpoint ok_unregs (tr : list (op * obs)) : list rsig :=
  match tr with
  | [] => []
  | (Unregister x hd dp gs, ob) :: r =>
      match o_out ob with None => (x, hd, dp, gs) :: ok_unregs r | Some _ => ok_unregs r end
  | _ :: r => ok_unregs r
  end.

Lemma step_spec h s o s' ob : posH (st_hooks s) -> step h s o = (s', ob) ->
  posH (st_hooks s') /\
  match o with
  | Register x hd dp gs =>
      match o_out ob with
      | None => shifted false (st_hooks s) (st_hooks s') (gsum h (hd, x, dp) gs x)
      | Some y => same_counts (st_hooks s) (st_hooks s') /\ exn_ok h (hd, x, dp) false x gs y
      end
  | Unregister x hd dp gs =>
      match o_out ob with
      | None => shifted true (st_hooks s) (st_hooks s') (gsum h (hd, x, dp) gs x)
      | Some y => same_counts (st_hooks s) (st_hooks s') /\ exn_ok h (hd, x, dp) true x gs y
      end
  | _ => st_hooks s' = st_hooks s /\ o_out ob = None
  end.
Proof.
  intros P S. destruct o as [x hd dp gs|x hd dp gs|o f|hd|t]; cbn [step] in S.
  1,2: destruct (apply_observers _ _ _ _ _ _) as [H e] eqn:A; injection S as <- <-; cbn [st_hooks o_out];
       destruct (apply_observers_spec _ _ _ _ _ _ _ _ P A) as [P' R]; split; [exact P'|];
       destruct e; [exact R|apply R].
  all: injection S as <- <-; auto.
Qed.

Lemma step_dead h s o s' ob : step h s o = (s', ob) ->
  dead_handlers s' = match o with CollectOwner hd => hd :: dead_handlers s | _ => dead_handlers s end /\
  dead_objs s' = match o with CollectObj t => t :: dead_objs s | _ => dead_objs s end.
Proof.
  intros S. destruct o; cbn [step] in S; try destruct (apply_observers _ _ _ _ _ _);
    injection S as <- _; split; reflexivity.
Qed.

(* the accounting equation: at every moment, every count of every notifier list is the initial
   count plus what the successful registrations planned minus what the successful removals planned *)
Lemma accounting h : forall ops s tr s', posH (st_hooks s) -> run h s ops = (tr, s') ->
  posH (st_hooks s') /\
  forall o c, cntH (st_hooks s') o c + sigs_cnt h (ok_unregs tr) o c
              = cntH (st_hooks s) o c + sigs_cnt h (ok_regs tr) o c.
Proof.
  induction ops as [|o ops IH]; intros s tr s' P R; cbn [run] in R.
  - injection R as <- <-. split; [exact P|]. intros; cbn; lia.
  - destruct (step h s o) as [s1 ob] eqn:S. destruct (run h s1 ops) as [tr1 s2] eqn:R1.
    injection R as <- <-. destruct (step_spec _ _ _ _ _ P S) as [P1 Q].
    destruct (IH _ _ _ P1 R1) as [P2 E]. split; [exact P2|]. intros o' c. specialize (E o' c).
    destruct o as [x hd dp gs|x hd dp gs|o f|hd|t]; cbn [ok_regs ok_unregs].
    1,2: destruct (o_out ob); cbn [sigs_cnt sig_cnt];
         [destruct Q as [Q _]; rewrite <- (Q o' c); exact E|specialize (Q o' c); cbn beta iota in Q; lia].
    all: destruct Q as [<- _]; exact E.
Qed.

Lemma sigs_cnt_perm h l1 l2 : Permutation l1 l2 -> forall o c, sigs_cnt h l1 o c = sigs_cnt h l2 o c.
Proof. induction 1; intros o c; cbn [sigs_cnt]; try rewrite IHPermutation; try lia. congruence. Qed.

(* n registrations and n removals, interleaved in any way with anything else that is balanced too:
   every count of every list is back to its initial value *)
Lemma balanced_identity h ops s tr s' : posH (st_hooks s) -> run h s ops = (tr, s') ->
  Permutation (ok_regs tr) (ok_unregs tr) ->
  forall o c, cntH (st_hooks s') o c = cntH (st_hooks s) o c.
Proof.
  intros P R B o c. destruct (accounting h ops s tr s' P R) as [_ E]. specialize (E o c).
  rewrite (sigs_cnt_perm h _ _ B o c) in E. lia.
Qed.

(* failure atomicity, at any depth and across parallel graphs *)
Lemma failure_atomic_cnt h s o s' ob : posH (st_hooks s) -> step h s o = (s', ob) ->
  o_out ob <> None -> forall o' c, cntH (st_hooks s') o' c = cntH (st_hooks s) o' c.
Proof.
  intros P S N. destruct (step_spec _ _ _ _ _ P S) as [_ Q].
  destruct o; [destruct (o_out ob); [apply Q|congruence]..| | |]; destruct Q; congruence.
Qed.

(* a removal of something that is not (completely) there raises and changes nothing *)
Lemma extra_unregister h s x hd dp gs s' ob : posH (st_hooks s) ->
  (exists o c, cntH (st_hooks s) o c < gsum h (hd, x, dp) gs x o c) ->
  step h s (Unregister x hd dp gs) = (s', ob) ->
  (exists y, o_out ob = Some y /\
             ((forall g, In g gs -> snd (plan h (hd, x, dp) false g x) = false) -> y = NotifierNotFound))
  /\ forall o c, cntH (st_hooks s') o c = cntH (st_hooks s) o c.
Proof.
  intros P (o & c & Lt) S. destruct (step_spec _ _ _ _ _ P S) as [_ Q]. cbn beta iota in Q.
  destruct (o_out ob) as [y|].
  - destruct Q as [Q X]. split; [|exact Q]. exists y. split; [reflexivity|].
    intros F. destruct X as [[-> (g & Hg & T)]|[-> _]]; [|reflexivity]. rewrite (F g Hg) in T. discriminate.
  - specialize (Q o c). cbn beta iota in Q. lia.
Qed.

Lemma memb_spec x l : memb x l = true <-> In x l.
Proof.
  unfold memb. rewrite existsb_exists. split.
  - intros (y & Hy & E). apply Nat.eqb_eq in E. subst. exact Hy.
  - intros Hx. exists x. split; [exact Hx|apply Nat.eqb_refl].
Qed.
Lemma calls_only_alive s l k : In k (calls_of s l) -> alive s k = true.
Proof.
  unfold calls_of. rewrite in_flat_map. intros (n & _ & Hk).
  destruct n as [k' rc| |]; try destruct Hk. destruct (alive s k') eqn:A; [|destruct Hk].
  destruct Hk as [<-|[]]. exact A.
Qed.
Lemma alive_step h s o s' ob k : step h s o = (s', ob) ->
  alive s' k = alive s k && match o with
                            | CollectOwner hd => negb (Nat.eqb (k_handler k) hd)
                            | CollectObj t => negb (Nat.eqb (k_target k) t)
                            | _ => true
                            end.
Proof.
  intros S. destruct (step_dead _ _ _ _ _ S) as [Dh Do]. unfold alive. rewrite Dh, Do.
  destruct o; rewrite ?andb_true_r; try reflexivity;
    change (memb ?x (?y :: ?l)) with (Nat.eqb x y || memb x l);
    destruct (Nat.eqb _ _), (memb _ (dead_handlers s)), (memb _ (dead_objs s)); reflexivity.
Qed.
Lemma step_dead_mono h s o s' ob k : step h s o = (s', ob) -> alive s k = false -> alive s' k = false.
Proof. intros S A. rewrite (alive_step _ _ _ _ _ k S), A. reflexivity. Qed.
Lemma collect_kills h s o s' ob : step h s o = (s', ob) ->
  match o with
  | CollectOwner hd => forall t dp, alive s' (hd, t, dp) = false
  | CollectObj t => forall hd dp, alive s' (hd, t, dp) = false
  | _ => True
  end.
Proof.
  intros S. destruct o; try exact I; intros; rewrite (alive_step _ _ _ _ _ _ S);
    cbn [k_handler k_target fst snd]; rewrite Nat.eqb_refl; apply andb_false_r.
Qed.
Lemma dead_silent h : forall ops s tr s' k, run h s ops = (tr, s') -> alive s k = false ->
  alive s' k = false /\
  forall o f ob, In (Change o f, ob) tr -> ~ In k (o_calls ob) /\ o_out ob = None.
Proof.
  induction ops as [|o ops IH]; intros s tr s' k R A; cbn [run] in R.
  - injection R as <- <-. split; [exact A|]. intros ? ? ? [].
  - destruct (step h s o) as [s1 ob] eqn:S. destruct (run h s1 ops) as [tr1 s2] eqn:R1.
    injection R as <- <-. pose proof (step_dead_mono _ _ _ _ _ k S A) as A1.
    destruct (IH _ _ _ k R1 A1) as [A2 Q]. split; [exact A2|].
    intros o' f ob' [E|Hin]; [|apply (Q _ _ _ Hin)].
    injection E as -> <-. cbn [step] in S. injection S as _ <-. cbn [o_calls o_out]. split; [|reflexivity].
    intros Hk. apply calls_only_alive in Hk. congruence.
Qed.

Definition uniqH (H : hooks) : Prop := forall o, uniqb (H o) = true.

Lemma bump_keys k l : forall l', bump_first (AUser k) l = Some l' ->
  forall b, existsb (matches b) l' = existsb (matches b) l.
Proof.
  induction l as [|n r IH]; intros l' E b; [discriminate|]. cbn [bump_first] in E.
  destruct (matches (AUser k) n) eqn:M.
  - destruct n; try discriminate M. injection E as <-. reflexivity.
  - destruct (bump_first (AUser k) r) as [r'|]; [|discriminate]. injection E as <-.
    cbn [existsb]. rewrite (IH r' eq_refl b). reflexivity.
Qed.
Lemma uniqb_bump k l : forall l', bump_first (AUser k) l = Some l' -> uniqb l = true -> uniqb l' = true.
Proof.
  induction l as [|n r IH]; intros l' E U; [discriminate|]. cbn [bump_first] in E.
  cbn [uniqb] in U. apply andb_true_iff in U. destruct U as [Un Ur].
  destruct (matches (AUser k) n) eqn:M.
  - destruct n; try discriminate M. injection E as <-. cbn [uniqb]. rewrite Un, Ur. reflexivity.
  - destruct (bump_first (AUser k) r) as [r'|] eqn:B; [|discriminate]. injection E as <-.
    cbn [uniqb]. rewrite (IH r' eq_refl Ur), andb_true_r.
    destruct n; try reflexivity. rewrite (bump_keys _ _ _ B). exact Un.
Qed.
Lemma uniqb_snoc l n : uniqb l = true ->
  (forall k rc, n = NUser k rc -> existsb (matches (AUser k)) l = false) -> uniqb (l ++ [n]) = true.
Proof.
  induction l as [|m r IH]; intros U F.
  - cbn. destruct n; reflexivity.
  - cbn [uniqb app] in *. apply andb_true_iff in U. destruct U as [Um Ur].
    rewrite IH; [|exact Ur|].
    + rewrite andb_true_r. destruct m as [k' rc'| |]; try reflexivity.
      rewrite existsb_app. apply negb_true_iff in Um. rewrite Um. cbn [existsb orb].
      destruct n as [k rc| |]; try reflexivity. cbn [matches]. rewrite orb_false_r.
      specialize (F k rc eq_refl). cbn [existsb matches] in F. apply orb_false_iff in F.
      destruct F as [F _]. rewrite key_eqb_sym, F. reflexivity.
    + intros k rc E. specialize (F k rc E). cbn [existsb] in F. apply orb_false_iff in F. apply F.
Qed.
Lemma uniqb_l_add a l : uniqb l = true -> uniqb (l_add a l) = true.
Proof.
  intros U. destruct a as [k|m g k]; cbn [l_add].
  - destruct (bump_first (AUser k) l) as [l'|] eqn:B; [apply (uniqb_bump _ _ _ B U)|].
    apply uniqb_snoc; [exact U|]. intros k' rc [= <- <-]. apply (bump_first_none _ _ B).
  - apply uniqb_snoc; [exact U|]. intros; discriminate.
Qed.
Lemma l_rem_keys a l : forall l', l_rem a l = inl l' ->
  forall b, existsb (matches b) l' = true -> existsb (matches b) l = true.
Proof.
  induction l as [|n r IH]; intros l' E b X; [discriminate|]. cbn [l_rem] in E.
  destruct (matches a n) eqn:M.
  - destruct n as [k [|[|rc]]|m g k|i]; inversion E; subst; cbn [existsb] in *;
      try (rewrite X; apply orb_true_r); try exact X.
  - destruct (l_rem a r) as [r'|e]; [|discriminate]. injection E as <-. cbn [existsb] in *.
    apply orb_true_iff in X. destruct X as [X|X]; [rewrite X; reflexivity|].
    rewrite (IH r' eq_refl b X). apply orb_true_r.
Qed.
Lemma uniqb_l_rem a l : forall l', l_rem a l = inl l' -> uniqb l = true -> uniqb l' = true.
Proof.
  induction l as [|n r IH]; intros l' E U; [discriminate|]. cbn [l_rem] in E.
  cbn [uniqb] in U. apply andb_true_iff in U. destruct U as [Un Ur].
  destruct (matches a n) eqn:M.
  - destruct n as [k [|[|rc]]|m g k|i]; inversion E; subst; try exact Ur.
    cbn [uniqb]. rewrite Un, Ur. reflexivity.
  - destruct (l_rem a r) as [r'|e] eqn:R; [|discriminate]. injection E as <-.
    cbn [uniqb]. rewrite (IH r' eq_refl Ur), andb_true_r.
    destruct n as [k rc| |]; try reflexivity. apply negb_true_iff. apply negb_true_iff in Un.
    destruct (existsb (matches (AUser k)) r') eqn:X; [|reflexivity].
    rewrite (l_rem_keys _ _ _ R _ X) in Un. discriminate.
Qed.

Definition exec_uniq : forall rm es H L H' L' e, uniqH H -> exec rm es H L = (H', L', e) -> uniqH H' :=
  exec_keeps _ uniqb_l_add uniqb_l_rem.
Definition undo_uniq : forall rm es H H' e, uniqH H -> undo rm es H = (H', e) -> uniqH H' :=
  undo_keeps _ uniqb_l_add uniqb_l_rem.
Definition walk_outer_uniq : forall h k rm g x H H' e, uniqH H -> walk_outer h k rm g x H = (H', e) -> uniqH H' :=
  walk_outer_keeps _ uniqb_l_add uniqb_l_rem.

Definition ncalls (k : key) (l : list key) : nat := length (filter (key_eqb k) l).
Lemma ncalls_app k l1 l2 : ncalls k (l1 ++ l2) = ncalls k l1 + ncalls k l2.
Proof. unfold ncalls. rewrite filter_app, app_length. reflexivity. Qed.
Lemma calls_of_cons s n r :
  calls_of s (n :: r) = match n with NUser k _ => if alive s k then [k] else [] | _ => [] end ++ calls_of s r.
Proof. reflexivity. Qed.

(* a change of o.f calls handler k exactly once if a user notifier of k is on the list (whatever its
   reference count) and k's owner and target are alive, else not at all *)
Lemma calls_count s l k : posb l = true -> uniqb l = true ->
  ncalls k (calls_of s l) = if alive s k && (0 <? cnt (CK (AUser k)) l) then 1 else 0.
Proof.
  induction l as [|n r IH]; intros P U.
  - cbn. rewrite andb_false_r. reflexivity.
  - cbn [posb forallb] in P. apply andb_true_iff in P. destruct P as [Pn Pr].
    cbn [uniqb] in U. apply andb_true_iff in U. destruct U as [Un Ur].
    rewrite calls_of_cons, ncalls_app, (IH Pr Ur). cbn [cnt].
    destruct n as [k' rc|m g k'|i]; [|reflexivity..].
    cbn [weight matches]. destruct (key_eqb k k') eqn:Q.
    + apply key_eqb_spec in Q. subst k'. apply negb_true_iff in Un.
      rewrite (nomatch_cnt _ _ Un), Nat.add_0_r, Pn, andb_false_r, andb_true_r.
      destruct (alive s k); [|reflexivity]. unfold ncalls. cbn [filter]. rewrite key_eqb_refl. reflexivity.
    + destruct (alive s k'); unfold ncalls; cbn [app filter]; rewrite ?Q; reflexivity.
Qed.

Lemma uniqb_mid l1 n l2 : uniqb (l1 ++ n :: l2) = true -> uniqb (l1 ++ l2) = true.
Proof.
  induction l1 as [|m l1 IH]; cbn [app uniqb]; intros U; apply andb_true_iff in U; destruct U as [Um U].
  - exact U.
  - rewrite (IH U), andb_true_r. destruct m as [k rc| |]; try reflexivity.
    apply negb_true_iff in Um. apply negb_true_iff. rewrite existsb_app in *. cbn [existsb] in Um.
    apply orb_false_iff in Um. destruct Um as [A B]. apply orb_false_iff in B. destruct B as [_ B].
    rewrite A, B. reflexivity.
Qed.
Lemma uniq_user_cnt k rc l : uniqb l = true -> In (NUser k rc) l -> cnt (CK (AUser k)) l = rc.
Proof.
  induction l as [|m r IH]; intros U Hin; [destruct Hin|].
  cbn [uniqb] in U. apply andb_true_iff in U. destruct U as [Um Ur]. cbn [cnt]. destruct Hin as [->|Hin].
  - apply negb_true_iff in Um. rewrite (nomatch_cnt _ _ Um). cbn [weight matches].
    rewrite key_eqb_refl. lia.
  - rewrite (IH Ur Hin). destruct m as [k' rc'|m' g' k'|j]; cbn [weight matches b2n]; try lia.
    destruct (key_eqb k k') eqn:Q; [|lia]. apply key_eqb_spec in Q. subst k'.
    apply negb_true_iff in Um. assert (existsb (matches (AUser k)) r = true) as X.
    { apply existsb_exists. exists (NUser k rc). split; [exact Hin|]. cbn. apply key_eqb_refl. }
    congruence.
Qed.

Lemma cnt_perm : forall l l', posb l = true -> uniqb l = true -> posb l' = true -> uniqb l' = true ->
  (forall c, cnt c l = cnt c l') -> Permutation l l'.
Proof.
  induction l as [|n r IH]; intros l' P U P' U' C.
  - destruct l' as [|n' r']; [constructor|]. exfalso.
    rewrite posb_cons in P'. apply andb_true_iff in P'.
    pose proof (weight_own n' (proj1 P')) as W. specialize (C (ckey_of n')). cbn [cnt] in C. lia.
  - rewrite posb_cons in P. apply andb_true_iff in P. destruct P as [Pn Pr].
    assert (uniqb r = true) as Ur by (cbn [uniqb] in U; apply andb_true_iff in U; apply U).
    pose proof (weight_own n Pn) as W.
    destruct (cnt_pos_in (ckey_of n) l') as (n' & Hin' & W').
    { rewrite <- C. cbn [cnt]. lia. }
    assert (n' = n) as ->.
    { pose proof (weight_pos_inv _ _ W') as K.
      destruct n as [k rc|m g k|j], n' as [k' rc'|m' g' k'|j']; cbn [ckey_of] in K; try congruence.
      injection K as ->. f_equal.
      rewrite <- (uniq_user_cnt k rc' l' U' Hin').
      rewrite <- (uniq_user_cnt k rc (NUser k rc :: r) U (or_introl eq_refl)). symmetry. apply C. }
    destruct (in_split _ _ Hin') as (l1 & l2 & ->).
    apply Permutation_cons_app. destruct (posb_mid _ _ _ P') as [_ P12].
    apply IH; [exact Pr|exact Ur|exact P12|apply (uniqb_mid _ _ _ U')|].
    intros c. specialize (C c). cbn [cnt] in C. rewrite cnt_mid in C. lia.
Qed.

Definition wfH (H : hooks) : Prop := posH H /\ uniqH H.
Lemma same_counts_perm H H' : wfH H -> wfH H' -> (forall o c, cntH H' o c = cntH H o c) ->
  forall o, Permutation (H' o) (H o).
Proof. intros [P U] [P' U'] C o. apply cnt_perm; auto. intros c. apply C. Qed.

Lemma run_wf h ops s tr s' : wfH (st_hooks s) -> run h s ops = (tr, s') -> wfH (st_hooks s').
Proof.
  intros [P U] R. split; [apply (accounting h ops s tr s' P R)|].
  exact (run_keeps _ uniqb_l_add uniqb_l_rem h ops s tr s' U R).
Qed.
Lemma step_wf h s o s' ob : wfH (st_hooks s) -> step h s o = (s', ob) -> wfH (st_hooks s').
Proof.
  intros [P U] S. split; [apply (step_spec _ _ _ _ _ P S)|].
  exact (step_keeps _ uniqb_l_add uniqb_l_rem h s o s' ob U S).
Qed.
Lemma wf_empty : wfH (fun _ => []).
Proof. split; intros o; reflexivity. Qed.

Lemma step_counts_perm h s o s' ob : wfH (st_hooks s) -> step h s o = (s', ob) ->
  same_counts (st_hooks s) (st_hooks s') -> forall o', Permutation (st_hooks s' o') (st_hooks s o').
Proof. intros W S. apply same_counts_perm; [exact W|apply (step_wf _ _ _ _ _ W S)]. Qed.
Lemma run_counts_perm h ops s tr s' : wfH (st_hooks s) -> run h s ops = (tr, s') ->
  same_counts (st_hooks s) (st_hooks s') -> forall o, Permutation (st_hooks s' o) (st_hooks s o).
Proof. intros W R. apply same_counts_perm; [exact W|apply (run_wf _ _ _ _ _ W R)]. Qed.

Lemma failure_atomic_perm h s o s' ob : wfH (st_hooks s) -> step h s o = (s', ob) ->
  o_out ob <> None -> forall o', Permutation (st_hooks s' o') (st_hooks s o').
Proof. intros W S N. exact (step_counts_perm _ _ _ _ _ W S (failure_atomic_cnt h s o s' ob (proj1 W) S N)). Qed.

Lemma change_calls h s o f s' ob k : wfH (st_hooks s) -> step h s (Change o f) = (s', ob) ->
  ncalls k (o_calls ob) = if alive s k && (0 <? cntH (st_hooks s) (o, f) (CK (AUser k))) then 1 else 0.
Proof.
  intros [P U] S. cbn [step] in S. injection S as _ <-. cbn [o_calls]. apply calls_count; [apply P|apply U].
Qed.

Lemma calls_after h ops s tr s1 o f s2 ob k : wfH (st_hooks s) ->
  run h s ops = (tr, s1) -> step h s1 (Change o f) = (s2, ob) ->
  ncalls k (o_calls ob) =
    if alive s1 k && (sigs_cnt h (ok_unregs tr) (o, f) (CK (AUser k))
                      <? cntH (st_hooks s) (o, f) (CK (AUser k)) + sigs_cnt h (ok_regs tr) (o, f) (CK (AUser k)))
    then 1 else 0.
Proof.
  intros W R S. rewrite (change_calls h s1 o f s2 ob k (run_wf _ _ _ _ _ W R) S).
  destruct (accounting h ops s tr s1 (proj1 W) R) as [_ E]. specialize (E (o, f) (CK (AUser k))).
  match goal with |- (if _ && ?a then _ else _) = (if _ && ?b then _ else _) =>
    assert (a = b) as ->; [|reflexivity] end.
  apply eq_true_iff_eq. rewrite !Nat.ltb_lt. lia.
Qed.

Lemma register_outcome h s x hd dp gs s' ob : posH (st_hooks s) ->
  step h s (Register x hd dp gs) = (s', ob) ->
  (o_out ob = None <-> forall g, In g gs -> snd (plan h (hd, x, dp) false g x) = false)
  /\ (forall y, o_out ob = Some y -> y = ValueError).
Proof.
  intros P S. cbn [step] in S.
  destruct (apply_observers h (hd, x, dp) false gs x (st_hooks s)) as [H e] eqn:A. injection S as _ <-.
  cbn [o_out]. destruct (apply_observers_spec _ _ _ _ _ _ _ _ P A) as [_ R]. destruct e as [y|].
  - destruct R as [_ [[-> (g & Hg & T)]|[_ Q]]]; [|discriminate]. split.
    + split; [discriminate|]. intros F. rewrite (F g Hg) in T. discriminate.
    + intros y [= <-]. reflexivity.
  - split; [split; [intros _; apply R|reflexivity]|discriminate].
Qed.
