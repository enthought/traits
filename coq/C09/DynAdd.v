(* C09 — the counting invariant across obj.add_trait (Dyn.DAddTrait): registrations on a not-yet-defined optional
   trait are completed by the trait_added maintainers when the trait is added (possibly with a value already
   assigned by an earlier trait_added handler).  The walks on the heaps without and with the trait differ at the
   nodes naming it on the object (DynCount.decomp); there the old walk hooked only the trait_added maintainer. *)
From Coq Require Import List Arith Bool PeanoNat Lia Permutation.
From TV Require Import C09.Model C09.Dyn C09.Law C09.Proofs C09.LawProofs C09.DynProofs C09.DynCount C09.DynSlot.
Import ListNotations.

Section AddTrait.
  Variable h : heap.
  Variable x0 : oid.
  Variable f0 : fname.
  Variable v : list oid.
  Let h' := add_trait_h h x0 f0 v.
  Hypothesis New : has_trait h x0 f0 = false.
  Hypothesis Ht : is_ht h x0 = true.

  (* the node names the added trait on the object it is added to *)
  Definition ahits (n : node) (x : oid) : bool :=
    match n with NNamed f _ _ => Nat.eqb x x0 && Nat.eqb f f0 | NItems _ _ _ => false end.

  Lemma ahits_slot n x : ahits n x = true -> exists nt opt, n = NNamed f0 nt opt /\ x = x0.
  Proof.
    destruct n as [f nt opt|ck nt opt]; cbn [ahits]; [|discriminate]. intros H. apply andb_true_iff in H.
    destruct H as [Qx Qf]. apply Nat.eqb_eq in Qx. apply Nat.eqb_eq in Qf. subst x f. exists nt, opt. auto.
  Qed.
  Lemma a_hit_new n x : ahits n x = true -> observables h' n x = Some [(x0, f0)] /\ objects h' n x = Some v.
  Proof.
    intros H. destruct (ahits_slot n x H) as (nt & opt & -> & ->).
    unfold h'. cbn [observables objects has_trait links add_trait_h]. rewrite !Nat.eqb_refl. cbn. split; reflexivity.
  Qed.
  Lemma a_hit_old n x : ahits n x = true ->
    observables h n x = (if node_opt n then Some [] else None) /\ objects h n x = (if node_opt n then Some [] else None).
  Proof.
    intros H. destruct (ahits_slot n x H) as (nt & opt & -> & ->). cbn [observables objects node_opt]. rewrite New.
    split; reflexivity.
  Qed.
  Lemma a_nohit n x : ahits n x = false -> observables h' n x = observables h n x /\ objects h' n x = objects h n x.
  Proof.
    destruct n as [f nt opt|ck nt opt]; cbn [ahits]; [|intros _; split; reflexivity]. intros H.
    unfold h'. cbn [observables objects has_trait links add_trait_h]. rewrite H. cbn [orb]. split; reflexivity.
  Qed.
  Lemma a_nexts_old n x : ahits n x = true -> nexts h n x = [].
  Proof. intros H. unfold nexts. rewrite (proj2 (a_hit_old n x H)). destruct (node_opt n); reflexivity. Qed.

  Fixpoint avisits (g : graph) (x : oid) {struct g} : bool :=
    match g with
    | G n cs => ahits n x || existsb (fun c => existsb (fun y => avisits c y) (nexts h n x)) cs
    end.
  Definition aacyclic : Prop := forall ch y, In y v -> avisits ch y = false.

  Lemma aframe k rm g : forall x, avisits g x = false -> plan h' k rm g x = plan h k rm g x.
  Proof. exact (frame h h' ahits avisits (fun _ _ _ => eq_refl) a_nohit (fun _ => eq_refl) k rm g). Qed.

  (* the sub-graphs (rooted at a node naming the added trait) that a walk reaches on the object; the same fixpoint as
     [DynCount.occ h ahits], hence convertible with it *)
  Fixpoint tocc (g : graph) (x : oid) {struct g} : list graph :=
    match g with
    | G n cs => (if ahits n x then [G n cs] else []) ++ flat_map (fun c => flat_map (fun y => tocc c y) (nexts h n x)) cs
    end.
  Lemma tocc_nil g : forall x, avisits g x = false -> tocc g x = [].
  Proof. exact (occ_nil h ahits avisits (fun _ _ _ => eq_refl) g). Qed.

  Lemma a_below n x c y : ahits n x = true -> In y (nexts h n x) -> avisits c y = false.
  Proof. intros H Hy. rewrite (a_nexts_old n x H) in Hy. destruct Hy. Qed.
  Lemma a_xs n x : ahits n x = true -> x = x0.
  Proof. intros H. destruct (ahits_slot n x H) as (_ & _ & _ & ->). reflexivity. Qed.

  Lemma tocc_root g x g' : In g' (tocc g x) -> exists nt opt cs, g' = G (NNamed f0 nt opt) cs.
  Proof.
    intros Hin. destruct (occ_root h ahits x0 a_xs g x g' Hin) as (n & cs & -> & Hh).
    destruct (ahits_slot n x0 Hh) as (nt & opt & -> & _). eauto.
  Qed.
  Definition root0 (g' : graph) : bool := match g' with G (NNamed f' _ _) _ => Nat.eqb f' f0 | _ => false end.
  Lemma tocc_root0 g x g' : In g' (tocc g x) -> root0 g' = true.
  Proof. intros Hin. destruct (tocc_root g x g' Hin) as (nt & opt & cs & ->). cbn. apply Nat.eqb_refl. Qed.

  (* what the trait_added maintainer of such a sub-graph hooks *)
  Definition rcnt (k : key) (g' : graph) (o : obsv) (c : ckey) : nat := ecnt o c (fst (plan_restricted h' k g' x0)).

  (* at a node naming the trait: the new walk = the old one (only its trait_added maintainer) + the restricted plan *)
  Lemma a_hit_cnt k nt opt cs o c :
    snd (plan h k false (G (NNamed f0 nt opt) cs) x0) = false -> snd (plan h' k false (G (NNamed f0 nt opt) cs) x0) = false ->
    snd (plan_restricted h' k (G (NNamed f0 nt opt) cs) x0) = false /\
    pcount h' k (G (NNamed f0 nt opt) cs) x0 o c
    = pcount h k (G (NNamed f0 nt opt) cs) x0 o c + rcnt k (G (NNamed f0 nt opt) cs) o c.
  Proof.
    intros F F'. assert (ahits (NNamed f0 nt opt) x0 = true) as Hh by (cbn [ahits]; rewrite !Nat.eqb_refl; reflexivity).
    destruct (a_hit_new _ _ Hh) as [On Bn]. destruct (a_hit_old _ _ Hh) as [Oo Bo]. cbn [node_opt] in Oo, Bo.
    assert (links h' x0 f0 = v) as Lk by (unfold h'; cbn [links add_trait_h]; rewrite !Nat.eqb_refl; reflexivity).
    assert (snd (pl_all (fun c0 => pl_all (fun y => plan h' k false c0 y) v) cs) = false) as F3.
    { apply pl_all_flag_intro. intros ch Hch. apply pl_all_flag_intro. intros y Hy.
      apply (plan_sub_flag h' k (NNamed f0 nt opt) cs x0 F' ch y Hch). unfold nexts. rewrite Bn. exact Hy. }
    assert (snd (if node_notify (NNamed f0 nt opt) then p_ok [((x0, f0), AUser k)] else p_ok []) = false) as F1
        by (destruct nt; reflexivity).
    unfold rcnt, plan_restricted. rewrite Lk. split.
    - apply pseq_flag_false. split; [exact F1|]. apply pseq_flag_false. split; [reflexivity|exact F3].
    - rewrite (plan_cnt h' k _ cs x0 o c F'), (plan_cnt h k _ cs x0 o c F), (a_nexts_old _ _ Hh).
      rewrite (lsum_zero (fun ch => lsum _ []) cs) by reflexivity.
      rewrite (pseq_ecnt o c _ _ F1), (pseq_ecnt o c (p_ok _) _ eq_refl), (pl_all_ecnt o c _ cs F3).
      assert (lsum (fun a : graph => ecnt o c (fst (pl_all (fun y => plan h' k false a y) v))) cs
              = lsum (fun ch => lsum (fun y => pcount h' k ch y o c) v) cs) as ->
        by (apply lsum_ext; intros ch Hch; apply pl_all_ecnt, (pl_all_flag _ _ F3 ch Hch)).
      (* x0 has no trait f0 on h: a non-optional node there raises, and F says the old walk does not *)
      assert (opt = true) as -> by (destruct opt; [reflexivity|cbn [plan] in F; rewrite Oo in F; destruct nt; discriminate F]).
      unfold nexts. rewrite Bn. unfold loc, loc1, loc2. rewrite On, Oo. change (loc4 h' k) with (loc4 h k).
      cbn [node_notify node_mk flat_map p_ok fst]. rewrite app_nil_r. unfold obsv. destruct nt; cbn [map p_ok fst ecnt]; lia.
  Qed.

  Lemma asubst k o c g x :
    snd (plan h k false g x) = false -> snd (plan h' k false g x) = false ->
    pcount h' k g x o c = pcount h k g x o c + lsum (fun g' => rcnt k g' o c) (tocc g x).
  Proof.
    intros F F'.
    pose proof (decomp h h' ahits x0 avisits (fun _ _ _ => eq_refl) a_nohit (fun _ => eq_refl) a_xs a_below k o c g x F F') as D.
    assert (forall g', In g' (tocc g x) -> pcount h' k g' x0 o c = pcount h k g' x0 o c + rcnt k g' o c) as E.
    { intros g' Hin. destruct (tocc_root g x g' Hin) as (nt & opt & cs & ->). apply a_hit_cnt.
      - apply (occ_flags h ahits x0 avisits (fun _ _ _ => eq_refl) a_xs a_below h k (fun _ _ _ => eq_refl) g x F _ Hin).
      - apply (occ_flags h ahits x0 avisits (fun _ _ _ => eq_refl) a_xs a_below h' k
                 (fun n x Hh => f_equal (fun o => match o with Some ys => ys | None => [] end) (proj2 (a_nohit n x Hh))) g x F' _ Hin). }
    apply lsum_ext in E. rewrite lsum_plus in E. change (occ h ahits g x) with (tocc g x) in D. lia.
  Qed.
  Lemma tocc_flags k g x : snd (plan h k false g x) = false -> snd (plan h' k false g x) = false ->
    forall g', In g' (tocc g x) -> snd (plan_restricted h' k g' x0) = false.
  Proof.
    intros F F' g' Hin. destruct (tocc_root g x g' Hin) as (nt & opt & cs & ->). apply (a_hit_cnt k nt opt cs (x0, f0) (CF 0)).
    - apply (occ_flags h ahits x0 avisits (fun _ _ _ => eq_refl) a_xs a_below h k (fun _ _ _ => eq_refl) g x F _ Hin).
    - apply (occ_flags h ahits x0 avisits (fun _ _ _ => eq_refl) a_xs a_below h' k
               (fun n x Hh => f_equal (fun o => match o with Some ys => ys | None => [] end) (proj2 (a_nohit n x Hh))) g x F' _ Hin).
  Qed.

  (* the trait_added maintainers whose graph names the added trait: those the add_trait loop runs *)
  Definition sel_ta (m : mkind) (g' : graph) : bool := match m with MTA => root0 g' | _ => false end.
  Definition ta (g' : graph) : list mg := [(MTA, g')].
  Lemma ta_sum (Q : graph -> nat) g x : lsum (fun mc : mg => Q (snd mc)) (placed h ahits ta g x) = lsum Q (tocc g x).
  Proof. unfold placed. rewrite lsum_flat_map. apply lsum_ext. intros g' _. cbn. lia. Qed.

  Lemma ta_on_slot k m g' g x : sel_ta m g' = true -> snd (plan h k false g x) = false ->
    pcount h k g x (x0, F_TA) (CK (AMaint m g' k)) = cntA mg_eqb (m, g') (placed h ahits ta g x).
  Proof.
    intros S. apply (on_slot h ahits (x0, F_TA) sel_ta ta); [|exact S]. clear k m g' g x S. intros k n cs x m c S _.
    destruct m; try discriminate S. cbn [sel_ta] in S. unfold loc. rewrite loc1_maint, loc2_ta. cbn [Nat.add]. unfold loc4, cntA, ta.
    destruct n as [f nt opt|ck nt opt]; cbn [ahits]; [|reflexivity].
    destruct (is_ht h x) eqn:Q.
    - change [((x, F_TA), AMaint MTA (G (NNamed f nt opt) cs) k)]
        with (map (fun c => ((x, F_TA), AMaint MTA c k)) [G (NNamed f nt opt) cs]).
      cbn [p_ok fst]. rewrite ecnt_map_maint. unfold obsv_eqb, mg_eqb. cbn [fst snd mkind_eqb lsum]. rewrite Nat.eqb_refl, !andb_true_r.
      destruct (Nat.eqb x x0); cbn [andb]; [|reflexivity]. destruct (Nat.eqb f f0) eqn:Qf; [reflexivity|].
      destruct (graph_eqb (G (NNamed f nt opt) cs) c) eqn:Qg; [|reflexivity].
      apply graph_eqb_spec in Qg. subst c. cbn [root0] in S. congruence.
    - assert (Nat.eqb x x0 = false) as -> by (destruct (Nat.eqb_spec x x0); [subst; congruence|reflexivity]).
      cbn [andb]. destruct opt; reflexivity.
  Qed.

  Lemma walk_plan_add_ok p H : snd p = false -> posH H ->
    exists H1, walk_plan p false H = (H1, None) /\ posH H1 /\ forall o c, cntH H1 o c = cntH H o c + ecnt o c (fst p).
  Proof.
    destruct p as [es sf]. cbn [fst snd]. intros -> P. unfold walk_plan.
    destruct (exec_add es H []) as (H1 & E1 & C1 & P1). rewrite E1. exists H1. split; [reflexivity|]. split; [apply P1, P|exact C1].
  Qed.
  Definition aadd (o : obsv) (cc : ckey) : notifier -> nat :=
    per_maint sel_ta (fun p : mgk => rcnt (snd p) (snd (fst p)) o cc).
  Lemma run_ta_acc s : dead_handlers s = [] -> dead_objs s = [] ->
    forall ns H calls, posH H ->
    (forall g' k, In (NMaint MTA g' k) ns -> root0 g' = true -> snd (plan_restricted h' k g' x0) = false) ->
    exists H' calls', run_ta_notifiers h' s x0 f0 ns H calls = (H', calls', None) /\ posH H' /\
      forall o cc, cntH H' o cc = cntH H o cc + lsum (aadd o cc) ns.
  Proof.
    intros Dh Do. assert (forall k, alive s k = true) as Al by (intros k; unfold alive; rewrite Dh, Do; reflexivity).
    induction ns as [|n r IH]; intros H calls P F; cbn [run_ta_notifiers].
    - exists H, calls. split; [reflexivity|]. split; [exact P|]. intros; cbn; lia.
    - assert (forall g' k, In (NMaint MTA g' k) r -> root0 g' = true -> snd (plan_restricted h' k g' x0) = false) as Fr
          by (intros; apply F; [right|]; assumption).
      (* a notifier the loop passes over *)
      assert (forall calls0, (forall o cc, aadd o cc n = 0) ->
                exists H' calls', run_ta_notifiers h' s x0 f0 r H calls0 = (H', calls', None) /\ posH H' /\
                  forall o cc, cntH H' o cc = cntH H o cc + lsum (aadd o cc) (n :: r)) as Skip.
      { intros calls0 Z. destruct (IH H calls0 P Fr) as (H' & calls' & E & P' & C'). exists H', calls'.
        split; [exact E|]. split; [exact P'|]. intros o cc. cbn [lsum]. rewrite Z, C'. lia. }
      destruct n as [k rc|m g' k|i]; [apply Skip; intros; reflexivity| |apply Skip; intros; reflexivity].
      destruct m; [apply Skip; intros; reflexivity|apply Skip; intros; reflexivity|].
      destruct g' as [[f' nt opt|ck nt opt] cs]; [|apply Skip; intros; reflexivity].
      rewrite Al. cbn [andb]. destruct (Nat.eqb f' f0) eqn:Qf.
      + assert (root0 (G (NNamed f' nt opt) cs) = true) as Rt by exact Qf.
        destruct (walk_plan_add_ok (plan_restricted h' k (G (NNamed f' nt opt) cs) x0) H
                    (F _ _ (or_introl eq_refl) Rt) P) as (H1 & E1 & P1 & C1).
        rewrite E1. destruct (IH H1 calls P1 Fr) as (H' & calls' & E & P' & C'). exists H', calls'.
        split; [exact E|]. split; [exact P'|]. intros o cc. cbn [lsum aadd per_maint sel_ta fst snd]. rewrite Rt, C', C1. unfold rcnt. lia.
      + apply Skip. intros o cc. cbn [aadd per_maint sel_ta root0]. rewrite Qf. reflexivity.
  Qed.

  (* one add_trait: the trait_added maintainers complete every live registration that names the new trait *)
  Theorem add_trait_step (A : aacyclic) R H s : dinv h H R -> flags_ok h' R ->
    dead_handlers s = [] -> dead_objs s = [] ->
    exists H' calls, run_ta_notifiers h' s x0 f0 (H (x0, F_TA)) H [] = (H', calls, None) /\ dinv h' H' R.
  Proof.
    intros I F' Dh Do. pose proof I as (P & Inv & F).
    destruct (fun On => found_are_planned sel_ta (placed h ahits ta) h (x0, F_TA) R On H I) as [Sum Src].
    { intros k g x Hr m c. destruct (sel_ta m c) eqn:S; [symmetry; apply (ta_on_slot k m c g x S (F k g x Hr))|].
      apply lsum_zero. intros mc Hmc. apply in_flat_map in Hmc. destruct Hmc as (g' & Hin & [<-|[]]).
      unfold mg_eqb. cbn [fst snd]. destruct m; try reflexivity. cbn [mkind_eqb andb].
      destruct (graph_eqb g' c) eqn:Q; [|reflexivity]. apply graph_eqb_spec in Q. subst c.
      cbn [sel_ta] in S. rewrite (tocc_root0 g x g' Hin) in S. discriminate. }
    destruct (run_ta_acc s Dh Do (H (x0, F_TA)) H [] P) as (H' & calls & E & P' & C).
    { intros c k Hin Rt. destruct (Src MTA c k Hin Rt) as (g & x & Hr & Hc).
      apply in_flat_map in Hc. destruct Hc as (g' & Hg' & [Eq|[]]). inversion Eq; subst g'.
      apply (tocc_flags k g x (F k g x Hr) (F' k g x Hr) c Hg'). }
    exists H', calls. split; [exact E|]. split; [exact P'|]. split; [|exact F'].
    intros o a. rewrite (C o (CK a)). unfold aadd. rewrite lsum_maints, Sum, lsum_planned, Inv.
    unfold tot. rewrite <- lsum_plus. apply lsum_ext. intros [[k g] x] Hr.
    rewrite (ta_sum (fun g' => rcnt k g' o (CK a))). symmetry. apply (asubst k o (CK a) g x (F k g x Hr) (F' k g x Hr)).
  Qed.
End AddTrait.

Inductive cop3 :=
| C2 (c : cop2)
| CAdd (x : oid) (f : fname) (v : list oid)       (* x.add_trait(f, ...) of a new name; the trait then holds v *)
| CReAdd (x : oid) (f : fname) (v : list oid).    (* x.add_trait(f, ...) of a name that already is a trait of x *)
Definition dop_of3 (c : cop3) : dop :=
  match c with C2 c' => dop_of2 c' | CAdd x f v | CReAdd x f v => DAddTrait x f v end.
Definition live_after3 (R : list reg) (c : cop3) (ob : obs) : list reg :=
  match c with C2 c' => live_after2 R c' ob | CAdd _ _ _ | CReAdd _ _ _ => R end.
(* add_trait is admissible if the name is new on a HasTraits object, the object's new trait is not reachable from the
   value the trait starts with, and the live registrations stay valid *)
Definition admissible3 (h : heap) (R : list reg) (c : cop3) : Prop :=
  match c with
  | C2 c' => admissible2 h R c'
  | CAdd x f v => has_trait h x f = false /\ is_ht h x = true /\ aacyclic h x f v /\ flags_ok (add_trait_h h x f v) R
  | CReAdd x f v => has_trait h x f = true
  end.
Fixpoint crun3 (d : dstate) (R : list reg) (ops : list cop3) : dstate * list reg * list (cop3 * obs) :=
  match ops with
  | [] => (d, R, [])
  | c :: r => let '(d1, ob) := dstep d (dop_of3 c) in
              let '(d2, R2, tr) := crun3 d1 (live_after3 R c ob) r in (d2, R2, (c, ob) :: tr)
  end.
Fixpoint admissible_run3 (d : dstate) (R : list reg) (ops : list cop3) : Prop :=
  match ops with
  | [] => True
  | c :: r => admissible3 (d_heap d) R c /\
              admissible_run3 (fst (dstep d (dop_of3 c))) (live_after3 R c (snd (dstep d (dop_of3 c)))) r
  end.
Definition quiet_outcome3 (c : cop3) (ob : obs) : Prop :=
  match c with
  | C2 c' => quiet_outcome c' ob
  | CAdd _ _ _ => o_out ob = None
  | CReAdd _ _ _ => o_out ob = None /\ o_calls ob = []      (* re-definition: trait_added is not fired, nobody is called *)
  end.

Lemma cstep3 d R c d1 ob : dstate_inv d R -> admissible3 (d_heap d) R c -> dstep d (dop_of3 c) = (d1, ob) ->
  dstate_inv d1 (live_after3 R c ob) /\ quiet_outcome3 c ob.
Proof.
  intros I Ad S. destruct c as [c'|x f v|x f v]; cbn [dop_of3 live_after3 admissible3 quiet_outcome3] in *.
  - apply (cstep2 d R c' d1 ob I Ad S).
  - destruct I as [I [Dh Do]]. destruct Ad as (New & Ht & A & F').
    cbn [dstep] in S. rewrite New in S.
    destruct (add_trait_step (d_heap d) x f v New Ht A R (st_hooks (d_st d)) (d_st d) I F' Dh Do) as (H' & calls & E & I').
    rewrite E in S. inversion S; subst d1 ob. cbn [o_out]. split; [|reflexivity].
    split; [exact I'|split; assumption].
  - cbn [dstep] in S. rewrite Ad in S. inversion S; subst d1 ob. split; [exact I|split; reflexivity].
Qed.

Lemma add_trait_calls (h hrun : heap) R H s x f H' calls k :
  dinv h H R -> wfH H -> dead_handlers s = [] -> dead_objs s = [] ->
  run_ta_notifiers hrun s x f (H (x, F_TA)) H [] = (H', calls, None) ->
  (ncalls k calls <= 1) /\
  (ncalls k calls = 1 <-> exists g y, In (k, g, y) R /\ l_matched h g y (x, F_TA) = true).
Proof.
  intros I W Dh Do Rn. rewrite (run_ta_notifiers_calls _ _ _ _ _ _ _ _ _ Rn). apply (calls_once_iff_matched _ _ _ _ _ _ I W Dh Do).
Qed.

(* the slot (observable) a history step fires *)
Definition slot_of (c : cop) : option obsv :=
  match c with CChange o f => Some (o, f) | CLink x f _ => Some (x, f) | _ => None end.
Definition slot_of2 (c : cop2) : option obsv :=
  match c with C1 c' => slot_of c' | CItems c0 _ _ _ _ => Some (c0, F_ITEMS) end.
Definition slot_of3 (c : cop3) : option obsv :=
  match c with C2 c' => slot_of2 c' | CAdd x _ _ => Some (x, F_TA) | CReAdd _ _ _ => None end.

Lemma cstep3_fires d R c d1 ob : admissible3 (d_heap d) R c -> dstep d (dop_of3 c) = (d1, ob) -> quiet_outcome3 c ob ->
  o_calls ob = match slot_of3 c with Some sg => calls_of (d_st d) (st_hooks (d_st d) sg) | None => [] end.
Proof.
  intros Ad S Q.
  destruct c as [[[x hd dp g|x hd dp g|o f|x0 f0 v]|c0 v removed added rest]|x f v|x f v];
    cbn [slot_of3 slot_of2 slot_of dop_of3 dop_of2 dop_of dstep admissible3 quiet_outcome3 quiet_outcome] in *.
  1,2: destruct (step _ _ _) as [s' ob'] eqn:St; inversion S; subst; apply (step_reg_frame _ _ _ _ _ St).
  - inversion S; subst. reflexivity.
  - destruct (run_notifiers _ _ _ _ _ _ _ _) as [[H calls] e] eqn:E. inversion S; subst. cbn [o_out o_calls] in *. subst e.
    apply (run_notifiers_calls _ _ _ _ _ _ _ _ _ _ E).
  - destruct (run_notifiers _ _ _ _ _ _ _ _) as [[H calls] e] eqn:E. inversion S; subst. cbn [o_out o_calls] in *. subst e.
    apply (run_notifiers_calls _ _ _ _ _ _ _ _ _ _ E).
  - rewrite (proj1 Ad) in S. destruct (run_ta_notifiers _ _ _ _ _ _ _) as [[H calls] e] eqn:E. inversion S; subst.
    cbn [o_out o_calls] in *. subst e. apply (run_ta_notifiers_calls _ _ _ _ _ _ _ _ _ E).
  - apply Q.
Qed.

Lemma cstep3_calls d R c d1 ob k : dstate_inv d R -> wfH (st_hooks (d_st d)) -> admissible3 (d_heap d) R c ->
  dstep d (dop_of3 c) = (d1, ob) ->
  match slot_of3 c with
  | Some sg => ncalls k (o_calls ob) <= 1 /\
               (ncalls k (o_calls ob) = 1 <-> exists g x, In (k, g, x) R /\ l_matched (d_heap d) g x sg = true)
  | None => o_calls ob = []
  end.
Proof.
  intros I W Ad S. rewrite (cstep3_fires d R c d1 ob Ad S (proj2 (cstep3 d R c d1 ob I Ad S))).
  destruct I as [I [Dh Do]]. destruct (slot_of3 c); [apply (calls_once_iff_matched _ _ _ _ _ _ I W Dh Do)|reflexivity].
Qed.

Lemma crun3_wf : forall ops d R d' R' tr, wfH (st_hooks (d_st d)) -> crun3 d R ops = (d', R', tr) ->
  wfH (st_hooks (d_st d')).
Proof. exact (grun_wf cop3 dop_of3 live_after3). Qed.
