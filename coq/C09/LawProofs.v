(* C09 — the boolean law of Law.v holds on the model's own observations of every history. *)
From Coq Require Import List Arith Bool PeanoNat Lia Permutation.
From TV Require Import C09.Model C09.Law C09.Proofs.
Import ListNotations.

Lemma notifier_eqb_spec a b : notifier_eqb a b = true <-> a = b.
Proof.
  destruct a, b; cbn; try (split; congruence).
  - rewrite andb_true_iff, key_eqb_spec, Nat.eqb_eq. split; [intros [-> ->]; reflexivity|intros [= -> ->]; auto].
  - rewrite !andb_true_iff, mkind_eqb_spec, graph_eqb_spec, key_eqb_spec.
    split; [intros [[-> ->] ->]; reflexivity|intros [= -> -> ->]; auto].
  - rewrite Nat.eqb_eq. split; [intros ->; reflexivity|intros [= ->]; reflexivity].
Qed.
Lemma remove_first_perm n l : forall l', remove_first n l = Some l' -> Permutation l (n :: l').
Proof.
  induction l as [|m r IH]; intros l' E; [discriminate|]. cbn [remove_first] in E.
  destruct (notifier_eqb n m) eqn:Q.
  - apply notifier_eqb_spec in Q. subst. inversion E; subst. reflexivity.
  - destruct (remove_first n r) as [r'|]; [|discriminate]. inversion E; subst.
    rewrite (IH r' eq_refl). apply perm_swap.
Qed.
Lemma remove_first_in n l : In n l -> exists l', remove_first n l = Some l'.
Proof.
  induction l as [|m r IH]; intros Hin; [destruct Hin|]. cbn [remove_first].
  destruct (notifier_eqb n m) eqn:Q; [eauto|].
  destruct Hin as [->|Hin].
  - assert (notifier_eqb n n = true) by (apply notifier_eqb_spec; reflexivity). congruence.
  - destruct (IH Hin) as [r' ->]. cbn. eauto.
Qed.
Lemma nl_perm_complete : forall a b, Permutation a b -> nl_perm a b = true.
Proof.
  induction a as [|n a IH]; intros b P; cbn [nl_perm].
  - apply Permutation_nil in P. subst. reflexivity.
  - destruct (remove_first_in n b) as [b' R]; [apply (Permutation_in _ P); left; reflexivity|].
    rewrite R. apply IH. apply (Permutation_cons_inv (a := n)).
    rewrite P. apply (remove_first_perm _ _ _ R).
Qed.

Definition snap_of_hooks (univ : list obsv) (H : hooks) : snap := map (fun o => (o, H o)) univ.
Lemma snap_get_of_hooks univ H rest o : In o univ -> snap_get (snap_of_hooks univ H ++ rest) o = H o.
Proof.
  induction univ as [|u r IH]; intros Hin; [destruct Hin|]. cbn [snap_of_hooks map app snap_get].
  destruct (obsv_eqb o u) eqn:Q.
  - apply obsv_eqb_spec in Q. subst. reflexivity.
  - destruct Hin as [->|Hin]; [rewrite obsv_eqb_refl in Q; discriminate|apply IH, Hin].
Qed.
Lemma snap_same_intro univ dobj a b :
  (forall o, In o univ -> Permutation (snap_get a o) (snap_get b o)) -> snap_same univ dobj a b = true.
Proof.
  intros P. unfold snap_same. apply forallb_forall. intros o Ho.
  rewrite (nl_perm_complete _ _ (P o Ho)). apply orb_true_r.
Qed.

Lemma glist_eqb_spec a : forall b, glist_eqb a b = true <-> a = b.
Proof.
  induction a as [|x a IH]; intros [|y b]; cbn; try (split; congruence).
  rewrite andb_true_iff, graph_eqb_spec, IH. split; [intros [-> ->]; reflexivity|intros [= -> ->]; auto].
Qed.
Lemma sig_eqb_spec (a b : sig) : sig_eqb a b = true <-> a = b.
Proof.
  destruct a as [[[x hd] dp] gs], b as [[[x' hd'] dp'] gs']. cbn.
  rewrite !andb_true_iff, !Nat.eqb_eq, glist_eqb_spec.
  split; [intros [[[-> ->] ->] ->]; reflexivity|intros [= -> -> -> ->]; auto].
Qed.
Lemma sig_eqb_refl s : sig_eqb s s = true.
Proof. apply sig_eqb_spec. reflexivity. Qed.

Fixpoint ssum (F : sig -> nat) (l : list sig) : nat :=
  match l with [] => 0 | s :: r => F s + ssum F r end.
Lemma ssum_app F a b : ssum F (a ++ b) = ssum F a + ssum F b.
Proof. induction a; cbn; lia. Qed.
Lemma ssum_perm F a b : Permutation a b -> ssum F a = ssum F b.
Proof. induction 1; cbn; lia. Qed.
Lemma sigs_cnt_ssum h l o c : sigs_cnt h l o c = ssum (fun s => sig_cnt h s o c) l.
Proof. induction l; cbn; congruence. Qed.

Lemma cnt_sig_cons s t l : cnt_sig s (t :: l) = b2n (sig_eqb s t) + cnt_sig s l.
Proof. unfold cnt_sig. cbn [filter]. destruct (sig_eqb s t); reflexivity. Qed.
Lemma cnt_sig_app s a b : cnt_sig s (a ++ b) = cnt_sig s a + cnt_sig s b.
Proof. unfold cnt_sig. rewrite filter_app, app_length. reflexivity. Qed.
Lemma cnt_sig_pos s l : 0 < cnt_sig s l <-> In s l.
Proof.
  rewrite (sum_pos (fun t => b2n (sig_eqb s t)) (cnt_sig s) eq_refl (cnt_sig_cons s)). split.
  - intros (t & Ht & P). destruct (sig_eqb s t) eqn:Q; [|cbn in P; lia]. apply sig_eqb_spec in Q. subst. exact Ht.
  - intros Hin. exists s. rewrite sig_eqb_refl. split; [exact Hin|cbn; lia].
Qed.
Lemma cnt_sig_in_pos s l : In s l -> 0 < cnt_sig s l.
Proof. apply cnt_sig_pos. Qed.
Lemma cnt_sig_perm s a b : Permutation a b -> cnt_sig s a = cnt_sig s b.
Proof. induction 1; rewrite ?cnt_sig_cons; lia. Qed.

Lemma submultiset : forall U R, (forall s, cnt_sig s U <= cnt_sig s R) -> exists X, Permutation R (U ++ X).
Proof.
  induction U as [|u U IH]; intros R C; [exists R; reflexivity|].
  assert (In u R) as Hin.
  { apply cnt_sig_pos. specialize (C u). rewrite cnt_sig_cons, sig_eqb_refl in C. cbn in C. lia. }
  destruct (in_split _ _ Hin) as (l1 & l2 & ->).
  destruct (IH (l1 ++ l2)) as [X PX].
  { intros s. specialize (C s). rewrite cnt_sig_cons in C. rewrite cnt_sig_app in *. rewrite cnt_sig_cons in C. lia. }
  exists X. rewrite <- Permutation_middle. cbn [app]. apply perm_skip. exact PX.
Qed.

Lemma cnt_sig_filter P s l : cnt_sig s (filter P l) = if P s then cnt_sig s l else 0.
Proof.
  induction l as [|t r IH]; [cbn; destruct (P s); reflexivity|]. cbn [filter].
  destruct (P t) eqn:Pt; rewrite ?cnt_sig_cons, IH; (destruct (sig_eqb s t) eqn:Q;
    [apply sig_eqb_spec in Q; subst; rewrite Pt; reflexivity|destruct (P s); reflexivity]).
Qed.
Lemma ssum_filter F P l : (forall s, P s = false -> F s = 0) -> ssum F (filter P l) = ssum F l.
Proof.
  intros Z. induction l as [|t r IH]; [reflexivity|]. cbn [filter ssum].
  destruct (P t) eqn:Pt; cbn [ssum]; rewrite IH; [reflexivity|]. rewrite (Z t Pt). reflexivity.
Qed.

(* Comparing two sums over signature multisets U and R: where U is below R on the signatures that matter
   (those on which F can be non-zero), R is U plus a remainder X. *)
Lemma sum_split F P U R : (forall s, P s = true -> cnt_sig s U <= cnt_sig s R) ->
  (forall s, P s = false -> F s = 0) ->
  exists X, ssum F R = ssum F U + ssum F X /\ forall s, P s = true -> cnt_sig s R = cnt_sig s U + cnt_sig s X.
Proof.
  intros C Z. destruct (submultiset (filter P U) (filter P R)) as [X PX].
  { intros s. rewrite !cnt_sig_filter. destruct (P s) eqn:Ps; [apply C, Ps|lia]. }
  exists X. split.
  - rewrite <- (ssum_filter F P U Z), <- (ssum_filter F P R Z), (ssum_perm F _ _ PX), ssum_app. reflexivity.
  - intros s Ps. pose proof (cnt_sig_perm s _ _ PX) as E. rewrite cnt_sig_app, !cnt_sig_filter, Ps in E. exact E.
Qed.
Lemma sum_le F P U R : (forall s, P s = true -> cnt_sig s U <= cnt_sig s R) ->
  (forall s, P s = false -> F s = 0) -> ssum F U <= ssum F R.
Proof. intros C Z. destruct (sum_split F P U R C Z) as (X & E & _). lia. Qed.
Lemma sum_eq F P U R : (forall s, P s = true -> cnt_sig s U = cnt_sig s R) ->
  (forall s, P s = false -> F s = 0) -> ssum F U = ssum F R.
Proof.
  intros C Z. apply Nat.le_antisymm; apply (sum_le F P); auto; intros s Ps; rewrite (C s Ps); lia.
Qed.

Definition akey_key (a : akey) : key := match a with AUser k | AMaint _ _ k => k end.

Lemma pseq_flag_false p q : snd (pseq p q) = false <-> snd p = false /\ snd q = false.
Proof. rewrite pseq_snd. apply orb_false_iff. Qed.
Lemma pl_all_flag {A} (f : A -> pl) l : snd (pl_all f l) = false -> forall a, In a l -> snd (f a) = false.
Proof.
  induction l as [|b l IH]; intros F a Hin; [destruct Hin|].
  change (pl_all f (b :: l)) with (pseq (f b) (pl_all f l)) in F. apply pseq_flag_false in F.
  destruct F as [Fb Fl]. destruct Hin as [->|Hin]; [exact Fb|apply IH; assumption].
Qed.
Lemma pl_all_flag_intro {A} (f : A -> pl) l : (forall a, In a l -> snd (f a) = false) -> snd (pl_all f l) = false.
Proof.
  induction l as [|b l IH]; intros F; [reflexivity|].
  change (pl_all f (b :: l)) with (pseq (f b) (pl_all f l)). apply pseq_flag_false.
  split; [apply F; left; reflexivity|apply IH; intros; apply F; right; assumption].
Qed.
Lemma pl_all_pos {A} o c (f : A -> pl) l (Q : A -> Prop) : snd (pl_all f l) = false ->
  (forall a, In a l -> snd (f a) = false -> (0 < ecnt o c (fst (f a)) <-> Q a)) ->
  (0 < ecnt o c (fst (pl_all f l)) <-> exists a, In a l /\ Q a).
Proof.
  induction l as [|b l IH]; intros F E.
  - cbn. split; [lia|intros (a & [] & _)].
  - change (pl_all f (b :: l)) with (pseq (f b) (pl_all f l)) in *. apply pseq_flag_false in F.
    destruct F as [Fb Fl]. rewrite (pseq_ecnt o c _ _ Fb).
    specialize (IH Fl (fun a Ha => E a (or_intror Ha))). pose proof (E b (or_introl eq_refl) Fb) as Eb. split.
    + intros H. destruct (Nat.eq_dec (ecnt o c (fst (f b))) 0) as [Z|Z].
      * destruct (proj1 IH) as (a & Ha & Pa); [lia|]. exists a. split; [right; exact Ha|exact Pa].
      * exists b. split; [left; reflexivity|apply Eb; lia].
    + intros (a & [->|Ha] & Pa); [apply Eb in Pa; lia|].
      assert (0 < ecnt o c (fst (pl_all f l))) by (apply IH; eauto). lia.
Qed.

Definition all_entries (P : entry -> Prop) (p : pl) : Prop := forall e, In e (fst p) -> P e.
Lemma all_pseq P p q : all_entries P p -> all_entries P q -> all_entries P (pseq p q).
Proof.
  intros Hp Hq e. destruct p as [l [|]]; cbn; [apply Hp|]. intros Hin. apply in_app_or in Hin.
  destruct Hin; [apply Hp|apply Hq]; assumption.
Qed.
Lemma all_pl_all {A} P (f : A -> pl) l : (forall a, In a l -> all_entries P (f a)) -> all_entries P (pl_all f l).
Proof.
  induction l as [|a l IH]; intros H; [intros e []|].
  change (pl_all f (a :: l)) with (pseq (f a) (pl_all f l)).
  apply all_pseq; [apply H; left; reflexivity|apply IH; intros; apply H; right; assumption].
Qed.

Lemma plan_keys h k rm g : forall x, all_entries (fun e => akey_key (snd e) = k) (plan h k rm g x).
Proof.
  induction g as [n cs IH] using graph_ind'. intros x. rewrite Forall_forall in IH. cbn [plan].
  match goal with |- all_entries ?P (if rm then pseq ?s4 (pseq ?s3 (pseq ?s2 ?s1)) else _) =>
    assert (all_entries P s1 /\ all_entries P s2 /\ all_entries P s3 /\ all_entries P s4) as (A1 & A2 & A3 & A4);
    [|destruct rm; repeat apply all_pseq; assumption] end.
  repeat split.
  - intros e He. destruct (node_notify n); [|destruct He].
    destruct (observables h n x); [|destruct He]. cbn in He. apply in_map_iff in He.
    destruct He as (o & <- & _). reflexivity.
  - intros e He. destruct (observables h n x); [|destruct He]. cbn in He. apply in_flat_map in He.
    destruct He as (o & _ & He). apply in_map_iff in He. destruct He as (c & <- & _). reflexivity.
  - apply all_pl_all. intros c Hc. destruct (objects h n x); [|intros e []].
    apply all_pl_all. intros y _. apply (IH c Hc y).
  - intros e He. destruct n as [f nt opt|ck nt opt]; [|destruct He].
    destruct (is_ht h x); [|destruct opt; destruct He]. destruct He as [<-|[]]. reflexivity.
Qed.

Lemma ecnt_none o c es : (forall e, In e es -> CK (snd e) <> c) -> ecnt o c es = 0.
Proof.
  intros N. destruct (Nat.eq_dec (ecnt o c es) 0) as [Z|Z]; [exact Z|].
  destruct (ecnt_pos_in o c es) as (e & He & _ & E); [lia|]. elim (N e He E).
Qed.
Lemma plan_other_key h k rm g x o a : akey_key a <> k -> ecnt o (CK a) (fst (plan h k rm g x)) = 0.
Proof. intros N. apply ecnt_none. intros e He [= <-]. apply N, (plan_keys _ _ _ _ _ _ He). Qed.
Lemma plan_no_foreign h k rm g x o i : ecnt o (CF i) (fst (plan h k rm g x)) = 0.
Proof. apply ecnt_none. discriminate. Qed.

(* the law's [applies] decides what a node observes and where its children go *)
Lemma observables_applies h n x :
  observables h n x = if applies h n x then Some [node_slot n x] else if node_opt n then Some [] else None.
Proof. destruct n; cbn; destruct (_ : bool); reflexivity. Qed.
Lemma objects_applies h n x :
  objects h n x = if applies h n x then Some (next_objs h n x) else if node_opt n then Some [] else None.
Proof. destruct n; cbn; destruct (_ : bool); reflexivity. Qed.

Lemma ecnt_user_of_maints o k es :
  (forall e, In e es -> match snd e with AMaint _ _ _ => True | AUser _ => False end) ->
  ecnt o (CK (AUser k)) es = 0.
Proof. intros M. apply ecnt_none. intros e He [= E]. specialize (M e He). rewrite E in M. exact M. Qed.

(* a planned user notifier on tgt <-> the expression matches tgt (from-scratch oracle of the law) *)
Lemma plan_matched h k g : forall x tgt, snd (plan h k false g x) = false ->
  (0 < ecnt tgt (CK (AUser k)) (fst (plan h k false g x)) <-> l_matched h g x tgt = true).
Proof.
  induction g as [n cs IH] using graph_ind'. intros x tgt F. rewrite Forall_forall in IH.
  cbn [plan l_matched] in *. rewrite observables_applies, objects_applies in *.
  apply pseq_flag_false in F. destruct F as [F1 F]. apply pseq_flag_false in F. destruct F as [F2 F].
  apply pseq_flag_false in F. destruct F as [F3 F4].
  rewrite (pseq_ecnt _ _ _ _ F1), (pseq_ecnt _ _ _ _ F2), (pseq_ecnt _ _ _ _ F3).
  (* maintainers and the trait_added entry are no user notifiers *)
  match goal with |- context [ecnt tgt (CK (AUser k)) (fst ?s2) + (_ + ecnt tgt (CK (AUser k)) (fst ?s4))] =>
    assert (ecnt tgt (CK (AUser k)) (fst s2) = 0) as E2;
    [|assert (ecnt tgt (CK (AUser k)) (fst s4) = 0) as E4] end.
  { apply ecnt_user_of_maints. intros e He. destruct (applies h n x); [|destruct (node_opt n)]; try destruct He.
    cbn in He. apply in_app_or in He. destruct He as [He|[]]. apply in_map_iff in He.
    destruct He as (c & <- & _). exact I. }
  { apply ecnt_user_of_maints. intros e He. destruct n as [f nt opt|ck nt opt]; [|destruct He].
    destruct (is_ht h x); [|destruct opt; destruct He]. destruct He as [<-|[]]. exact I. }
  rewrite E2, E4, Nat.add_0_l, Nat.add_0_r. clear E2 E4.
  destruct (applies h n x) eqn:Ap; cbn [andb].
  - rewrite orb_true_iff, andb_true_iff, existsb_exists.
    match goal with |- context [fst (pl_all ?f cs)] =>
      pose proof (pl_all_pos tgt (CK (AUser k)) f cs
                    (fun c => existsb (fun y => l_matched h c y tgt) (next_objs h n x) = true) F3) as E3 end.
    lapply E3; clear E3; [intros E3|].
    2:{ intros c Hc Fc. rewrite existsb_exists. apply (pl_all_pos _ _ _ _ _ Fc).
        intros y Hy Fy. apply (IH c Hc y tgt Fy). }
    destruct (node_notify n); cbn [p_ok fst map ecnt]; [|cbn [Nat.add]; rewrite E3; split; [auto|intros [[[=] _]|H]; exact H]].
    unfold eind. cbn [fst snd ckey_eqb akey_eqb]. rewrite key_eqb_refl, andb_true_r, Nat.add_0_r.
    destruct (obsv_eqb (node_slot n x) tgt); cbn [b2n].
    + split; [intros _; left; split; reflexivity|intros _; lia].
    + rewrite <- E3. split; [intros H; right; exact H|intros [[_ [=]]|H]; exact H].
  - destruct (node_opt n); [|destruct (node_notify n); [discriminate F1|discriminate F2]].
    assert (ecnt tgt (CK (AUser k)) (fst (pl_all (fun c : graph => pl_all (fun y => plan h k false c y) []) cs)) = 0) as Z
      by (clear; induction cs; [reflexivity|exact IHcs]).
    destruct (node_notify n); cbn [p_ok fst map ecnt]; rewrite Z; split; (lia || discriminate).
Qed.

(* the heaps of the correspondence: only HasTraits objects have traits *)
Definition heap_wf (h : heap) : Prop := forall x f, has_trait h x f = true -> is_ht h x = true.

Lemma struct_ok_flag h k g : heap_wf h -> forall x, l_struct_ok h g x = true -> snd (plan h k false g x) = false.
Proof.
  intros Wf. induction g as [n cs IH] using graph_ind'. intros x S. rewrite Forall_forall in IH.
  cbn [plan l_struct_ok] in *. rewrite observables_applies, objects_applies.
  repeat (apply pseq_flag_false; split).
  - destruct (node_notify n); [|reflexivity]. destruct (applies h n x); [reflexivity|]. rewrite S. reflexivity.
  - destruct (applies h n x); [reflexivity|]. rewrite S. reflexivity.
  - apply pl_all_flag_intro. intros c Hc. destruct (applies h n x); [|rewrite S; reflexivity].
    apply pl_all_flag_intro. intros y Hy. apply (IH c Hc).
    rewrite forallb_forall in S. specialize (S c Hc). rewrite forallb_forall in S. apply S, Hy.
  - destruct n as [f nt opt|ck nt opt]; [|reflexivity]. cbn [applies node_opt] in S.
    destruct (has_trait h x f) eqn:T; [rewrite (Wf x f T); reflexivity|]. subst opt. destruct (is_ht h x); reflexivity.
Qed.

Lemma touches_entry h k gs x : heap_wf h -> l_touches h gs x = true ->
  exists o a, akey_key a = k /\ 0 < gsum h k gs x o (CK a).
Proof.
  intros Wf T. unfold l_touches in T. apply existsb_exists in T. destruct T as (g & Hg & T).
  destruct g as [[f nt opt|ck nt opt] cs]; [|discriminate].
  (* the first entry of the plan: the user notifier, else the first maintainer, else the trait_added maintainer *)
  assert (exists o a, akey_key a = k /\ 0 < pcnt h k false (G (NNamed f nt opt) cs) x o (CK a)) as (o & a & Ka & P).
  { unfold pcnt. cbn [plan observables node_notify]. rewrite T, (Wf x f T).
    destruct nt; [exists (x, f), (AUser k)|destruct cs as [|c0 cs'];
      [exists (x, F_TA), (AMaint MTA (G (NNamed f false opt) []) k)|exists (x, f), (AMaint MNamed c0 k)]];
      (split; [reflexivity|]); cbn [pseq p_ok fst snd map flat_map app pl_all ecnt node_mk];
      rewrite eind_self; lia. }
  exists o, a. split; [exact Ka|].
  apply (sum_pos (fun g => pcnt h k false g x o (CK a)) (fun gs => gsum h k gs x o (CK a))); try reflexivity. eauto.
Qed.

Lemma ledger_cases (s : sig) L :
  In s (regs L ++ unregs L) \/ (cnt_sig s (regs L) = 0 /\ cnt_sig s (unregs L) = 0).
Proof.
  destruct (Nat.eq_dec (cnt_sig s (regs L ++ unregs L)) 0) as [Z|Z].
  - right. rewrite cnt_sig_app in Z. lia.
  - left. apply cnt_sig_pos. lia.
Qed.

Lemma balanced_counts L : balanced L = true -> forall s, cnt_sig s (regs L) = cnt_sig s (unregs L).
Proof.
  unfold balanced. rewrite forallb_forall. intros B s.
  destruct (ledger_cases s L) as [Hin|[-> ->]]; [apply Nat.eqb_eq, B, Hin|reflexivity].
Qed.
Lemma balanced_sums h L : balanced L = true ->
  forall o c, sigs_cnt h (regs L) o c = sigs_cnt h (unregs L) o c.
Proof.
  intros B o c. rewrite !sigs_cnt_ssum. apply (sum_eq _ (fun _ => true)); [|discriminate].
  intros s _. apply balanced_counts, B.
Qed.
Lemma key_clear_counts L k : key_clear L k = true ->
  forall s, key_eqb (sig_key s) k = true -> cnt_sig s (regs L) = cnt_sig s (unregs L).
Proof.
  unfold key_clear. rewrite forallb_forall. intros B s K.
  destruct (ledger_cases s L) as [Hin|[-> ->]]; [|reflexivity].
  specialize (B s Hin). rewrite K in B. apply Nat.eqb_eq, B.
Qed.
Lemma not_overdrawn_counts L k : key_overdrawn L k = false ->
  forall s, key_eqb (sig_key s) k = true -> cnt_sig s (unregs L) <= cnt_sig s (regs L).
Proof.
  unfold key_overdrawn. intros B s K. destruct (ledger_cases s L) as [Hin|[-> ->]]; [|lia].
  apply Nat.ltb_ge. destruct (_ <? _) eqn:Lt; [|reflexivity].
  apply not_true_iff_false in B. elim B. apply existsb_exists. exists s. rewrite K, Lt. auto.
Qed.

Lemma sig_cnt_other_key h (s : sig) o a : key_eqb (sig_key s) (akey_key a) = false -> sig_cnt h s o (CK a) = 0.
Proof.
  destruct s as [[[x hd] dp] gs]. cbn [sig_cnt sig_key]. intros N.
  apply (sum_zero (fun g => pcnt h (hd, x, dp) false g x o (CK a)) (fun gs => gsum h (hd, x, dp) gs x o (CK a)));
    try reflexivity.
  intros g _. apply plan_other_key. intros E. rewrite E, key_eqb_refl in N. discriminate.
Qed.

Lemma cnt_key_absent a l : existsb (key_in_notifier (akey_key a)) l = false -> cnt (CK a) l = 0.
Proof.
  intros E. apply (sum_zero (weight (CK a)) (cnt (CK a))); try reflexivity. intros n Hn.
  destruct (matches a n) eqn:M; [|apply weight_nomatch, M].
  apply not_true_iff_false in E. elim E. apply existsb_exists. exists n. split; [exact Hn|]. apply matches_ckey_spec in M.
  destruct n; try discriminate M; injection M as <-; apply key_eqb_refl.
Qed.
Lemma cnt_zero_no_key k l : posb l = true -> (forall a, akey_key a = k -> cnt (CK a) l = 0) ->
  existsb (key_in_notifier k) l = false.
Proof.
  intros P Z. destruct (existsb (key_in_notifier k) l) eqn:E; [|reflexivity]. exfalso.
  apply existsb_exists in E. destruct E as (n & Hn & Kn). destruct (in_split _ _ Hn) as (l1 & l2 & ->).
  destruct (posb_mid _ _ _ P) as [Pn _]. pose proof (weight_own n Pn) as W.
  destruct n as [k' rc|m g k'|i]; cbn in Kn; try discriminate; apply key_eqb_spec in Kn; subst k';
    cbn [ckey_of] in W; [specialize (Z (AUser k) eq_refl)|specialize (Z (AMaint m g k) eq_refl)];
    rewrite cnt_mid in Z; lia.
Qed.

Definition iobs_of (univ : list obsv) (s' : state) (ob : obs) (o : op) : iobs :=
  mkI (o_out ob) (map k_handler (o_calls ob)) (snap_of_hooks univ (st_hooks s'))
      (match o with CollectOwner _ | CollectObj _ => Some true | _ => None end).
Fixpoint observe (univ : list obsv) (h : heap) (s : state) (ops : list op) : list (op * iobs) :=
  match ops with
  | [] => []
  | o :: r => let '(s', ob) := step h s o in (o, iobs_of univ s' ob o) :: observe univ h s' r
  end.

Section LawStep.
  Variable h : heap.
  Variable univ : list obsv.
  Variable H0 : hooks.
  Hypothesis Wf : heap_wf h.
  Hypothesis W0 : wfH H0.
  Hypothesis Cover : forall o, ~ In o univ -> H0 o = [].
  Let init := snap_of_hooks univ H0.

  (* what the law's state (ledger, previous snapshot) has to do with the model's: the snapshot is the hook
     state, the accounting equation holds with the ledger for the successful calls, and what was
     registered successfully can be walked *)
  Record linv (s : state) (L : ledger) (prev : snap) : Prop := {
    li_wf : wfH (st_hooks s);
    li_prev : forall o, In o univ -> snap_get prev o = st_hooks s o;
    li_acc : forall o c, cntH (st_hooks s) o c + sigs_cnt h (unregs L) o c
                         = cntH H0 o c + sigs_cnt h (regs L) o c;
    li_flags : forall x hd dp gs, In (x, hd, dp, gs) (regs L) ->
               forall g, In g gs -> snd (plan h (hd, x, dp) false g x) = false }.

  Lemma init_get o : In o univ -> snap_get init o = H0 o.
  Proof. intros Hin. unfold init. rewrite <- (app_nil_r (snap_of_hooks univ H0)). apply snap_get_of_hooks, Hin. Qed.

  Lemma init_key_absent k a o : key_in_snap k init = false -> akey_key a = k -> cntH H0 o (CK a) = 0.
  Proof.
    intros A K. unfold cntH. destruct (in_dec (fun a b => Bool.reflect_dec _ _ (iff_reflect _ _ (iff_sym (obsv_eqb_spec a b)))) o univ)
      as [Hin|Hn]; [|rewrite (Cover o Hn); reflexivity].
    apply cnt_key_absent. rewrite K. destruct (existsb (key_in_notifier k) (H0 o)) eqn:E; [|reflexivity].
    apply not_true_iff_false in A. elim A. apply existsb_exists. exists (o, H0 o). split; [|exact E].
    apply in_map_iff. exists o. split; [reflexivity|exact Hin].
  Qed.

  (* for such a key the accounting equation speaks of the ledger only *)
  Lemma acc_key s L prev k a o : linv s L prev -> key_in_snap k init = false -> akey_key a = k ->
    cntH (st_hooks s) o (CK a) + ssum (fun s0 => sig_cnt h s0 o (CK a)) (unregs L)
    = ssum (fun s0 => sig_cnt h s0 o (CK a)) (regs L).
  Proof.
    intros I KI Ka. rewrite <- !sigs_cnt_ssum, (li_acc _ _ _ I), (init_key_absent k a o KI Ka). reflexivity.
  Qed.

  (* everything of a handler whose registrations are all matched by removals is gone *)
  Lemma key_clear_zero s L prev k : linv s L prev -> key_clear L k = true -> key_in_snap k init = false ->
    forall o a, akey_key a = k -> cntH (st_hooks s) o (CK a) = 0.
  Proof.
    intros I KC KI o a Ka. pose proof (acc_key s L prev k a o I KI Ka) as Acc.
    rewrite (sum_eq (fun s0 => sig_cnt h s0 o (CK a)) (fun s0 => key_eqb (sig_key s0) k)
                    (unregs L) (regs L)) in Acc; [lia| |].
    - intros s0 K0. symmetry. apply (key_clear_counts L _ KC s0 K0).
    - intros s0 K0. apply sig_cnt_other_key. rewrite Ka. exact K0.
  Qed.

  Lemma same_as_prev s s' prev dobj cur :
    (forall o, In o univ -> snap_get prev o = st_hooks s o) ->
    (forall o, In o univ -> snap_get cur o = st_hooks s' o) ->
    (forall o, Permutation (st_hooks s' o) (st_hooks s o)) -> snap_same univ dobj prev cur = true.
  Proof.
    intros Pv Cu P. apply snap_same_intro. intros o Ho. rewrite (Pv o Ho), (Cu o Ho). symmetry. apply P.
  Qed.

  (* clause 2 *)
  Lemma balanced_same s L prev dobj : linv s L prev ->
    negb (balanced L) || snap_same univ dobj init prev = true.
  Proof.
    intros I. destruct (balanced L) eqn:B; [|reflexivity]. cbn [negb orb].
    apply snap_same_intro. intros o Ho. rewrite (init_get o Ho), (li_prev _ _ _ I o Ho). symmetry.
    apply same_counts_perm; [exact W0|exact (li_wf _ _ _ I)|]. intros o' c. pose proof (li_acc _ _ _ I o' c) as Acc.
    rewrite (balanced_sums h L B o' c) in Acc. lia.
  Qed.

  (* clause 8 *)
  Lemma clause8 s L prev dobj : linv s L prev ->
    forallb (fun k => negb (key_clear L k && negb (key_in_snap k init))
                      || negb (key_on_some_list univ dobj k prev)) (keys_of L) = true.
  Proof.
    intros I. apply forallb_forall. intros k _.
    destruct (key_clear L k && negb (key_in_snap k init)) eqn:Pre; [|reflexivity]. cbn [negb orb].
    apply andb_true_iff in Pre. destruct Pre as [KC KI]. apply negb_true_iff in KI. apply negb_true_iff.
    destruct (key_on_some_list univ dobj k prev) eqn:E; [|reflexivity]. exfalso. unfold key_on_some_list in E.
    apply existsb_exists in E. destruct E as (o & Ho & E). apply andb_true_iff in E. destruct E as [_ E].
    rewrite (li_prev _ _ _ I o Ho) in E.
    rewrite (cnt_zero_no_key k (st_hooks s o)) in E; [discriminate|apply (li_wf _ _ _ I)|].
    intros a Ka. apply (key_clear_zero s L prev k I KC KI o a Ka).
  Qed.

  (* a registration or a removal: the invariant is kept with the ledger the law computes, and clauses 1, 2 and 8
     hold of the step *)
  Lemma law_reg_step (rm : bool) s L prev x hd dp gs s' ob :
    linv s L prev ->
    step h s (if rm then Unregister x hd dp gs else Register x hd dp gs) = (s', ob) ->
    forall cur L', cur = snap_of_hooks univ (st_hooks s') ++ prev ->
    L' = (if is_none (o_out ob)
          then if rm then mkL (regs L) ((x, hd, dp, gs) :: unregs L) else mkL ((x, hd, dp, gs) :: regs L) (unregs L)
          else L) ->
    linv s' L' cur /\ dead_handlers s' = dead_handlers s /\ dead_objs s' = dead_objs s /\
    is_none (o_out ob) || snap_same univ (dead_objs s) prev cur = true.
  Proof.
    intros [Ws Pv Acc Fl] S cur L' -> EL. pose proof (step_wf _ _ _ _ _ Ws S) as Ws'.
    assert (forall o, In o univ -> snap_get (snap_of_hooks univ (st_hooks s') ++ prev) o = st_hooks s' o) as Cu
      by (intros o; apply snap_get_of_hooks).
    destruct (step_dead _ _ _ _ _ S) as [Dh Do]. destruct (step_spec _ _ _ _ _ (proj1 Ws) S) as [_ Q].
    split; [constructor|split; [destruct rm; exact Dh|split; [destruct rm; exact Do|]]].
    - exact Ws'.
    - exact Cu.
    - intros o c. specialize (Acc o c). subst L'.
      destruct rm, (o_out ob); cbn [is_none regs unregs sigs_cnt sig_cnt];
        try (destruct Q as [Q _]; rewrite (Q o c); exact Acc); specialize (Q o c); cbn beta iota in Q; lia.
    - subst L'. destruct (o_out ob) eqn:E; cbn [is_none]; [exact Fl|]. destruct rm; cbn [regs]; [exact Fl|].
      intros x' hd' dp' gs' [[= <- <- <- <-]|Hin]; [|apply (Fl _ _ _ _ Hin)].
      apply (register_outcome _ _ _ _ _ _ _ _ (proj1 Ws) S). exact E.
    - destruct (o_out ob) eqn:E; [|reflexivity]. apply (same_as_prev s s'); [exact Pv|exact Cu|].
      apply (failure_atomic_perm h s _ s' ob Ws S). congruence.
  Qed.

  Lemma law_register s L prev x hd dp gs s' ob :
    linv s L prev -> step h s (Register x hd dp gs) = (s', ob) ->
    let cur := snap_of_hooks univ (st_hooks s') ++ prev in
    let L' := if is_none (o_out ob) then mkL ((x, hd, dp, gs) :: regs L) (unregs L) else L in
    law_step h univ init L (dead_handlers s) (dead_objs s) prev cur (Register x hd dp gs)
             (iobs_of univ s' ob (Register x hd dp gs))
    = ([], L', dead_handlers s', dead_objs s') /\ linv s' L' cur.
  Proof.
    intros I S cur L'. destruct (law_reg_step false _ _ _ _ _ _ _ _ _ I S cur L' eq_refl eq_refl) as (I' & -> & -> & C1).
    split; [|exact I']. unfold law_step. cbn [iobs_of i_out]. fold L'.
    rewrite C1, (balanced_same s' L' cur _ I'), (clause8 s' L' cur _ I'). reflexivity.
  Qed.

  (* clause 4: nothing of this handler is registered -> the removal raises *)
  Lemma clause4 s L prev x hd dp gs s' ob :
    linv s L prev -> step h s (Unregister x hd dp gs) = (s', ob) ->
    negb (key_clear L (hd, x, dp) && negb (key_in_snap (hd, x, dp) init) && l_touches h gs x)
    || match o_out ob with
       | None => false
       | Some e => negb (forallb (fun g => l_struct_ok h g x) gs) || exn_eqb e NotifierNotFound
       end = true.
  Proof.
    intros I S.
    destruct (key_clear L (hd, x, dp) && negb (key_in_snap (hd, x, dp) init) && l_touches h gs x) eqn:Pre;
      [|reflexivity]. cbn [negb orb].
    apply andb_true_iff in Pre. destruct Pre as [Pre T]. apply andb_true_iff in Pre. destruct Pre as [KC KI].
    apply negb_true_iff in KI.
    destruct (touches_entry h (hd, x, dp) gs x Wf T) as (o & a & Ka & G0).
    destruct (extra_unregister h s x hd dp gs s' ob (proj1 (li_wf _ _ _ I))) as [(y & -> & Ny) _]; [|exact S|].
    { exists o, (CK a). rewrite (key_clear_zero s L prev _ I KC KI o a Ka). exact G0. }
    destruct (forallb (fun g => l_struct_ok h g x) gs) eqn:SO; [|reflexivity]. cbn [negb orb].
    rewrite Ny; [reflexivity|]. intros g Hg. apply struct_ok_flag; [exact Wf|].
    rewrite forallb_forall in SO. apply SO, Hg.
  Qed.

  (* clause 9: the removal of a live registration succeeds, because by the accounting equation the hooks of a
     handler that is not overdrawn contain the plan of each of its live signatures *)
  Lemma clause9 s L prev x hd dp gs s' ob :
    linv s L prev -> step h s (Unregister x hd dp gs) = (s', ob) ->
    negb (Nat.ltb (cnt_sig (x, hd, dp, gs) (unregs L)) (cnt_sig (x, hd, dp, gs) (regs L))
          && negb (key_overdrawn L (hd, x, dp))) || is_none (o_out ob) = true.
  Proof.
    intros I S.
    destruct (Nat.ltb (cnt_sig (x, hd, dp, gs) (unregs L)) (cnt_sig (x, hd, dp, gs) (regs L))
              && negb (key_overdrawn L (hd, x, dp))) eqn:Pre; [|reflexivity]. cbn [negb orb].
    apply andb_true_iff in Pre. destruct Pre as [Lt NO]. apply Nat.ltb_lt in Lt. apply negb_true_iff in NO.
    assert (In (x, hd, dp, gs) (regs L)) as Hin by (apply cnt_sig_pos; lia).
    destruct (apply_loop_rm_succeeds h (hd, x, dp) x gs (st_hooks s) [] (proj1 (li_wf _ _ _ I))
                (li_flags _ _ _ I x hd dp gs Hin)) as [H' E].
    - intros o [a|i].
      + destruct (key_eqb (hd, x, dp) (akey_key a)) eqn:Ka.
        * pose proof (li_acc _ _ _ I o (CK a)) as Acc. rewrite !sigs_cnt_ssum in Acc.
          destruct (sum_split (fun s0 : sig => sig_cnt h s0 o (CK a)) (fun s0 => key_eqb (sig_key s0) (hd, x, dp))
                      (unregs L) (regs L) (not_overdrawn_counts L _ NO)) as (X & E & CX).
          { intros s0 K0. apply sig_cnt_other_key. apply key_eqb_spec in Ka. rewrite <- Ka. exact K0. }
          assert (In (x, hd, dp, gs) X) as HX
            by (apply cnt_sig_pos; rewrite (CX (x, hd, dp, gs) (key_eqb_refl _)) in Lt; lia).
          destruct (in_split _ _ HX) as (x1 & x2 & ->). rewrite ssum_app in E. cbn [ssum] in E. cbn beta in E.
          change (gsum h (hd, x, dp) gs x o (CK a)) with (sig_cnt h (x, hd, dp, gs) o (CK a)). lia.
        * change (gsum h (hd, x, dp) gs x o (CK a)) with (sig_cnt h (x, hd, dp, gs) o (CK a)).
          rewrite (sig_cnt_other_key h (x, hd, dp, gs) o a Ka). lia.
      + assert (gsum h (hd, x, dp) gs x o (CF i) = 0) as ->; [|lia].
        apply (sum_zero (fun g => pcnt h (hd, x, dp) false g x o (CF i)) (fun gs => gsum h (hd, x, dp) gs x o (CF i)));
          try reflexivity. intros g _. apply plan_no_foreign.
    - cbn [step] in S. unfold apply_observers in S. rewrite E in S. injection S as _ <-. reflexivity.
  Qed.

  Lemma law_unregister s L prev x hd dp gs s' ob :
    linv s L prev -> step h s (Unregister x hd dp gs) = (s', ob) ->
    let cur := snap_of_hooks univ (st_hooks s') ++ prev in
    let L' := if is_none (o_out ob) then mkL (regs L) ((x, hd, dp, gs) :: unregs L) else L in
    law_step h univ init L (dead_handlers s) (dead_objs s) prev cur (Unregister x hd dp gs)
             (iobs_of univ s' ob (Unregister x hd dp gs))
    = ([], L', dead_handlers s', dead_objs s') /\ linv s' L' cur.
  Proof.
    intros I S cur L'. destruct (law_reg_step true _ _ _ _ _ _ _ _ _ I S cur L' eq_refl eq_refl) as (I' & -> & -> & C1).
    split; [|exact I']. unfold law_step. cbn [iobs_of i_out]. fold L'.
    rewrite C1, (balanced_same s' L' cur _ I'), (clause8 s' L' cur _ I'), (clause4 _ _ _ _ _ _ _ _ _ I S),
      (clause9 _ _ _ _ _ _ _ _ _ I S). reflexivity.
  Qed.
  (* clause 3 *)
  Lemma sig_matched s L prev x hd dp gs tgt : linv s L prev -> In (x, hd, dp, gs) (regs L) ->
    (0 < sig_cnt h (x, hd, dp, gs) tgt (CK (AUser (hd, x, dp))) <-> existsb (fun g => l_matched h g x tgt) gs = true).
  Proof.
    intros I Hin. cbn [sig_cnt]. rewrite existsb_exists.
    rewrite (sum_pos (fun g => pcnt h (hd, x, dp) false g x tgt (CK (AUser (hd, x, dp))))
                     (fun gs => gsum h (hd, x, dp) gs x tgt (CK (AUser (hd, x, dp)))) eq_refl (fun _ _ => eq_refl)).
    split; intros (g & Hg & P); exists g; (split; [exact Hg|]);
      apply (plan_matched h (hd, x, dp) g x tgt (li_flags _ _ _ I x hd dp gs Hin g Hg)); exact P.
  Qed.

  Lemma live_match_iff s L prev k tgt : linv s L prev ->
    key_overdrawn L k = false -> key_in_snap k init = false ->
    (0 <? cntH (st_hooks s) tgt (CK (AUser k))) = key_live_match h L k tgt.
  Proof.
    intros I OD KI. pose proof (acc_key s L prev k (AUser k) tgt I KI eq_refl) as Acc.
    set (F := fun s0 : sig => sig_cnt h s0 tgt (CK (AUser k))) in *.
    assert (forall s0, key_eqb (sig_key s0) k = false -> F s0 = 0) as Foff
      by (intros s0 K0; apply sig_cnt_other_key, K0).
    (* on k's signatures the registrations are the removals plus the live ones X, and the count on tgt is what X planned *)
    destruct (sum_split F (fun s1 => key_eqb (sig_key s1) k) (unregs L) (regs L) (not_overdrawn_counts L _ OD) Foff)
      as (X & E & CX).
    apply eq_true_iff_eq. rewrite Nat.ltb_lt. replace (cntH (st_hooks s) tgt (CK (AUser k))) with (ssum F X) by lia.
    rewrite (sum_pos F (ssum F) eq_refl (fun _ _ => eq_refl)). unfold key_live_match. rewrite existsb_exists.
    split; intros (s0 & H1 & H2); exists s0.
    - destruct (key_eqb (sig_key s0) k) eqn:K0; [|rewrite (Foff s0 K0) in H2; lia].
      pose proof (CX s0 K0) as C0. pose proof (cnt_sig_in_pos s0 X H1) as PX.
      assert (In s0 (regs L)) as Hin by (apply cnt_sig_pos; lia). split; [exact Hin|].
      cbn [andb]. apply andb_true_iff. split; [apply Nat.ltb_lt; lia|].
      destruct s0 as [[[x hd] dp] gs]. apply key_eqb_spec in K0. cbn [sig_key] in K0. subst k.
      apply (sig_matched s L prev x hd dp gs tgt I Hin), H2.
    - apply andb_true_iff in H2. destruct H2 as [H2 M]. apply andb_true_iff in H2. destruct H2 as [K0 Lt].
      apply Nat.ltb_lt in Lt. split; [apply cnt_sig_pos; rewrite (CX s0 K0) in Lt; lia|].
      destruct s0 as [[[x hd] dp] gs]. apply key_eqb_spec in K0. cbn [sig_key] in K0. subst k.
      apply (sig_matched s L prev x hd dp gs tgt I H1), M.
  Qed.

  Lemma live_key_listed s L prev k tgt : linv s L prev -> key_in_snap k init = false ->
    0 < cntH (st_hooks s) tgt (CK (AUser k)) -> In k (keys_of L).
  Proof.
    intros I KI Pc. pose proof (acc_key s L prev k (AUser k) tgt I KI eq_refl) as Acc.
    destruct (proj1 (sum_pos (fun s0 : sig => sig_cnt h s0 tgt (CK (AUser k))) (ssum _) eq_refl (fun _ _ => eq_refl) (regs L)))
      as (s0 & H1 & H2); [lia|].
    unfold keys_of. apply in_map_iff. exists s0. split; [|apply in_or_app; left; exact H1].
    destruct (key_eqb (sig_key s0) k) eqn:Q; [apply key_eqb_spec, Q|].
    rewrite (sig_cnt_other_key h s0 tgt (AUser k) Q) in H2. lia.
  Qed.

  Lemma count_nat_map hd (l : list key) :
    count_nat hd (map k_handler l) = length (filter (fun k => Nat.eqb hd (k_handler k)) l).
  Proof.
    unfold count_nat. induction l as [|k l IH]; [reflexivity|]. cbn [map filter].
    destruct (Nat.eqb hd (k_handler k)); cbn [length]; rewrite IH; reflexivity.
  Qed.
  Lemma called_iff s l k : posb l = true ->
    (In k (calls_of s l) <-> alive s k = true /\ 0 < cnt (CK (AUser k)) l).
  Proof.
    intros P. unfold calls_of. rewrite in_flat_map. split.
    - intros (n & Hn & Hk). destruct n as [k' rc| |]; try destruct Hk.
      destruct (alive s k') eqn:A; [|destruct Hk]. destruct Hk as [<-|[]]. split; [exact A|].
      destruct (in_split _ _ Hn) as (l1 & l2 & ->). rewrite cnt_mid.
      destruct (posb_mid _ _ _ P) as [Pn _]. pose proof (weight_own _ Pn) as W. cbn [ckey_of] in W. lia.
    - intros (A & C). destruct (cnt_pos_in _ _ C) as (n & Hn & W). pose proof (weight_pos_inv _ _ W) as K.
      destruct n as [k' rc| |]; cbn [ckey_of] in K; try discriminate. injection K as ->.
      exists (NUser k rc). split; [exact Hn|]. rewrite A. left. reflexivity.
  Qed.
  Lemma calls_nodup s l : posb l = true -> uniqb l = true -> NoDup (calls_of s l).
  Proof.
    induction l as [|n r IH]; intros P U; [constructor|]. cbn [uniqb] in U. apply andb_true_iff in U.
    rewrite posb_cons in P. apply andb_true_iff in P. destruct U as [Un Ur]. specialize (IH (proj2 P) Ur).
    rewrite calls_of_cons. destruct n as [k rc| |]; try exact IH. destruct (alive s k); [|exact IH].
    cbn [app]. constructor; [|exact IH]. intros Hin. apply (called_iff _ _ _ (proj2 P)) in Hin.
    apply negb_true_iff in Un. rewrite (nomatch_cnt _ _ Un) in Hin. lia.
  Qed.
  Lemma dedup_in l k : In k (dedup_keys l) <-> In k l.
  Proof.
    induction l as [|a r IH]; [reflexivity|]. cbn [dedup_keys]. destruct (existsb (key_eqb a) r) eqn:E.
    - rewrite IH. split; [right; assumption|intros [<-|H]; [|exact H]].
      apply existsb_exists in E. destruct E as (b & Hb & Q). apply key_eqb_spec in Q. subst. exact Hb.
    - cbn [In]. rewrite IH. reflexivity.
  Qed.
  Lemma dedup_nodup l : NoDup (dedup_keys l).
  Proof.
    induction l as [|a r IH]; [constructor|]. cbn [dedup_keys]. destruct (existsb (key_eqb a) r) eqn:E; [exact IH|].
    constructor; [|exact IH]. rewrite dedup_in. intros Hin. apply not_true_iff_false in E. elim E.
    apply existsb_exists. exists a. split; [exact Hin|apply key_eqb_refl].
  Qed.
  Lemma hd_absent_key hd k : hd_in_snap hd init = false -> k_handler k = hd -> key_in_snap k init = false.
  Proof.
    intros A K. unfold key_in_snap. destruct (existsb (fun p => existsb (key_in_notifier k) (snd p)) init) eqn:E; [|reflexivity].
    apply existsb_exists in E. destruct E as (p & Hp & E). apply existsb_exists in E. destruct E as (n & Hn & E).
    apply not_true_iff_false in A. elim A. unfold hd_in_snap. apply existsb_exists. exists p.
    split; [exact Hp|]. apply existsb_exists. exists n. split; [exact Hn|].
    destruct n as [k' rc|m g k'|i]; cbn in E |- *; try discriminate; apply key_eqb_spec in E; subst k'; rewrite K; apply Nat.eqb_refl.
  Qed.

  Lemma law_change s L prev o f s' ob :
    linv s L prev -> step h s (Change o f) = (s', ob) ->
    let cur := snap_of_hooks univ (st_hooks s') ++ prev in
    law_step h univ init L (dead_handlers s) (dead_objs s) prev cur (Change o f) (iobs_of univ s' ob (Change o f))
    = ([], L, dead_handlers s', dead_objs s') /\ linv s' L cur.
  Proof.
    intros I S cur. destruct (step_dead _ _ _ _ _ S) as [-> ->].
    cbn [step] in S. injection S as <- <-.
    assert (linv s L cur) as I'.
    { destruct I as [Ws Pv Acc Fl]. constructor; [exact Ws|intros o' Ho; apply snap_get_of_hooks, Ho|exact Acc|exact Fl]. }
    split; [|exact I']. unfold law_step. cbn [iobs_of i_out i_calls o_out o_calls is_none chk app].
    rewrite app_nil_r. do 3 f_equal.
    assert (forall b, b = true -> chk 3 b = []) as K by (intros b ->; reflexivity). apply K.
    apply forallb_forall. intros hd _.
    set (ks := dedup_keys (keys_of L)). set (mine := filter (fun k => Nat.eqb (k_handler k) hd) ks).
    destruct (existsb (fun k => key_overdrawn L k || key_in_snap k init) mine) eqn:Sil; [reflexivity|].
    destruct (hd_in_snap hd init) eqn:HI; [reflexivity|]. cbn [orb]. apply Nat.eqb_eq.
    (* handlers of hd that the law may speak about: not overdrawn, not there initially *)
    assert (forall k, In k (keys_of L) -> k_handler k = hd -> key_overdrawn L k = false /\ key_in_snap k init = false) as Quiet.
    { intros k Hin Hk. apply orb_false_iff. destruct (_ || _) eqn:E; [|reflexivity].
      apply not_true_iff_false in Sil. elim Sil. apply existsb_exists. exists k. split; [|exact E].
      apply filter_In. split; [apply dedup_in, Hin|rewrite Hk; apply Nat.eqb_refl]. }
    destruct (li_wf _ _ _ I) as [Ps Us].
    rewrite count_nat_map. apply Permutation_length. apply NoDup_Permutation.
    - apply NoDup_filter, calls_nodup; [apply Ps|apply Us].
    - apply NoDup_filter, NoDup_filter, dedup_nodup.
    - intros k. rewrite !filter_In. unfold mine, ks. rewrite filter_In, dedup_in, (called_iff _ _ _ (Ps (o, f))).
      change (negb (memb (k_handler k) (dead_handlers s)) && negb (memb (k_target k) (dead_objs s))) with (alive s k).
      rewrite andb_true_iff, !Nat.eqb_eq. split.
      + (* a called handler has a live matching registration *)
        intros [[A Hc] Hk]. symmetry in Hk. pose proof (hd_absent_key hd k HI Hk) as KI.
        pose proof (live_key_listed s L prev k (o, f) I KI Hc) as Hin. destruct (Quiet k Hin Hk) as [OD _].
        rewrite <- (live_match_iff s L prev k (o, f) I OD KI). repeat split; auto. apply Nat.ltb_lt, Hc.
      + intros [[Hin Hk] [A LM]]. destruct (Quiet k Hin Hk) as [OD KI].
        rewrite <- (live_match_iff s L prev k (o, f) I OD KI) in LM. apply Nat.ltb_lt in LM. repeat split; auto.
  Qed.
  Lemma law_collect s L prev o s' ob :
    match o with CollectOwner _ | CollectObj _ => True | _ => False end ->
    linv s L prev -> step h s o = (s', ob) ->
    let cur := snap_of_hooks univ (st_hooks s') ++ prev in
    law_step h univ init L (dead_handlers s) (dead_objs s) prev cur o (iobs_of univ s' ob o)
    = ([], L, dead_handlers s', dead_objs s') /\ linv s' L cur.
  Proof.
    intros Ko [Ws Pv Acc Fl] S cur.
    assert (forall o', In o' univ -> snap_get cur o' = st_hooks s o') as Cu.
    { intros o' Ho. unfold cur. rewrite (snap_get_of_hooks _ _ _ _ Ho).
      destruct o; try destruct Ko; cbn [step] in S; injection S as <- _; reflexivity. }
    destruct o as [| | |hd|t]; try destruct Ko; cbn [step] in S; injection S as <- <-;
      cbn [dead_handlers dead_objs st_hooks] in *; (split; [|constructor; assumption]).
    - unfold law_step. cbn [iobs_of i_dead chk app]. do 3 f_equal.
      rewrite (same_as_prev s s prev (dead_objs s) cur Pv Cu); reflexivity.
    - reflexivity.
  Qed.

  Lemma law_model : forall ops s L prev i, linv s L prev ->
    law_hist h univ init i L (dead_handlers s) (dead_objs s) prev (observe univ h s ops) = [].
  Proof.
    induction ops as [|o ops IH]; intros s L prev i I; [reflexivity|]. cbn [observe].
    destruct (step h s o) as [s' ob] eqn:S. cbn [law_hist].
    assert (exists L', law_step h univ init L (dead_handlers s) (dead_objs s) prev
                                (i_snap (iobs_of univ s' ob o) ++ prev) o (iobs_of univ s' ob o)
                       = ([], L', dead_handlers s', dead_objs s')
                       /\ linv s' L' (i_snap (iobs_of univ s' ob o) ++ prev)) as (L' & E & I').
    { cbn [iobs_of i_snap]. destruct o as [x hd dp gs|x hd dp gs|o f|hd|t]; eexists.
      - apply (law_register s L prev x hd dp gs s' ob I S).
      - apply (law_unregister s L prev x hd dp gs s' ob I S).
      - apply (law_change s L prev o f s' ob I S).
      - apply (law_collect s L prev (CollectOwner hd) s' ob Logic.I I S).
      - apply (law_collect s L prev (CollectObj t) s' ob Logic.I I S). }
    rewrite E. cbn [map app]. apply IH. exact I'.
  Qed.
End LawStep.

(* the statement without section variables: any heap of the correspondence ([heap_wf]), any universe of
   observables covering the initial population, any well-formed start state, any history *)
Theorem law_holds_on_model : forall (h : heap) (univ : list obsv) (s0 : state) (ops : list op),
  heap_wf h -> wfH (st_hooks s0) -> (forall o, ~ In o univ -> st_hooks s0 o = []) ->
  law_hist h univ (snap_of_hooks univ (st_hooks s0)) 0 (mkL [] []) (dead_handlers s0) (dead_objs s0)
           (snap_of_hooks univ (st_hooks s0)) (observe univ h s0 ops) = [].
Proof.
  intros h univ s0 ops Wf W0 Cover.
  apply (law_model h univ (st_hooks s0) Wf W0 Cover ops s0 (mkL [] []) (snap_of_hooks univ (st_hooks s0)) 0).
  constructor; [exact W0| |intros; cbn; lia|intros ? ? ? ? []].
  intros o Ho. rewrite <- (app_nil_r (snap_of_hooks univ (st_hooks s0))). apply snap_get_of_hooks, Ho.
Qed.

From TV Require C09.Corr.
Lemma heap_of_wf ds : heap_wf (C09.Corr.heap_of ds).
Proof.
  intros x f. unfold C09.Corr.heap_of, is_ht. cbn [has_trait kind_of].
  destruct (C09.Corr.find_obj ds x) as [[[[[y k] ts] ls] it]|]; [|discriminate].
  destruct k; try discriminate. reflexivity.
Qed.

Lemma law_hist_dyn_static h univ init : forall hist i L dh dobj prev,
  law_hist_dyn univ init i h L dh dobj prev (map (fun p => (LStatic (fst p), snd p)) hist)
  = law_hist h univ init i L dh dobj prev hist.
Proof.
  induction hist as [|[o ob] r IH]; intros i L dh dobj prev; [reflexivity|].
  cbn [map fst snd law_hist_dyn law_hist].
  destruct (law_step h univ init L dh dobj prev (i_snap ob ++ prev) o ob) as [[[codes L'] dh'] dobj'].
  rewrite IH. reflexivity.
Qed.
