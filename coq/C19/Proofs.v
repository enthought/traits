(* C19 — proofs: for every callback behaviour, every state, every operation and every fault plan
   (every ordinal k, every exception class, every handler) the model satisfies the law.
   Every operation is a sequence of deciding callbacks followed by a commit; [deciding] says how one
   such callback depends on the plan, [atomic] how a whole operation does, and [step_atomic] is the
   one case analysis of [step] from which the theorems about a single operation are read off. *)
From Coq Require Import ZArith List Bool.
From TV Require Import Common.LSet Common.Harness C19.Model C19.Law C19.Corr.
Import ListNotations.
Open Scope Z_scope.

Lemma exn_eqb_refl e : exn_eqb e e = true. Proof. destruct e; reflexivity. Qed.
Lemma outcome_eqb_refl o : outcome_eqb o o = true. Proof. destruct o; cbn; [reflexivity | apply exn_eqb_refl]. Qed.
Lemma list_eqb_refl {A} (eqb : A -> A -> bool) (Hr : forall a, eqb a a = true) l : list_eqb eqb l l = true.
Proof. induction l as [|a l IH]; cbn; [reflexivity | rewrite Hr, IH; reflexivity]. Qed.
Lemma pair_eqb_refl a : pair_eqb a a = true.
Proof. unfold pair_eqb. rewrite !Z.eqb_refl. reflexivity. Qed.
Lemma logent_eqb_refl a : logent_eqb a a = true.
Proof. destruct a as [[j a] b]. cbn. rewrite Nat.eqb_refl, !Z.eqb_refl. reflexivity. Qed.
Lemma log_eqb_refl l : log_eqb l l = true.
Proof. apply list_eqb_refl, logent_eqb_refl. Qed.
Lemma opt_eqb_refl o : opt_eqb Z.eqb o o = true.
Proof. destruct o; cbn; [apply Z.eqb_refl | reflexivity]. Qed.
Lemma st_eqb_refl a : st_eqb a a = true.
Proof.
  unfold st_eqb. rewrite !Z.eqb_refl, pair_eqb_refl, !opt_eqb_refl, Nat.eqb_refl, Bool.eqb_reflx.
  rewrite !(list_eqb_refl Z.eqb Z.eqb_refl), (list_eqb_refl pair_eqb pair_eqb_refl). reflexivity.
Qed.

Section Main.
  Variable vld : Z -> option Z.
  Variable getter_c : Z -> Z.
  Variable fac_value mdef_value : Z.
  Variable adapt_value : nat -> Z -> Z.
  Variable ydef_value : Z.
  Variable fcalls : nat -> nat.
  Notation stp := (step vld getter_c fac_value mdef_value adapt_value ydef_value fcalls).
  Notation frd := (fired vld getter_c fac_value mdef_value adapt_value ydef_value fcalls).
  Notation result := (st * outcome * list logent)%type.

  Definition drop_handler (j : nat) (lg : list logent) : list logent :=
    filter (fun en => negb (Nat.eqb (hid en) j)) lg.

  (* a fault-free operation raises TraitError only (or NotifierNotFound, for a removal with nothing registered) *)
  Definition natural (e : exn) : Prop := e = TraitError \/ e = NotifierNotFound.

  (* A call fault at ordinal k either reaches [g], which then raises the injected exception whichever
     it is, or does not, and then [g] runs as without fault; handler faults do not concern it; by
     itself it raises TraitError only. *)
  Definition deciding {A} (g : plan -> res A) : Prop :=
    (forall k, (forall e, g (FaultCall k e) = RRaise e) \/ (forall e, g (FaultCall k e) = g NoFault)) /\
    (forall j e, g (FaultHandler j e) = g NoFault) /\
    (forall e, g NoFault = RRaise e -> e = TraitError).

  Lemma deciding_ret {A} (a : A) : deciding (fun _ => ROk a).
  Proof. split; [right; reflexivity | split; [reflexivity | discriminate]]. Qed.

  Lemma deciding_bind {A B} (g : plan -> res A) (K : A -> plan -> res B) :
    deciding g -> (forall y, deciding (K y)) ->
    deciding (fun pl => match g pl with RRaise e => RRaise e | ROk y => K y pl end).
  Proof.
    intros (G1 & G2 & G3) HK. split; [|split].
    - intro k. destruct (G1 k) as [G|G]; [left; intro e; rewrite G; reflexivity|].
      destruct (g NoFault) as [y|e0]; [|right; intro e; rewrite G; reflexivity].
      destruct (HK y) as (K1 & _). destruct (K1 k) as [H|H]; [left | right]; intro e; rewrite G; apply H.
    - intros j e. rewrite G2. destruct (g NoFault) as [y|e0]; [apply HK | reflexivity].
    - intros e. destruct (g NoFault) as [y|e0]; [apply HK|]. intros H. injection H as <-. apply G3. reflexivity.
  Qed.

  Lemma call_vld_deciding n v : deciding (fun pl => call_vld vld pl n v).
  Proof.
    unfold call_vld. split; [|split].
    - intro k. cbn [call_fault]. destruct (Nat.eqb k n); [left | right]; reflexivity.
    - reflexivity.
    - cbn [call_fault]. destruct (vld v); congruence.
  Qed.

  Lemma vld_items_deciding : forall vs n, deciding (fun pl => vld_items vld pl n vs).
  Proof.
    induction vs as [|v r IH]; intros n; cbn [vld_items]; [apply deciding_ret|].
    apply deciding_bind; [apply call_vld_deciding | intro y].
    apply deciding_bind; [apply IH | intro ys; apply deciding_ret].
  Qed.

  Lemma vld_pairs_deciding : forall kvs n, deciding (fun pl => vld_pairs vld pl n kvs).
  Proof.
    induction kvs as [|[a b] r IH]; intros n; cbn [vld_pairs]; [apply deciding_ret|].
    apply deciding_bind; [apply call_vld_deciding | intro a'].
    apply deciding_bind; [apply call_vld_deciding | intro b'].
    apply deciding_bind; [apply IH | intro ys; apply deciding_ret].
  Qed.

  (* callbacks without a result: the same three facts *)
  Lemma call_chain_fault k : forall len n,
    (forall e, call_chain (FaultCall k e) n len = Some e) \/ (forall e, call_chain (FaultCall k e) n len = None).
  Proof.
    induction len as [|len IH]; intros n; cbn [call_chain call_plain call_fault]; [right; reflexivity|].
    destruct (Nat.eqb k n); [left; reflexivity | apply IH].
  Qed.
  Lemma call_chain_handler j e : forall len n, call_chain (FaultHandler j e) n len = None.
  Proof. induction len as [|len IH]; intros n; cbn; [reflexivity | apply IH]. Qed.
  Lemma call_chain_nofault : forall len n, call_chain NoFault n len = None.
  Proof. induction len as [|len IH]; intros n; cbn; [reflexivity | apply IH]. Qed.

  Lemma run_handlers_handler j e hs a b :
    run_handlers (FaultHandler j e) hs a b = drop_handler j (run_handlers NoFault hs a b).
  Proof.
    unfold run_handlers, drop_handler. induction hs as [|h hs IH]; [reflexivity|].
    cbn [filter handler_fault negb map]. cbn [handler_fault] in IH.
    unfold hid at 1. cbn [fst]. rewrite (Nat.eqb_sym h j).
    destruct (Nat.eqb j h); cbn [negb map]; rewrite IH; reflexivity.
  Qed.

  (* [F] is what an operation on [s0] does under each plan.  Validate-then-mutate: a call fault that is
     reached leaves [s0] untouched and silent, whichever exception is injected; a handler fault only
     removes that handler's log entries; a fault-free run that raises is inert too. *)
  Definition atomic (s0 : st) (F : plan -> result) : Prop :=
    (forall k, (forall e, F (FaultCall k e) = raise e s0) \/ (forall e, F (FaultCall k e) = F NoFault)) /\
    (forall j e, F (FaultHandler j e)
                 = (fst (fst (F NoFault)), snd (fst (F NoFault)), drop_handler j (snd (F NoFault)))) /\
    (forall s1 e lg, F NoFault = (s1, Raise e, lg) -> natural e /\ s1 = s0 /\ lg = []).

  Lemma atomic_raise s0 e : natural e -> atomic s0 (fun _ => raise e s0).
  Proof.
    intros He. split; [right; reflexivity | split; [reflexivity|]].
    intros s1 e' lg H. injection H as <- <- <-. auto.
  Qed.

  Lemma atomic_done s0 s1 : atomic s0 (fun _ => done s1 []).
  Proof. split; [right; reflexivity | split; [reflexivity | discriminate]]. Qed.

  (* a call fault does not touch [run_handlers]: both sides compute to the same list *)
  Lemma atomic_notify s0 s1 hs a b : atomic s0 (fun pl => done s1 (run_handlers pl hs a b)).
  Proof.
    split; [right; reflexivity | split; [|discriminate]].
    intros j e. unfold done. rewrite run_handlers_handler. reflexivity.
  Qed.

  Lemma atomic_list_commit s0 new nrem nadd : atomic s0 (fun pl => list_commit pl s0 new nrem nadd).
  Proof. unfold list_commit. destruct (_ && _); [apply atomic_done | apply atomic_notify]. Qed.

  Lemma atomic_bind {A} s0 (g : plan -> res A) (K : A -> plan -> result) :
    deciding g -> (forall y, atomic s0 (K y)) ->
    atomic s0 (fun pl => match g pl with RRaise e => raise e s0 | ROk y => K y pl end).
  Proof.
    intros (G1 & G2 & G3) HK. split; [|split].
    - intro k. destruct (G1 k) as [G|G]; [left; intro e; rewrite G; reflexivity|].
      destruct (g NoFault) as [y|e0]; [|right; intro e; rewrite G; reflexivity].
      destruct (HK y) as (K1 & _). destruct (K1 k) as [H|H]; [left | right]; intro e; rewrite G; apply H.
    - intros j e. rewrite G2. destruct (g NoFault) as [y|e0]; [apply HK | reflexivity].
    - intros s1 e lg. destruct (g NoFault) as [y|e0]; [apply HK|].
      intros H. injection H as <- <- <-. split; [left; apply G3|]; auto.
  Qed.

  Lemma atomic_guard s0 (g : plan -> option exn) (F : plan -> result) :
    (forall k, (forall e, g (FaultCall k e) = Some e) \/ (forall e, g (FaultCall k e) = None)) ->
    (forall j e, g (FaultHandler j e) = None) -> g NoFault = None -> atomic s0 F ->
    atomic s0 (fun pl => match g pl with Some e => raise e s0 | None => F pl end).
  Proof.
    intros G1 G2 G3 (F1 & F2 & F3). split; [|split].
    - intro k. rewrite G3. destruct (G1 k) as [G|G]; [left; intro e; rewrite G; reflexivity|].
      destruct (F1 k) as [H|H]; [left | right]; intro e; rewrite G; apply H.
    - intros j e. rewrite G2, G3. apply F2.
    - rewrite G3. exact F3.
  Qed.

  Lemma atomic_vld s0 n v K : (forall y, atomic s0 (K y)) ->
    atomic s0 (fun pl => match call_vld vld pl n v with RRaise e => raise e s0 | ROk y => K y pl end).
  Proof. apply atomic_bind, call_vld_deciding. Qed.
  Lemma atomic_items s0 n vs K : (forall ys, atomic s0 (K ys)) ->
    atomic s0 (fun pl => match vld_items vld pl n vs with RRaise e => raise e s0 | ROk ys => K ys pl end).
  Proof. apply atomic_bind, vld_items_deciding. Qed.
  Lemma atomic_pairs s0 n kvs K : (forall ys, atomic s0 (K ys)) ->
    atomic s0 (fun pl => match vld_pairs vld pl n kvs with RRaise e => raise e s0 | ROk ys => K ys pl end).
  Proof. apply atomic_bind, vld_pairs_deciding. Qed.
  Lemma atomic_plain s0 n F : atomic s0 F ->
    atomic s0 (fun pl => match call_plain pl n with Some e => raise e s0 | None => F pl end).
  Proof.
    apply atomic_guard; try reflexivity. intro k. cbn [call_plain call_fault].
    destruct (Nat.eqb k n); [left | right]; reflexivity.
  Qed.
  Lemma atomic_chain s0 n len F : atomic s0 F ->
    atomic s0 (fun pl => match call_chain pl n len with Some e => raise e s0 | None => F pl end).
  Proof.
    apply atomic_guard; [intro k; apply call_chain_fault | intros; apply call_chain_handler | apply call_chain_nofault].
  Qed.

  Theorem step_atomic s0 o : atomic s0 (fun pl => stp pl s0 o).
  Proof.
    destruct o; cbn [step].
    - (* SetX *) apply atomic_vld; intro y. destruct (Z.eqb y (x s0)); [apply atomic_done | apply atomic_notify].
    - (* SetT *) apply atomic_vld; intro a'. apply atomic_vld; intro b'. apply atomic_done.
    - (* LAssign *) apply atomic_items; intro ys. apply atomic_done.
    - (* LAppend *) apply atomic_vld; intro y. apply atomic_list_commit.
    - (* LExtend *) apply atomic_items; intro ys. apply atomic_list_commit.
    - (* LIadd *) apply atomic_items; intro ys. apply atomic_list_commit.
    - (* LInsert *) apply atomic_vld; intro y. apply atomic_list_commit.
    - (* LSetSlice *) apply atomic_items; intro ys. apply atomic_list_commit.
    - (* DAssign *) apply atomic_pairs; intro ys. apply atomic_done.
    - (* DSetItem *) apply atomic_pairs; intro ys. apply atomic_done.
    - (* DUpdate *) apply atomic_pairs; intro ys. apply atomic_done.
    - (* DSetDefault *) destruct (dlookup k (d s0)); [apply atomic_done|].
      apply atomic_pairs; intro ys. apply atomic_done.
    - (* SAssign *) apply atomic_items; intro ys. apply atomic_done.
    - (* SAdd *) apply atomic_vld; intro y. apply atomic_done.
    - (* SUpdate *) apply atomic_items; intro ys. apply atomic_done.
    - (* ReadF *) destruct (f s0); [apply atomic_done|]. apply atomic_plain, atomic_done.
    - (* ReadM *) destruct (m s0); [apply atomic_done|]. apply atomic_plain, atomic_done.
    - (* ReadP *) apply atomic_plain, atomic_done.
    - (* SetP *) apply atomic_plain, atomic_done.
    - (* ReadC *) destruct (c s0); [apply atomic_done|]. apply atomic_plain, atomic_done.
    - (* SetAd *) apply atomic_chain, atomic_done.
    - (* SIxor *) apply atomic_items; intro va. apply atomic_done.
    - (* SSymDiff *) apply atomic_items; intro va. apply atomic_done.
    - (* SetY *) apply atomic_vld; intro v'. destruct (y s0) as [old|].
      + destruct (Z.eqb v' old); [apply atomic_done | apply atomic_notify].
      + apply atomic_plain, atomic_vld; intro dv. destruct (Z.eqb v' dv); [apply atomic_done | apply atomic_notify].
    - (* ReadY *) destruct (y s0); [apply atomic_done|]. apply atomic_plain, atomic_vld; intro dv. apply atomic_done.
    - (* SetAd2 *) destruct chain as [n|]; [apply atomic_chain|]; apply atomic_done.
    - (* SetXQ *) apply atomic_vld; intro v'. apply atomic_done.
    - (* ObsAdd *) apply atomic_chain, atomic_done.
    - (* ObsRemove *) destruct (oreg s0); [apply atomic_raise; right; reflexivity|]. apply atomic_chain, atomic_done.
    - (* AddZ *) apply atomic_done.
    - (* SetZ *) destruct (length (zz s0)); [apply atomic_done|]. destruct (Z.eqb _ _); [apply atomic_done|].
      destruct (oreg s0); [apply atomic_done | apply atomic_notify].
    - (* SetAdE *) apply atomic_chain, atomic_done.
    - (* Opaque *) apply atomic_done.
    - (* SetPV *) apply atomic_vld; intro y. destruct (Z.eqb y _); [apply atomic_done | apply atomic_notify].
    - (* SetDPV *) apply atomic_vld; intro y. destruct (Z.eqb y (dpv s0)); [apply atomic_done|].
      destruct (pv s0); [apply atomic_done | apply atomic_notify].
    - (* DelPV *) destruct (pv s0) as [o|]; [|apply atomic_done].
      destruct (Z.eqb o (dpv s0)); [apply atomic_done | apply atomic_notify].
    - (* RegDot *) destruct (chreg s0); [apply atomic_done|]. destruct (ch s0); [apply atomic_done|].
      apply atomic_plain, atomic_done.
    - (* UnregDot *) destruct (chreg s0); apply atomic_done.
    - (* ReadCh *) destruct (ch s0); [apply atomic_done|]. apply atomic_plain, atomic_done.
    - (* SetCV *) destruct (ch s0) as [old|].
      + destruct (Z.eqb v old); [apply atomic_done|]. destruct (chreg s0); [apply atomic_notify | apply atomic_done].
      + apply atomic_plain. destruct (Z.eqb v 0); apply atomic_done.
    - (* SetU *) apply atomic_plain. destruct (vld v); [apply atomic_done|].
      destruct (Z.leb 100 v); [apply atomic_done | apply atomic_raise; left; reflexivity].
  Qed.

  (* Either the fault is reached: the operation raises exactly the injected exception and the
     object is untouched and silent; or it is not reached: the operation is the fault-free one. *)
  Theorem step_fault_call k s0 o :
    (forall e, stp (FaultCall k e) s0 o = (s0, Raise e, [])) \/ (forall e, stp (FaultCall k e) s0 o = stp NoFault s0 o).
  Proof. apply (step_atomic s0 o). Qed.

  Theorem step_fault_handler j e s0 o :
    stp (FaultHandler j e) s0 o =
    (fst (fst (stp NoFault s0 o)), snd (fst (stp NoFault s0 o)), drop_handler j (snd (stp NoFault s0 o))).
  Proof. apply (step_atomic s0 o). Qed.

  Theorem step_nofault_raises s0 o s1 e lg : stp NoFault s0 o = (s1, Raise e, lg) -> natural e /\ s1 = s0 /\ lg = [].
  Proof. apply (step_atomic s0 o). Qed.

  Theorem step_raise_inert pl s0 o s1 e lg : stp pl s0 o = (s1, Raise e, lg) -> s1 = s0 /\ lg = [].
  Proof.
    destruct pl as [|k e0|j e0].
    - intros H. apply step_nofault_raises in H. tauto.
    - destruct (step_fault_call k s0 o) as [H|H]; rewrite H; intros E.
      + injection E as <- _ <-. auto.
      + apply step_nofault_raises in E. tauto.
    - rewrite step_fault_handler. destruct (stp NoFault s0 o) as [[s' out] lg'] eqn:E. cbn [fst snd].
      intros H. injection H as -> -> <-. apply step_nofault_raises in E. destruct E as (_ & -> & ->). auto.
  Qed.

  (* [fired] for a call fault says which side of [step_fault_call] holds: the marker OtherError is not natural *)
  Lemma fired_call k e s0 o :
    (frd (FaultCall k e) s0 o = true /\ stp (FaultCall k e) s0 o = (s0, Raise e, [])) \/
    (frd (FaultCall k e) s0 o = false /\ stp (FaultCall k e) s0 o = stp NoFault s0 o).
  Proof.
    cbn [fired]. destruct (step_fault_call k s0 o) as [H|H]; rewrite !H; [left; split; reflexivity | right].
    split; [|reflexivity]. destruct (stp NoFault s0 o) as [[s1 out] lg] eqn:E. destruct out as [|e']; [reflexivity|].
    apply step_nofault_raises in E. destruct E as [[-> | ->] _]; reflexivity.
  Qed.

  Theorem deciding_fault_inert k e s0 o s1 e' lg :
    stp (FaultCall k e) s0 o = (s1, Raise e', lg) -> s1 = s0 /\ lg = [] /\ (e' = e \/ natural e').
  Proof.
    intros H. destruct (step_raise_inert _ _ _ _ _ _ H) as [-> ->]. split; [reflexivity|]. split; [reflexivity|].
    destruct (step_fault_call k s0 o) as [E|E]; rewrite E in H.
    - injection H as <-. left. reflexivity.
    - right. apply step_nofault_raises in H. tauto.
  Qed.

  Theorem deciding_fault_reached_raises k e s0 o :
    frd (FaultCall k e) s0 o = true -> stp (FaultCall k e) s0 o = (s0, Raise e, []).
  Proof. destruct (fired_call k e s0 o) as [[_ H]|[-> _]]; [intros _; exact H | discriminate]. Qed.

  Notation run2' := (run2 vld getter_c fac_value mdef_value adapt_value ydef_value fcalls).

  Lemma clause1_of_step pl s0 o s1 out lg :
    stp pl s0 o = (s1, out, lg) -> (negb (is_raise out) || (st_eqb s1 s0 && is_nil lg)) = true.
  Proof.
    intros H. destruct out as [|e]; [reflexivity|]. apply step_raise_inert in H. destruct H as [-> ->].
    cbn. rewrite st_eqb_refl. reflexivity.
  Qed.

  (* the faulted object and the twin made the same step, up to the log entries of a raising handler *)
  Lemma law_step_unfired before pl fr out s1 lg lgt :
    match pl with FaultCall _ _ => fr = false | _ => True end ->
    lg = match pl with FaultHandler j _ => drop_handler j lgt | _ => lgt end ->
    (negb (is_raise out) || (st_eqb s1 before && is_nil lg)) = true ->
    law_step before pl fr (mkObs out s1 lg 0 0) (mkObs out s1 lgt 0 0) = [].
  Proof.
    intros Hfr -> H1. unfold law_step. cbn [o_out o_st o_log o_reg o_aux]. rewrite H1, st_eqb_refl, outcome_eqb_refl.
    destruct pl; [| subst fr |]; cbn [negb orb andb]; rewrite log_eqb_refl; destruct out; reflexivity.
  Qed.

  (* One step of the paired run from a common state: both objects arrive in a common state again,
     and the step satisfies the law. *)
  Lemma run2_cons s0 o pl r :
    exists fr out s1 lg outt lgt,
      run2' s0 s0 ((o, pl) :: r) = (o, pl, fr, mkObs out s1 lg 0 0, mkObs outt s1 lgt 0 0) :: run2' s1 s1 r
      /\ law_step s0 pl fr (mkObs out s1 lg 0 0) (mkObs outt s1 lgt 0 0) = [].
  Proof.
    cbn [run2]. destruct pl as [|k e|j e].
    - destruct (stp NoFault s0 o) as [[s1 out] lg] eqn:E. do 6 eexists. split; [reflexivity|].
      apply law_step_unfired; [exact I | reflexivity | eapply clause1_of_step, E].
    - destruct (fired_call k e s0 o) as [[-> ->]|[-> ->]].
      + do 6 eexists. split; [reflexivity|].
        unfold law_step. cbn [o_out o_st o_log o_reg o_aux is_raise negb orb andb is_nil].
        rewrite st_eqb_refl, exn_eqb_refl. reflexivity.
      + destruct (stp NoFault s0 o) as [[s1 out] lg] eqn:E. do 6 eexists. split; [reflexivity|].
        apply law_step_unfired; [reflexivity | reflexivity | eapply clause1_of_step, E].
    - pose proof (clause1_of_step (FaultHandler j e) s0 o) as H1. rewrite step_fault_handler in *.
      destruct (stp NoFault s0 o) as [[s1 out] lg]. cbn [fst snd] in *. do 6 eexists. split; [reflexivity|].
      apply law_step_unfired; [exact I | reflexivity | eapply H1; reflexivity].
  Qed.

  Theorem run2_law : forall h s0 i, law_hist i s0 (run2' s0 s0 h) = [].
  Proof.
    induction h as [|[o pl] r IH]; intros s0 i; [reflexivity|].
    destruct (run2_cons s0 o pl r) as (fr & out & s1 & lg & outt & lgt & -> & Hlaw).
    cbn [law_hist]. rewrite Hlaw. apply IH.
  Qed.

  Theorem future_indistinguishable : forall h a,
    forall o pl fr oa ot, In (o, pl, fr, oa, ot) (run2' a a h) -> o_st oa = o_st ot.
  Proof.
    induction h as [|[o pl] r IH]; intros a o' pl' fr' oa' ot' Hin; [destruct Hin|].
    destruct (run2_cons a o pl r) as (fr & out & s1 & lg & outt & lgt & E & _). rewrite E in Hin.
    destruct Hin as [Heq|Hin]; [injection Heq as _ _ _ <- <-; reflexivity | eapply IH, Hin].
  Qed.
End Main.
