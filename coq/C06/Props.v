(* C06 — property theorems only.  Each theorem is closed by a lemma of Proofs.v (the readings of the event
   clauses: by the lemma about any observation of that shape, at [step_shape]) and followed by
   Print Assumptions; the closing Example is a computation.  All of them hold for every key
   validator [kv] and value validator [vv] (accepting, rejecting, converting,
   non-idempotent), every target, every start contents [m] and every operation
   or history. *)
From Coq Require Import ZArith List Bool.
From TV Require Import Common.LSet Common.LMap Common.Harness C06.Model C06.Law C06.Proofs.
Import ListNotations.
Open Scope Z_scope.

(* The whole law (refinement clauses 1, 2, 8; key order, clause 9; failing-op clause 3; the event
   clauses of all four channels) holds at every step of every history in which
   the input shape of finding F6 does not occur. *)
Theorem law_holds_on_every_f6_free_history :
  forall (kv vv : Z -> option Z) (tgt : target) (ops : list op) (m : amap) (i : Z),
    f6_free kv vv tgt m ops = true -> law_hist kv vv tgt i m (run kv vv tgt m ops) = [].
Proof. exact run_law. Qed.
Print Assumptions law_holds_on_every_f6_free_history.

(* ... in particular on every history at all when the key validator accepts or
   rejects but never converts. *)
Theorem law_holds_on_every_history_nonconverting_keys :
  forall (kv vv : Z -> option Z) (tgt : target), (forall x y, kv x = Some y -> y = x) ->
  forall (ops : list op) (m : amap) (i : Z), law_hist kv vv tgt i m (run kv vv tgt m ops) = [].
Proof. exact run_law_nonconverting. Qed.
Print Assumptions law_holds_on_every_history_nonconverting_keys.

(* F6: the unrestricted law is false of the model that follows the code
   (Dict(CInt, CInt) holding {1: 10}, setdefault('1', 11)): contents (2) and
   return value (8) differ from the built-in dict. *)
Theorem setdefault_coercing_refuted :
  exists kv vv m k v,
    f6_trigger kv vv m (SetDefault k v) = true /\
    law_step kv vv Plain m (SetDefault k v) (step kv vv Plain m (SetDefault k v)) = [2; 8].
Proof. exact f6_witness. Qed.
Print Assumptions setdefault_coercing_refuted.

(* ... and that is the only way the law can fail: in any history, with any
   validators, every failing clause is "contents" or "return value" (of a
   setdefault in the F6 shape). *)
Theorem only_f6_can_fail :
  forall (kv vv : Z -> option Z) (tgt : target) (m : amap) (o : op) (c : Z),
    In c (law_step kv vv tgt m o (step kv vv tgt m o)) ->
    f6_trigger kv vv m o = true /\ (c = 2 \/ c = 8).
Proof. exact step_law_upto_f6. Qed.
Print Assumptions only_f6_can_fail.

(* Refinement of the built-in dict on validated keys and values: outcome
   (exception class), contents, return value. *)
Theorem refines_dict :
  forall (kv vv : Z -> option Z) (tgt : target) (m : amap) (o : op),
    f6_trigger kv vv m o = false ->
    let ob := step kv vv tgt m o in
    let '(bo, ba, br) := builtin kv vv m o (o_ret ob) in
    o_out ob = bo /\ (forall k, lookup k (o_after ob) = lookup k ba) /\ o_ret ob = br.
Proof. exact step_refines. Qed.
Print Assumptions refines_dict.

(* The keys keep the insertion order of the built-in dict (an overwritten key keeps its place, a new key goes to
   the end, update / |= append new keys in the order of their first occurrence in the argument; popitem's reference is
   the item inserted last) — for every operation, also in the F6 shape. *)
Theorem insertion_order_is_the_dicts :
  forall (kv vv : Z -> option Z) (tgt : target) (m : amap) (o : op),
    order_ok kv vv m o (step kv vv tgt m o) = true.
Proof. exact step_order. Qed.
Print Assumptions insertion_order_is_the_dicts.

(* A failing operation changes nothing and notifies nobody. *)
Theorem failing_op_untouched :
  forall (kv vv : Z -> option Z) (tgt : target) (m : amap) (o : op) (e : exn),
    let ob := step kv vv tgt m o in
    o_out ob = Raise e ->
    o_after ob = m /\ o_events ob = [] /\ o_events2 ob = [] /\ o_oevents ob = []
    /\ (o_ievents ob = None \/ o_ievents ob = Some []).
Proof. intros kv vv tgt m o e. exact (shape_failing_inert _ _ _ _ e (step_shape kv vv tgt m o)). Qed.
Print Assumptions failing_op_untouched.

(* Reconstruction law, unconditional (also in the F6 shape): added keys were
   absent and now hold the given values, changed keys were present with the
   given old values and still are, removed keys held the given values and are
   gone, before = removed ∪ changed ∪ (after ∖ keys added), and the three parts
   are never all empty. *)
Theorem reconstruction_law :
  forall (kv vv : Z -> option Z) (tgt : target) (m : amap) (o : op) (removed added changed : amap),
    In (removed, added, changed) (o_events (step kv vv tgt m o)) ->
    let after := o_after (step kv vv tgt m o) in
    (forall k, has k added = true -> lookup k m = None /\ lookup k after = lookup k added) /\
    (forall k, has k changed = true -> lookup k m = lookup k changed /\ has k after = true) /\
    (forall k, has k removed = true -> lookup k m = lookup k removed /\ lookup k after = None) /\
    (forall k, lookup k m = lookup k (removed ++ changed ++ minus after (keys added))) /\
    (exists k, has k removed = true \/ has k added = true \/ has k changed = true).
Proof. intros kv vv tgt m o removed added changed. exact (shape_reconstruction _ _ _ _ _ _ _ (step_shape kv vv tgt m o)). Qed.
Print Assumptions reconstruction_law.

(* At most one notification per mutating operation, exactly one when the mapping
   changed; every notifier (also one registered after an observe() handler)
   receives the same event, and the observer's event is its merge. *)
Theorem one_event_per_change :
  forall (kv vv : Z -> option Z) (tgt : target) (m : amap) (o : op),
    is_ctor o = false ->
    let ob := step kv vv tgt m o in
    (length (o_events ob) <= 1)%nat /\
    ((exists k, lookup k m <> lookup k (o_after ob)) -> exists e, o_events ob = [e]) /\
    o_events2 ob = o_events ob /\
    o_oevents ob = map (factory (o_after ob)) (o_events ob).
Proof. intros kv vv tgt m o Hc. apply (shape_event_count tgt). rewrite <- Hc. apply step_shape. Qed.
Print Assumptions one_event_per_change.

(* Construction (TraitDict(items, validators) / assignment to a Dict trait): the new dict is exactly
   dict(validated items) — first rejection aborts and leaves the old object —, and nobody is notified. *)
Theorem construction_is_dict_of_validated_items :
  forall (kv vv : Z -> option Z) (tgt : target) (m : amap) (a : bool) (ps : list (Z * Z)),
    let ob := step kv vv tgt m (Ctor a ps) in
    match validate_pairs kv vv (items_of a ps) with
    | Some vps => o_out ob = Ok /\ o_after ob = update_all vps []
    | None => o_out ob = Raise TraitError /\ o_after ob = m
    end /\ o_events ob = [] /\ o_events2 ob = [] /\ o_oevents ob = [].
Proof. exact ctor_spec. Qed.
Print Assumptions construction_is_dict_of_validated_items.

(* An event for an operation that leaves the mapping as it was (d[k] = d[k])
   is an identity event: nothing removed, nothing added, changed keys keep their values. *)
Theorem event_without_change_is_identity :
  forall (kv vv : Z -> option Z) (tgt : target) (m : amap) (o : op) (removed added changed : amap),
    (forall k, lookup k m = lookup k (o_after (step kv vv tgt m o))) ->
    In (removed, added, changed) (o_events (step kv vv tgt m o)) ->
    removed = [] /\ added = [] /\
    forall k, has k changed = true -> lookup k changed = lookup k (o_after (step kv vv tgt m o)).
Proof. intros kv vv tgt m o removed added changed. exact (shape_unchanged_event _ _ _ _ _ _ _ (step_shape kv vv tgt m o)). Qed.
Print Assumptions event_without_change_is_identity.

(* The merged DictChangeEvent of dict_event_factory: removed holds old values,
   added holds new values, (before ∖ removed) ∪ added = after, not both empty. *)
Theorem observer_event_faithful :
  forall (kv vv : Z -> option Z) (tgt : target) (m : amap) (o : op) (removed added : amap),
    In (removed, added) (o_oevents (step kv vv tgt m o)) ->
    let after := o_after (step kv vv tgt m o) in
    (forall k, has k removed = true -> lookup k m = lookup k removed) /\
    (forall k, has k added = true -> lookup k after = lookup k added) /\
    (forall k, lookup k after = lookup k (added ++ minus m (keys removed))) /\
    (removed <> [] \/ added <> []).
Proof. intros kv vv tgt m o removed added. exact (shape_observer_event _ _ _ _ _ _ (step_shape kv vv tgt m o)). Qed.
Print Assumptions observer_event_faithful.

(* dict_event_factory maps any faithful (removed, added, changed) to a faithful merged event. *)
Theorem factory_preserves_faithfulness :
  forall (b a r ad c : amap), NoDup (keys c) ->
    ev_ok b a (r, ad, c) = true -> oev_ok b a (factory a (r, ad, c)) = true.
Proof. exact factory_ok. Qed.
Print Assumptions factory_preserves_faithfulness.

(* Non-vacuity: a history with coercing validators in which keys are added,
   changed (also through a coerced duplicate in an update), removed, an
   operation fails, a pop with default stays silent, and the F6 shape is absent. *)
Example history_nontrivial :
  let kv := vld_of VCInt in let vv := vld_of VCInt in
  let ops := [SetItem 101 11; Update false [(102, 12); (2, 113); (1, 11); (3, 10)]; DelItem 9; Pop 9 (Some 5);
              SetDefault 200 1; PopItem; Clear; Clear] in
  let h := run kv vv (Obj true) [(1, 10)] ops in
  f6_free kv vv (Obj true) [(1, 10)] ops = true
  /\ map (fun p => length (o_events (snd p))) h = [1; 1; 0; 0; 0; 1; 1; 0]%nat
  /\ map (fun p => o_out (snd p)) h = [Ok; Ok; Raise KeyError; Ok; Raise TraitError; Ok; Ok; Ok]
  /\ map (fun p => o_oevents (snd p)) (firstn 2 h)
     = [[([(1, 10)], [(1, 11)])]; [([(1, 11)], [(2, 13); (3, 10); (1, 11)])]].
Proof. vm_compute. repeat split; reflexivity. Qed.
