(* C06 — proofs that the model of TraitDict satisfies the law, for every key and
   value validator, every state, every target and every operation / history.
   Two case analyses of [step] carry everything: [step_shape] (what a step shows: a failure, a quiet
   success, or one faithful non-empty event) for the event clauses and their readings, and
   [step_builtin] (outcome, key order and, outside the F6 shape, contents and return value are the
   built-in dict's) for the refinement clauses. *)
From Coq Require Import ZArith List Bool Setoid.
From TV Require Import Common.LSet Common.LMap Common.Harness C06.Model C06.Law.
Import ListNotations.
Open Scope Z_scope.

Lemma chk_true k : chk k true = []. Proof. reflexivity. Qed.

Lemma mempty_has_iff m : mempty m = true <-> forall k, has k m = false.
Proof.
  split; [apply mempty_has|]. intros H. destruct m as [|[k v] r]; [reflexivity|].
  specialize (H k). rewrite has_cons, Z.eqb_refl in H. discriminate.
Qed.

Lemma ev_ok_spec b a r ad c :
  ev_ok b a (r, ad, c) = true <->
  (forall k, has k ad = true -> has k b = false /\ lookup k a = lookup k ad) /\
  (forall k, has k c = true -> lookup k b = lookup k c /\ has k a = true) /\
  (forall k, has k r = true -> lookup k b = lookup k r /\ has k a = false) /\
  (forall k, lookup k b = lookup k (r ++ c ++ minus a (keys ad))).
Proof.
  unfold ev_ok, undo. rewrite !andb_true_iff, !forallb_keys, mapeq_spec.
  setoid_rewrite andb_true_iff. setoid_rewrite negb_true_iff. setoid_rewrite oz_eqb_eq. tauto.
Qed.

Lemma oev_ok_spec b a r ad :
  oev_ok b a (r, ad) = true <->
  (forall k, has k r = true -> lookup k b = lookup k r) /\
  (forall k, has k ad = true -> lookup k a = lookup k ad) /\
  (forall k, lookup k a = lookup k (ad ++ minus b (keys r))).
Proof.
  unfold oev_ok. rewrite !andb_true_iff, !forallb_keys, mapeq_spec. setoid_rewrite oz_eqb_eq. tauto.
Qed.

Lemma lookup_factory_added after k c : forall acc,
  lookup k (fold_left (fun acc p => match lookup (fst p) after with
                                    | Some x => mset (fst p) x acc
                                    | None => acc end) c acc)
  = if has k c && has k after then lookup k after else lookup k acc.
Proof.
  induction c as [|[k1 v1] c IH]; intros acc; [reflexivity|]. cbn [fold_left fst].
  rewrite IH, has_cons.
  destruct (Z.eqb_spec k k1) as [->|Hne]; cbn [orb].
  - destruct (lookup k1 after) as [x|] eqn:El.
    + assert (Ha : has k1 after = true) by (apply has_true; eauto).
      rewrite Ha, andb_true_r, lookup_mset, Z.eqb_refl. destruct (has k1 c); reflexivity.
    + assert (Ha : has k1 after = false) by (apply has_false; exact El).
      rewrite Ha, !andb_false_r. reflexivity.
  - destruct (lookup k1 after) as [x|]; [|reflexivity].
    rewrite lookup_mset. destruct (Z.eqb_spec k k1); [contradiction|]. reflexivity.
Qed.

Lemma factory_ok b a r ad c :
  NoDup (keys c) -> ev_ok b a (r, ad, c) = true -> oev_ok b a (factory a (r, ad, c)) = true.
Proof.
  intros Hnd H. apply ev_ok_spec in H. destruct H as (H1 & H2 & H3 & H4).
  unfold factory. apply oev_ok_spec.
  split; [|split].
  - intros k Hk. rewrite lookup_update_all_nodup by exact Hnd. rewrite has_update_all in Hk. destruct (has k c) eqn:Ec.
    + destruct (H2 k Ec) as [Hb _]. apply has_true in Ec. destruct Ec as [v Ev]. rewrite Ev in *. exact Hb.
    + apply has_false in Ec. rewrite Ec. cbn in Hk. apply H3. exact Hk.
  - intros k Hk. rewrite lookup_factory_added. unfold has in Hk. rewrite lookup_factory_added in Hk.
    destruct (has k c && has k a) eqn:E; [reflexivity|]. apply H1. unfold has. exact Hk.
  - intros k. rewrite lookup_app, lookup_factory_added, lookup_minus, lookup_keys, has_update_all.
    destruct (has k c) eqn:Ec.
    + destruct (H2 k Ec) as [_ Ha]. rewrite Ha. cbn. apply has_true in Ha. destruct Ha as [x ->]. reflexivity.
    + cbn [andb]. destruct (lookup k ad) as [y|] eqn:Ead.
      * assert (Hh : has k ad = true) by (apply has_true; eauto).
        destruct (H1 k Hh) as [_ Ha]. rewrite Ha. exact Ead.
      * cbn [orb]. destruct (has k r) eqn:Er.
        -- destruct (H3 k Er) as [_ Ha]. apply has_false. exact Ha.
        -- specialize (H4 k). rewrite !lookup_app, lookup_minus, lookup_keys in H4.
           apply has_false in Ec. apply has_false in Er. rewrite Ec, Er in H4.
           assert (Hh : has k ad = false) by (apply has_false; exact Ead). rewrite Hh in H4. symmetry. exact H4.
Qed.

Lemma factory_nonempty a r ad c :
  ev_nonempty (r, ad, c) = true -> oev_nonempty (factory a (r, ad, c)) = true.
Proof.
  unfold ev_nonempty, oev_nonempty, factory. cbn [fst snd]. intros H.
  destruct c as [|[k v] c].
  - cbn [update_all fold_left]. destruct (mempty r), (mempty ad); cbn in *; congruence.
  - destruct (mempty (update_all ((k, v) :: c) r)) eqn:E; [|reflexivity].
    pose proof (mempty_has _ E k) as Hk. rewrite has_update_all, has_cons, Z.eqb_refl in Hk. discriminate.
Qed.

Lemma ev_removal m after r :
  (forall k, has k r = true -> lookup k m = lookup k r) ->
  (forall k, lookup k after = if has k r then None else lookup k m) ->
  ev_ok m after (r, [], []) = true.
Proof.
  intros Hr Ha. apply ev_ok_spec. split; [discriminate|]. split; [discriminate|]. split.
  - intros k Hk. split; [apply Hr, Hk | apply has_false; rewrite Ha, Hk; reflexivity].
  - intro k. cbn [app keys map]. rewrite lookup_app, lookup_minus, Ha. cbn [mem existsb].
    destruct (has k r) eqn:E.
    + rewrite (Hr k E). apply has_true in E. destruct E as [v ->]. reflexivity.
    + apply has_false in E. rewrite E. reflexivity.
Qed.

(* the loop on already validated pairs *)
Fixpoint acc_loop (m : amap) (vps : list (Z * Z)) (vd added changed : amap) : amap * amap * amap :=
  match vps with
  | [] => (vd, added, changed)
  | (vk, vvv) :: r =>
      match lookup vk m with
      | Some old => acc_loop m r (mset vk vvv vd) added (mset vk old changed)
      | None => acc_loop m r (mset vk vvv vd) (mset vk vvv added) changed
      end
  end.

Definition loop_inv (m vd ad ch : amap) : Prop :=
  NoDup (keys vd) /\ NoDup (keys ch) /\
  (forall k, lookup k ad = if has k m then None else lookup k vd) /\
  (forall k, lookup k ch = if has k vd then lookup k m else None).

Lemma loop_inv_init m : loop_inv m [] [] [].
Proof.
  split; [constructor|]. split; [constructor|]. split; intro k; cbn; [destruct (has k m)|]; reflexivity.
Qed.

Lemma acc_loop_inv m vps : forall vd ad ch,
  loop_inv m vd ad ch ->
  let '(vd', ad', ch') := acc_loop m vps vd ad ch in loop_inv m vd' ad' ch' /\ vd' = update_all vps vd.
Proof.
  induction vps as [|[vk vvv] r IH]; intros vd ad ch Hinv; cbn [acc_loop]; [split; [exact Hinv | reflexivity]|].
  change (update_all ((vk, vvv) :: r) vd) with (update_all r (mset vk vvv vd)).
  destruct Hinv as (N1 & N2 & I1 & I2). destruct (lookup vk m) as [old|] eqn:El; apply IH.
  - split; [apply nodup_mset, N1|]. split; [apply nodup_mset, N2|]. split.
    + intro k. rewrite I1, lookup_mset. destruct (has k m) eqn:Eh; [reflexivity|].
      destruct (Z.eqb_spec k vk) as [->|]; [|reflexivity]. apply has_false in Eh. congruence.
    + intro k. rewrite lookup_mset, has_mset, I2. destruct (Z.eqb_spec k vk) as [->|]; cbn [orb]; [|reflexivity].
      symmetry. exact El.
  - split; [apply nodup_mset, N1|]. split; [exact N2|]. split.
    + intro k. rewrite !lookup_mset, I1. destruct (Z.eqb_spec k vk) as [->|]; [|reflexivity].
      apply has_false in El. rewrite El. reflexivity.
    + intro k. rewrite has_mset, I2. destruct (Z.eqb_spec k vk) as [->|]; cbn [orb]; [|reflexivity].
      rewrite El. destruct (has vk vd); reflexivity.
Qed.

Lemma update_event_ok m vd ad ch :
  loop_inv m vd ad ch -> ev_ok m (update_all vd m) ([], ad, ch) = true.
Proof.
  intros (N1 & N2 & I1 & I2). apply ev_ok_spec.
  assert (La : forall k, lookup k (update_all vd m) = match lookup k vd with Some v => Some v | None => lookup k m end).
  { intro k. apply lookup_update_all_nodup, N1. }
  split; [|split; [|split; [discriminate|]]].
  - intros k H. unfold has in H. rewrite I1 in H. rewrite La, I1.
    destruct (has k m); [discriminate|]. destruct (lookup k vd); [split; reflexivity | discriminate].
  - intros k H. unfold has in H |- *. rewrite I2 in H. rewrite La, I2.
    destruct (has k vd) eqn:Eh; [|discriminate]. apply has_true in Eh. destruct Eh as [v ->]. split; reflexivity.
  - intro k. cbn [app]. rewrite lookup_app, lookup_minus, lookup_keys, I2, La. unfold has at 2. rewrite I1.
    destruct (has k vd) eqn:Ev.
    + destruct (lookup k m) as [x|] eqn:Em; [reflexivity|].
      assert (Hm : has k m = false) by (apply has_false; exact Em). rewrite Hm.
      apply has_true in Ev. destruct Ev as [v ->]. reflexivity.
    + apply has_false in Ev. rewrite Ev. destruct (has k m); reflexivity.
Qed.

Lemma update_silent m vd ad ch :
  loop_inv m vd ad ch -> mempty ad = true -> mempty ch = true -> mapeq m (update_all vd m) = true.
Proof.
  intros (N1 & N2 & I1 & I2) Ha Hc. apply mapeq_spec. intro k. rewrite lookup_update_all_nodup by exact N1.
  pose proof (mempty_lookup _ Ha k) as La. pose proof (mempty_lookup _ Hc k) as Lc. rewrite I1 in La. rewrite I2 in Lc.
  destruct (lookup k vd) as [v|] eqn:Ev; [|reflexivity].
  assert (Hv : has k vd = true) by (apply has_true; eauto). rewrite Hv in Lc.
  destruct (has k m) eqn:Hm; [apply has_true in Hm; destruct Hm as [x Hx]; congruence | discriminate].
Qed.

Section Shape.
  Variable tgt : target.

  (* a failure, a quiet success, or one faithful non-empty event; [c] says that the step is a
     construction, the only quiet step that may change the contents *)
  Inductive shape (c : bool) (m : amap) : obs -> Prop :=
  | sh_raise e : shape c m (raise tgt e m)
  | sh_quiet after r : (c = false -> mapeq m after = true) -> shape c m (ok tgt after [] r)
  | sh_event after e r :
      NoDup (keys (snd e)) -> ev_ok m after e = true -> ev_nonempty e = true -> shape c m (ok tgt after [e] r).

  Lemma sh_same c m r : shape c m (ok tgt m [] r).
  Proof. apply sh_quiet. intros _. apply mapeq_refl. Qed.

  (* __setitem__ / setdefault store one pair: the loop of update() on that pair *)
  Lemma store_shape c m vk vvv r : shape c m (store tgt m vk vvv r).
  Proof.
    pose proof (acc_loop_inv m [(vk, vvv)] _ _ _ (loop_inv_init m)) as H. cbn [acc_loop] in H. unfold store.
    destruct (lookup vk m) as [old|]; destruct H as [Hinv _];
      (apply sh_event; [apply Hinv | exact (update_event_ok _ _ _ _ Hinv) | reflexivity]).
  Qed.

  Lemma removed_shape c m k x r :
    lookup k m = Some x -> shape c m (ok tgt (mremove k m) [([(k, x)], [], [])] r).
  Proof.
    intros Hl. apply sh_event; [constructor | apply ev_removal | reflexivity].
    - intros k' Hk. rewrite has_single in Hk. apply Z.eqb_eq in Hk. subst k'. cbn. rewrite Z.eqb_refl. exact Hl.
    - intro k'. rewrite lookup_mremove, has_single. reflexivity.
  Qed.

  Lemma cleared_shape c m : mempty m = false -> shape c m (ok tgt [] [(m, [], [])] RNone).
  Proof.
    intros Em. apply sh_event; [constructor | apply ev_removal | unfold ev_nonempty; rewrite Em; reflexivity].
    - reflexivity.
    - intro k. unfold has. destruct (lookup k m); reflexivity.
  Qed.

  Lemma ev_codes_silent out m after r :
    mapeq m after = true -> ev_codes tgt m (mk tgt out after [] r) = [].
  Proof.
    intros H. unfold ev_codes, mk, chan, ochan, silent.
    cbn [o_after o_out o_events o_events2 o_oevents o_ievents map length forallb is_nil Nat.leb].
    rewrite H. rewrite mapeq_sym in H. rewrite H. cbn [orb andb chk app].
    destruct tgt as [|[|]]; cbn; destruct (is_raise out); reflexivity.
  Qed.

  Lemma ev_codes_one m after e r :
    NoDup (keys (snd e)) -> ev_ok m after e = true -> ev_nonempty e = true ->
    ev_codes tgt m (mk tgt Ok after [e] r) = [].
  Proof.
    intros Hnd Hok Hne. destruct e as [[rm ad] c]. cbn [snd] in Hnd.
    pose proof (factory_ok _ _ _ _ _ Hnd Hok) as Ho. pose proof (factory_nonempty after _ _ _ Hne) as Hon.
    unfold ev_codes, mk, chan, ochan, silent.
    cbn [o_after o_out o_events o_events2 o_oevents o_ievents map length forallb is_nil Nat.leb is_raise negb].
    rewrite Hok, Hne, Ho, Hon. rewrite !orb_true_r. cbn [orb andb chk app].
    destruct tgt as [|[|]]; cbn [chan length forallb is_nil Nat.leb negb]; rewrite ?Hok, ?Hne, ?orb_true_r; reflexivity.
  Qed.

  Lemma shape_ev_codes m ob : shape false m ob -> ev_codes tgt m ob = [].
  Proof.
    intros [e | after r H | after e r Hnd Hok Hne].
    - apply ev_codes_silent, mapeq_refl.
    - apply ev_codes_silent, H. reflexivity.
    - apply ev_codes_one; assumption.
  Qed.

  Lemma shape_failing_inert c m ob e :
    shape c m ob -> o_out ob = Raise e ->
    o_after ob = m /\ o_events ob = [] /\ o_events2 ob = [] /\ o_oevents ob = []
    /\ (o_ievents ob = None \/ o_ievents ob = Some []).
  Proof.
    intros [e0 | after r _ | after e0 r _ _ _] He; try discriminate He.
    cbn. repeat split. destruct tgt as [|[|]]; auto.
  Qed.

  Lemma shape_reconstruction c m ob removed added changed :
    shape c m ob -> In (removed, added, changed) (o_events ob) ->
    let after := o_after ob in
    (forall k, has k added = true -> lookup k m = None /\ lookup k after = lookup k added) /\
    (forall k, has k changed = true -> lookup k m = lookup k changed /\ has k after = true) /\
    (forall k, has k removed = true -> lookup k m = lookup k removed /\ lookup k after = None) /\
    (forall k, lookup k m = lookup k (removed ++ changed ++ minus after (keys added))) /\
    (exists k, has k removed = true \/ has k added = true \/ has k changed = true).
  Proof.
    intros [e | after r _ | after e r _ Hok Hne] Hin; try contradiction Hin.
    destruct Hin as [->|[]]. cbn [ok mk o_after]. apply ev_ok_spec in Hok. destruct Hok as (H1 & H2 & H3 & H4).
    split; [|split; [|split; [|split]]]; try assumption.
    - intros k Hk. destruct (H1 k Hk) as [Hb Ha]. split; [apply has_false; exact Hb | exact Ha].
    - intros k Hk. destruct (H3 k Hk) as [Hb Ha]. split; [exact Hb | apply has_false; exact Ha].
    - unfold ev_nonempty in Hne. apply negb_true_iff in Hne.
      destruct removed as [|[k v] r']; [|exists k; left; rewrite has_cons, Z.eqb_refl; reflexivity].
      destruct added as [|[k v] r']; [|exists k; right; left; rewrite has_cons, Z.eqb_refl; reflexivity].
      destruct changed as [|[k v] r']; [discriminate|]. exists k; right; right; rewrite has_cons, Z.eqb_refl; reflexivity.
  Qed.

  Lemma shape_unchanged_event c m ob removed added changed :
    shape c m ob -> (forall k, lookup k m = lookup k (o_after ob)) ->
    In (removed, added, changed) (o_events ob) ->
    removed = [] /\ added = [] /\ forall k, has k changed = true -> lookup k changed = lookup k (o_after ob).
  Proof.
    intros Hs Heq Hin. destruct (shape_reconstruction _ _ _ _ _ _ Hs Hin) as (H1 & H2 & H3 & _ & _).
    split; [|split].
    - destruct removed as [|[k v] r]; [reflexivity|].
      destruct (H3 k) as [Hb Ha]; [rewrite has_cons, Z.eqb_refl; reflexivity|].
      rewrite Heq, Ha in Hb. cbn in Hb. rewrite Z.eqb_refl in Hb. discriminate.
    - destruct added as [|[k v] r]; [reflexivity|].
      destruct (H1 k) as [Hb Ha]; [rewrite has_cons, Z.eqb_refl; reflexivity|].
      rewrite Heq, Ha in Hb. cbn in Hb. rewrite Z.eqb_refl in Hb. discriminate.
    - intros k Hk. destruct (H2 k Hk) as [Hb _]. rewrite <- Hb. apply Heq.
  Qed.

  Lemma shape_event_count m ob :
    shape false m ob ->
    (length (o_events ob) <= 1)%nat /\
    ((exists k, lookup k m <> lookup k (o_after ob)) -> exists e, o_events ob = [e]) /\
    o_events2 ob = o_events ob /\
    o_oevents ob = map (factory (o_after ob)) (o_events ob).
  Proof.
    intros [e | after r H | after e r _ _ _]; cbn; repeat split; auto.
    - intros [k Hk]. contradiction Hk. reflexivity.
    - intros [k Hk]. contradiction Hk. apply mapeq_spec, H. reflexivity.
    - intros _. exists e. reflexivity.
  Qed.

  Lemma shape_observer_event c m ob removed added :
    shape c m ob -> In (removed, added) (o_oevents ob) ->
    let after := o_after ob in
    (forall k, has k removed = true -> lookup k m = lookup k removed) /\
    (forall k, has k added = true -> lookup k after = lookup k added) /\
    (forall k, lookup k after = lookup k (added ++ minus m (keys removed))) /\
    (removed <> [] \/ added <> []).
  Proof.
    intros [e | after r _ | after [[rm ad] ch] r Hnd Hok Hne] Hin; cbn [raise ok mk o_oevents map] in Hin;
      try contradiction Hin.
    destruct Hin as [Heq|[]]. cbn [ok mk o_after]. cbn [snd] in Hnd.
    pose proof (factory_ok _ _ _ _ _ Hnd Hok) as Ho. pose proof (factory_nonempty after _ _ _ Hne) as Hon.
    rewrite Heq in Ho, Hon. apply oev_ok_spec in Ho. destruct Ho as (H1 & H2 & H3).
    repeat split; try assumption. unfold oev_nonempty in Hon. cbn [fst snd] in Hon.
    destruct removed; [|left; discriminate]. destruct added; [discriminate | right; discriminate].
  Qed.
End Shape.

Definition addkey (ks : list Z) (k : Z) : list Z := if mem k ks then ks else ks ++ [k].
Definition addkeys (l ks : list Z) : list Z := fold_left addkey l ks.

Lemma keys_mset k v m : keys (mset k v m) = addkey (keys m) k.
Proof.
  unfold addkey. induction m as [|[k2 v2] r IH]; cbn [mset keys map fst]; [reflexivity|].
  rewrite mem_cons. destruct (Z.eqb_spec k k2) as [->|Hne]; cbn [keys map fst orb]; [reflexivity|].
  unfold keys in IH. rewrite IH. destruct (mem k (map fst r)); reflexivity.
Qed.

Lemma keys_mset_present k v x m : lookup k m = Some x -> keys (mset k v m) = keys m.
Proof.
  intros H. rewrite keys_mset. unfold addkey. rewrite lookup_keys. unfold has. rewrite H. reflexivity.
Qed.

Lemma keys_update_all ps : forall m, keys (update_all ps m) = addkeys (keys ps) (keys m).
Proof.
  induction ps as [|[k v] ps IH]; intros m; [reflexivity|]. cbn [update_all fold_left fst snd keys map addkeys].
  change (fold_left (fun acc p => mset (fst p) (snd p) acc) ps ?x) with (update_all ps x).
  rewrite IH, keys_mset. reflexivity.
Qed.

Lemma mem_addkey x ks k : mem x (addkey ks k) = mem x ks || (x =? k).
Proof.
  unfold addkey. destruct (mem k ks) eqn:E.
  - destruct (Z.eqb_spec x k) as [->|]; [rewrite E; reflexivity | rewrite orb_false_r; reflexivity].
  - rewrite mem_app, mem_cons, mem_nil, orb_false_r. reflexivity.
Qed.

Lemma mem_addkeys x l : forall ks, mem x (addkeys l ks) = mem x ks || mem x l.
Proof.
  induction l as [|k l IH]; intros ks; cbn [addkeys fold_left]; [rewrite mem_nil, orb_false_r; reflexivity|].
  change (fold_left addkey l ?a) with (addkeys l a). rewrite IH, mem_addkey, mem_cons.
  destruct (mem x ks), (x =? k), (mem x l); reflexivity.
Qed.

Lemma addkeys_app l1 l2 ks : addkeys (l1 ++ l2) ks = addkeys l2 (addkeys l1 ks).
Proof. unfold addkeys. apply fold_left_app. Qed.

(* updating with the dict built from the pairs inserts the same keys in the same order as updating with the pairs *)
Lemma addkeys_via_dict l : forall acc ks, addkeys (addkeys l acc) ks = addkeys (acc ++ l) ks.
Proof.
  induction l as [|x l IH]; intros acc ks; [rewrite app_nil_r; reflexivity|].
  change (addkeys (x :: l) acc) with (addkeys l (addkey acc x)). rewrite IH. unfold addkey. destruct (mem x acc) eqn:E.
  - rewrite !addkeys_app. change (addkeys (x :: l) ?a) with (addkeys l (addkey a x)). f_equal. unfold addkey.
    rewrite mem_addkeys, E, orb_true_r. reflexivity.
  - rewrite <- app_assoc. reflexivity.
Qed.

Lemma keys_update_via_dict vps m : keys (update_all (update_all vps []) m) = keys (update_all vps m).
Proof.
  rewrite (keys_update_all (update_all vps []) m), (keys_update_all vps []), (keys_update_all vps m).
  cbn [keys map]. rewrite addkeys_via_dict. reflexivity.
Qed.

Lemma update_contents m vps k :
  lookup k (update_all (update_all vps []) m) = lookup k (update_all vps m).
Proof.
  rewrite lookup_update_all_nodup by (apply nodup_update_all; constructor).
  symmetry. apply lookup_update_all.
Qed.

Lemma zlist_refl l : list_eqb Z.eqb l l = true.
Proof. induction l as [|x l IH]; [reflexivity|]. cbn. rewrite Z.eqb_refl. exact IH. Qed.
Lemma outcome_eqb_refl o : outcome_eqb o o = true.
Proof. destruct o as [|[]]; reflexivity. Qed.
Lemma retv_eqb_refl r : retv_eqb r r = true.
Proof. destruct r; cbn; rewrite ?Z.eqb_refl; reflexivity. Qed.

Section Main.
  Variable kv vv : Z -> option Z.
  Variable tgt : target.

  Notation step := (step kv vv tgt).
  Notation ev_codes := (ev_codes tgt).
  Notation ref_codes3 := (ref_codes3 kv vv).
  Notation law_step := (law_step kv vv tgt).

  (* the loops validate first and then run on the validated pairs *)
  Lemma upd_loop_validated m items : forall vd ad ch,
    upd_loop kv vv m items vd ad ch
    = match validate_pairs kv vv items with
      | Some vps => Some (acc_loop m vps vd ad ch)
      | None => None
      end.
  Proof.
    induction items as [|[k v] r IH]; intros vd ad ch; [reflexivity|]. cbn [upd_loop validate_pairs].
    destruct (kv k) as [vk|]; [|reflexivity]. destruct (vv v) as [vvv|]; [|reflexivity].
    destruct (lookup vk m) as [old|] eqn:El; rewrite IH; destruct (validate_pairs kv vv r); cbn [acc_loop]; rewrite ?El; reflexivity.
  Qed.

  Lemma ctor_loop_validated items : forall acc,
    ctor_loop kv vv items acc
    = match validate_pairs kv vv items with
      | Some vps => Some (update_all vps acc)
      | None => None
      end.
  Proof.
    induction items as [|[k v] r IH]; intros acc; [reflexivity|]. cbn [ctor_loop validate_pairs].
    destruct (kv k) as [vk|]; [|reflexivity]. destruct (vv v) as [vvv|]; [|reflexivity].
    rewrite IH. destruct (validate_pairs kv vv r); reflexivity.
  Qed.

  Lemma do_update_shape c m a ps : shape tgt c m (do_update kv vv tgt m a ps).
  Proof.
    unfold do_update. rewrite upd_loop_validated.
    destruct (validate_pairs kv vv (items_of a ps)) as [vps|]; [|apply sh_raise].
    pose proof (acc_loop_inv m vps _ _ _ (loop_inv_init m)) as H.
    destruct (acc_loop m vps [] [] []) as [[vd ad] ch]. destruct H as [Hinv _].
    destruct (mempty ad && mempty ch) eqn:Ee.
    - apply andb_true_iff in Ee. destruct Ee. apply sh_quiet. intros _. eapply update_silent; eassumption.
    - apply sh_event; [apply Hinv | apply update_event_ok, Hinv | unfold ev_nonempty; cbn [mempty andb]; rewrite Ee; reflexivity].
  Qed.

  Theorem step_shape m o : shape tgt (is_ctor o) m (step m o).
  Proof.
    destruct o as [k v|k|a ps|a ps|k v|k d| | |ps len|a ps]; cbn [Model.step is_ctor].
    - destruct (kv k) as [vk|]; [|apply sh_raise]. destruct (vv v) as [vvv|]; [|apply sh_raise].
      destruct (hashable vk); [apply store_shape | apply sh_raise].
    - destruct (hashable k); cbn [negb]; [|apply sh_raise].
      destruct (lookup k m) as [x|] eqn:El; [apply removed_shape, El | apply sh_raise].
    - apply do_update_shape.
    - apply do_update_shape.
    - destruct (hashable k); cbn [negb]; [|apply sh_raise]. destruct (lookup k m) as [x|]; [apply sh_same|].
      destruct (kv k) as [vk|]; [|apply sh_raise]. destruct (vv v) as [vvv|]; [|apply sh_raise].
      destruct (hashable vk); [apply store_shape | apply sh_raise].
    - destruct d as [d|]; destruct (lookup k m) as [x|] eqn:El.
      + apply removed_shape, El.
      + apply sh_same.
      + apply removed_shape, El.
      + apply sh_raise.
    - destruct (last_item m) as [[k v0]|] eqn:El; [|apply sh_raise].
      apply last_item_has, has_true in El. destruct El as [x Hx]. rewrite Hx. apply removed_shape, Hx.
    - destruct (mempty m) eqn:Em; [|apply cleared_shape, Em]. apply mempty_spec in Em. subst m. apply sh_same.
    - destruct (upd_loop kv vv m ps [] [] []); apply sh_raise.
    - destruct (ctor_loop kv vv (items_of a ps) []); [apply sh_quiet; discriminate | apply sh_raise].
  Qed.

  (* clause 3 and all event clauses, on every channel, for every operation:
     holds unconditionally (also in the F6 shape). *)
  Theorem step_ev_codes m o : is_ctor o = false -> ev_codes m (step m o) = [].
  Proof. intros Hnc. apply shape_ev_codes. rewrite <- Hnc. apply step_shape. Qed.

  (* a construction notifies nobody *)
  Lemma step_ev_part m o :
    (if is_ctor o then chk 3 (silent (step m o)) else Law.ev_codes tgt m (step m o)) = [].
  Proof.
    destruct (is_ctor o) eqn:E; [|apply step_ev_codes, E]. destruct o; try discriminate E.
    cbn [Model.step]. destruct (ctor_loop kv vv (items_of asmap ps) []); destruct tgt as [|[|]]; reflexivity.
  Qed.

  (* [ob] against the built-in dict's (outcome, contents, return value): outcome and key order agree
     always, contents and return value unless the operation has the F6 shape *)
  Definition agrees (f6 : bool) (ob : obs) (b : outcome * amap * retv) : Prop :=
    let '(bo, ba, br) := b in
    o_out ob = bo /\ keys (o_after ob) = keys ba /\
    (f6 = false -> (forall k, lookup k (o_after ob) = lookup k ba) /\ o_ret ob = br).

  Lemma agrees_mk f6 out after evs r : agrees f6 (mk tgt out after evs r) (out, after, r).
  Proof. repeat split. Qed.

  Lemma agrees_store f6 m vk vvv r : agrees f6 (store tgt m vk vvv r) (Ok, mset vk vvv m, r).
  Proof. unfold store. destruct (lookup vk m); apply agrees_mk. Qed.

  Lemma agrees_update f6 m a ps :
    agrees f6 (do_update kv vv tgt m a ps)
      match validate_pairs kv vv (items_of a ps) with
      | Some vps => (Ok, update_all vps m, RNone)
      | None => (Raise TraitError, m, RNone)
      end.
  Proof.
    unfold do_update. rewrite upd_loop_validated.
    destruct (validate_pairs kv vv (items_of a ps)) as [vps|]; [|apply agrees_mk].
    pose proof (acc_loop_inv m vps _ _ _ (loop_inv_init m)) as H.
    destruct (acc_loop m vps [] [] []) as [[vd ad] ch]. destruct H as [_ ->].
    destruct (mempty ad && mempty ch); (split; [reflexivity|]; split; [apply keys_update_via_dict|]; intros _;
      split; [intro k; apply update_contents | reflexivity]).
  Qed.

  Theorem step_builtin m o : agrees (f6_trigger kv vv m o) (step m o) (builtin kv vv m o (o_ret (step m o))).
  Proof.
    destruct o as [k v|k|a ps|a ps|k v|k d| | |ps len|a ps]; cbn [Model.step builtin f6_trigger].
    - destruct (kv k) as [vk|]; [|apply agrees_mk]. destruct (vv v) as [vvv|]; [|apply agrees_mk].
      destruct (hashable vk); [apply agrees_store | apply agrees_mk].
    - destruct (hashable k); cbn [negb]; [|apply agrees_mk]. unfold has. destruct (lookup k m); apply agrees_mk.
    - apply agrees_update.
    - apply agrees_update.
    - destruct (hashable k); cbn [negb andb]; [|apply agrees_mk]. destruct (lookup k m); [apply agrees_mk|].
      destruct (kv k) as [vk|]; [|apply agrees_mk]. destruct (vv v) as [vvv|]; [|apply agrees_mk].
      destruct (hashable vk); cbn [negb andb]; [|apply agrees_mk].
      unfold has. destruct (lookup vk m) as [x|] eqn:El; [|apply agrees_store].
      (* F6: the validated key is present and gets overwritten; the built-in dict would keep it *)
      unfold store. rewrite El. split; [reflexivity|]. split; [apply (keys_mset_present _ _ _ _ El) | discriminate].
    - destruct d as [d|]; destruct (lookup k m); apply agrees_mk.
    - destruct (last_item m) as [[k v0]|]; apply agrees_mk.
    - destruct (mempty m); apply agrees_mk.
    - rewrite upd_loop_validated. destruct (validate_pairs kv vv ps); apply agrees_mk.
    - rewrite ctor_loop_validated. destruct (validate_pairs kv vv (items_of a ps)); apply agrees_mk.
  Qed.

  (* refinement clauses 1, 2, 8 *)
  Theorem step_ref_codes m o : f6_trigger kv vv m o = false -> ref_codes3 m o (step m o) = [].
  Proof.
    intros Hf. pose proof (step_builtin m o) as H. rewrite Hf in H. unfold Law.ref_codes3.
    destruct (builtin kv vv m o (o_ret (step m o))) as [[bo ba] br]. destruct H as (H1 & _ & H).
    destruct (H eq_refl) as [H2 H8]. apply mapeq_spec in H2. rewrite H1, H8, outcome_eqb_refl, retv_eqb_refl, H2. reflexivity.
  Qed.

  (* clause 9: the keys keep the built-in dict's insertion order (unconditional, also in the F6 shape) *)
  Theorem step_order m o : order_ok kv vv m o (step m o) = true.
  Proof.
    pose proof (step_builtin m o) as H. unfold order_ok.
    destruct (builtin kv vv m o (o_ret (step m o))) as [[bo ba] br]. destruct H as (_ & H & _). rewrite H. apply zlist_refl.
  Qed.

  Theorem step_law m o : f6_trigger kv vv m o = false -> law_step m o (step m o) = [].
  Proof.
    intros Hf. unfold Law.law_step, Law.ref_codes. rewrite step_ref_codes by exact Hf.
    rewrite step_order, step_ev_part. reflexivity.
  Qed.

  (* With the F6 shape allowed: the only clauses that can fail are contents (2)
     and return value (8) of that setdefault. *)
  Theorem step_law_upto_f6 m o :
    forall c, In c (law_step m o (step m o)) -> f6_trigger kv vv m o = true /\ (c = 2 \/ c = 8).
  Proof.
    intros c Hin. destruct (f6_trigger kv vv m o) eqn:Hf; [|rewrite step_law in Hin by exact Hf; contradiction].
    split; [reflexivity|]. unfold Law.law_step, Law.ref_codes, Law.ref_codes3 in Hin.
    rewrite step_ev_part, step_order in Hin. pose proof (step_builtin m o) as H.
    destruct (builtin kv vv m o (o_ret (step m o))) as [[bo ba] br]. destruct H as (H & _).
    rewrite H, outcome_eqb_refl in Hin. cbn [chk app] in Hin. rewrite !app_nil_r in Hin.
    destruct (mapeq _ ba), (retv_eqb _ br); cbn in Hin; intuition.
  Qed.

  (* histories: the F6 shape does not occur at any step *)
  Fixpoint f6_free (m : amap) (ops : list op) : bool :=
    match ops with
    | [] => true
    | o :: r => negb (f6_trigger kv vv m o) && f6_free (o_after (step m o)) r
    end.

  Theorem run_law : forall ops m i, f6_free m ops = true -> law_hist kv vv tgt i m (run kv vv tgt m ops) = [].
  Proof.
    induction ops as [|o ops IH]; intros m i Hf; cbn [run law_hist]; [reflexivity|].
    cbn [f6_free] in Hf. apply andb_true_iff in Hf. destruct Hf as [H1 H2]. apply negb_true_iff in H1.
    rewrite step_law by exact H1. cbn [map app]. apply IH. exact H2.
  Qed.

  (* a key validator that never converts cannot produce the F6 shape *)
  Lemma nonconverting_f6_free :
    (forall x y, kv x = Some y -> y = x) -> forall ops m, f6_free m ops = true.
  Proof.
    intros Hid. induction ops as [|o ops IH]; intros m; [reflexivity|]. cbn [f6_free]. rewrite IH, andb_true_r.
    apply negb_true_iff. destruct o; try reflexivity. cbn [f6_trigger].
    destruct (lookup k m) eqn:El; [reflexivity|]. destruct (kv k) as [vk|] eqn:Ek; [|reflexivity].
    apply Hid in Ek. subst vk. destruct (vv v); [|reflexivity].
    apply has_false in El. rewrite El, andb_false_r. reflexivity.
  Qed.

  Theorem run_law_nonconverting :
    (forall x y, kv x = Some y -> y = x) ->
    forall ops m i, law_hist kv vv tgt i m (run kv vv tgt m ops) = [].
  Proof. intros Hid ops m i. apply run_law. apply nonconverting_f6_free. exact Hid. Qed.

  (* every law failure in any history of the model is an instance of F6 *)
  Theorem run_law_upto_f6 : forall ops m i c,
    In c (law_hist kv vv tgt i m (run kv vv tgt m ops)) -> exists j, c = 100 * j + 2 \/ c = 100 * j + 8.
  Proof.
    induction ops as [|o ops IH]; intros m i c Hin; cbn [run law_hist] in Hin; [contradiction|].
    apply in_app_or in Hin. destruct Hin as [Hin|Hin].
    - apply in_map_iff in Hin. destruct Hin as [c0 [<- Hc0]].
      apply step_law_upto_f6 in Hc0. destruct Hc0 as [_ [->| ->]]; exists i; [left | right]; reflexivity.
    - eapply IH. exact Hin.
  Qed.
End Main.

Section Readings.
  Variable kv vv : Z -> option Z.
  Variable tgt : target.
  Notation step := (step kv vv tgt).

  Lemma step_refines m o :
    f6_trigger kv vv m o = false ->
    let ob := step m o in
    let '(bo, ba, br) := builtin kv vv m o (o_ret ob) in
    o_out ob = bo /\ (forall k, lookup k (o_after ob) = lookup k ba) /\ o_ret ob = br.
  Proof.
    intros Hf. cbn zeta. pose proof (step_builtin kv vv tgt m o) as H. rewrite Hf in H.
    destruct (builtin kv vv m o (o_ret (step m o))) as [[bo ba] br]. destruct H as (H1 & _ & H).
    destruct (H eq_refl). auto.
  Qed.

  (* update(): duplicate keys are reported once, with the final value *)
  Lemma update_reports_final_value m a ps added changed removed k v :
    In (removed, added, changed) (o_events (step m (Update a ps))) ->
    lookup k added = Some v -> lookup k (o_after (step m (Update a ps))) = Some v.
  Proof.
    intros Hin Hl. destruct (shape_reconstruction _ _ _ _ _ _ _ (step_shape kv vv tgt m _) Hin) as (H1 & _).
    destruct (H1 k) as [_ Ha]; [apply has_true; eauto|]. rewrite Ha. exact Hl.
  Qed.
End Readings.

(* popitem returns the most recently inserted item when the keys are unique *)
Lemma popitem_is_lifo kv vv tgt m k v :
  NoDup (keys m) -> last_item m = Some (k, v) -> o_ret (step kv vv tgt m PopItem) = RItem k v.
Proof.
  intros Hnd Hl. cbn [step]. rewrite Hl. rewrite (last_item_lookup m k v Hl Hnd). reflexivity.
Qed.

(* F6: the full law is false of the faithful model *)
Lemma f6_witness :
  exists kv vv m k v,
    f6_trigger kv vv m (SetDefault k v) = true /\
    law_step kv vv Plain m (SetDefault k v) (step kv vv Plain m (SetDefault k v)) = [2; 8].
Proof.
  exists (vld_of VCInt), (vld_of VCInt), [(1, 10)], 101, 11. split; vm_compute; reflexivity.
Qed.

(* construction: the new dict is exactly dict(validated items), nobody is notified;
   a rejected item leaves the old object in place *)
Lemma ctor_spec kv vv tgt m a ps :
  let ob := step kv vv tgt m (Ctor a ps) in
  match validate_pairs kv vv (items_of a ps) with
  | Some vps => o_out ob = Ok /\ o_after ob = update_all vps []
  | None => o_out ob = Raise TraitError /\ o_after ob = m
  end /\ o_events ob = [] /\ o_events2 ob = [] /\ o_oevents ob = [].
Proof.
  cbn zeta. cbn [step]. rewrite ctor_loop_validated.
  destruct (validate_pairs kv vv (items_of a ps)); unfold raise, ok, mk; cbn; repeat split; reflexivity.
Qed.
