(* C15 — property theorems only.  Each theorem is an instance of lemmas of Proofs.v / DupProofs.v, or a concrete witness
   checked by evaluation, and is followed by Print Assumptions; the three Examples at the end are closed by evaluation. *)
From Coq Require Import ZArith List Bool Permutation.
From TV Require Import Common.Harness C15.Model C15.Law C15.Proofs C15.DupProofs.
Import ListNotations.

(* The model's parser accepts exactly the token lists the grammar of _dsl_grammar.lark derives, with that
   derivation's tree (all token lists, all trees; the fuel 2|ts|+3 is proved sufficient). *)
Theorem parse_sound : forall ts t, parse_toks ts = Some t -> D_start ts t.
Proof. exact (parse_toks_gen_sound false). Qed.
Print Assumptions parse_sound.

Theorem parse_complete : forall ts t, D_start ts t -> parse_toks ts = Some t.
Proof. exact (parse_toks_gen_complete false). Qed.
Print Assumptions parse_complete.

(* text level: a text is accepted iff it lexes to a derivable token list; everything else is rejected *)
Theorem accepted_iff_derivable : forall s t, parse s = Some t <-> in_language false s t.
Proof. exact parse_iff. Qed.
Print Assumptions accepted_iff_derivable.

(* the recogniser used by the law decides the documented language *)
Theorem law_recogniser_decides_documented_language :
  forall s ts t, doc_parse s = Some (ts, t) <-> lex s = Some ts /\ Doc_start ts t.
Proof. exact doc_parse_iff. Qed.
Print Assumptions law_recogniser_decides_documented_language.

(* the lexer meets its declarative specification: NAME = [a-zA-Z_]\w* with longest match, the seven symbols,
   whitespace ignored; every other text has no token list (lexer error -> ValueError) *)
Theorem lexer_correct : forall s ts, lex s = Some ts <-> Spell ts s.
Proof. intros s ts. split; [apply lex_sound_spell|apply lex_complete_spell]. Qed.
Print Assumptions lexer_correct.

(* both grammars are unambiguous: one text, at most one tree *)
Theorem parse_deterministic_tree : forall doc ts t1 t2, D_par doc true ts t1 -> D_par doc true ts t2 -> t1 = t2.
Proof. exact derivation_unique. Qed.
Print Assumptions parse_deterministic_tree.

(* the parser's language lies inside the documented one ... *)
Theorem accepted_is_documented : forall ts t, D_start ts t -> Doc_start ts t.
Proof. exact lark_subset_doc. Qed.
Print Assumptions accepted_is_documented.

(* ... but not conversely (F10): "[a.*, b.c]" is documented and rejected *)
Theorem bracketed_star_refuted :
  exists t, Doc_start f10_tokens t /\ parse_toks f10_tokens = None /\
            lex f10_text = Some f10_tokens /\ compile_str f10_text = Rejected.
Proof.
  exists (TPar (TSeries (TTrait [97%Z]) CDot TAny) (TSeries (TTrait [98%Z]) CDot (TTrait [99%Z]))).
  split; [apply parse_toks_gen_sound|repeat split]; reflexivity.
Qed.
Print Assumptions bracketed_star_refuted.

(* in every accepted text each "*" stands outside all brackets and is followed by "," or the end *)
Theorem star_only_terminal : forall ts t, D_start ts t -> star_ok 0 ts = true.
Proof. exact star_only_terminal_lemma. Qed.
Print Assumptions star_only_terminal.

Theorem star_elsewhere_is_rejected : forall s ts, lex s = Some ts -> star_ok 0 ts = false -> compile_str s = Rejected.
Proof. exact star_elsewhere_rejected. Qed.
Print Assumptions star_elsewhere_is_rejected.

(* what compile_str returns denotes exactly the documented paths, notify flags included (all trees) *)
Theorem meaning : forall t gs, compile_tree t = Graphs gs -> flat_map graph_paths gs = doc_paths t.
Proof. exact meaning_lemma. Qed.
Print Assumptions meaning.

Theorem notify_iff_last_or_dot : forall t p, In p (raw_paths t LEnd) ->
  exists q m, p = q ++ [(m, LEnd)] /\ notify_of LEnd = true /\
    Forall (fun ml => exists c, snd ml = LConn c /\ notify_of (snd ml) = conn_notifies c) q.
Proof.
  intros t p H. destruct (raw_paths_shape _ _ _ H) as (q & m & E & F). now exists q, m.
Qed.
Print Assumptions notify_iff_last_or_dot.

Theorem items_is_four_way : forall n,
  paths (handle_tree TItems n) = [[NNamed items_word n true]; [NDict n true]; [NList n true]; [NSet n true]]
  /\ raw_paths TItems LEnd = [[(MItemsTrait, LEnd)]; [(MDictItems, LEnd)]; [(MListItems, LEnd)]; [(MSetItems, LEnd)]].
Proof. split; reflexivity. Qed.
Print Assumptions items_is_four_way.

(* compile_str can still refuse a derivable text (F17): "a.[b,b]" *)
Theorem duplicate_branch_refuted :
  exists t, in_language false f17_text t /\ in_language true f17_text t /\ compile_str f17_text = CompileError
            /\ doc_paths t = [[NNamed [97%Z] true false; NNamed [98%Z] true false];
                              [NNamed [97%Z] true false; NNamed [98%Z] true false]].
Proof.
  exists (TSeries (TTrait [97%Z]) CDot (TPar (TTrait [98%Z]) (TTrait [98%Z]))).
  repeat split; [|apply in_language_doc]; apply parse_iff; reflexivity.
Qed.
Print Assumptions duplicate_branch_refuted.

Theorem graphs_assoc : forall a b c br,
  create_graphs (ESeries (ESeries a b) c) br = create_graphs (ESeries a (ESeries b c)) br
  /\ create_graphs (EPar (EPar a b) c) br = create_graphs (EPar a (EPar b c)) br.
Proof. intros. split; [apply series_assoc|apply par_assoc]. Qed.
Print Assumptions graphs_assoc.

Theorem brackets_irrelevant :
  (forall ts t, parse_toks ts = Some t -> has_any t = false -> parse_toks (LBR :: ts ++ [RBR]) = Some t)
  /\ (forall x c1 y c2 z n br, create_graphs (handle_tree (TSeries (TSeries x c1 y) c2 z) n) br =
                                create_graphs (handle_tree (TSeries x c1 (TSeries y c2 z)) n) br)
  /\ (forall x y z n br, create_graphs (handle_tree (TPar (TPar x y) z) n) br =
                         create_graphs (handle_tree (TPar x (TPar y z)) n) br).
Proof.
  split; [exact (fun ts t H Ha => brackets_same_tree false ts t H (fun _ => Ha))|].
  split; intros; cbn [handle_tree]; [apply series_assoc|apply par_assoc].
Qed.
Print Assumptions brackets_irrelevant.

Theorem whitespace_irrelevant :
  (forall pre x r, is_symb x = true -> compile_str (pre ++ CWs :: x :: r) = compile_str (pre ++ x :: r)) /\
  (forall pre x r, is_symb x = true -> compile_str (pre ++ x :: CWs :: r) = compile_str (pre ++ x :: r)) /\
  (forall pre r, compile_str (pre ++ CWs :: CWs :: r) = compile_str (pre ++ CWs :: r)) /\
  (forall s, compile_str (CWs :: s) = compile_str s) /\
  (forall s, compile_str (s ++ [CWs]) = compile_str s).
Proof. exact (whitespace_any compile_str compile_lex). Qed.
Print Assumptions whitespace_irrelevant.

Theorem parse_deterministic : forall s1 s2, s1 = s2 -> outcome_same (compile_str s1) (compile_str s2) = true.
Proof. intros s1 s2 ->. apply outcome_same_refl. Qed.
Print Assumptions parse_deterministic.

(* F10 is the only gap between the documented language and the parser's: a documented text without a "*"
   inside brackets is derivable in the parser's grammar (hence accepted, by parse_complete) *)
Theorem documented_minus_bracketed_star_is_accepted :
  forall ts t, Doc_start ts t -> star_in_brackets 0 ts = false -> D_start ts t.
Proof. exact doc_minus_f10. Qed.
Print Assumptions documented_minus_bracketed_star_is_accepted.

(* F17 is the only way compile_str refuses a parsed text: some path is denoted twice *)
Theorem compile_error_only_for_repeated_path : forall t, compile_tree t = CompileError -> has_dup (doc_paths t) = true.
Proof. exact compile_error_dup. Qed.
Print Assumptions compile_error_only_for_repeated_path.

(* F17 exactly: a parsed text (an expression) is refused only when the alternatives after some connector repeat a
   pattern.  Behind it: create_graphs e br = create_graphs e [] with br attached at every leaf, and attaching preserves
   and reflects ObserverGraph.__eq__ (attach_eqb, by a depth argument). *)
Theorem compile_error_only_after_a_connector :
  (forall t, compile_tree t = CompileError -> dup_right t = true) /\
  (forall e, create_graphs e [] = None -> dup_right_e e = true) /\
  (forall br a b, graph_eqb (attach br a) (attach br b) = graph_eqb a b).
Proof. split; [exact compile_error_dup_right|split; [exact expr_error_dup_right|exact attach_eqb]]. Qed.
Print Assumptions compile_error_only_after_a_connector.

(* The law (Law.law_single), evaluated on the model's own outcome for ANY text, can only raise code 1 (F10) or
   code 3 (F17: the repetition always sits among the alternatives after a connector, never codes 18 / 19): never
   "accepted outside the language", never a wrong path / notify flag, never another exception. *)
Theorem model_satisfies_law : forall s c, In c (law_single s (compile_str s)) -> c = 1%Z \/ c = 3%Z.
Proof.
  intros s c H. destruct (model_law s) as [E|[[E _]|[E _]]]; rewrite E in H; [destruct H| |]; destruct H as [<-|[]]; auto.
Qed.
Print Assumptions model_satisfies_law.

Theorem law_holds_outside_findings : forall s,
  (forall ts, lex s = Some ts -> star_in_brackets 0 ts = false) -> compile_str s <> CompileError ->
  law_single s (compile_str s) = [].
Proof.
  intros s Hs Hc. destruct (model_law s) as [E|[[_ (ts & Hl & Hb)]|[_ E]]]; [exact E| |contradiction].
  rewrite (Hs _ Hl) in Hb. discriminate.
Qed.
Print Assumptions law_holds_outside_findings.

(* of two results equal by ObserverGraph.__eq__, every path the first denotes is denoted by the second (pair law, code 12) *)
Theorem equal_patterns_same_paths : forall g1 g2, list_eqb graph_eqb g1 g2 = true ->
  path_subset (flat_map graph_paths g1) (flat_map graph_paths g2) = true.
Proof. intros g1 g2 H. apply path_subset_incl, graphs_eqb_paths, H. Qed.
Print Assumptions equal_patterns_same_paths.

(* ObserverGraph.__eq__ (graph_eqb) is an equivalence relation that ignores the order of children *)
Theorem pattern_equality_is_an_equivalence :
  (forall g, graph_eqb g g = true) /\ (forall a b, graph_eqb a b = graph_eqb b a) /\
  (forall a b c, graph_eqb a b = true -> graph_eqb b c = true -> graph_eqb a c = true) /\
  (forall n cs cs', Permutation cs cs' -> graph_eqb (G n cs) (G n cs') = true).
Proof. split; [exact graph_eqb_refl|split; [exact graph_eqb_sym|split; [exact graph_eqb_trans|exact graph_eqb_perm]]]. Qed.
Print Assumptions pattern_equality_is_an_equivalence.

(* "a,b" and "b,a" compile to the same graphs in another order *)
Theorem parallel_commutes_up_to_order : forall a b br l, create_graphs (EPar a b) br = Some l ->
  exists l', create_graphs (EPar b a) br = Some l' /\ Permutation l l'.
Proof. exact par_comm. Qed.
Print Assumptions parallel_commutes_up_to_order.

(* the expression API (then, |, join, chaining methods): compile_expr's graphs denote exactly the paths of the
   expression; it refuses only an expression that denotes a path twice (F17 again); the law on the model's
   outcome of any expression can only raise code 3 *)
Theorem expression_meaning : forall e,
  (forall gs, create_graphs e [] = Some gs -> flat_map graph_paths gs = paths e) /\
  (create_graphs e [] = None -> has_dup (paths e) = true).
Proof. intros e. split; [exact (create_graphs_paths e [])|exact (create_graphs_none e [])]. Qed.
Print Assumptions expression_meaning.

Theorem model_satisfies_expression_law : forall e c,
  In c (law_expr e (match create_graphs e [] with Some gs => Graphs gs | None => CompileError end)) -> c = 3%Z.
Proof. exact expr_law_3. Qed.
Print Assumptions model_satisfies_expression_law.

(* the pair law on the model (Python's == being the model's ObserverGraph.__eq__): for ANY two texts code 12 never
   arises - results that compare equal denote the same set of paths - and codes 7-10 can only arise when two texts
   were wrongly claimed to be spellings of one expression *)
Theorem model_satisfies_pair_law : forall same s1 s2 c,
  let o1 := compile_str s1 in let o2 := compile_str s2 in
  In c (law_pair same o1 o2 (outcome_same o1 o2) (outcome_same o1 o2)) ->
  same = true /\ (c = 7%Z \/ c = 8%Z \/ c = 9%Z \/ c = 10%Z).
Proof. exact model_pair_law. Qed.
Print Assumptions model_satisfies_pair_law.

(* RUN-TIME MEANING.  On every heap of objects (traits with names, metadata values None / falsy / truthy, possibly
   holding another object), from every object: walking the compiled graphs as observe() does (hook_graph: handler on
   the observables of a notifying node, children on the objects they hold; a missing required trait is an error)
   attaches the handler to exactly the (object, trait) pairs - and raises exactly for the missing traits - that the
   documented meaning names (doc_hooks: a name = that trait, "+name" = every trait whose metadata value is not None,
   "*" = every trait, notify iff last or followed by "."). *)
Theorem hooks_meaning : forall t gs, compile_tree t = Graphs gs ->
  forall h o x, In x (flat_map (hook_graph h o) gs) <-> In x (doc_hooks h o t).
Proof. exact hooks_meaning_lemma. Qed.
Print Assumptions hooks_meaning.

Theorem metadata_pattern_hooks_iff_value_not_none : forall w ts x,
  In x (fst (m_obs (MMeta w) 0%nat (OTraits ts))) <->
  exists t, In t ts /\ meta_of (t_meta t) w <> MVNone /\ x = trait_item t.
Proof. exact metadata_hooks_iff_not_none. Qed.
Print Assumptions metadata_pattern_hooks_iff_value_not_none.

(* patterns that compare equal (ObserverGraph.__eq__) hook the same (object, trait) pairs on every heap, so removal by
   an equal pattern - another spelling of the text - addresses exactly what the registration hooked *)
Theorem equal_patterns_hook_the_same : forall g1 g2, list_eqb graph_eqb g1 g2 = true ->
  forall h o x, In x (flat_map (hook_graph h o) g1) <-> In x (flat_map (hook_graph h o) g2).
Proof. exact equal_patterns_hooks. Qed.
Print Assumptions equal_patterns_hook_the_same.

Theorem expression_hooks_meaning : forall e gs, create_graphs e [] = Some gs ->
  forall h o x, In x (flat_map (hook_graph h o) gs) <-> In x (flat_map (hook_path h o) (paths e)).
Proof. intros e gs H h o x. now rewrite hook_graphs_paths, (create_graphs_paths e [] gs H). Qed.
Print Assumptions expression_hooks_meaning.

(* "items" at run time, on every heap: on a list / dict / set it is the container itself (and the rest of the path
   applies to its items / values); on a HasTraits object the trait named items if there is one; never an error *)
Theorem items_is_four_way_at_run_time : forall h o l,
  let ob := nth_obj h o in
  flat_map (hook_mpath h o) (raw_paths TItems l) =
  match ob with
  | OTraits ts => match find_trait ts items_word with
                  | Some t => if notify_of l then [Hit o (t_name t)] else []
                  | None => [] end
  | _ => if notify_of l then [Hit o []] else []
  end.
Proof. exact items_runtime. Qed.
Print Assumptions items_is_four_way_at_run_time.

(* the end-to-end hook law (clauses 16, 17) evaluated on the model's own walk over the probe heap holds for every
   text the model compiles: what is checked on the implementation is proved of the model *)
Theorem model_satisfies_hook_law : forall s gs, compile_str s = Graphs gs ->
  let hits := flat_map (hook_graph probe_heap 0%nat) gs in
  law_hook s (negb (has_err hits)) (hit_codes hits) = [].
Proof. exact model_hook_law. Qed.
Print Assumptions model_satisfies_hook_law.

(* the spelling rewrites are statements about ALL texts, in both languages: brackets around any text of the documented
   language (around any "*"-free text of the parser's language) and whitespace at token boundaries change neither
   membership nor tree nor compiled graphs *)
Theorem brackets_irrelevant_for_texts :
  (forall s t, parse s = Some t -> has_any t = false -> compile_str (CLbr :: s ++ [CRbr]) = compile_str s) /\
  (forall s ts t, doc_parse s = Some (ts, t) -> doc_parse (CLbr :: s ++ [CRbr]) = Some (LBR :: ts ++ [RBR], t)).
Proof. split; [exact brackets_text|exact doc_brackets_text]. Qed.
Print Assumptions brackets_irrelevant_for_texts.

Theorem documented_language_closed_under_whitespace :
  (forall pre x r, is_symb x = true -> doc_parse (pre ++ CWs :: x :: r) = doc_parse (pre ++ x :: r)) /\
  (forall pre x r, is_symb x = true -> doc_parse (pre ++ x :: CWs :: r) = doc_parse (pre ++ x :: r)) /\
  (forall pre r, doc_parse (pre ++ CWs :: CWs :: r) = doc_parse (pre ++ CWs :: r)) /\
  (forall s, doc_parse (CWs :: s) = doc_parse s) /\
  (forall s, doc_parse (s ++ [CWs]) = doc_parse s).
Proof. exact (whitespace_any doc_parse doc_parse_lex). Qed.
Print Assumptions documented_language_closed_under_whitespace.

(* Non-vacuity: "a:[b, items.c].*" is accepted; 5 paths; notify false on a, true elsewhere. *)
Example accepted_nontrivial :
  let s := [CStart 97; CColonC; CLbr; CStart 98; CCommaC; CWs; CStart 105; CStart 116; CStart 101; CStart 109;
            CStart 115; CDotC; CStart 99; CRbr; CDotC; CStar] in
  exists t gs, parse s = Some t /\ compile_str s = Graphs gs /\ length (doc_paths t) = 5%nat
               /\ flat_map graph_paths gs = doc_paths t
               /\ star_ok 0 [W [97%Z]; TC CColon; LBR; W [98%Z]; COMMA; W items_word; TC CDot; W [99%Z]; RBR; TC CDot; STAR] = true.
Proof. vm_compute. eexists _, _. repeat split. Qed.

(* Non-vacuity for the spelling theorems: " a . [ b , c ] " and "a.[b,c]" compile to the same graphs; the graph of
   "a.[c,b]" is equal to it by ObserverGraph.__eq__ although the children are in another order; "a.[b,c]" and
   "a.[b,d]" are not equal. *)
Example spellings_nontrivial :
  let a := CStart 97 in let b := CStart 98 in let c := CStart 99 in let d := CStart 100 in
  compile_str [CWs; a; CWs; CDotC; CWs; CLbr; CWs; b; CWs; CCommaC; CWs; c; CWs; CRbr; CWs]
    = compile_str [a; CDotC; CLbr; b; CCommaC; c; CRbr]
  /\ outcome_same (compile_str [a; CDotC; CLbr; c; CCommaC; b; CRbr]) (compile_str [a; CDotC; CLbr; b; CCommaC; c; CRbr]) = true
  /\ compile_str [a; CDotC; CLbr; c; CCommaC; b; CRbr] <> compile_str [a; CDotC; CLbr; b; CCommaC; c; CRbr]
  /\ outcome_same (compile_str [a; CDotC; CLbr; b; CCommaC; d; CRbr]) (compile_str [a; CDotC; CLbr; b; CCommaC; c; CRbr]) = false.
Proof. vm_compute. repeat split; try reflexivity. discriminate. Qed.

(* Non-vacuity for hooks_meaning, on the probe heap of the correspondence (root with child, kids = list of two Leafs,
   table = dict with one Leaf value, group = set of one Leaf; metadata tag = True, False, 0, "", (), None, absent):
   "+tag" hooks the five traits whose tag is not None on the root (codes 0..4); "child:+tag" the same five on the child
   without hooking child itself; "child.*" hooks child and every trait of the child (its eight numbers, trait_added, trait_modified, the later-added
   zz_new); "kids.items.t_zero" hooks kids (10), the list itself (32*2+9) and t_zero on both items (objects 3, 4);
   "table:items:+other" only t_other of the dict's value (object 6); "nope" and "kids.t_true" raise. *)
Open Scope Z_scope.
Example hooks_nontrivial :
  let txt l := map (fun c => of_code c false) l in
  let run s := match compile_str s with Graphs gs => flat_map (hook_graph probe_heap 0%nat) gs | _ => [] end in
  hit_codes (run (txt [43; 116; 97; 103])) = [0; 1; 2; 3; 4]
  /\ hit_codes (run (txt [99; 104; 105; 108; 100; 58; 43; 116; 97; 103])) = [32; 33; 34; 35; 36]
  /\ hit_codes (run (txt [99; 104; 105; 108; 100; 46; 42])) = [8; 32; 33; 34; 35; 36; 37; 38; 39; 45; 46; 48]
  /\ zset_eqb (hit_codes (run (txt [107; 105; 100; 115; 46; 105; 116; 101; 109; 115; 46; 116; 95; 122; 101; 114; 111])))
              [10; 73; 98; 130] = true
  /\ hit_codes (run (txt [116; 97; 98; 108; 101; 58; 105; 116; 101; 109; 115; 58; 43; 111; 116; 104; 101; 114])) = [199]
  /\ has_err (run (txt [110; 111; 112; 101])) = true
  /\ has_err (run (txt [107; 105; 100; 115; 46; 116; 95; 116; 114; 117; 101])) = true
  /\ has_err (run (txt [43; 116; 97; 103])) = false.
Proof. vm_compute. repeat split. Qed.
