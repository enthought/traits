(* C15 — proofs: the parser decides both grammars of Law.v, "*" stands only in terminal position, the lexer meets
   its declarative spec, the compiled graphs denote the documented paths, ObserverGraph.__eq__ is an equivalence, and
   the compiled graphs hook what the documented meaning names.  What a refused compilation means, and the law
   evaluated on the model, are in DupProofs.v. *)
From Coq Require Import ZArith List Bool Lia Permutation.
From TV Require Import Common.Harness C15.Model C15.Law.
Import ListNotations.
Open Scope nat_scope.

(* The vocabulary of the theorems of Props.v, beside Model.v and Law.v. *)
Open Scope Z_scope.
(* "[" opens a bracket, "]" closes one *)
Definition bump (t : tok) : Z := match t with LBR => 1 | RBR => -1 | _ => 0 end.
Definition next_ok (r : list tok) : bool := match r with [] | COMMA :: _ => true | _ => false end.
Definition is_star (t : tok) : bool := match t with STAR => true | _ => false end.
(* from bracket depth [d] on: every "*" token stands at depth 0 and is followed by "," or by the end of the text *)
Fixpoint star_ok (d : Z) (ts : list tok) : bool :=
  match ts with
  | [] => true
  | t :: r => (if is_star t then (d =? 0) && next_ok r else true) && star_ok (d + bump t) r
  end.
Close Scope Z_scope.
(* the seven one-character terminals *)
Definition is_symb (x : chr) : bool := match sym_of x with Some _ => true | None => false end.
(* the same outcome, graphs compared one by one with ObserverGraph.__eq__ *)
Definition outcome_same (a b : outcome) : bool :=
  match a, b with
  | Rejected, Rejected | CompileError, CompileError | Crashed, Crashed => true
  | Graphs x, Graphs y => list_eqb graph_eqb x y
  | _, _ => false
  end.
(* witness of F10: the tokens and the text of "[a.*, b.c]" *)
Definition f10_tokens : list tok :=
  [LBR; W [97%Z]; TC CDot; STAR; COMMA; W [98%Z]; TC CDot; W [99%Z]; RBR].
Definition f10_text : list chr :=
  [CLbr; CStart 97; CDotC; CStar; CCommaC; CWs; CStart 98; CDotC; CStart 99; CRbr].
(* witness of F17: "a.[b,b]" *)
Definition f17_text : list chr := [CStart 97; CDotC; CLbr; CStart 98; CCommaC; CStart 98; CRbr].

Scheme D_elem_min := Minimality for D_elem Sort Prop
  with D_ser_min := Minimality for D_ser Sort Prop
  with D_par_min := Minimality for D_par Sort Prop.
Combined Scheme D_mutind from D_elem_min, D_ser_min, D_par_min.

(* a property of every derivation, whatever the nonterminal *)
Definition D_all doc (P : (bool -> bool -> list tok -> tree -> Prop) -> bool -> list tok -> tree -> Prop) : Prop :=
  (forall b ts t, D_elem doc b ts t -> P D_elem b ts t) /\
  (forall b ts t, D_ser doc b ts t -> P D_ser b ts t) /\
  (forall b ts t, D_par doc b ts t -> P D_par b ts t).
Lemma all_elem {doc P} : D_all doc P -> forall b ts t, D_elem doc b ts t -> P D_elem b ts t.
Proof. intros H. exact (proj1 H). Qed.
Lemma all_ser {doc P} : D_all doc P -> forall b ts t, D_ser doc b ts t -> P D_ser b ts t.
Proof. intros H. exact (proj1 (proj2 H)). Qed.
Lemma all_par {doc P} : D_all doc P -> forall b ts t, D_par doc b ts t -> P D_par b ts t.
Proof. intros H. exact (proj2 (proj2 H)). Qed.

Definition le_flag (b b' : bool) : Prop := b = true -> b' = true.

Lemma le_flag_and b b' d d' : le_flag b b' -> le_flag d d' -> le_flag (b && d) (b' && d').
Proof. unfold le_flag. destruct b, b', d, d'; cbn; auto. Qed.
Lemma le_flag_false b : le_flag false b.
Proof. intro H; discriminate. Qed.
Lemma le_flag_refl b : le_flag b b.
Proof. intro H; exact H. Qed.

(* a derivation stays one when either flag is raised: a terminal position allows more, and so does the documented
   language *)
Lemma promote_mut doc doc' : le_flag doc doc' ->
  D_all doc (fun D b ts t => forall b', le_flag b b' -> D doc' b' ts t).
Proof.
  intros Hd. apply D_mutind.
  - intros. now apply De_items.
  - intros. now apply De_trait.
  - intros. apply De_meta.
  - intros b' Hb. rewrite (Hb eq_refl). apply De_any.
  - intros b ts t _ IH b' Hb. apply De_br, IH. now apply le_flag_and.
  - intros b ts t _ IH b' Hb. apply Ds_one. auto.
  - intros b ts1 t1 c ts2 t2 _ IH1 _ IH2 b' Hb. apply Ds_cons; [apply IH1, le_flag_refl|auto].
  - intros b ts t _ IH b' Hb. apply Dp_one. auto.
  - intros b ts1 t1 ts2 t2 _ IH1 _ IH2 b' Hb. apply Dp_cons; auto.
Qed.

Lemma lark_subset_doc ts t : D_start ts t -> Doc_start ts t.
Proof. intros H. exact (all_par (promote_mut false true (le_flag_false _)) _ _ _ H _ (le_flag_refl _)). Qed.

Lemma nostar_mut doc : D_all doc (fun _ b _ t => b = false -> has_any t = false).
Proof.
  apply D_mutind; cbn [has_any]; auto; try discriminate.
  - intros b ts t _ IH ->. exact (IH eq_refl).
  - intros b ts1 t1 c ts2 t2 _ IH1 _ IH2 ->. now rewrite IH1, IH2.
  - intros b ts1 t1 ts2 t2 _ IH1 _ IH2 ->. now rewrite IH1, IH2.
Qed.

Lemma demote_mut doc : D_all doc (fun D _ ts t => has_any t = false -> D doc false ts t).
Proof.
  apply D_mutind; cbn [has_any].
  - intros. now apply De_items.
  - intros. now apply De_trait.
  - intros. apply De_meta.
  - discriminate.
  - intros b ts t _ IH Ha. apply De_br. cbn. auto.
  - intros b ts t _ IH Ha. apply Ds_one. auto.
  - intros b ts1 t1 c ts2 t2 _ IH1 _ IH2 Ha. apply orb_false_elim in Ha as [Ha1 Ha2]. apply Ds_cons; auto.
  - intros b ts t _ IH Ha. apply Dp_one. auto.
  - intros b ts1 t1 ts2 t2 _ IH1 _ IH2 Ha. apply orb_false_elim in Ha as [Ha1 Ha2]. apply Dp_cons; auto.
Qed.

Lemma D_brackets doc ts t : D_par doc true ts t -> (doc = false -> has_any t = false) ->
  D_par doc true (LBR :: ts ++ [RBR]) t.
Proof.
  intros H Ha. apply Dp_one, Ds_one, De_br. destruct doc; [exact H|].
  exact (all_par (demote_mut false) _ _ _ H (Ha eq_refl)).
Qed.

Section Grammar.
Variable doc : bool.

Definition sound (p : list tok -> res) (D : list tok -> tree -> Prop) : Prop :=
  forall ts t r, p ts = Some (t, r) -> exists pre, ts = pre ++ r /\ D pre t.

Lemma p_elem_sound rec : (forall b, sound (rec b) (D_par doc b)) -> forall b, sound (p_elem doc rec b) (D_elem doc b).
Proof.
  intros Hrec b ts t r H. unfold p_elem in H.
  destruct ts as [|[w| | |c| | |] ts']; try discriminate.
  - inversion H; subst. exists [W w]. split; [reflexivity|].
    destruct (is_items w) eqn:E; [now apply De_items|now apply De_trait].
  - destruct ts' as [|[w| | |c| | |] ts'']; try discriminate. inversion H; subst.
    exists [PLUS; W w]. split; [reflexivity|constructor].
  - destruct b; [|discriminate]. inversion H; subst. exists [STAR]. split; [reflexivity|constructor].
  - destruct (rec (b && doc) ts') as [[t' r']|] eqn:E; [|discriminate].
    destruct r' as [|[w| | |c| | |] r'']; try discriminate. inversion H; subst.
    destruct (Hrec _ _ _ _ E) as (pre & -> & HD).
    exists (LBR :: pre ++ [RBR]). split; [|constructor; exact HD].
    cbn. rewrite <- app_assoc. reflexivity.
Qed.

(* the loops: [pre0] is what the left operand was derived from *)
Lemma ser_loop_sound pe b : sound pe (D_elem doc b) ->
  forall k left ts t r pre0, D_ser doc b pre0 left -> ser_loop pe k left ts = Some (t, r) ->
  exists pre, pre0 ++ ts = pre ++ r /\ D_ser doc b pre t.
Proof.
  intros Hpe. induction k as [|k IH]; intros left ts t r pre0 HD H; [discriminate|].
  cbn [ser_loop] in H.
  destruct ts as [|[w| | |c| | |] ts']; try (inversion H; subst; exists pre0; split; [reflexivity|assumption]).
  destruct (has_any left) eqn:Ha; [discriminate|].
  destruct (pe ts') as [[e r']|] eqn:E; [|discriminate].
  destruct (Hpe _ _ _ E) as (pe_pre & -> & HE).
  pose proof (all_ser (demote_mut doc) _ _ _ HD Ha) as HD0.
  destruct (IH _ _ _ _ _ (Ds_cons _ _ _ _ c _ _ HD0 HE) H) as (pre & Epre & HD').
  exists pre. rewrite <- app_assoc in Epre. split; [exact Epre|exact HD'].
Qed.

Lemma p_ser_sound rec k : (forall b, sound (rec b) (D_par doc b)) -> forall b, sound (p_ser doc rec b k) (D_ser doc b).
Proof.
  intros Hrec b ts t r H. unfold p_ser in H.
  destruct (p_elem doc rec b ts) as [[e r0]|] eqn:E; [|discriminate].
  destruct (p_elem_sound rec Hrec b _ _ _ E) as (pre0 & -> & HE).
  exact (ser_loop_sound _ b (p_elem_sound rec Hrec b) _ _ _ _ _ pre0 (Ds_one _ _ _ _ HE) H).
Qed.

Lemma par_loop_sound ps b : sound ps (D_ser doc b) ->
  forall k left ts t r pre0, D_par doc b pre0 left -> par_loop ps k left ts = Some (t, r) ->
  exists pre, pre0 ++ ts = pre ++ r /\ D_par doc b pre t.
Proof.
  intros Hps. induction k as [|k IH]; intros left ts t r pre0 HD H; [discriminate|].
  cbn [par_loop] in H.
  destruct ts as [|[w| | |c| | |] ts']; try (inversion H; subst; exists pre0; split; [reflexivity|assumption]).
  destruct (ps ts') as [[e r']|] eqn:E; [|discriminate].
  destruct (Hps _ _ _ E) as (ps_pre & -> & HE).
  destruct (IH _ _ _ _ _ (Dp_cons _ _ _ _ _ _ HD HE) H) as (pre & Epre & HD').
  exists pre. rewrite <- app_assoc in Epre. split; [exact Epre|exact HD'].
Qed.

Lemma p_par_sound fuel : forall b, sound (p_par doc fuel b) (D_par doc b).
Proof.
  induction fuel as [|f IH]; intros b ts t r H; [discriminate|].
  cbn [p_par] in H. unfold p_par_body in H.
  destruct (p_ser doc (p_par doc f) b f ts) as [[s r0]|] eqn:E; [|discriminate].
  destruct (p_ser_sound _ _ IH b _ _ _ E) as (pre0 & -> & HS).
  exact (par_loop_sound _ b (p_ser_sound _ _ IH b) _ _ _ _ _ pre0 (Dp_one _ _ _ _ HS) H).
Qed.

Lemma parse_toks_gen_sound ts t : parse_toks_gen doc ts = Some t -> D_par doc true ts t.
Proof.
  unfold parse_toks_gen. intros H.
  destruct (p_par doc (fuel_for ts) true ts) as [[t' r]|] eqn:E; [|discriminate].
  destruct r; [|discriminate]. inversion H; subst.
  destruct (p_par_sound _ _ _ _ _ E) as (pre & -> & HD). rewrite app_nil_r. exact HD.
Qed.

Definition no_tc (r : list tok) : Prop := match r with TC _ :: _ => False | _ => True end.
Definition no_comma (r : list tok) : Prop := match r with COMMA :: _ => False | _ => True end.

Lemma ser_loop_mono pe k left ts x : ser_loop pe k left ts = Some x ->
  forall k', k <= k' -> ser_loop pe k' left ts = Some x.
Proof.
  revert left ts. induction k as [|k IH]; intros left ts H k' Hk; [discriminate|].
  destruct k' as [|k']; [lia|]. cbn [ser_loop] in *.
  destruct ts as [|[w| | |c| | |] ts']; try exact H.
  destruct (has_any left); [discriminate|].
  destruct (pe ts') as [[e r']|]; [|discriminate]. apply IH; [exact H|lia].
Qed.
Lemma par_loop_mono ps k left ts x : par_loop ps k left ts = Some x ->
  forall k', k <= k' -> par_loop ps k' left ts = Some x.
Proof.
  revert left ts. induction k as [|k IH]; intros left ts H k' Hk; [discriminate|].
  destruct k' as [|k']; [lia|]. cbn [par_loop] in *.
  destruct ts as [|[w| | |c| | |] ts']; try exact H.
  destruct (ps ts') as [[e r']|]; [|discriminate]. apply IH; [exact H|lia].
Qed.
Lemma ser_loop_stop pe left r : no_tc r -> ser_loop pe 1 left r = Some (left, r).
Proof. intros H. cbn [ser_loop]. destruct r as [|[w| | |c| | |] r']; try reflexivity. destruct H. Qed.
Lemma par_loop_stop ps left r : no_comma r -> par_loop ps 1 left r = Some (left, r).
Proof. intros H. cbn [par_loop]. destruct r as [|[w| | |c| | |] r']; try reflexivity. destruct H. Qed.

(* What a derivation of [ts] gives the parser, on [ts] followed by any [rest].  The grammar is left recursive and the
   parser loops, so a series (parallel) is stated with the loop's continuation: whatever the loop makes of the tree and
   the rest, the parser makes of the whole.  The flag is generalised because the left part of a series is derived in
   non-terminal position but parsed with the flag of the series.  Fuel: 2|ts| for the recursion through brackets (p_par
   gives the same amount to the series loops), k + 2|ts| for a loop that would need k on the rest. *)
Definition C_elem (b : bool) (ts : list tok) (t : tree) : Prop :=
  forall b', le_flag b b' -> forall f, 2 * length ts <= f -> forall rest,
    p_elem doc (p_par doc f) b' (ts ++ rest) = Some (t, rest).
Definition C_ser (b : bool) (ts : list tok) (t : tree) : Prop :=
  forall b', le_flag b b' -> forall f, 2 * length ts <= f -> forall k rest x,
    ser_loop (p_elem doc (p_par doc f) b') k t rest = Some x ->
    forall k', k + 2 * length ts <= k' -> p_ser doc (p_par doc f) b' k' (ts ++ rest) = Some x.
(* [no_tc rest]: the last series must end where the derivation says, i.e. its loop must stop at [rest] *)
Definition C_par (b : bool) (ts : list tok) (t : tree) : Prop :=
  forall b', le_flag b b' -> forall f, 2 * length ts < f -> forall kp rest x, no_tc rest ->
    par_loop (p_ser doc (p_par doc f) b' f) kp t rest = Some x ->
    forall kp', kp + 2 * length ts < kp' -> p_par_body doc (p_par doc f) b' f kp' (ts ++ rest) = Some x.

Lemma complete_mut :
  (forall b ts t, D_elem doc b ts t -> C_elem b ts t) /\
  (forall b ts t, D_ser doc b ts t -> C_ser b ts t) /\
  (forall b ts t, D_par doc b ts t -> C_par b ts t).
Proof.
  apply D_mutind.
  - intros b w Hw b' _ f _ rest. cbn. rewrite Hw. reflexivity.
  - intros b w Hw b' _ f _ rest. cbn. rewrite Hw. reflexivity.
  - intros b w b' _ f _ rest. reflexivity.
  - intros b' Hb f _ rest. rewrite (Hb eq_refl). reflexivity.
  - intros b ts t _ IH b' Hb f Hf rest.
    cbn [length] in Hf. rewrite app_length in Hf. cbn [length] in Hf.
    destruct f as [|f]; [lia|]. cbn [app p_elem]. rewrite <- app_assoc. cbn [app p_par].
    now rewrite (IH (b' && doc) (le_flag_and _ _ _ _ Hb (le_flag_refl _)) f ltac:(lia) 1 (RBR :: rest) _ I
                   (par_loop_stop _ t (RBR :: rest) I) f ltac:(lia)).
  - intros b ts t _ IH b' Hb f Hf k rest x Hx k' Hk.
    unfold p_ser. rewrite (IH b' Hb f Hf). eapply ser_loop_mono; [exact Hx|lia].
  - intros b ts1 t1 c ts2 t2 HD1 IH1 _ IH2 b' Hb f Hf k rest x Hx k' Hk.
    rewrite app_length in *. cbn [length] in *. rewrite <- app_assoc.
    apply (IH1 b' (le_flag_false _) f ltac:(lia) (S k)); [|lia]. cbn [app ser_loop].
    rewrite (all_ser (nostar_mut doc) _ _ _ HD1 eq_refl), (IH2 b' Hb f ltac:(lia)). exact Hx.
  - intros b ts t _ IH b' Hb f Hf kp rest x Hr Hx kp' Hk.
    unfold p_par_body.
    rewrite (IH b' Hb f ltac:(lia) 1 rest _ (ser_loop_stop _ t rest Hr) f ltac:(lia)).
    eapply par_loop_mono; [exact Hx|lia].
  - intros b ts1 t1 ts2 t2 _ IH1 _ IH2 b' Hb f Hf kp rest x Hr Hx kp' Hk.
    rewrite app_length in *. cbn [length] in *. rewrite <- app_assoc.
    apply (IH1 b' Hb f ltac:(lia) (S kp) (COMMA :: ts2 ++ rest) x I); [|lia]. cbn [app par_loop].
    now rewrite (IH2 b' Hb f ltac:(lia) 1 rest _ (ser_loop_stop _ t2 rest Hr) f ltac:(lia)).
Qed.

Lemma parse_toks_gen_complete ts t : D_par doc true ts t -> parse_toks_gen doc ts = Some t.
Proof.
  intros HD. unfold parse_toks_gen, fuel_for.
  replace (2 * length ts + 3) with (S (2 * length ts + 2)) by lia. cbn [p_par].
  pose proof (proj2 (proj2 complete_mut) _ _ _ HD true (le_flag_refl _) (2 * length ts + 2) ltac:(lia)
                1 [] _ I (par_loop_stop _ t [] I) (2 * length ts + 2) ltac:(lia)) as H.
  rewrite app_nil_r in H. now rewrite H.
Qed.

Lemma parse_toks_gen_iff ts t : parse_toks_gen doc ts = Some t <-> D_par doc true ts t.
Proof. split; [apply parse_toks_gen_sound|apply parse_toks_gen_complete]. Qed.

Lemma derivation_unique ts t1 t2 : D_par doc true ts t1 -> D_par doc true ts t2 -> t1 = t2.
Proof.
  intros H1 H2. apply parse_toks_gen_complete in H1. apply parse_toks_gen_complete in H2.
  rewrite H1 in H2. now inversion H2.
Qed.

End Grammar.

Open Scope Z_scope.
Fixpoint depth (ts : list tok) : Z := match ts with [] => 0 | t :: r => bump t + depth r end.



Lemma depth_app a b : depth (a ++ b) = depth a + depth b.
Proof. induction a; cbn [app depth]; lia. Qed.

Lemma depth_zero_mut doc : D_all doc (fun _ _ ts _ => depth ts = 0).
Proof.
  apply D_mutind; intros; try reflexivity; auto; cbn [depth]; rewrite depth_app; cbn [depth bump]; lia.
Qed.

Definition no_star : list tok -> Prop := Forall (fun t => is_star t = false).

Lemma star_ok_app_nostar a b d : no_star a -> star_ok d (a ++ b) = star_ok (d + depth a) b.
Proof.
  intros H. revert d. induction H as [|t r Ht _ IH]; intros d; cbn [app depth star_ok].
  - f_equal. lia.
  - rewrite Ht, IH. cbn [andb]. f_equal. lia.
Qed.

Lemma star_ok_app_comma a b d :
  star_ok d (a ++ COMMA :: b) = star_ok d a && star_ok (d + depth a) b.
Proof.
  revert d. induction a as [|t r IH]; intros d; cbn [app depth star_ok].
  - cbn. f_equal; lia.
  - rewrite IH. replace (d + (bump t + depth r)) with (d + bump t + depth r) by lia.
    destruct (is_star t); [|cbn [andb]; reflexivity].
    assert (next_ok (r ++ COMMA :: b) = next_ok r) as -> by (destruct r as [|[]]; reflexivity).
    rewrite andb_assoc. reflexivity.
Qed.

(* By cases on the last rule: a bracket (parser's grammar) and the left part of a series are in non-terminal position, so
   they contain no "*" at all and the scan passes through them; after a "," the scan starts again at depth 0. *)
Lemma star_terminal_mut : D_all false (fun _ b ts _ => (b = false -> no_star ts) /\ star_ok 0 ts = true).
Proof.
  apply D_mutind.
  - intros b w _. split; [intros _; repeat constructor|reflexivity].
  - intros b w _. split; [intros _; repeat constructor|reflexivity].
  - intros b w. split; [intros _; repeat constructor|reflexivity].
  - split; [discriminate|reflexivity].
  - intros b ts t _ [Hn _]. rewrite andb_false_r in Hn.
    assert (no_star (LBR :: ts ++ [RBR])) as Hns.
    { constructor; [reflexivity|]. apply Forall_app. split; [now apply Hn|repeat constructor]. }
    split; [intros _; exact Hns|].
    rewrite <- (app_nil_r (_ :: _)). now rewrite star_ok_app_nostar.
  - intros b ts t _ H. exact H.
  - intros b ts1 t1 c ts2 t2 H1 [Hn1 _] _ [Hn2 Hs2]. specialize (Hn1 eq_refl). split.
    + intros Hb. apply Forall_app. split; [exact Hn1|]. constructor; [reflexivity|exact (Hn2 Hb)].
    + rewrite star_ok_app_nostar, (all_ser (depth_zero_mut false) _ _ _ H1) by exact Hn1. exact Hs2.
  - intros b ts t _ H. exact H.
  - intros b ts1 t1 ts2 t2 H1 [Hn1 Hs1] _ [Hn2 Hs2]. split.
    + intros Hb. apply Forall_app. split; [exact (Hn1 Hb)|]. constructor; [reflexivity|exact (Hn2 Hb)].
    + rewrite star_ok_app_comma, Hs1, (all_par (depth_zero_mut false) _ _ _ H1). exact Hs2.
Qed.

Lemma star_only_terminal_lemma ts t : D_start ts t -> star_ok 0 ts = true.
Proof. intros H. apply (all_par star_terminal_mut _ _ _ H). Qed.

Lemma sib_app a : forall d b,
  star_in_brackets d (a ++ b) = star_in_brackets d a || star_in_brackets (d + depth a) b.
Proof.
  induction a as [|t r IH]; intros d b; cbn [app depth star_in_brackets].
  - cbn. f_equal. lia.
  - destruct t; cbn [star_in_brackets bump]; rewrite IH; rewrite ?orb_assoc; f_equal; f_equal; lia.
Qed.

(* [d] is the bracket depth at which [ts] stands.  Inside brackets (0 < d) the hypothesis leaves no "*" in the tree, which is
   what the parser's grammar asks of a bracket's content. *)
Lemma doc_minus_f10_mut :
  D_all true (fun D b ts t => forall d, 0 <= d -> star_in_brackets d ts = false ->
                              D false b ts t /\ (0 < d -> has_any t = false)).
Proof.
  apply D_mutind.
  - intros b w Hw d _ _. split; [now apply De_items|reflexivity].
  - intros b w Hw d _ _. split; [now apply De_trait|reflexivity].
  - intros b w d _ _. split; [apply De_meta|reflexivity].
  - intros d Hd Hs. split; [apply De_any|]. intros Hpos. cbn in Hs. apply orb_false_elim in Hs.
    destruct Hs as [Hs _]. apply Z.ltb_ge in Hs. lia.
  - intros b ts t HD IH d Hd Hs. cbn [app star_in_brackets] in Hs. rewrite sib_app in Hs.
    apply orb_false_elim in Hs. destruct Hs as [Hs _].
    destruct (IH (d + 1) ltac:(lia) Hs) as [H1 H2]. specialize (H2 ltac:(lia)).
    split; [|intros _; exact H2]. apply De_br. rewrite andb_false_r.
    now apply (all_par (demote_mut false) _ _ _ H1).
  - intros b ts t _ IH d Hd Hs. destruct (IH d Hd Hs). split; [now apply Ds_one|assumption].
  - intros b ts1 t1 c ts2 t2 HD1 IH1 _ IH2 d Hd Hs. rewrite sib_app in Hs. apply orb_false_elim in Hs.
    destruct Hs as [Hs1 Hs2]. rewrite (all_ser (depth_zero_mut true) _ _ _ HD1), Z.add_0_r in Hs2.
    destruct (IH1 d Hd Hs1) as [A1 B1]. destruct (IH2 d Hd Hs2) as [A2 B2].
    split; [now apply Ds_cons|]. intros Hpos. cbn [has_any]. now rewrite (B1 Hpos), (B2 Hpos).
  - intros b ts t _ IH d Hd Hs. destruct (IH d Hd Hs). split; [now apply Dp_one|assumption].
  - intros b ts1 t1 ts2 t2 HD1 IH1 _ IH2 d Hd Hs. rewrite sib_app in Hs. apply orb_false_elim in Hs.
    destruct Hs as [Hs1 Hs2]. rewrite (all_par (depth_zero_mut true) _ _ _ HD1), Z.add_0_r in Hs2.
    destruct (IH1 d Hd Hs1) as [A1 B1]. destruct (IH2 d Hd Hs2) as [A2 B2].
    split; [now apply Dp_cons|]. intros Hpos. cbn [has_any]. now rewrite (B1 Hpos), (B2 Hpos).
Qed.

Lemma doc_minus_f10 ts t : Doc_start ts t -> star_in_brackets 0 ts = false -> D_start ts t.
Proof. intros H Hs. apply (all_par doc_minus_f10_mut _ _ _ H 0 ltac:(lia) Hs). Qed.
Close Scope Z_scope.


Lemma flush_none_id (o : option (list tok)) : option_map (flush None) o = o.
Proof. destruct o; reflexivity. Qed.
Lemma flush_app cur ts x : flush cur ts ++ x = flush cur (ts ++ x).
Proof. destruct cur; reflexivity. Qed.

Lemma lex_go_sym cur x t r : sym_of x = Some t ->
  lex_go cur (x :: r) = option_map (fun ts => flush cur (t :: ts)) (lex_go None r).
Proof.
  intros H. destruct x; try discriminate H; injection H as <-; cbn [lex_go sym_of]; now destruct (lex_go None r).
Qed.

(* Lexing is compositional at a token boundary: where the second text does not continue a word, the tokens of the
   concatenation are the tokens of the parts.  (With an empty first text: a pending word is closed there.) *)
Lemma lex_go_app s s' : starts_wordchar s' = false -> forall cur,
  lex_go cur (s ++ s') =
  match lex_go cur s, lex_go None s' with Some a, Some b => Some (a ++ b) | _, _ => None end.
Proof.
  intros Hs. induction s as [|x s IH]; intros cur.
  - destruct s' as [|x r]; [destruct cur; reflexivity|].
    destruct x; try discriminate Hs; cbn [app lex_go sym_of]; destruct (lex_go None r), cur; reflexivity.
  - destruct x; cbn [app lex_go sym_of]; rewrite ?IH; try reflexivity;
      try (destruct (lex_go None s), (lex_go None s'); cbn; rewrite ?flush_app; reflexivity).
    destruct cur; [apply IH|reflexivity].
Qed.

Lemma lex_go_flush w s : starts_wordchar s = false -> lex_go (Some w) s = option_map (cons (W w)) (lex_go None s).
Proof. intros H. rewrite (lex_go_app [] s H). cbn. now destruct (lex_go None s). Qed.

Lemma lex_ws_end s cur : lex_go cur (s ++ [CWs]) = lex_go cur s.
Proof. rewrite lex_go_app by reflexivity. destruct (lex_go cur s); cbn; now rewrite ?app_nil_r. Qed.

Lemma lex_brackets s ts : lex s = Some ts -> lex (CLbr :: s ++ [CRbr]) = Some (LBR :: ts ++ [RBR]).
Proof. unfold lex. intros H. cbn [lex_go sym_of]. rewrite lex_go_app by reflexivity. now rewrite H. Qed.

(* [f]: anything that reads the text through the lexer (compile_str, doc_parse) *)
Lemma whitespace_any {A} (f : list chr -> A) : (forall s1 s2, lex s1 = lex s2 -> f s1 = f s2) ->
  (forall pre x r, is_symb x = true -> f (pre ++ CWs :: x :: r) = f (pre ++ x :: r)) /\
  (forall pre x r, is_symb x = true -> f (pre ++ x :: CWs :: r) = f (pre ++ x :: r)) /\
  (forall pre r, f (pre ++ CWs :: CWs :: r) = f (pre ++ CWs :: r)) /\
  (forall s, f (CWs :: s) = f s) /\
  (forall s, f (s ++ [CWs]) = f s).
Proof.
  intros Hf.
  assert (forall pre a b, starts_wordchar a = false -> starts_wordchar b = false -> lex_go None a = lex_go None b ->
            f (pre ++ a) = f (pre ++ b)) as Hpre.
  { intros pre a b Ha Hb E. apply Hf. unfold lex. rewrite !lex_go_app by assumption. now rewrite E. }
  repeat split.
  - intros pre x r Hx. apply Hpre; [reflexivity|now destruct x|]. cbn [lex_go]. apply flush_none_id.
  - intros pre x r Hx. unfold is_symb in Hx. destruct (sym_of x) as [t|] eqn:Ht; [|discriminate].
    apply Hpre; try now destruct x. rewrite !(lex_go_sym _ _ _ _ Ht). cbn [lex_go]. now rewrite flush_none_id.
  - intros pre r. apply Hpre; [reflexivity|reflexivity|]. cbn [lex_go]. now rewrite flush_none_id.
  - intros s. apply Hf. unfold lex. cbn [lex_go]. apply flush_none_id.
  - intros s. apply Hf. apply lex_ws_end.
Qed.

Lemma lex_go_word cs : forall w' w, word_chars cs = Some w' -> lex_go (Some w) cs = Some [W (w ++ w')].
Proof.
  induction cs as [|ch cs IH]; intros w' w Hw; cbn [word_chars] in Hw.
  - injection Hw as <-. cbn. now rewrite app_nil_r.
  - destruct ch; try discriminate; destruct (word_chars cs) as [w''|]; try discriminate; injection Hw as <-;
      cbn [lex_go]; rewrite (IH _ _ eq_refl); now rewrite <- app_assoc.
Qed.

Lemma lex_complete_spell ts s : Spell ts s -> lex s = Some ts.
Proof.
  unfold lex. induction 1 as [|ts s _ IH|ts s x t Hx _ IH|ts s c0 cs w Hw Hs _ IH].
  - reflexivity.
  - cbn [lex_go]. now rewrite IH.
  - now rewrite (lex_go_sym _ _ _ _ Hx), IH.
  - cbn [lex_go]. now rewrite (lex_go_app _ _ Hs), (lex_go_word _ _ _ Hw), IH.
Qed.

(* with a word [w] pending, the text first continues the word, then goes on from a token boundary *)
Lemma lex_sound_spell s :
  (forall ts, lex_go None s = Some ts -> Spell ts s) /\
  (forall w ts, lex_go (Some w) s = Some ts ->
     exists cs w' ts' s', s = cs ++ s' /\ word_chars cs = Some w' /\ starts_wordchar s' = false /\
                          ts = W (w ++ w') :: ts' /\ Spell ts' s').
Proof.
  induction s as [|ch r [IHn IHs]].
  - split; [intros ts [= <-]; constructor|intros w ts [= <-]].
    exists [], [], [], []. rewrite (app_nil_r w). repeat split. constructor.
  - assert (forall ts, lex_go None (ch :: r) = Some ts -> Spell ts (ch :: r)) as HN.
    { intros ts H. destruct (sym_of ch) as [t|] eqn:Hs.
      - rewrite (lex_go_sym _ _ _ _ Hs) in H. destruct (lex_go None r) as [ts0|]; [|discriminate].
        injection H as <-. apply Sp_sym; auto.
      - destruct ch; try discriminate Hs; cbn [lex_go] in H; try discriminate H.
        + destruct (IHs _ _ H) as (cs & w' & ts' & s' & -> & Hw & Hs' & -> & Hsp). now apply Sp_word.
        + destruct (lex_go None r) as [ts0|]; [|discriminate]. injection H as <-. apply Sp_ws. auto. }
    split; [exact HN|]. intros w ts H. destruct (starts_wordchar (ch :: r)) eqn:Hw.
    + destruct ch; try discriminate Hw; cbn [lex_go] in H;
        destruct (IHs _ _ H) as (cs & w' & ts' & s' & -> & Hc & Hs' & -> & Hsp);
        [exists (CStart c :: cs)|exists (CCont c :: cs)]; exists (c :: w'), ts', s';
        cbn [word_chars]; rewrite Hc, <- app_assoc; auto.
    + rewrite (lex_go_flush _ _ Hw) in H.
      destruct (lex_go None (ch :: r)) as [ts0|] eqn:E; [|discriminate]. injection H as <-.
      exists [], [], ts0, (ch :: r). rewrite app_nil_r. repeat split; auto.
Qed.

Lemma parse_iff s t : parse s = Some t <-> in_language false s t.
Proof.
  unfold parse, in_language. split.
  - destruct (lex s) as [ts|]; [|discriminate]. intros H. exists ts. split; [reflexivity|].
    now apply parse_toks_gen_sound.
  - intros (ts & -> & H). now apply parse_toks_gen_complete.
Qed.

Lemma doc_parse_iff s ts t : doc_parse s = Some (ts, t) <-> lex s = Some ts /\ Doc_start ts t.
Proof.
  unfold doc_parse. split.
  - destruct (lex s) as [ts'|]; [|discriminate].
    destruct (parse_toks_gen true ts') as [t'|] eqn:E; [|discriminate]. intros H. inversion H; subst.
    split; [reflexivity|]. now apply parse_toks_gen_sound.
  - intros (-> & H). now rewrite (parse_toks_gen_complete true _ _ H).
Qed.

Lemma in_language_doc s t : in_language false s t -> in_language true s t.
Proof. intros (ts & Hl & HD). exists ts. split; [exact Hl|now apply lark_subset_doc]. Qed.

Lemma compile_lex s1 s2 : lex s1 = lex s2 -> compile_str s1 = compile_str s2.
Proof. unfold compile_str, parse. now intros ->. Qed.
Lemma doc_parse_lex s1 s2 : lex s1 = lex s2 -> doc_parse s1 = doc_parse s2.
Proof. unfold doc_parse. now intros ->. Qed.

Lemma text_cases s :
  match doc_parse s with
  | None => compile_str s = Rejected
  | Some (ts, t) => compile_str s = compile_tree t \/ (compile_str s = Rejected /\ star_in_brackets 0 ts = true)
  end.
Proof.
  unfold doc_parse, compile_str, parse. destruct (lex s) as [ts|]; [|reflexivity].
  destruct (parse_toks_gen true ts) as [t|] eqn:Ed; destruct (parse_toks ts) as [t'|] eqn:Ep; try reflexivity.
  - left. f_equal. apply parse_toks_gen_sound in Ep, Ed.
    exact (derivation_unique true _ _ _ (lark_subset_doc _ _ Ep) Ed).
  - right. split; [reflexivity|]. destruct (star_in_brackets 0 ts) eqn:Es; [reflexivity|].
    apply parse_toks_gen_sound in Ed. apply (doc_minus_f10 _ _ Ed), (parse_toks_gen_complete false) in Es.
    unfold parse_toks in Ep. congruence.
  - apply parse_toks_gen_sound, lark_subset_doc, parse_toks_gen_complete in Ep. congruence.
Qed.

Lemma parse_doc_parse s t : parse s = Some t -> exists ts, doc_parse s = Some (ts, t).
Proof.
  unfold parse, doc_parse. destruct (lex s) as [ts|]; [|discriminate]. intros H. exists ts.
  apply parse_toks_gen_sound, lark_subset_doc, parse_toks_gen_complete in H. now rewrite H.
Qed.

Lemma star_elsewhere_rejected s ts :
  lex s = Some ts -> star_ok 0 ts = false -> compile_str s = Rejected.
Proof.
  intros Hl Hs. unfold compile_str, parse. rewrite Hl.
  destruct (parse_toks ts) as [t|] eqn:E; [|reflexivity].
  apply parse_toks_gen_sound in E. apply star_only_terminal_lemma in E. congruence.
Qed.

Lemma brackets_same_tree doc ts t : parse_toks_gen doc ts = Some t -> (doc = false -> has_any t = false) ->
  parse_toks_gen doc (LBR :: ts ++ [RBR]) = Some t.
Proof. intros H Ha. apply parse_toks_gen_iff, D_brackets; [now apply parse_toks_gen_iff|exact Ha]. Qed.

Lemma brackets_text s t : parse s = Some t -> has_any t = false -> compile_str (CLbr :: s ++ [CRbr]) = compile_str s.
Proof.
  unfold compile_str, parse. destruct (lex s) as [ts|] eqn:E; [|discriminate]. intros H Ha.
  rewrite (lex_brackets _ _ E). unfold parse_toks in *. now rewrite (brackets_same_tree false _ _ H (fun _ => Ha)), H.
Qed.

Lemma doc_brackets_text s ts t : doc_parse s = Some (ts, t) -> doc_parse (CLbr :: s ++ [CRbr]) = Some (LBR :: ts ++ [RBR], t).
Proof.
  unfold doc_parse. destruct (lex s) as [ts'|] eqn:E; [|discriminate].
  destruct (parse_toks_gen true ts') as [t'|] eqn:Ep; [|discriminate]. intros H. inversion H; subst.
  now rewrite (lex_brackets _ _ E), (brackets_same_tree true _ _ Ep).
Qed.


(* word_eqb, node_eqb and path_eqb decide Leibniz equality; graph_eqb does not: children compare as sets *)
Lemma word_eqb_iff a : forall b, word_eqb a b = true <-> a = b.
Proof.
  induction a as [|x a IH]; intros [|y b]; cbn [word_eqb]; try (split; discriminate); [split; reflexivity|].
  rewrite andb_true_iff, Z.eqb_eq, IH. split; [intros [-> ->]; reflexivity|intros [= -> ->]; auto].
Qed.

Lemma node_eqb_iff a b : node_eqb a b = true <-> a = b.
Proof.
  assert (forall f g, filt_eqb f g = true <-> f = g) as Hf.
  { intros [|x] [|y]; cbn; rewrite ?word_eqb_iff; split; try discriminate; congruence. }
  destruct a, b; cbn [node_eqb]; rewrite ?andb_true_iff, ?eqb_true_iff, ?word_eqb_iff, ?Hf;
    split; try discriminate; intuition congruence.
Qed.

Lemma path_eqb_iff p : forall q, path_eqb p q = true <-> p = q.
Proof.
  unfold path_eqb. induction p as [|n p IH]; intros [|m q]; cbn [list_eqb]; try (split; discriminate); [split; reflexivity|].
  rewrite andb_true_iff, node_eqb_iff, IH. split; [intros [-> ->]; reflexivity|intros [= -> ->]; auto].
Qed.

Lemma node_eqb_sym a b : node_eqb a b = node_eqb b a.
Proof. apply eq_true_iff_eq. rewrite !node_eqb_iff. split; intros ->; reflexivity. Qed.

Lemma existsb_path_eqb p l : existsb (path_eqb p) l = true <-> In p l.
Proof.
  rewrite existsb_exists. split.
  - intros (q & Hq & E). apply path_eqb_iff in E. now subst.
  - intros H. exists p. split; [exact H|now apply path_eqb_iff].
Qed.
Lemma path_subset_incl a b : path_subset a b = true <-> incl a b.
Proof. unfold path_subset. rewrite forallb_forall. split; intros H p Hp; apply existsb_path_eqb, H, Hp. Qed.
Lemma path_set_eqb_refl l : path_set_eqb l l = true.
Proof. unfold path_set_eqb. now rewrite (proj2 (path_subset_incl l l) (incl_refl l)). Qed.

Section GraphInd.
  Variable P : graph -> Prop.
  Hypothesis H : forall n cs, Forall P cs -> P (G n cs).
  Fixpoint graph_ind' (g : graph) : P g :=
    match g with
    | G n cs => H n cs ((fix go (l : list graph) : Forall P l :=
                           match l with
                           | [] => Forall_nil P
                           | x :: r => Forall_cons x (graph_ind' x) (go r)
                           end) cs)
    end.
End GraphInd.

Lemma graph_eqb_G n1 c1 n2 c2 : graph_eqb (G n1 c1) (G n2 c2) = true <->
  n1 = n2 /\ (forall x, In x c1 -> exists y, In y c2 /\ graph_eqb x y = true)
          /\ (forall y, In y c2 -> exists x, In x c1 /\ graph_eqb x y = true).
Proof.
  cbn [graph_eqb]. rewrite !andb_true_iff, node_eqb_iff, !forallb_forall. split.
  - intros [[Hn H1] H2]. repeat split; [exact Hn| |]; intros z Hz; apply existsb_exists; auto.
  - intros (Hn & H1 & H2). repeat split; [exact Hn| |]; intros z Hz; apply existsb_exists; auto.
Qed.

Lemma graph_eqb_refl g : graph_eqb g g = true.
Proof.
  induction g as [n cs IH] using graph_ind'. rewrite Forall_forall in IH.
  apply graph_eqb_G. repeat split; intros x Hx; exists x; auto.
Qed.

Lemma graph_eqb_perm n cs cs' : Permutation cs cs' -> graph_eqb (G n cs) (G n cs') = true.
Proof.
  intros HP. apply graph_eqb_G. repeat split; intros x Hx; exists x; split; try apply graph_eqb_refl.
  - now apply (Permutation_in x HP).
  - now apply (Permutation_in x (Permutation_sym HP)).
Qed.

Lemma graph_eqb_trans a : forall b c, graph_eqb a b = true -> graph_eqb b c = true -> graph_eqb a c = true.
Proof.
  induction a as [n1 c1 IH] using graph_ind'. intros [n2 c2] [n3 c3] Hab Hbc. rewrite Forall_forall in IH.
  apply graph_eqb_G in Hab as (-> & A1 & A2), Hbc as (-> & B1 & B2). apply graph_eqb_G. repeat split.
  - intros x Hx. destruct (A1 x Hx) as (y & Hy & Hxy), (B1 y Hy) as (z & Hz & Hyz). exists z. eauto.
  - intros z Hz. destruct (B2 z Hz) as (y & Hy & Hyz), (A2 y Hy) as (x & Hx & Hxy). exists x. eauto.
Qed.

Lemma forallb_ext_in {A} (f g : A -> bool) l : (forall x, In x l -> f x = g x) -> forallb f l = forallb g l.
Proof.
  induction l as [|x l IH]; intros H; [reflexivity|]. cbn. rewrite (H x (or_introl eq_refl)), IH; [reflexivity|].
  intros y Hy. apply H. now right.
Qed.
Lemma existsb_ext_in {A} (f g : A -> bool) l : (forall x, In x l -> f x = g x) -> existsb f l = existsb g l.
Proof.
  induction l as [|x l IH]; intros H; [reflexivity|]. cbn. rewrite (H x (or_introl eq_refl)), IH; [reflexivity|].
  intros y Hy. apply H. now right.
Qed.

Lemma graph_eqb_sym a : forall b, graph_eqb a b = graph_eqb b a.
Proof.
  induction a as [n1 c1 IH] using graph_ind'. intros [n2 c2]. cbn [graph_eqb].
  rewrite Forall_forall in IH. rewrite (node_eqb_sym n1 n2). rewrite <- !andb_assoc. f_equal.
  rewrite andb_comm. f_equal.
  - apply forallb_ext_in. intros y _. apply existsb_ext_in. intros x Hx. now apply IH.
  - apply forallb_ext_in. intros x Hx. apply existsb_ext_in. intros y _. now apply IH.
Qed.

Lemma graphs_eqb_sym g1 : forall g2, list_eqb graph_eqb g1 g2 = list_eqb graph_eqb g2 g1.
Proof.
  induction g1 as [|x g1 IH]; intros [|y g2]; cbn; try reflexivity. now rewrite graph_eqb_sym, IH.
Qed.


Lemma outcome_same_refl o : outcome_same o o = true.
Proof.
  destruct o as [| |gs|]; try reflexivity. induction gs as [|g gs IH]; [reflexivity|]. cbn. now rewrite graph_eqb_refl.
Qed.

Lemma gp_cons n c cs : graph_paths (G n (c :: cs)) = map (cons n) (flat_map graph_paths (c :: cs)).
Proof. reflexivity. Qed.

Lemma graph_paths_nonempty g : graph_paths g <> [].
Proof.
  induction g as [n cs IH] using graph_ind'. destruct cs as [|c cs]; cbn; [discriminate|].
  inversion IH; subst. destruct (graph_paths c) eqn:E; [contradiction|]. cbn. discriminate.
Qed.

Lemma flat_gp_nil br : flat_map graph_paths br = [] -> br = [].
Proof.
  destruct br as [|g r]; [reflexivity|]. cbn. intros H. apply app_eq_nil in H. destruct H as [H _].
  now apply graph_paths_nonempty in H.
Qed.

Lemma graph_eqb_paths g1 : forall g2, graph_eqb g1 g2 = true -> incl (graph_paths g1) (graph_paths g2).
Proof.
  induction g1 as [n1 c1 IH] using graph_ind'. intros [n2 c2] H p Hp. rewrite Forall_forall in IH.
  apply graph_eqb_G in H as (<- & H1 & H2). destruct c1 as [|x1 c1'].
  - destruct c2 as [|y c2']; [exact Hp|]. now destruct (H2 y (or_introl eq_refl)) as (x & [] & _).
  - rewrite gp_cons in Hp. apply in_map_iff in Hp as (p' & <- & Hp'). apply in_flat_map in Hp' as (x & Hx & Hpx).
    destruct (H1 x Hx) as (y & Hy & Hxy). destruct c2 as [|y0 c2']; [destruct Hy|].
    rewrite gp_cons. apply in_map, in_flat_map. exists y. split; [exact Hy|]. exact (IH x Hx y Hxy p' Hpx).
Qed.

Lemma graphs_eqb_paths g1 : forall g2, list_eqb graph_eqb g1 g2 = true ->
  incl (flat_map graph_paths g1) (flat_map graph_paths g2).
Proof.
  induction g1 as [|x g1 IH]; intros [|y g2] H; try discriminate; [apply incl_refl|].
  cbn [list_eqb] in H. apply andb_prop in H as [Hxy H]. cbn [flat_map].
  apply incl_app_app; [now apply graph_eqb_paths|now apply IH].
Qed.

(* results equal by ObserverGraph.__eq__ denote the same set of paths (clause 12 of the pair law) *)
Lemma equal_graphs_same_path_set g1 g2 : list_eqb graph_eqb g1 g2 = true ->
  path_set_eqb (flat_map graph_paths g1) (flat_map graph_paths g2) = true.
Proof.
  intros H. unfold path_set_eqb. rewrite (proj2 (path_subset_incl _ _) (graphs_eqb_paths _ _ H)).
  rewrite graphs_eqb_sym in H. exact (proj2 (path_subset_incl _ _) (graphs_eqb_paths _ _ H)).
Qed.

Definition prod {X} (A B : list (list X)) : list (list X) := flat_map (fun p => map (app p) B) A.
(* the paths of graphs built on top of branches with paths Q: no branches, no extension *)
Definition cat {X} (A Q : list (list X)) : list (list X) := match Q with [] => A | _ => prod A Q end.

Lemma prod_nonempty {X} (A B : list (list X)) : A <> [] -> B <> [] -> prod A B <> [].
Proof. destruct A as [|a A]; [contradiction|]. destruct B as [|b B]; [contradiction|]. intros _ _. cbn. discriminate. Qed.

Lemma paths_nonempty e : paths e <> [].
Proof.
  induction e; cbn.
  - discriminate.
  - now apply prod_nonempty.
  - intros H. apply app_eq_nil in H. destruct H. contradiction.
Qed.

Lemma prod_app {X} (A A' B : list (list X)) : prod (A ++ A') B = prod A B ++ prod A' B.
Proof. apply flat_map_app. Qed.

Lemma prod_cons {X} a (A B : list (list X)) : prod (a :: A) B = map (app a) B ++ prod A B.
Proof. reflexivity. Qed.

Lemma prod_map_app {X} a (B Q : list (list X)) : prod (map (app a) B) Q = map (app a) (prod B Q).
Proof.
  induction B as [|b B IH]; [reflexivity|]. cbn [map]. rewrite !prod_cons.
  rewrite IH, map_app, map_map. f_equal. apply map_ext. intros q. now rewrite app_assoc.
Qed.

Lemma prod_assoc {X} (A B Q : list (list X)) : prod (prod A B) Q = prod A (prod B Q).
Proof.
  induction A as [|a A IH]; [reflexivity|]. rewrite !prod_cons.
  rewrite prod_app, IH, prod_map_app. reflexivity.
Qed.

Lemma map_prod {X Y} (f : X -> Y) A B : map (map f) (prod A B) = prod (map (map f) A) (map (map f) B).
Proof.
  induction A as [|a A IH]; [reflexivity|]. cbn [map]. rewrite !prod_cons.
  rewrite map_app, IH. f_equal. rewrite !map_map. apply map_ext. intros q. apply map_app.
Qed.

Lemma cat_assoc {X} (A B Q : list (list X)) : B <> [] -> cat (prod A B) Q = cat A (cat B Q).
Proof.
  intros HB. destruct Q as [|q Q].
  - cbn [cat]. destruct B; [contradiction|reflexivity].
  - cbn [cat]. rewrite prod_assoc. destruct (prod B (q :: Q)) eqn:E; [|reflexivity].
    exfalso. revert E. apply prod_nonempty; [exact HB|discriminate].
Qed.

Lemma cat_app {X} (A A' Q : list (list X)) : cat (A ++ A') Q = cat A Q ++ cat A' Q.
Proof. destruct Q; cbn [cat]; [reflexivity|apply prod_app]. Qed.

Lemma create_graphs_paths e : forall br gs,
  create_graphs e br = Some gs -> flat_map graph_paths gs = cat (paths e) (flat_map graph_paths br).
Proof.
  induction e as [n|a IHa b IHb|a IHa b IHb]; intros br gs H; cbn [create_graphs paths] in *.
  - destruct (distinctb br); [|discriminate]. inversion H; subst. cbn [flat_map]. rewrite app_nil_r.
    destruct br as [|c cs]; [reflexivity|].
    destruct (flat_map graph_paths (c :: cs)) as [|q Q] eqn:E.
    + apply flat_gp_nil in E. discriminate.
    + cbn [graph_paths]. rewrite E. cbn [cat prod flat_map]. rewrite app_nil_r. reflexivity.
  - destruct (create_graphs b br) as [bs|] eqn:Eb; [|discriminate].
    rewrite (IHa _ _ H), (IHb _ _ Eb). symmetry. apply cat_assoc. apply paths_nonempty.
  - destruct (create_graphs a br) as [l|] eqn:Ea; [|discriminate].
    destruct (create_graphs b br) as [r|] eqn:Eb; [|discriminate]. inversion H; subst.
    rewrite flat_map_app, (IHa _ _ Ea), (IHb _ _ Eb), cat_app. reflexivity.
Qed.

Lemma notify_conn c : notify_of (LConn c) = conn_notifies c.
Proof. now destruct c. Qed.

Lemma handle_paths t : forall l, paths (handle_tree t (notify_of l)) = doc_paths_l t l.
Proof.
  unfold doc_paths_l. induction t as [w| |w| |a IHa c b IHb|a IHa b IHb]; intros l; try reflexivity;
    cbn [handle_tree paths raw_paths].
  - fold (prod (raw_paths a (LConn c)) (raw_paths b l)). now rewrite map_prod, <- notify_conn, IHa, IHb.
  - now rewrite map_app, IHa, IHb.
Qed.

Lemma meaning_lemma t gs : compile_tree t = Graphs gs -> flat_map graph_paths gs = doc_paths t.
Proof.
  unfold compile_tree. destruct (create_graphs (handle_tree t true) []) as [g|] eqn:E; [|discriminate].
  intros H. inversion H; subst. rewrite (create_graphs_paths _ _ _ E). apply (handle_paths t LEnd).
Qed.

(* every path has the shape  (m1, connector) ... (mk-1, connector) (mk, end): so notification is enabled on an
   element iff it is last or followed by "." *)
Lemma raw_paths_shape t : forall l p, In p (raw_paths t l) ->
  exists q m, p = q ++ [(m, l)] /\
    Forall (fun ml => exists c, snd ml = LConn c /\ notify_of (snd ml) = conn_notifies c) q.
Proof.
  induction t as [w| |w| |a IHa c b IHb|a IHa b IHb]; intros l p Hp; cbn [raw_paths] in Hp.
  1-4: repeat destruct Hp as [<-|Hp]; try destruct Hp; eexists [], _; (split; [reflexivity|constructor]).
  - apply in_flat_map in Hp as (pa & Ha & Hp). apply in_map_iff in Hp as (pb & <- & Hb).
    destruct (IHa _ _ Ha) as (qa & ma & -> & Fa), (IHb _ _ Hb) as (qb & mb & -> & Fb).
    exists ((qa ++ [(ma, LConn c)]) ++ qb), mb. split; [now rewrite app_assoc|].
    repeat (apply Forall_app; split); [exact Fa| |exact Fb]. constructor; [exists c; split; [reflexivity|apply notify_conn]|constructor].
  - apply in_app_or in Hp. destruct Hp; eauto.
Qed.

Lemma series_assoc a b c br :
  create_graphs (ESeries (ESeries a b) c) br = create_graphs (ESeries a (ESeries b c)) br.
Proof. cbn [create_graphs]. now destruct (create_graphs c br). Qed.

Lemma par_assoc a b c br :
  create_graphs (EPar (EPar a b) c) br = create_graphs (EPar a (EPar b c)) br.
Proof.
  cbn [create_graphs]. destruct (create_graphs a br); [|reflexivity].
  destruct (create_graphs b br); [|reflexivity]. destruct (create_graphs c br); [|reflexivity].
  now rewrite app_assoc.
Qed.

Lemma par_comm a b br l : create_graphs (EPar a b) br = Some l ->
  exists l', create_graphs (EPar b a) br = Some l' /\ Permutation l l'.
Proof.
  cbn [create_graphs]. destruct (create_graphs a br) as [x|]; [|discriminate].
  destruct (create_graphs b br) as [y|]; [|discriminate]. intros H. inversion H; subst.
  exists (y ++ x). split; [reflexivity|apply Permutation_app_comm].
Qed.

(* the pair law on the model, Python's == and hash being the model's ObserverGraph.__eq__ *)
Lemma model_pair_law same s1 s2 c :
  let o1 := compile_str s1 in let o2 := compile_str s2 in
  In c (law_pair same o1 o2 (outcome_same o1 o2) (outcome_same o1 o2)) -> same = true /\ (c = 7%Z \/ c = 8%Z \/ c = 9%Z \/ c = 10%Z).
Proof.
  cbn zeta. unfold law_pair. intros H. apply in_app_or in H. destruct H as [H|H].
  - destruct same; [|destruct H]. split; [reflexivity|]. destruct (same_class _ _); cbn in H; [destruct H|].
    destruct H as [<-|[]]. now left.
  - destruct (compile_str s1) as [| |g1|] eqn:E1; try destruct H;
      destruct (compile_str s2) as [| |g2|] eqn:E2; try destruct H.
    apply in_app_or in H. destruct H as [H|H].
    + destruct same; [|destruct H]. split; [reflexivity|]. cbn [outcome_same] in H.
      destruct (list_eqb graph_eqb g1 g2); cbn in H; [destruct H|].
      destruct H as [<-|[<-|[<-|[]]]]; auto.
    + cbn [outcome_same] in H. destruct (list_eqb graph_eqb g1 g2) eqn:E.
      * rewrite (equal_graphs_same_path_set _ _ E) in H. cbn in H. destruct H.
      * cbn in H. destruct H.
Qed.

Lemma flat_map_nil_fun {A B} (f : A -> list B) l : (forall x, f x = []) -> flat_map f l = [].
Proof. intros H. induction l as [|x l IH]; [reflexivity|]. cbn. now rewrite H, IH. Qed.

Lemma hook_path_single h o n :
  hook_path h o [n] =
  let '(obs, errs) := observables n o (nth_obj h o) in
  errs ++ (if node_notify n then map (fun x => Hit o (fst x)) obs else []).
Proof.
  cbn [hook_path]. destruct (observables n o (nth_obj h o)) as [obs errs].
  rewrite flat_map_nil_fun; [now rewrite app_nil_r|]. intros x. now apply flat_map_nil_fun.
Qed.

(* both walks: what the first observer gives, then the walks from the objects it hands on *)
Lemma hook_path_cons h o n p :
  hook_path h o (n :: p) =
  hook_path h o [n] ++ flat_map (fun it => flat_map (fun o' => hook_path h o' p) (snd it))
                                (fst (observables n o (nth_obj h o))).
Proof.
  rewrite hook_path_single. cbn [hook_path]. destruct (observables n o (nth_obj h o)) as [obs errs].
  now rewrite app_assoc.
Qed.
Lemma hook_graph_G h o n cs :
  hook_graph h o (G n cs) =
  hook_path h o [n] ++ flat_map (fun c => flat_map (fun it => flat_map (fun o' => hook_graph h o' c) (snd it))
                                                   (fst (observables n o (nth_obj h o)))) cs.
Proof.
  rewrite hook_path_single. cbn [hook_graph]. destruct (observables n o (nth_obj h o)) as [obs errs].
  now rewrite app_assoc.
Qed.

Lemma hook_graph_paths h g : forall o x,
  In x (hook_graph h o g) <-> exists p, In p (graph_paths g) /\ In x (hook_path h o p).
Proof.
  induction g as [n cs IH] using graph_ind'. intros o x. rewrite Forall_forall in IH.
  rewrite hook_graph_G. destruct cs as [|c cs].
  - cbn [flat_map graph_paths]. rewrite app_nil_r.
    split; [intros Hx; exists [n]; split; [now left|exact Hx]|now intros (p & [<-|[]] & Hx)].
  - rewrite gp_cons, in_app_iff. split.
    + intros [Hx|Hx].
      * destruct (flat_map graph_paths (c :: cs)) as [|p0 ps] eqn:Ep; [now apply flat_gp_nil in Ep|].
        exists (n :: p0). split; [now left|]. rewrite hook_path_cons. apply in_or_app. now left.
      * apply in_flat_map in Hx as (c' & Hc' & Hx). apply in_flat_map in Hx as (it & Hit & Hx).
        apply in_flat_map in Hx as (o' & Ho' & Hx). apply (IH c' Hc') in Hx as (p & Hp & Hx).
        exists (n :: p). split; [apply in_map, in_flat_map; now exists c'|].
        rewrite hook_path_cons. apply in_or_app. right. apply in_flat_map. exists it. split; [exact Hit|].
        apply in_flat_map. now exists o'.
    + intros (p & Hp & Hx). apply in_map_iff in Hp as (p' & <- & Hp'). rewrite hook_path_cons in Hx.
      apply in_app_or in Hx as [Hx|Hx]; [now left|right].
      apply in_flat_map in Hx as (it & Hit & Hx). apply in_flat_map in Hx as (o' & Ho' & Hx).
      apply in_flat_map in Hp' as (c' & Hc' & Hp'). apply in_flat_map. exists c'. split; [exact Hc'|].
      apply in_flat_map. exists it. split; [exact Hit|]. apply in_flat_map. exists o'. split; [exact Ho'|].
      apply (IH c' Hc'). now exists p'.
Qed.

Lemma hook_graphs_paths h o gs x :
  In x (flat_map (hook_graph h o) gs) <-> In x (flat_map (hook_path h o) (flat_map graph_paths gs)).
Proof.
  rewrite !in_flat_map. split.
  - intros (g & Hg & Hx). apply hook_graph_paths in Hx as (p & Hp & Hx).
    exists p. split; [apply in_flat_map; now exists g|exact Hx].
  - intros (p & Hp & Hx). apply in_flat_map in Hp as (g & Hg & Hp).
    exists g. split; [exact Hg|]. apply hook_graph_paths. now exists p.
Qed.

Lemma filter_true {A} (l : list A) : filter (fun _ => true) l = l.
Proof. induction l as [|x l IH]; [reflexivity|]. cbn. now rewrite IH. Qed.

(* element by element, the observer the parser builds matches what the manual says the element matches *)
Lemma observables_node_of ml o ob : observables (node_of ml) o ob = m_obs (fst ml) o ob.
Proof.
  destruct ml as [m l].
  destruct m as [w| | | | |w| ]; destruct ob as [ts|items|vals|items];
    cbn [node_of fst snd observables m_obs unless filter_ok]; try reflexivity.
  all: try (match goal with |- context [find_trait ?a ?b] => destruct (find_trait a b); reflexivity end).
  all: try (unfold filter_ok; now rewrite filter_true).
Qed.
Lemma notify_node_of ml : node_notify (node_of ml) = notify_of (snd ml).
Proof. destruct ml as [m l]. destruct m; reflexivity. Qed.

Lemma hook_path_node_of h p : forall o, hook_path h o (map node_of p) = hook_mpath h o p.
Proof.
  induction p as [|ml p IH]; intros o; [reflexivity|].
  cbn [map hook_path hook_mpath]. rewrite observables_node_of, notify_node_of.
  destruct (m_obs (fst ml) o (nth_obj h o)) as [obs errs]. f_equal. f_equal.
  apply flat_map_ext. intros it. apply flat_map_ext. intros o'. apply IH.
Qed.

Lemma hooks_meaning_lemma t gs : compile_tree t = Graphs gs ->
  forall h o x, In x (flat_map (hook_graph h o) gs) <-> In x (doc_hooks h o t).
Proof.
  intros Hc h o x. rewrite hook_graphs_paths, (meaning_lemma _ _ Hc). unfold doc_hooks, doc_paths, doc_paths_l.
  induction (raw_paths t LEnd) as [|p R IH]; [reflexivity|].
  cbn [map flat_map]. now rewrite !in_app_iff, IH, hook_path_node_of.
Qed.

Lemma equal_patterns_hooks g1 g2 : list_eqb graph_eqb g1 g2 = true ->
  forall h o x, In x (flat_map (hook_graph h o) g1) <-> In x (flat_map (hook_graph h o) g2).
Proof.
  assert (forall g1 g2, list_eqb graph_eqb g1 g2 = true ->
          forall h o x, In x (flat_map (hook_graph h o) g1) -> In x (flat_map (hook_graph h o) g2)) as Hsub.
  { intros a b H h o x. rewrite !hook_graphs_paths, !in_flat_map. intros (p & Hp & Hx).
    exists p. split; [exact (graphs_eqb_paths _ _ H p Hp)|exact Hx]. }
  intros H h o x. split; apply Hsub; [exact H|now rewrite graphs_eqb_sym].
Qed.

(* "+name" hooks a trait iff its metadata value is not None - falsy values included *)
Lemma metadata_hooks_iff_not_none w ts x :
  In x (fst (m_obs (MMeta w) 0 (OTraits ts))) <->
  exists t, In t ts /\ meta_of (t_meta t) w <> MVNone /\ x = trait_item t.
Proof.
  cbn. rewrite in_map_iff. split.
  - intros (t & <- & Ht). apply filter_In in Ht. destruct Ht as [H1 H2]. exists t. repeat split; auto.
    intros E. rewrite E in H2. discriminate.
  - intros (t & H1 & H2 & ->). exists t. split; [reflexivity|]. apply filter_In. split; [exact H1|].
    destruct (meta_of (t_meta t) w); [contradiction|reflexivity|reflexivity].
Qed.

Lemma items_runtime h o l :
  let ob := nth_obj h o in
  flat_map (hook_mpath h o) (raw_paths TItems l) =
  match ob with
  | OTraits ts => match find_trait ts items_word with
                  | Some t => if notify_of l then [Hit o (t_name t)] else []
                  | None => [] end
  | _ => if notify_of l then [Hit o []] else []
  end.
Proof.
  cbn zeta. cbn [raw_paths flat_map hook_mpath fst snd].
  destruct (nth_obj h o) as [ts|items|vals|items]; cbn [m_obs]; [destruct (find_trait ts items_word) as [t|]|..];
    destruct (notify_of l); cbn; rewrite ?(flat_map_nil_fun (fun _ => [])) by reflexivity; reflexivity.
Qed.

Lemma in_hit_codes c l : In c (hit_codes l) <-> exists x, In x l /\ hit_code x = Some c.
Proof.
  induction l as [|x l IH]; cbn [hit_codes].
  - split; [intros []|intros (x & [] & _)].
  - destruct (hit_code x) as [d|] eqn:E.
    + split.
      * intros [<-|H]; [exists x; split; [now left|exact E]|].
        apply IH in H. destruct H as (y & Hy & Ey). exists y. split; [now right|exact Ey].
      * intros (y & [<-|Hy] & Ey); [left; congruence|]. right. apply IH. now exists y.
    + rewrite IH. split; intros (y & Hy & Ey); exists y; (split; [|exact Ey]).
      * now right.
      * destruct Hy as [<-|Hy]; [congruence|exact Hy].
Qed.

Lemma has_err_ext a b : (forall x, In x a <-> In x b) -> has_err a = has_err b.
Proof.
  intros H. apply eq_true_iff_eq. unfold has_err. rewrite !existsb_exists.
  split; intros (x & Hx & Ex); exists x; (split; [now apply H|exact Ex]).
Qed.

Lemma zsubset_codes a b : (forall x, In x a -> In x b) -> zsubset (hit_codes a) (hit_codes b) = true.
Proof.
  intros H. apply forallb_forall. intros c Hc. apply in_hit_codes in Hc. destruct Hc as (x & Hx & Ex).
  apply existsb_exists. exists c. split; [|apply Z.eqb_refl]. apply in_hit_codes. exists x. split; [now apply H|exact Ex].
Qed.

Lemma model_hook_law s gs : compile_str s = Graphs gs ->
  let hits := flat_map (hook_graph probe_heap 0) gs in
  law_hook s (negb (has_err hits)) (hit_codes hits) = [].
Proof.
  intros Hc hits. unfold law_hook.
  unfold compile_str in Hc. destruct (parse s) as [t|] eqn:Ep; [|discriminate].
  destruct (parse_doc_parse _ _ Ep) as (ts & ->).
  pose proof (hooks_meaning_lemma _ _ Hc probe_heap 0) as HM. fold hits in HM.
  rewrite <- (has_err_ext _ _ HM). destruct (has_err hits); [reflexivity|]. cbn [negb chk app]. unfold zset_eqb.
  now rewrite !zsubset_codes by (intros x Hx; now apply HM).
Qed.
