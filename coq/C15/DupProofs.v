(* C15 — when compile_str refuses a parsed text, and the law evaluated on the model.
   A refusal means that some path is denoted twice (create_graphs succeeds when all paths are distinct), and the
   repetition always sits among the alternatives after a connector.  The argument for the latter: the graphs
   create_graphs e br returns are those of create_graphs e [] with br attached at every leaf; attaching preserves and
   reflects ObserverGraph.__eq__ (depth argument), so equal graphs among them are equal graphs of create_graphs e [],
   whose paths are paths e. *)
From Coq Require Import ZArith List Bool Lia.
From TV Require Import Common.Harness C15.Model C15.Law C15.Proofs.
Import ListNotations.
Open Scope nat_scope.

(* Vocabulary of Props.compile_error_only_after_a_connector: the graph with the branches [br] put below every leaf *)
Definition attach (br : list graph) : graph -> graph :=
  fix att (g : graph) : graph :=
    match g with G n cs => match cs with [] => G n br | _ => G n (map att cs) end end.

Lemma has_dup_NoDup l : has_dup l = false <-> NoDup l.
Proof.
  induction l as [|p l IH]; cbn [has_dup]; [split; [constructor|reflexivity]|].
  now rewrite orb_false_iff, IH, NoDup_cons_iff, <- existsb_path_eqb, not_true_iff_false.
Qed.

Lemma NoDup_app_inv {A} (a b : list A) :
  NoDup (a ++ b) -> NoDup a /\ NoDup b /\ forall p, In p a -> In p b -> False.
Proof.
  induction a as [|x a IH]; cbn [app]; intros H; [repeat split; [constructor|exact H|intros p []]|].
  apply NoDup_cons_iff in H as [Hx H]. destruct (IH H) as (Ha & Hb & Hd). rewrite in_app_iff in Hx.
  repeat split; [constructor; tauto|exact Hb|]. intros p [<-|Hp] Hq; [tauto|eauto].
Qed.

Lemma NoDup_cat {X} (A Q : list (list X)) : A <> [] -> NoDup (cat A Q) -> NoDup Q.
Proof.
  destruct Q as [|q Q]; [constructor|]. destruct A as [|a A]; [contradiction|]. intros _ H.
  cbn [cat] in H. rewrite prod_cons in H. apply NoDup_app_inv in H as (H & _ & _). exact (NoDup_map_inv _ _ H).
Qed.

Lemma distinct_paths br : NoDup (flat_map graph_paths br) -> distinctb br = true.
Proof.
  induction br as [|x r IH]; [reflexivity|]. cbn [flat_map distinctb]. intros ND.
  apply NoDup_app_inv in ND as (_ & Hr & Hd). rewrite (IH Hr), andb_true_r. apply negb_true_iff.
  destruct (existsb (graph_eqb x) r) eqn:E; [|reflexivity]. apply existsb_exists in E as (y & Hy & Hxy).
  destruct (graph_paths x) as [|p ps] eqn:Ep; [now apply graph_paths_nonempty in Ep|]. exfalso.
  assert (In p (graph_paths x)) as Hp by (rewrite Ep; now left).
  apply (Hd p); [rewrite <- Ep; exact Hp|]. apply in_flat_map. exists y. split; [exact Hy|exact (graph_eqb_paths _ _ Hxy p Hp)].
Qed.

Lemma create_graphs_some e : forall br,
  NoDup (cat (paths e) (flat_map graph_paths br)) -> create_graphs e br <> None.
Proof.
  induction e as [n|a IHa b IHb|a IHa b IHb]; intros br ND; cbn [create_graphs paths] in *.
  - rewrite distinct_paths; [discriminate|]. apply (NoDup_cat [[n]]); [discriminate|exact ND].
  - fold (prod (paths a) (paths b)) in ND. rewrite cat_assoc in ND by apply paths_nonempty.
    destruct (create_graphs b br) as [bs|] eqn:Eb.
    + apply IHa. now rewrite (create_graphs_paths _ _ _ Eb).
    + intros _. exact (IHb br (NoDup_cat _ _ (paths_nonempty a) ND) Eb).
  - rewrite cat_app in ND. apply NoDup_app_inv in ND as (Ha & Hb & _).
    destruct (create_graphs a br) eqn:Ea; [|intros _; exact (IHa br Ha Ea)].
    destruct (create_graphs b br) eqn:Eb; [discriminate|intros _; exact (IHb br Hb Eb)].
Qed.

Lemma create_graphs_none e br :
  create_graphs e br = None -> has_dup (cat (paths e) (flat_map graph_paths br)) = true.
Proof.
  intros H. apply not_false_iff_true. intros E. apply has_dup_NoDup in E. exact (create_graphs_some e br E H).
Qed.

Lemma compile_error_dup t : compile_tree t = CompileError -> has_dup (doc_paths t) = true.
Proof.
  unfold compile_tree. destruct (create_graphs (handle_tree t true) []) eqn:E; [discriminate|]. intros _.
  unfold doc_paths. rewrite <- handle_paths. exact (create_graphs_none _ _ E).
Qed.

(* without a connector nothing is ever put below a node: compile_str cannot refuse *)
Lemma no_series_compiles t : has_series t = false -> forall n, create_graphs (handle_tree t n) [] <> None.
Proof.
  induction t as [w| |w| |a IHa c b IHb|a IHa b IHb]; intros H n; cbn in *; try discriminate.
  apply orb_false_elim in H. destruct H as [Ha Hb]. specialize (IHa Ha n). specialize (IHb Hb n).
  destruct (create_graphs (handle_tree a n) []); [|contradiction].
  destruct (create_graphs (handle_tree b n) []); [discriminate|contradiction].
Qed.
Lemma compile_error_series t : compile_tree t = CompileError -> has_series t = true.
Proof.
  unfold compile_tree. intros H. destruct (has_series t) eqn:E; [reflexivity|].
  pose proof (no_series_compiles t E true) as Hn. destruct (create_graphs (handle_tree t true) []); [discriminate|contradiction].
Qed.

Lemma attach_cons br n c cs : attach br (G n (c :: cs)) = G n (map (attach br) (c :: cs)).
Proof. reflexivity. Qed.
Lemma attach_leaf br n : attach br (G n []) = G n br.
Proof. reflexivity. Qed.

Fixpoint gdepth (g : graph) : nat := match g with G _ cs => S (list_max (map gdepth cs)) end.

Lemma gdepth_child n cs c : In c cs -> gdepth c < gdepth (G n cs).
Proof.
  intros H. cbn [gdepth]. apply Nat.lt_succ_r.
  exact (proj1 (Forall_forall _ _) (proj1 (list_max_le _ _) (le_n _)) _ (in_map gdepth _ _ H)).
Qed.

Lemma gdepth_eq a : forall b, graph_eqb a b = true -> gdepth a = gdepth b.
Proof.
  induction a as [n1 c1 IH] using graph_ind'. intros [n2 c2] H. rewrite Forall_forall in IH.
  apply graph_eqb_G in H as (_ & H1 & H2). cbn [gdepth]. f_equal.
  apply Nat.le_antisymm; apply list_max_le, Forall_forall; intros d Hd; apply in_map_iff in Hd as (z & <- & Hz).
  - destruct (H1 z Hz) as (y & Hy & E). rewrite (IH z Hz y E). exact (proj1 (Nat.lt_succ_r _ _) (gdepth_child n2 _ _ Hy)).
  - destruct (H2 z Hz) as (x & Hx & E). rewrite <- (IH x Hx z E). exact (proj1 (Nat.lt_succ_r _ _) (gdepth_child n1 _ _ Hx)).
Qed.

(* an attached graph is deeper than each of the branches, so it is not equal to any of them *)
Lemma gdepth_attach br y : In y br -> forall g, gdepth y < gdepth (attach br g).
Proof.
  intros Hy. induction g as [n cs IH] using graph_ind'. destruct cs as [|c cs].
  - rewrite attach_leaf. now apply gdepth_child.
  - rewrite attach_cons. inversion IH; subst. etransitivity; [eassumption|]. apply gdepth_child. now left.
Qed.

Lemma attach_leaf_inner br n1 n2 c cs : graph_eqb (G n1 br) (attach br (G n2 (c :: cs))) = false.
Proof.
  apply not_true_iff_false. rewrite attach_cons. intros E. apply graph_eqb_G in E as (_ & _ & H).
  destruct (H (attach br c) (or_introl eq_refl)) as (y & Hy & E). apply gdepth_eq in E.
  pose proof (gdepth_attach br y Hy c). lia.
Qed.

Lemma forallb_map {A B} (f : B -> bool) (g : A -> B) l : forallb f (map g l) = forallb (fun x => f (g x)) l.
Proof. induction l as [|x l IH]; [reflexivity|]. cbn. now rewrite IH. Qed.
Lemma existsb_map {A B} (f : B -> bool) (g : A -> B) l : existsb f (map g l) = existsb (fun x => f (g x)) l.
Proof. induction l as [|x l IH]; [reflexivity|]. cbn. now rewrite IH. Qed.

Lemma attach_eqb br a : forall b, graph_eqb (attach br a) (attach br b) = graph_eqb a b.
Proof.
  induction a as [n1 c1 IH] using graph_ind'. intros [n2 c2]. rewrite Forall_forall in IH.
  destruct c1 as [|x1 c1], c2 as [|x2 c2].
  - apply eq_true_iff_eq. rewrite !attach_leaf, !graph_eqb_G. cbn [In].
    split; intros (-> & _); repeat split; try contradiction; intros x Hx; exists x; split; auto using graph_eqb_refl.
  - rewrite attach_leaf, attach_leaf_inner. cbn [graph_eqb forallb existsb]. now rewrite andb_false_r.
  - rewrite graph_eqb_sym, attach_leaf, attach_leaf_inner. cbn [graph_eqb forallb existsb]. now rewrite andb_false_r.
  - rewrite !attach_cons. cbn [graph_eqb]. rewrite !forallb_map. f_equal; [f_equal|].
    + apply forallb_ext_in. intros x Hx. rewrite existsb_map. apply existsb_ext_in. intros y _. now apply IH.
    + apply forallb_ext_in. intros y _. rewrite existsb_map. apply existsb_ext_in. intros x Hx. now apply IH.
Qed.

Lemma distinctb_attach br l : distinctb (map (attach br) l) = distinctb l.
Proof.
  induction l as [|x l IH]; [reflexivity|]. cbn [map distinctb]. rewrite IH, existsb_map. f_equal. f_equal.
  apply existsb_ext_in. intros y _. apply attach_eqb.
Qed.

(* the children an attached node gets *)
Definition attached (br cs : list graph) : list graph := match cs with [] => br | _ => map (attach br) cs end.

Lemma create_nonempty e : forall cs gs, create_graphs e cs = Some gs -> gs <> [].
Proof.
  induction e as [n|a IHa b IHb|a IHa b IHb]; intros cs gs H; cbn [create_graphs] in H.
  - destruct (distinctb cs); [|discriminate]. inversion H. discriminate.
  - destruct (create_graphs b cs) as [bs|] eqn:E; [|discriminate]. exact (IHa _ _ H).
  - destruct (create_graphs a cs) as [l|] eqn:Ea; [|discriminate].
    destruct (create_graphs b cs) as [r|] eqn:Eb; [|discriminate]. inversion H; subst.
    intros E. apply app_eq_nil in E. destruct E as [E _]. exact (IHa _ _ Ea E).
Qed.

(* Stated for any children [cs] (with [br] below them), not just for [[]]: in a series the left operand is compiled on top
   of what the right operand returned. *)
Lemma create_attach br : distinctb br = true -> forall e cs,
  create_graphs e (attached br cs) = option_map (map (attach br)) (create_graphs e cs).
Proof.
  intros Hbr. induction e as [n|a IHa b IHb|a IHa b IHb]; intros cs; cbn [create_graphs].
  - assert (distinctb (attached br cs) = distinctb cs) as ->.
    { destruct cs as [|c cs]; [exact Hbr|]. apply distinctb_attach. }
    destruct (distinctb cs); [|reflexivity]. cbn. destruct cs; reflexivity.
  - rewrite IHb. destruct (create_graphs b cs) as [bs|] eqn:E; [|reflexivity]. cbn [option_map].
    pose proof (create_nonempty _ _ _ E) as Hne.
    assert (map (attach br) bs = attached br bs) as -> by (destruct bs; [contradiction|reflexivity]).
    apply IHa.
  - rewrite IHa, IHb. destruct (create_graphs a cs); [|reflexivity]. destruct (create_graphs b cs); [|reflexivity].
    cbn. now rewrite map_app.
Qed.

Lemma create_needs_distinct e : forall br, distinctb br = false -> create_graphs e br = None.
Proof.
  induction e as [n|a IHa b IHb|a IHa b IHb]; intros br H; cbn [create_graphs].
  - now rewrite H.
  - now rewrite (IHb _ H).
  - now rewrite (IHa _ H).
Qed.

Lemma create_distinct e br bs : create_graphs e br = Some bs -> NoDup (paths e) -> distinctb bs = true.
Proof.
  intros Hc ND.
  assert (distinctb br = true) as Hbr.
  { destruct (distinctb br) eqn:E; [reflexivity|]. rewrite (create_needs_distinct _ _ E) in Hc. discriminate. }
  pose proof (create_attach br Hbr e []) as HA. cbn [attached] in HA. rewrite Hc in HA.
  destruct (create_graphs e []) as [bs0|] eqn:E0; [|discriminate]. injection HA as ->.
  rewrite distinctb_attach. apply distinct_paths. now rewrite (create_graphs_paths _ _ _ E0).
Qed.

Lemma create_right_ok e : forall br, dup_right_e e = false -> distinctb br = true -> create_graphs e br <> None.
Proof.
  induction e as [n|a IHa b IHb|a IHa b IHb]; intros br Hd Hbr; cbn [create_graphs dup_right_e] in *.
  - now rewrite Hbr.
  - apply orb_false_elim in Hd as [Hd Hdb]. apply orb_false_elim in Hd as [Hp Hda].
    destruct (create_graphs b br) as [bs|] eqn:Eb; [|intros _; exact (IHb br Hdb Hbr Eb)].
    apply (IHa bs Hda), (create_distinct _ _ _ Eb). now apply has_dup_NoDup.
  - apply orb_false_elim in Hd as [Hda Hdb].
    destruct (create_graphs a br) eqn:Ea; [|intros _; exact (IHa br Hda Hbr Ea)].
    destruct (create_graphs b br) eqn:Eb; [discriminate|intros _; exact (IHb br Hdb Hbr Eb)].
Qed.

Lemma expr_error_dup_right e : create_graphs e [] = None -> dup_right_e e = true.
Proof. intros H. destruct (dup_right_e e) eqn:E; [reflexivity|]. now apply (create_right_ok e [] E eq_refl) in H. Qed.

Lemma dup_right_handle t : forall l, dup_right_e (handle_tree t (notify_of l)) = dup_right_l t l.
Proof.
  induction t as [w| |w| |a IHa c b IHb|a IHa b IHb]; intros l; try reflexivity; cbn [handle_tree dup_right_e dup_right_l].
  - now rewrite <- notify_conn, IHa, IHb, handle_paths.
  - now rewrite IHa, IHb.
Qed.

Lemma compile_error_dup_right t : compile_tree t = CompileError -> dup_right t = true.
Proof.
  unfold compile_tree. destruct (create_graphs (handle_tree t true) []) eqn:E; [discriminate|]. intros _.
  unfold dup_right. rewrite <- (dup_right_handle t LEnd). now apply expr_error_dup_right.
Qed.

(* The law evaluated on the model's own outcome raises nothing, or code 1 on a text with a bracketed "*" (F10), or
   code 3 on a refused compilation (F17; never 18 or 19): never "accepted outside the language", never a wrong path
   or notify flag, never another exception. *)
Lemma model_law s :
  law_single s (compile_str s) = [] \/
  (law_single s (compile_str s) = [1%Z] /\ exists ts, lex s = Some ts /\ star_in_brackets 0 ts = true) \/
  (law_single s (compile_str s) = [3%Z] /\ compile_str s = CompileError).
Proof.
  unfold law_single. pose proof (text_cases s) as H. destruct (doc_parse s) as [[ts t]|] eqn:Ed.
  - destruct H as [-> | [-> Hs]].
    + destruct (compile_tree t) as [| |gs|] eqn:Ec.
      * unfold compile_tree in Ec. destruct (create_graphs _ _); discriminate.
      * rewrite (compile_error_dup _ Ec), (compile_error_series _ Ec), (compile_error_dup_right _ Ec). now right; right.
      * rewrite (meaning_lemma _ _ Ec), path_set_eqb_refl. now left.
      * unfold compile_tree in Ec. destruct (create_graphs _ _); discriminate.
    + rewrite Hs. right; left. split; [reflexivity|]. exists ts. split; [|exact Hs]. now apply doc_parse_iff in Ed.
  - rewrite H. now left.
Qed.

Lemma expr_law_3 e c :
  In c (law_expr e (match create_graphs e [] with Some gs => Graphs gs | None => CompileError end)) -> c = 3%Z.
Proof.
  unfold law_expr. destruct (create_graphs e []) as [gs|] eqn:E.
  - rewrite (create_graphs_paths _ _ _ E), path_set_eqb_refl. intros [].
  - rewrite (create_graphs_none _ _ E : has_dup (paths e) = true), (expr_error_dup_right _ E). now intros [<-|[]].
Qed.
