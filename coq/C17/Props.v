(* C17 — the property theorems.  Each follows in a line or two from lemmas of Proofs.v and is followed by
   Print Assumptions; the Examples show that hypotheses are met and that the search does something.
   [E : env] is an arbitrary adaptation problem: arbitrary
   issubclass relation (ABC registration, no transitivity assumed), arbitrary MRO distance,
   arbitrary list of offers (cycles, duplicates), factories that may fail depending on the
   adapters applied before them; the edge sort is ANY permutation ([order_perm]) unless stated.
   Out-of-fuel is a distinct result that the statements exclude; the correspondence run
   reports it if it ever occurs.
   Six theorems bear the name of a lemma of Proofs.v: [adapt_sound] here is about [adapt] (Proofs.adapt_sound is about
   [adapt_search]); the other five are the lemmas of that name, the hypothesis on the edge sort written [order_perm E]. *)
From Coq Require Import List Arith Bool PeanoNat Permutation ZArith.
From TV Require Import Common.Harness C17.Model C17.Law C17.Proofs.
Import ListNotations.
Local Open Scope nat_scope.

(* adapt returns the object itself when its type provides the protocol — also through adapt(default),
   supports_protocol, and assignment to Supports, AdaptsTo and Instance traits *)
Theorem self_when_provides :
  forall E fuel, e_sub E (e_src E) (e_target E) = true ->
    adapt E fuel = RSelf /\ run_api E fuel ApiAdapt = OValue VSelf /\ run_api E fuel ApiAdaptDefault = OValue VSelf
    /\ run_api E fuel ApiSupports = OBool true
    /\ run_api E fuel TraitSupports = OStored VSelf (Some VSelf)
    /\ run_api E fuel TraitAdaptsTo = OStored VSelf (Some VSelf)
    /\ forall m, run_api E fuel (TraitInstance m) = OStored VSelf None.
Proof. exact self_when_provides. Qed.
Print Assumptions self_when_provides.

(* a returned chain consists of registered offers, each applicable where it is used, none used twice,
   every factory succeeds, and it reaches the target *)
Theorem adapt_sound :
  forall E, order_perm E -> forall fuel p, adapt E fuel = RAdapter p ->
    e_sub E (e_src E) (e_target E) = false /\ valid E p = true /\ succ E p = true /\ complete E p = true.
Proof. exact adapt_adapter_sound. Qed.
Print Assumptions adapt_sound.

(* if ANY valid, all-succeeding chain to the target exists, the search does not answer "none",
   and a chain it returns is no longer than that one *)
Theorem adapt_complete_minimal :
  forall E, order_perm E -> forall fuel Q, e_sub E (e_src E) (e_target E) = false ->
    valid E Q = true -> succ E Q = true -> complete E Q = true ->
    adapt E fuel <> RNone /\ adapt E fuel <> RSelf /\ forall p, adapt E fuel = RAdapter p -> length p <= length Q.
Proof. exact adapt_complete_minimal. Qed.
Print Assumptions adapt_complete_minimal.

(* every chain can be cut at its first complete prefix *)
Theorem cut_lemma :
  forall E Q, valid E Q = true -> succ E Q = true -> complete E Q = true ->
    exists m, 1 <= m <= length Q /\
      valid E (firstn m Q) = true /\ succ E (firstn m Q) = true /\ complete E (firstn m Q) = true /\
      (forall i, i < length (firstn m Q) -> i <> 0 -> complete E (firstn i (firstn m Q)) = false).
Proof. exact cut_lemma. Qed.
Print Assumptions cut_lemma.

(* "none" (AdaptationError / supplied default / False / TraitError / trait default) iff the type does not
   provide the protocol and no chain exists *)
Theorem none_iff_default_or_error :
  forall E, order_perm E -> forall fuel, adapt E fuel <> RFuel ->
    let none := e_sub E (e_src E) (e_target E) = false /\ ~ chain_exists E in
    (none <-> run_api E fuel ApiAdapt = OAdaptationError) /\
    (none <-> run_api E fuel ApiAdaptDefault = OValue VDefault) /\
    (none <-> run_api E fuel ApiSupports = OBool false) /\
    (none <-> run_api E fuel (TraitInstance 1) = OTraitError) /\
    (none <-> run_api E fuel (TraitInstance 2) = OStored VDefault None) /\
    (none <-> run_api E fuel TraitSupports = OTraitError) /\
    (none <-> run_api E fuel TraitAdaptsTo = OTraitError).
Proof. exact none_iff_default_or_error. Qed.
Print Assumptions none_iff_default_or_error.

(* Supports / AdaptsTo / Instance(adapt="yes") apply exactly adapt() to assigned values *)
Theorem supports_adaptsto_same :
  forall E fuel,
    (forall v, run_api E fuel ApiAdapt = OValue v <-> run_api E fuel TraitSupports = OStored v (Some VSelf)) /\
    (forall v, run_api E fuel ApiAdapt = OValue v <-> run_api E fuel TraitAdaptsTo = OStored VSelf (Some v)) /\
    (run_api E fuel ApiAdapt = OAdaptationError <-> run_api E fuel TraitSupports = OTraitError) /\
    (run_api E fuel ApiAdapt = OAdaptationError <-> run_api E fuel TraitAdaptsTo = OTraitError) /\
    (forall v, run_api E fuel ApiAdapt = OValue v <-> run_api E fuel (TraitInstance 1) = OStored v None).
Proof. exact supports_adaptsto_same. Qed.
Print Assumptions supports_adaptsto_same.

(* ... and so does the adaptable-object check when Supports / Instance(adapt=...) is one alternative of a compound
   trait (validate_trait_complex case 19): 0 = Either(Supports(P), Int), 1 = Either(Int, Supports(P)),
   2 = Either(Instance(P, adapt="default"), Int) *)
Theorem compound_supports_same :
  forall E fuel,
    (forall v, run_api E fuel ApiAdapt = OValue v <-> run_api E fuel (TraitEither 0) = OStored v (Some v)) /\
    (forall v, run_api E fuel ApiAdapt = OValue v <-> run_api E fuel (TraitEither 1) = OStored v (Some v)) /\
    (forall v, v <> VDefault -> (run_api E fuel ApiAdapt = OValue v <-> run_api E fuel (TraitEither 2) = OStored v None)) /\
    (run_api E fuel ApiAdapt = OAdaptationError <-> run_api E fuel (TraitEither 0) = OTraitError) /\
    (run_api E fuel ApiAdapt = OAdaptationError <-> run_api E fuel (TraitEither 1) = OTraitError) /\
    (run_api E fuel ApiAdapt = OAdaptationError <-> run_api E fuel (TraitEither 2) = OStored VDefault None).
Proof. exact compound_same. Qed.
Print Assumptions compound_supports_same.

(* single-step choice, for an edge sort that never leaves a better edge behind a worse one in the first
   expansion: smallest MRO distance, then no strictly more specific from-protocol at that distance *)
Theorem specific_first_single_step :
  forall E, order_perm E -> forall fuel o, no_inversion E -> adapt E fuel = RAdapter [o] ->
    forall o', In o' (e_offers E) -> usable E [] o' = true -> e_sub E (oto o') (e_target E) = true ->
      e_step_ok E [] o' = true ->
      e_dist E (e_src E) (ofrom o) <= e_dist E (e_src E) (ofrom o') /\
      (e_dist E (e_src E) (ofrom o) = e_dist E (e_src E) (ofrom o') -> strict_sub E (ofrom o') (ofrom o) = false).
Proof. exact single_step_reading. Qed.
Print Assumptions specific_first_single_step.

(* the hypothesis [no_inversion] is satisfiable: a total sort by (distance, specificity rank) has it
   whenever issubclass is reflexive and transitive *)
Theorem no_inversion_satisfiable :
  forall E, (forall a, e_sub E a a = true) ->
    (forall a b c, e_sub E a b = true -> e_sub E b c = true -> e_sub E a c = true) ->
    order_perm (with_order_rank E) /\ no_inversion (with_order_rank E).
Proof. intros E R T. split; [exact (order_rank_perm E)|exact (order_rank_no_inversion E R T)]. Qed.
Print Assumptions no_inversion_satisfiable.

(* ... and it is NOT met by the code's sort (CPython's insertion with the partial comparator
   _by_weight_then_from_protocol_specificity): finding F21.  The executable model reproduces it. *)
Theorem specific_first_refuted :
  exists c o o', adapt (env_of c) default_fuel = RAdapter [o] /\ In o' (e_offers (env_of c)) /\
                 single_candidate (env_of c) o' = true /\ better (env_of c) o' o = true /\
                 law (env_of c) ApiAdapt (run_api (env_of c) default_fuel ApiAdapt) = [6%Z].
Proof.
  exists f21_config, (mk_offer_ 0 1 5), (mk_offer_ 2 2 5).
  vm_compute. repeat split; try reflexivity. right. right. left. reflexivity.
Qed.
Print Assumptions specific_first_refuted.

(* ... but the distance part of the single-step clause holds for the code's own sort without any hypothesis:
   CPython's insertion keeps the major key (MRO distance) sorted even though the comparator is partial *)
Theorem min_distance_first_executable :
  forall c fuel o, adapt (env_of c) fuel = RAdapter [o] ->
    forall o', In o' (e_offers (env_of c)) -> single_candidate (env_of c) o' = true ->
      e_dist (env_of c) (e_src (env_of c)) (ofrom o) <= e_dist (env_of c) (e_src (env_of c)) (ofrom o').
Proof. exact min_distance_first_exec. Qed.
Print Assumptions min_distance_first_executable.

(* the whole law (Law.v, all clauses, every entry point) holds of the model *)
Theorem model_satisfies_law :
  forall E, order_perm E -> no_inversion E ->
    forall fuel a, run_api E fuel a <> OOutOfFuel -> law E a (run_api E fuel a) = [].
Proof. exact model_law. Qed.
Print Assumptions model_satisfies_law.

(* the executable model used by the correspondence (edge order = CPython's sort on the code's comparator,
   hierarchy tables, conditional factories) satisfies every clause except the single-step one (clause 6) *)
Theorem executable_model_satisfies_law_except_specificity :
  forall c fuel a, run_api (env_of c) fuel a <> OOutOfFuel ->
    forall code, In code (law (env_of c) a (run_api (env_of c) fuel a)) -> code = 6%Z.
Proof. exact exec_law_except_specificity. Qed.
Print Assumptions executable_model_satisfies_law_except_specificity.

(* the exact extent of F21: for the executable model (the code's own sort) the WHOLE law holds whenever, among the
   from-protocols of the offers applicable to the source type, issubclass is antisymmetric and transitive and two
   different from-protocols at the same MRO distance are always related — CPython's binary insertion is a correct
   sort for a strict weak order (py_sort_ordered), and the code's comparator is one under these hypotheses *)
Theorem executable_model_satisfies_law_when_comparable :
  forall c, exec_comparable c ->
    forall fuel a, run_api (env_of c) fuel a <> OOutOfFuel -> law (env_of c) a (run_api (env_of c) fuel a) = [].
Proof. exact exec_law_when_comparable. Qed.
Print Assumptions executable_model_satisfies_law_when_comparable.

(* the hypothesis is met by the F21 configuration without its incomparable offer, and there the specific offer wins *)
Example comparable_hypothesis_nontrivial :
  exec_comparable f21_twin_config /\ adapt (env_of f21_twin_config) default_fuel = RAdapter [mk_offer_ 1 2 5].
Proof. exact comparable_nontrivial. Qed.

(* enough fuel: with more fuel than T |offers| (T 0 = 1, T (k+1) = 1 + (k+1) * T k: the number of offer sequences
   without repetition) the search always answers, so "out of fuel" is not a way out of the theorems above;
   the fuel used by the correspondence runs (20000) suffices for every problem with at most 7 offers *)
Theorem search_terminates_with_enough_fuel :
  forall E, order_perm E -> forall fuel a, T (length (e_offers E)) < fuel ->
    adapt E fuel <> RFuel /\ run_api E fuel a <> OOutOfFuel.
Proof. intros E Hp fuel a H. split; [apply adapt_terminates|apply run_api_terminates]; assumption. Qed.
Print Assumptions search_terminates_with_enough_fuel.

Theorem default_fuel_suffices_up_to_7_offers : T 7 < default_fuel.
Proof. apply Nat.ltb_lt. vm_compute. reflexivity. Qed.
Print Assumptions default_fuel_suffices_up_to_7_offers.

(* HISTORIES (queries interleaved with ABCMeta.register — new tables — and register_offer): the function the
   correspondence evaluates, [hrun], satisfies the law at EVERY query of EVERY history, each query being judged
   against the state current when it is asked ([hlaw] threads the state from the operations alone) *)
Theorem history_satisfies_law_except_specificity :
  forall fuel ops st i, answered (hrun fuel st ops) ->
    forall c, In c (hlaw i st (hrun fuel st ops)) -> exists j, c = (100 * j + 6)%Z.
Proof. exact hrun_law_except_specificity. Qed.
Print Assumptions history_satisfies_law_except_specificity.

Theorem history_satisfies_law_when_comparable :
  forall fuel ops st i, answered (hrun fuel st ops) -> hcomparable st ops -> hlaw i st (hrun fuel st ops) = [].
Proof. exact hrun_law_when_comparable. Qed.
Print Assumptions history_satisfies_law_when_comparable.

(* and every query of a history whose registry never exceeds k offers is answered when fuel > T k *)
Theorem history_is_answered_with_enough_fuel :
  forall fuel k, T k < fuel -> forall ops st, offers_bounded k st ops -> answered (hrun fuel st ops).
Proof. exact hrun_answered. Qed.
Print Assumptions history_is_answered_with_enough_fuel.

(* Non-vacuity: the adaptation fails, ABCMeta.register makes the source provide the from-protocol, then it succeeds;
   an offer is registered and a shorter answer appears; reset_global_adaptation_manager() leaves the user's manager intact
   (its own adapt still answers) while the module-level route sees a new empty manager, until the user's is installed again *)
Example history_nontrivial :
  let t := true in let f := false in
  let st := mkH [[t;f;f]; [f;t;f]; [f;f;t]] [[0]; [1]; [2]] [(0, 2, FAlways)] true in
  let ops := [HQuery (1, 2, f, ApiAdaptDefault); HTables [[t;f;f]; [t;t;f]; [f;f;t]] [[0]; [1]; [2]];
              HQuery (1, 2, f, ApiAdaptDefault); HOffer (1, 2, FAlways); HQuery (1, 2, f, ApiAdapt);
              HResetGlobal; HQuery (1, 2, f, ApiAdapt); HQuery (1, 2, f, ApiAdaptDefault); HSetGlobal; HQuery (1, 2, f, TraitSupports)] in
  map snd (hrun default_fuel st ops)
  = [Some (OValue VDefault); None; Some (OValue (VAdapter [mk_offer_ 0 0 2])); None; Some (OValue (VAdapter [mk_offer_ 1 1 2]));
     None; Some (OValue (VAdapter [mk_offer_ 1 1 2])); Some (OValue VDefault); None;
     Some (OStored (VAdapter [mk_offer_ 1 1 2]) (Some VSelf))]
  /\ hlaw 0%Z st (hrun default_fuel st ops) = [].
Proof. vm_compute. split; reflexivity. Qed.

(* Non-vacuity: a cyclic offer graph with a failing conditional factory on the short route; the search
   returns the 3-step detour, which is valid, succeeds and is complete. *)
Example search_nontrivial :
  let c := {| c_sub := [[true;false;false;false]; [false;true;false;false]; [false;false;true;false]; [false;false;false;true]];
              c_mro := [[0]; [1]; [2]; [3]];
              c_offers := [(0, 1, FAlways); (1, 0, FAlways); (1, 3, FNever); (1, 2, FAlways); (2, 3, FMaxDepth 2)];
              c_src := 0; c_target := 3; c_flag := false |} in
  adapt (env_of c) default_fuel = RAdapter [mk_offer_ 0 0 1; mk_offer_ 3 1 2; mk_offer_ 4 2 3]
  /\ min_len (env_of c) = Some 3.
Proof. vm_compute. split; reflexivity. Qed.
