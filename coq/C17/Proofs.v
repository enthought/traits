(* C17 — lemmas.  The search is read through two facts about one expansion ([expand_some], [expand_none]) and one
   about the queue ([search_found]: an answer is a queued path extended by an edge that ends the search); the edge
   sort is any permutation, factories are prefix-dependent, issubclass is an arbitrary relation. *)
From Coq Require Import List Arith Lia Bool PeanoNat Permutation ZifyBool ZArith.
From TV Require Import Common.Harness C17.Model C17.Law.
Import ListNotations.
Local Open Scope nat_scope.

Lemma offer_eqb_spec a b : offer_eqb a b = true <-> a = b.
Proof.
  destruct a, b; unfold offer_eqb; cbn. rewrite !andb_true_iff, !Nat.eqb_eq.
  split; [intros [[-> ->] ->]; reflexivity|intros [= -> -> ->]; auto].
Qed.
Lemma offer_eqb_refl a : offer_eqb a a = true.
Proof. apply offer_eqb_spec. reflexivity. Qed.
Lemma offers_eqb_refl p : list_eqb offer_eqb p p = true.
Proof. induction p as [|o p IH]; cbn; [reflexivity|]. rewrite offer_eqb_refl, IH. reflexivity. Qed.

(* what the theorems ask of the edge sort: it only reorders the applicable offers (the sections below assume it as [Hperm]) *)
Definition order_perm (E : env) : Prop := forall p l, Permutation (e_order E p l) l.

Lemma pop_min_in q e rest : pop_min q = Some (e, rest) -> Permutation (e :: rest) q.
Proof.
  revert e rest. induction q as [|x q IH]; intros e rest H; [discriminate|]. cbn in H.
  destruct (pop_min q) as [[m r]|] eqn:Eq.
  - destruct (key_ltb (fst x) (fst m)); inversion H; subst; [reflexivity|].
    rewrite perm_swap. apply perm_skip. apply IH. reflexivity.
  - destruct q; [|cbn in Eq; destruct (pop_min q) as [[? ?]|]; [destruct (key_ltb _ _)|]; discriminate].
    inversion H; subst. reflexivity.
Qed.

Lemma key_ltb_fst a b : key_ltb b a = false -> fst (fst a) <= fst (fst b).
Proof.
  destruct a as [[a1 a2] a3], b as [[b1 b2] b3]. unfold key_ltb. cbn [fst snd].
  destruct (Nat.ltb_spec b1 a1); cbn [orb]; [intros Hd; discriminate Hd|intros; lia].
Qed.
Lemma key_ltb_trans_neg x m r : key_ltb x m = true -> key_ltb r m = false -> key_ltb r x = false.
Proof. destruct x as [[x1 x2] x3], m as [[m1 m2] m3], r as [[r1 r2] r3]. unfold key_ltb. lia. Qed.
Lemma key_ltb_asym x m : key_ltb x m = true -> key_ltb m x = false.
Proof. destruct x as [[x1 x2] x3], m as [[m1 m2] m3]. unfold key_ltb. lia. Qed.

Lemma pop_min_least q e rest : pop_min q = Some (e, rest) ->
  forall e', In e' rest -> key_ltb (fst e') (fst e) = false.
Proof.
  revert e rest. induction q as [|x q IH]; intros e rest H e' Hin; [discriminate|]. cbn in H.
  destruct (pop_min q) as [[m r]|] eqn:Eq.
  - destruct (key_ltb (fst x) (fst m)) eqn:L; inversion H; subst.
    + pose proof (pop_min_in _ _ _ Eq) as P. apply (Permutation_in _ (Permutation_sym P)) in Hin.
      destruct Hin as [<-|Hin].
      * apply key_ltb_asym. exact L.
      * eapply key_ltb_trans_neg; [exact L|]. eapply IH; [reflexivity|exact Hin].
    + destruct Hin as [<-|Hin]; [exact L|]. eapply IH; [reflexivity|exact Hin].
  - inversion H; subst. destruct Hin.
Qed.

Lemma pop_min_Forall (J : entry -> Prop) q e rest : pop_min q = Some (e, rest) -> Forall J q -> J e /\ Forall J rest.
Proof.
  intros Eq Hq. apply (Permutation_Forall (Permutation_sym (pop_min_in _ _ _ Eq))) in Hq. inversion Hq; auto.
Qed.

Lemma pop_min_none q : pop_min q = None -> q = [].
Proof.
  destruct q; [reflexivity|]. cbn. destruct (pop_min q) as [[? ?]|]; [destruct (key_ltb _ _)|]; discriminate.
Qed.

Lemma firstn_S_snoc {A} (d0 : A) (p : list A) i : i < length p -> firstn (S i) p = firstn i p ++ [nth i p d0].
Proof.
  revert i. induction p as [|x p IH]; intros i Hi; cbn in Hi; [lia|].
  destruct i as [|i]; cbn; [reflexivity|]. f_equal. apply IH. lia.
Qed.

Section Adapt.
  Variable E : env.
  Notation sub := (e_sub E).
  Notation dist := (e_dist E).
  Notation offers := (e_offers E).
  Notation target := (e_target E).
  Notation src := (e_src E).
  Notation step_ok := (e_step_ok E).
  Notation succ_from := (succ_from E).
  Notation succ := (succ E).
  Notation cur_of := (cur_of E).
  Notation usable := (usable E).
  Notation valid_from := (valid_from E).
  Notation valid := (valid E).
  Notation complete := (complete E).
  Notation expand := (expand E).
  Notation search := (search E).
  Notation adapt_search := (adapt_search E).
  Notation order := (e_order E).

  Hypothesis Hperm : forall p l, Permutation (order p l) l.

  Lemma cur_of_snoc p o : cur_of (p ++ [o]) = oto o.
  Proof. unfold Model.cur_of. rewrite rev_app_distr. reflexivity. Qed.

  (* [valid_from] and [succ_from] both test every offer of a chain against the chain before it *)
  Section AllFrom.
    Variable f : list offer -> offer -> bool.
    Fixpoint all_from (pre p : list offer) : bool :=
      match p with [] => true | o :: p' => f pre o && all_from (pre ++ [o]) p' end.
    Lemma all_from_snoc pre p o : all_from pre (p ++ [o]) = all_from pre p && f (pre ++ p) o.
    Proof.
      revert pre. induction p as [|x p IH]; intros pre; cbn.
      - rewrite app_nil_r, andb_true_r. reflexivity.
      - rewrite IH, <- app_assoc, andb_assoc. reflexivity.
    Qed.
    Lemma all_from_prefix pre p1 p2 : all_from pre (p1 ++ p2) = true -> all_from pre p1 = true.
    Proof.
      revert pre. induction p1 as [|x p1 IH]; intros pre H; cbn in *; [reflexivity|].
      apply andb_true_iff in H. destruct H as [H1 H2]. rewrite H1. exact (IH _ H2).
    Qed.
  End AllFrom.

  Lemma valid_snoc p o : valid (p ++ [o]) = valid p && (usable p o && existsb (offer_eqb o) offers).
  Proof. exact (all_from_snoc (fun pre x => usable pre x && existsb (offer_eqb x) offers) [] p o). Qed.
  Lemma succ_snoc p o : succ (p ++ [o]) = succ p && step_ok p o.
  Proof. exact (all_from_snoc step_ok [] p o). Qed.
  Lemma complete_snoc p o : complete (p ++ [o]) = sub (oto o) target.
  Proof.
    unfold Model.complete. destruct (p ++ [o]) eqn:Eq; [destruct p; discriminate|].
    rewrite <- Eq, cur_of_snoc. reflexivity.
  Qed.

  Lemma in_offers_existsb o : In o offers <-> existsb (offer_eqb o) offers = true.
  Proof.
    rewrite existsb_exists. split.
    - intros H. exists o. split; [exact H|apply offer_eqb_refl].
    - intros (y & Hy & Ey). apply offer_eqb_spec in Ey. subst. exact Hy.
  Qed.

  Lemma valid_firstn i Q : valid Q = true -> valid (firstn i Q) = true.
  Proof.
    intros H. rewrite <- (firstn_skipn i Q) in H.
    exact (all_from_prefix (fun pre x => usable pre x && existsb (offer_eqb x) offers) [] _ _ H).
  Qed.
  Lemma succ_firstn i Q : succ Q = true -> succ (firstn i Q) = true.
  Proof. intros H. rewrite <- (firstn_skipn i Q) in H. exact (all_from_prefix step_ok [] _ _ H). Qed.

  Lemma mem_false_not_in o p : Model.mem o p = false -> ~ In o p.
  Proof.
    intros H Hin. unfold Model.mem in H.
    assert (existsb (offer_eqb o) p = true) as T by (apply existsb_exists; exists o; split; [exact Hin|apply offer_eqb_refl]).
    congruence.
  Qed.
  Lemma valid_from_nodup pre p : valid_from pre p = true ->
    NoDup p /\ (forall x, In x p -> ~ In x pre) /\ (forall x, In x p -> In x offers).
  Proof.
    revert pre. induction p as [|o p IH]; intros pre H; cbn in H.
    - split; [constructor|split; intros x []].
    - apply andb_true_iff in H. destruct H as [H1 H2]. apply andb_true_iff in H1. destruct H1 as [Hu Ho].
      destruct (IH _ H2) as (Hnd & Hpre & Hoff).
      unfold Model.usable in Hu. apply andb_true_iff in Hu. destruct Hu as [_ Hm].
      apply negb_true_iff in Hm. apply mem_false_not_in in Hm.
      split; [|split].
      + constructor; [|exact Hnd]. intros Hin. apply (Hpre _ Hin). apply in_or_app. right. left. reflexivity.
      + intros x [<-|Hx]; [exact Hm|]. intros Hin. apply (Hpre _ Hx). apply in_or_app. left. exact Hin.
      + intros x [<-|Hx]; [apply in_offers_existsb; exact Ho|apply Hoff; exact Hx].
  Qed.
  Lemma valid_length p : valid p = true -> length p <= length offers.
  Proof.
    intros H. destruct (valid_from_nodup [] p H) as (Hnd & _ & Hoff).
    apply NoDup_incl_length; [exact Hnd|exact Hoff].
  Qed.

  (* the sorted edges of a popped path, and the test that ends the search at one of them *)
  Definition edges (p : list offer) : list offer := order p (filter (usable p) offers).
  Definition hit (p : list offer) (o : offer) : bool := sub (oto o) target && succ (p ++ [o]).

  Lemma edges_ok p o : In o (edges p) -> usable p o = true /\ In o offers.
  Proof. intros Ho. apply (Permutation_in _ (Hperm _ _)) in Ho. apply filter_In in Ho. tauto. Qed.

  Lemma expand_some k p es : forall q cnt np q' cnt', expand k p es q cnt = (Some np, q', cnt') ->
    exists l1 o l2, es = l1 ++ o :: l2 /\ np = p ++ [o] /\ hit p o = true /\ forall x, In x l1 -> hit p x = false.
  Proof.
    unfold hit. induction es as [|o es IH]; intros q cnt np q' cnt' H; cbn [Model.expand] in H; [discriminate|].
    destruct (sub (oto o) target) eqn:Hc; [destruct (succ (p ++ [o])) eqn:Hs|destruct k as [[a m] c0]].
    1:{ injection H as <- _ _. exists [], o, es. rewrite Hc, Hs. repeat split. intros x []. }
    all: destruct (IH _ _ _ _ _ H) as (l1 & o' & l2 & -> & -> & Hh & Hl); exists (o :: l1), o', l2;
      repeat split; [exact Hh|]; intros x [<-|Hx]; [rewrite Hc, ?Hs; reflexivity|apply Hl; exact Hx].
  Qed.

  Lemma expand_none k p es : forall q cnt q' cnt', expand k p es q cnt = (None, q', cnt') ->
    (forall x, In x es -> hit p x = false) /\
    exists new, q' = new ++ q
      /\ map snd new = rev (map (fun o => p ++ [o]) (filter (fun o => negb (sub (oto o) target)) es))
      /\ Forall (fun e : entry => fst (fst (fst e)) = S (fst (fst k))) new.
  Proof.
    unfold hit. induction es as [|o es IH]; intros q cnt q' cnt' H; cbn [Model.expand filter] in *.
    - injection H as <- _. split; [intros x []|]. exists []. repeat split. constructor.
    - destruct (sub (oto o) target) eqn:Hc; cbn [negb].
      + destruct (succ (p ++ [o])) eqn:Hs; [discriminate|]. destruct (IH _ _ _ _ H) as (Hno & new & Hq & Hnew & Hk).
        split; [intros x [<-|Hx]; [rewrite Hc, Hs; reflexivity|apply Hno; exact Hx]|]. exists new. auto.
      + destruct k as [[a m] c0]. destruct (IH _ _ _ _ H) as (Hno & new & -> & Hnew & Hk).
        split; [intros x [<-|Hx]; [rewrite Hc; reflexivity|apply Hno; exact Hx]|].
        exists (new ++ [((S a, m + dist (cur_of p) (ofrom o), cnt), p ++ [o])]). rewrite <- app_assoc. split; [reflexivity|].
        split; [rewrite map_app; cbn [map rev snd]; f_equal; exact Hnew|]. apply Forall_app. split; [exact Hk|]. repeat constructor.
  Qed.

  Lemma pushed_in p es (new : list entry) e :
    map snd new = rev (map (fun o => p ++ [o]) (filter (fun o => negb (sub (oto o) target)) es)) ->
    In e new -> exists o, In o es /\ snd e = p ++ [o].
  Proof.
    intros Hnew He. apply (in_map snd) in He. rewrite Hnew, <- in_rev in He. apply in_map_iff in He.
    destruct He as (o & <- & Ho). apply filter_In in Ho. exists o. tauto.
  Qed.
  Lemma in_pushed p es (new : list entry) o :
    map snd new = rev (map (fun o => p ++ [o]) (filter (fun o => negb (sub (oto o) target)) es)) ->
    In o es -> sub (oto o) target = false -> exists k', In (k', p ++ [o]) new.
  Proof.
    intros Hnew Ho Hc. assert (In (p ++ [o]) (map snd new)) as H.
    { rewrite Hnew, <- in_rev. apply (in_map (fun o => p ++ [o])). apply filter_In. rewrite Hc. tauto. }
    apply in_map_iff in H. destruct H as ([k' x] & <- & Hx). exists k'. exact Hx.
  Qed.

  Section Invariant.
    (* a property of queue entries that every pushed extension inherits from the popped path *)
    Variable J : entry -> Prop.
    Hypothesis J_push : forall k p o (e : entry), J (k, p) -> In o (edges p) ->
      snd e = p ++ [o] -> fst (fst (fst e)) = S (fst (fst k)) -> J e.

    Lemma expand_Forall k p rest cnt q' cnt' : J (k, p) -> Forall J rest ->
      expand k p (edges p) rest cnt = (None, q', cnt') -> Forall J q'.
    Proof.
      intros Hp Hrest Ex. destruct (expand_none _ _ _ _ _ _ _ Ex) as (_ & new & -> & Hnew & Hk).
      apply Forall_app. split; [|exact Hrest]. rewrite Forall_forall in *. intros e He.
      destruct (pushed_in _ _ _ _ Hnew He) as (o & Ho & Ee). apply (J_push k p o e Hp Ho Ee). apply Hk. exact He.
    Qed.

    Lemma search_found fuel : forall q cnt np, Forall J q -> search fuel q cnt = Found np ->
      exists k p l1 o l2, J (k, p) /\ edges p = l1 ++ o :: l2 /\ np = p ++ [o] /\ hit p o = true
                          /\ forall x, In x l1 -> hit p x = false.
    Proof.
      induction fuel as [|f IH]; intros q cnt np Hq H; [discriminate|]. cbn [Model.search] in H.
      destruct (pop_min q) as [[[k p] rest]|] eqn:Eq; [|discriminate].
      destruct (pop_min_Forall J _ _ _ Eq Hq) as [Hp Hrest]. fold (edges p) in H.
      destruct (expand k p (edges p) rest cnt) as [[[np'|] q'] cnt'] eqn:Ex.
      - injection H as <-. destruct (expand_some _ _ _ _ _ _ _ _ Ex) as (l1 & o & l2 & Hes & Hnp & Hh & Hl).
        exists k, p, l1, o, l2. auto.
      - apply (IH q' cnt'); [|exact H]. apply (expand_Forall k p rest cnt q' cnt'); assumption.
    Qed.
  End Invariant.

  Lemma valid_push p o : valid p = true -> In o (edges p) -> valid (p ++ [o]) = true.
  Proof.
    intros Hv Ho. destruct (edges_ok p o Ho) as [Hu Hin]. rewrite valid_snoc, Hv, Hu. apply in_offers_existsb. exact Hin.
  Qed.

  Definition good (e : entry) : Prop := valid (snd e) = true /\ fst (fst (fst e)) = length (snd e).

  Lemma good_push k p o (e : entry) : good (k, p) -> In o (edges p) ->
    snd e = p ++ [o] -> fst (fst (fst e)) = S (fst (fst k)) -> good e.
  Proof.
    intros [Hv Hk] Ho Ee Ek. cbn [fst snd] in *. split; rewrite Ee; [apply valid_push; assumption|].
    rewrite Ek, Hk, app_length. symmetry. apply Nat.add_1_r.
  Qed.
  Lemma good_init : Forall good [((0, 0, 0), [])].
  Proof. repeat constructor. Qed.

  Theorem search_sound fuel q cnt np : Forall good q -> search fuel q cnt = Found np ->
    valid np = true /\ succ np = true /\ complete np = true.
  Proof.
    intros Hq H. destruct (search_found good good_push fuel q cnt np Hq H) as (k & p & l1 & o & l2 & [Hv _] & Hes & -> & Hh & _).
    apply andb_true_iff in Hh. destruct Hh as [Hc Hs]. rewrite complete_snoc.
    split; [apply valid_push; [exact Hv|rewrite Hes; apply in_elt]|split; assumption].
  Qed.

  Corollary adapt_sound fuel np : adapt_search fuel = Found np ->
    valid np = true /\ succ np = true /\ complete np = true.
  Proof. apply search_sound. exact good_init. Qed.

  Section Witness.
    Variable Q : list offer.
    Hypothesis Qvalid : valid Q = true.
    Hypothesis Qsucc : succ Q = true.
    Hypothesis Qcomplete : complete Q = true.

    Definition Inv (q : list entry) : Prop := exists i k, i < length Q /\ In (k, firstn i Q) q.

    (* expanding the prefix of length i ends the search or pushes the prefix of length i + 1 — a proper one, because
       the last offer of Q would have ended it *)
    Lemma witness_step i k rest cnt q' cnt' : i < length Q ->
      expand k (firstn i Q) (edges (firstn i Q)) rest cnt = (None, q', cnt') ->
      S i < length Q /\ exists k', In (k', firstn (S i) Q) q'.
    Proof.
      intros Hi Ex. destruct (expand_none _ _ _ _ _ _ _ Ex) as (Hno & new & -> & Hnew & _).
      pose proof (firstn_S_snoc (mk_offer_ 0 0 0) Q i Hi) as Es. set (o := nth i Q _) in Es.
      pose proof (valid_firstn (S i) Q Qvalid) as Hv. pose proof (succ_firstn (S i) Q Qsucc) as Hs. rewrite Es in Hv, Hs.
      rewrite valid_snoc in Hv. apply andb_true_iff in Hv. destruct Hv as [_ Hv]. apply andb_true_iff in Hv. destruct Hv as [Hu Hin].
      assert (In o (edges (firstn i Q))) as Ho.
      { apply (Permutation_in _ (Permutation_sym (Hperm _ _))). apply filter_In.
        split; [apply in_offers_existsb; exact Hin|exact Hu]. }
      pose proof (Hno o Ho) as Hh. unfold hit in Hh. rewrite Hs, andb_true_r in Hh. split.
      - destruct (Nat.eq_dec (S i) (length Q)) as [El|Nl]; [exfalso|clear - Hi Nl; lia].
        pose proof Qcomplete as C. rewrite <- (firstn_all Q), <- El, Es, complete_snoc in C. congruence.
      - rewrite Es. destruct (in_pushed _ _ _ _ Hnew Ho Hh) as (k' & Hk'). exists k'. apply in_or_app. left. exact Hk'.
    Qed.

    Theorem search_complete_minimal fuel : forall q cnt, Forall good q -> Inv q ->
      match search fuel q cnt with
      | Found np => length np <= length Q
      | NotFound => False
      | OutOfFuel => True
      end.
    Proof.
      induction fuel as [|f IH]; intros q cnt Hq (i & kw & Hi & Hw); [exact I|]. cbn [Model.search].
      destruct (pop_min q) as [[[k p] rest]|] eqn:Eq; [|apply pop_min_none in Eq; subst; destruct Hw].
      destruct (pop_min_Forall good _ _ _ Eq Hq) as [Hp Hrest].
      apply (Permutation_in _ (Permutation_sym (pop_min_in _ _ _ Eq))) in Hw. fold (edges p).
      (* the popped path is no longer than the waiting prefix *)
      assert (length p <= i) as Hmin.
      { destruct Hw as [Ew|Hw]; [injection Ew as _ ->; rewrite firstn_length; clear - Hi; lia|].
        pose proof (pop_min_least _ _ _ Eq _ Hw) as L. apply key_ltb_fst in L.
        rewrite Forall_forall in Hrest. destruct (Hrest _ Hw) as [_ Hkw]. destruct Hp as [_ Hk].
        cbn [fst snd] in *. rewrite firstn_length in Hkw. clear - L Hkw Hk Hi. lia. }
      destruct (expand k p (edges p) rest cnt) as [[[np|] q'] cnt'] eqn:Ex.
      - destruct (expand_some _ _ _ _ _ _ _ _ Ex) as (_ & o & _ & _ & -> & _). rewrite app_length. cbn. clear - Hmin Hi. lia.
      - apply IH; [apply (expand_Forall good good_push k p rest cnt q' cnt'); assumption|].
        destruct Hw as [Ew|Hw].
        + injection Ew as -> ->. destruct (witness_step i kw rest cnt q' cnt' Hi Ex) as (Hlt & k' & Hk').
          exists (S i), k'. split; assumption.
        + destruct (expand_none _ _ _ _ _ _ _ Ex) as (_ & new & -> & _). exists i, kw. split; [exact Hi|].
          apply in_or_app. right. exact Hw.
    Qed.

    Corollary adapt_complete_minimal_any fuel :
      match adapt_search fuel with Found np => length np <= length Q | NotFound => False | OutOfFuel => True end.
    Proof.
      apply search_complete_minimal; [exact good_init|]. exists 0, (0, 0, 0). split; [|left; reflexivity].
      destruct Q; [discriminate Qcomplete|apply Nat.lt_0_succ].
    Qed.
  End Witness.
End Adapt.

Lemma least_true (P : nat -> bool) n : P n = true -> 1 <= n ->
  exists m, 1 <= m <= n /\ P m = true /\ forall j, 1 <= j < m -> P j = false.
Proof.
  induction n as [n IH] using lt_wf_ind. intros Hn H1.
  destruct (existsb P (seq 1 (n - 1))) eqn:Ex.
  - apply existsb_exists in Ex. destruct Ex as (j & Hj & Pj). apply in_seq in Hj.
    destruct (IH j ltac:(lia) Pj ltac:(lia)) as (m & Hm & Pm & Hl). exists m. split; [lia|split; assumption].
  - exists n. split; [lia|split; [exact Hn|]]. intros j Hj.
    destruct (P j) eqn:Pj; [|reflexivity].
    assert (existsb P (seq 1 (n - 1)) = true) as T.
    { apply existsb_exists. exists j. split; [apply in_seq; lia|exact Pj]. }
    congruence.
Qed.

Section Cut.
  Variable E : env.

  Lemma complete_nonempty Q : complete E Q = true -> 0 < length Q.
  Proof. destruct Q; [discriminate|cbn; lia]. Qed.

  Lemma cut_lemma Q : valid E Q = true -> succ E Q = true -> complete E Q = true ->
    exists m, 1 <= m <= length Q /\
      valid E (firstn m Q) = true /\ succ E (firstn m Q) = true /\ complete E (firstn m Q) = true /\
      (forall i, i < length (firstn m Q) -> i <> 0 -> complete E (firstn i (firstn m Q)) = false).
  Proof.
    intros Hv Hs Hc. pose proof (complete_nonempty Q Hc) as Hl.
    destruct (least_true (fun i => complete E (firstn i Q)) (length Q)) as (m & Hm & Pm & Hleast).
    { rewrite firstn_all. exact Hc. }
    { lia. }
    exists m. split; [exact Hm|]. split; [apply valid_firstn; exact Hv|]. split; [apply succ_firstn; exact Hs|].
    split; [exact Pm|]. intros i Hi Hi0. rewrite firstn_length in Hi.
    rewrite firstn_firstn. replace (Nat.min i m) with i by (clear - Hi; lia). apply Hleast. clear - Hi Hi0. lia.
  Qed.
End Cut.

Section Enum.
  Variable E : env.

  Lemma chains_spec n p : In p (chains E n) <-> length p = n /\ valid E p = true /\ succ E p = true.
  Proof.
    revert p. induction n as [|n IH]; intros p; cbn [chains].
    - split.
      + intros [<-|[]]. repeat split.
      + intros (Hl & _ & _). destruct p; [left; reflexivity|discriminate].
    - rewrite in_flat_map. split.
      + intros (q & Hq & Hp). apply IH in Hq. destruct Hq as (Hl & Hv & Hs).
        apply in_map_iff in Hp. destruct Hp as (o & <- & Ho). apply filter_In in Ho. destruct Ho as [Hin Hb].
        apply andb_true_iff in Hb. destruct Hb as [Hu Hk].
        rewrite app_length, valid_snoc, succ_snoc, Hv, Hs, Hu, Hk. cbn.
        split; [clear - Hl; lia|]. split; [|reflexivity]. apply in_offers_existsb. exact Hin.
      + intros (Hl & Hv & Hs).
        destruct (exists_last (l := p)) as (q & o & ->); [intros ->; discriminate|].
        rewrite app_length in Hl. cbn in Hl.
        rewrite valid_snoc in Hv. rewrite succ_snoc in Hs.
        apply andb_true_iff in Hv. destruct Hv as [Hv Hu]. apply andb_true_iff in Hu. destruct Hu as [Hu Ho].
        apply andb_true_iff in Hs. destruct Hs as [Hs Hk].
        exists q. split; [apply IH; repeat split; [clear - Hl; lia|exact Hv|exact Hs]|].
        apply in_map_iff. exists o. split; [reflexivity|]. apply filter_In. split.
        * apply in_offers_existsb. exact Ho.
        * rewrite Hu, Hk. reflexivity.
  Qed.

  Lemma has_complete_spec n : has_complete E n = true <->
    exists p, length p = n /\ valid E p = true /\ succ E p = true /\ complete E p = true.
  Proof.
    unfold has_complete. rewrite existsb_exists. split.
    - intros (p & Hp & Hc). apply chains_spec in Hp. exists p. tauto.
    - intros (p & Hl & Hv & Hs & Hc). exists p. split; [apply chains_spec; tauto|exact Hc].
  Qed.

  Lemma find_len_some P k n m : k <= m < k + n -> P m = true -> (forall j, k <= j < m -> P j = false) ->
    find_len P k n = Some m.
  Proof.
    revert k. induction n as [|n IH]; intros k Hm Pm Hl; [lia|]. cbn.
    destruct (Nat.eq_dec k m) as [->|Hne]; [rewrite Pm; reflexivity|].
    rewrite (Hl k) by lia. apply IH; [lia|exact Pm|]. intros j Hj. apply Hl. lia.
  Qed.
  Lemma find_len_none P k n : (forall j, k <= j < k + n -> P j = false) -> find_len P k n = None.
  Proof.
    revert k. induction n as [|n IH]; intros k Hl; [reflexivity|]. cbn.
    rewrite (Hl k) by lia. apply IH. intros j Hj. apply Hl. lia.
  Qed.

  Lemma min_len_some m : has_complete E m = true -> 1 <= m ->
    (forall j, 1 <= j < m -> has_complete E j = false) -> min_len E = Some m.
  Proof.
    intros Hm H1 Hl. unfold min_len. apply find_len_some; [|exact Hm|exact Hl].
    apply has_complete_spec in Hm. destruct Hm as (p & Hp & Hv & _). apply valid_length in Hv. lia.
  Qed.
  Lemma min_len_none : (forall p, valid E p = true -> succ E p = true -> complete E p = true -> False) ->
    min_len E = None.
  Proof.
    intros H. unfold min_len. apply find_len_none. intros j _.
    destruct (has_complete E j) eqn:Hc; [|reflexivity]. apply has_complete_spec in Hc.
    destruct Hc as (p & _ & Hv & Hs & Hc). destruct (H p Hv Hs Hc).
  Qed.
End Enum.

Section Specific.
  Variable E : env.
  Hypothesis Hperm : forall p l, Permutation (e_order E p l) l.

  Lemma better_irrefl o : better E o o = false.
  Proof.
    unfold better, strict_sub. rewrite Nat.ltb_irrefl. cbn.
    destruct (e_sub E (ofrom o) (ofrom o)); cbn; rewrite ?andb_false_r; reflexivity.
  Qed.

  Lemma first_expansion fuel o : adapt_search E fuel = Found [o] ->
    exists l1 l2, e_order E [] (filter (usable E []) (e_offers E)) = l1 ++ o :: l2 /\
      forall o', In o' (e_offers E) -> single_candidate E o' = true -> o' = o \/ In o' l2.
  Proof.
    intros H. destruct (search_found E (good E) (good_push E Hperm) _ _ _ _ (good_init E) H)
      as (k & p & l1 & o0 & l2 & _ & Hes & Enp & _ & Hl1).
    (* a one-offer answer extends the empty path *)
    destruct p as [|x [|y p]]; try discriminate Enp. injection Enp as <-.
    exists l1, l2. split; [exact Hes|]. intros o' Hin' Hc.
    unfold single_candidate in Hc. apply andb_true_iff in Hc. destruct Hc as [Hc Hk].
    apply andb_true_iff in Hc. destruct Hc as [Hu Ht].
    assert (In o' (edges E [])) as Hes'.
    { apply (Permutation_in _ (Permutation_sym (Hperm _ _))). apply filter_In. split; assumption. }
    rewrite Hes in Hes'. apply in_app_or in Hes'. destruct Hes' as [H1|[<-|H2]]; [|left; reflexivity|right; exact H2].
    specialize (Hl1 _ H1). unfold hit, succ in Hl1. cbn in Hl1. rewrite Ht, Hk in Hl1. discriminate.
  Qed.

  (* the edge sort of the FIRST expansion never puts a better edge behind a worse one *)
  Definition no_inversion : Prop :=
    forall l1 o1 l2 o2 l3, e_order E [] (filter (usable E []) (e_offers E)) = l1 ++ o1 :: l2 ++ o2 :: l3 ->
                           better E o2 o1 = false.
  Hypothesis order_sorted : no_inversion.

  Theorem single_step_specific fuel o : adapt_search E fuel = Found [o] -> single_step_ok E o = true.
  Proof.
    intros H. destruct (first_expansion fuel o H) as (l1 & l2 & Hes & Hall).
    unfold single_step_ok. apply forallb_forall. intros o' Hin'. apply negb_true_iff.
    destruct (single_candidate E o') eqn:Hc; [cbn|reflexivity].
    destruct (Hall o' Hin' Hc) as [->|H2]; [apply better_irrefl|].
    apply in_split in H2. destruct H2 as (l2a & l2b & ->). apply (order_sorted l1 o l2a o' l2b Hes).
  Qed.
End Specific.

Section ModelLaw.
  Variable E : env.
  Hypothesis Hperm : forall p l, Permutation (e_order E p l) l.

  Definition verdict_of (r : aresult) : verdict :=
    match r with RSelf => DSelf | RAdapter p => DChain p | RNone => DNo | RFuel => DBad 8%Z end.

  Lemma min_len_found fuel p : adapt_search E fuel = Found p -> min_len E = Some (length p).
  Proof.
    intros H. destruct (adapt_sound E Hperm fuel p H) as (Hv & Hs & Hc).
    apply min_len_some.
    - apply has_complete_spec. exists p. tauto.
    - apply (complete_nonempty E p Hc).
    - intros j Hj. destruct (has_complete E j) eqn:Hj'; [|reflexivity].
      apply has_complete_spec in Hj'. destruct Hj' as (Q & Hl & Hv' & Hs' & Hc').
      pose proof (adapt_complete_minimal_any E Hperm Q Hv' Hs' Hc' fuel) as M. rewrite H in M. clear - Hj Hl M. lia.
  Qed.
  Lemma min_len_notfound fuel : adapt_search E fuel = NotFound -> min_len E = None.
  Proof.
    intros H. apply min_len_none. intros Q Hv Hs Hc.
    pose proof (adapt_complete_minimal_any E Hperm Q Hv Hs Hc fuel) as M. rewrite H in M. exact M.
  Qed.

  (* every clause except the single-step specificity one holds for any permutation as edge order *)
  Definition residue (r : aresult) : list Z :=
    match r with RAdapter [o] => chk 6%Z (single_step_ok E o) | _ => [] end.

  Lemma law_verdict_adapt fuel : adapt E fuel <> RFuel ->
    law_verdict E (verdict_of (adapt E fuel)) = residue (adapt E fuel).
  Proof.
    unfold adapt. destruct (e_sub E (e_src E) (e_target E)) eqn:Hp.
    - intros _. cbn. rewrite Hp. reflexivity.
    - destruct (adapt_search E fuel) as [p| |] eqn:Hs; intros Hne.
      + cbn [verdict_of law_verdict residue]. rewrite Hp. cbn [negb orb chk app].
        rewrite (min_len_found fuel p Hs). cbn [is_some chk app].
        destruct (adapt_sound E Hperm fuel p Hs) as (Hv & Hsu & Hc). rewrite Hv, Hsu, Hc. cbn [andb chk app].
        unfold opt_nat_eqb. rewrite Nat.eqb_refl. cbn [chk app].
        destruct p as [|o [|o2 p]]; reflexivity.
      + cbn. rewrite Hp. cbn. rewrite (min_len_notfound fuel Hs). reflexivity.
      + congruence.
  Qed.

  Lemma law_yes fuel : match adapt E fuel with RSelf | RAdapter _ => law_verdict E DYes = [] | _ => True end.
  Proof.
    unfold adapt. destruct (e_sub E (e_src E) (e_target E)) eqn:Hp.
    - cbn. rewrite Hp. reflexivity.
    - destruct (adapt_search E fuel) as [p| |] eqn:Hs; try exact I.
      cbn. rewrite Hp, (min_len_found fuel p Hs). reflexivity.
  Qed.

  Lemma adapt_self_iff fuel : adapt E fuel = RSelf <-> e_sub E (e_src E) (e_target E) = true.
  Proof.
    unfold adapt. destruct (e_sub E (e_src E) (e_target E)); [tauto|].
    destruct (adapt_search E fuel); split; discriminate.
  Qed.
  Lemma adapt_adapter fuel p : adapt E fuel = RAdapter p ->
    e_sub E (e_src E) (e_target E) = false /\ adapt_search E fuel = Found p.
  Proof.
    unfold adapt. destruct (e_sub E (e_src E) (e_target E)); [discriminate|].
    destruct (adapt_search E fuel); try discriminate. intros [= ->]. split; reflexivity.
  Qed.

  Lemma adapt_none_provides fuel : adapt E fuel = RNone -> e_sub E (e_src E) (e_target E) = false.
  Proof.
    intros Ha. destruct (e_sub E (e_src E) (e_target E)) eqn:Hp; [|reflexivity].
    apply (proj2 (adapt_self_iff fuel)) in Hp. congruence.
  Qed.

  (* every entry point reports what [adapt] found: its law codes are those of the verdict of [adapt] *)
  Lemma law_run_api fuel a : run_api E fuel a <> OOutOfFuel ->
    law E a (run_api E fuel a) = [] \/ law E a (run_api E fuel a) = residue (adapt E fuel).
  Proof.
    intros Hne. pose proof (law_verdict_adapt fuel) as L. pose proof (law_yes fuel) as Y.
    pose proof (adapt_none_provides fuel) as Hp. unfold run_api in *.
    destruct a as [| | | |[|[|mode]]| | |[|[|variant]]]; cbn [law validate_adapt] in *.
    5:{ left. unfold law_mode0. destruct (e_sub E (e_src E) (e_target E)) eqn:Hq; cbn; rewrite ?Hq; reflexivity. }
    all: destruct (adapt E fuel) as [|p| |]; try rewrite (Hp eq_refl) in *; try congruence;
      cbn [decode decode_either of_value value_eqb]; rewrite ?offers_eqb_refl;
      first [right; apply L; discriminate|left; exact Y].
  Qed.

  Theorem model_law : no_inversion E ->
    forall fuel a, run_api E fuel a <> OOutOfFuel -> law E a (run_api E fuel a) = [].
  Proof.
    intros Hs fuel a Hne. destruct (law_run_api fuel a Hne) as [->| ->]; [reflexivity|].
    unfold adapt. destruct (e_sub E (e_src E) (e_target E)); [reflexivity|].
    destruct (adapt_search E fuel) as [[|o [|o2 p]]| |] eqn:Ha; try reflexivity.
    cbn. rewrite (single_step_specific E Hperm Hs fuel o Ha). reflexivity.
  Qed.

  Theorem model_law_except_specificity :
    forall fuel a, run_api E fuel a <> OOutOfFuel -> forall c, In c (law E a (run_api E fuel a)) -> c = 6%Z.
  Proof.
    intros fuel a Hne. destruct (law_run_api fuel a Hne) as [->| ->]; [intros c []|]. unfold residue.
    destruct (adapt E fuel) as [|[|o [|o2 p]]| |]; try (intros c []).
    destruct (single_step_ok E o); cbn; [intros c []|intros c [<-|[]]; reflexivity].
  Qed.
End ModelLaw.

Section PySortPerm.
  Context {A : Type}.
  Variable lt : A -> A -> bool.

  Lemma insert_at_perm pre i (x : A) : Permutation (insert_at pre i x) (x :: pre).
  Proof.
    unfold insert_at. rewrite <- (firstn_skipn i pre) at 3. symmetry. apply Permutation_middle.
  Qed.
  Lemma binarysort_perm rest : forall pre, Permutation (binarysort lt pre rest) (pre ++ rest).
  Proof.
    induction rest as [|x rest IH]; intros pre; cbn [binarysort]; [rewrite app_nil_r; reflexivity|].
    rewrite IH. rewrite insert_at_perm. cbn. apply Permutation_middle.
  Qed.
  Lemma run_asc_app l : forall last, fst (run_asc lt last l) ++ snd (run_asc lt last l) = l.
  Proof.
    induction l as [|x l IH]; intros last; cbn; [reflexivity|].
    destruct (lt x last); [reflexivity|]. specialize (IH x). destruct (run_asc lt x l). cbn in *. f_equal. exact IH.
  Qed.
  Lemma run_desc_app l : forall last, fst (run_desc lt last l) ++ snd (run_desc lt last l) = l.
  Proof.
    induction l as [|x l IH]; intros last; cbn; [reflexivity|].
    destruct (lt x last); [|reflexivity]. specialize (IH x). destruct (run_desc lt x l). cbn in *. f_equal. exact IH.
  Qed.
  Lemma py_sort_perm l : Permutation (py_sort lt l) l.
  Proof.
    destruct l as [|a [|b l]]; cbn [py_sort]; try reflexivity.
    destruct (lt b a).
    - pose proof (run_desc_app l b) as H. destruct (run_desc lt b l) as [r t]. cbn in H.
      rewrite binarysort_perm. rewrite <- Permutation_rev. rewrite <- H. reflexivity.
    - pose proof (run_asc_app l b) as H. destruct (run_asc lt b l) as [r t]. cbn in H.
      rewrite binarysort_perm. rewrite <- H. reflexivity.
  Qed.
End PySortPerm.

Section Ordered.
  Context {A : Type}.
  Variable R : A -> A -> Prop.

  Fixpoint ordered (l : list A) : Prop :=
    match l with [] => True | x :: r => (forall y, In y r -> R x y) /\ ordered r end.

  Lemma ordered_app l1 l2 : ordered (l1 ++ l2) <->
    ordered l1 /\ ordered l2 /\ (forall x y, In x l1 -> In y l2 -> R x y).
  Proof.
    induction l1 as [|a l1 IH]; cbn.
    - split; [intros H; repeat split; [exact H|intros x y []]|intros (_ & H & _); exact H].
    - rewrite IH. split.
      + intros (Ha & H1 & H2 & H12). repeat split; try assumption.
        * intros y Hy. apply Ha. apply in_or_app. left. exact Hy.
        * intros x y [<-|Hx] Hy; [apply Ha; apply in_or_app; right; exact Hy|apply H12; assumption].
      + intros ((Ha & H1) & H2 & H12). repeat split; try assumption.
        * intros y Hy. apply in_app_or in Hy. destruct Hy as [Hy|Hy]; [apply Ha; exact Hy|apply H12; [left; reflexivity|exact Hy]].
        * intros x y Hx Hy. apply H12; [right; exact Hx|exact Hy].
  Qed.

  (* consecutive elements related, from [last] on *)
  Fixpoint chain (last : A) (l : list A) : Prop :=
    match l with [] => True | x :: r => R last x /\ chain x r end.

  Lemma chain_ordered (P : A -> Prop) :
    (forall x y z, P x -> P y -> P z -> R x y -> R y z -> R x z) ->
    forall l a, chain a l -> (forall x, In x (a :: l) -> P x) -> ordered (a :: l).
  Proof.
    intros R_trans. induction l as [|x l IH]; intros a H HP; [split; [intros y []|exact I]|].
    destruct H as [Hax Hx]. assert (ordered (x :: l)) as [Hxl Hl] by (apply IH; [exact Hx|intros y Hy; apply HP; right; exact Hy]).
    split; [|split; assumption]. intros y [<-|Hy]; [exact Hax|].
    apply (R_trans a x y); auto; apply HP; cbn; auto.
  Qed.
End Ordered.

Lemma ordered_rev {A} (R : A -> A -> Prop) l : ordered (fun x y => R y x) l -> ordered R (rev l).
Proof.
  induction l as [|a l IH]; [trivial|]. intros [Ha Hl]. cbn [rev]. apply ordered_app. split; [apply IH; exact Hl|].
  split; [split; [intros y []|exact I]|]. intros x y Hx [<-|[]]. apply Ha. apply in_rev. exact Hx.
Qed.

Lemma nth_error_split {A} (l : list A) p x : nth_error l p = Some x ->
  skipn p l = x :: skipn (S p) l /\ firstn (S p) l = firstn p l ++ [x].
Proof.
  revert p. induction l as [|a l IH]; intros p H; [destruct p; discriminate|].
  destruct p as [|p]; cbn in H.
  - inversion H; subst. split; reflexivity.
  - destruct (IH p H) as [H1 H2]. split; [exact H1|]. change (a :: firstn (S p) l = a :: (firstn p l ++ [x])). rewrite H2. reflexivity.
Qed.
Lemma in_firstn {A} k (l : list A) x : In x (firstn k l) -> In x l.
Proof. intros H. rewrite <- (firstn_skipn k l). apply in_or_app. left. exact H. Qed.
Lemma in_skipn {A} k (l : list A) x : In x (skipn k l) -> In x l.
Proof. intros H. rewrite <- (firstn_skipn k l). apply in_or_app. right. exact H. Qed.

(* CPython's binary insertion sort with a comparator that need not be a total order.
   [R x y]: x may stand before y.  The sort's output is ordered by R as soon as the comparator never contradicts R
   (lt x y puts x before y, its failure puts y before x) and R is transitive — all on the elements satisfying P.
   Instances below: R = "MRO distance <=" for the code's comparator with no hypothesis at all (the major key stays
   sorted although the comparator is partial), and R x y = "not lt y x" when the comparator is a strict weak order. *)
Section PySortOrdered.
  Context {A : Type}.
  Variable lt : A -> A -> bool.
  Variable P : A -> Prop.
  Variable R : A -> A -> Prop.
  Hypothesis lt_R : forall x y, P x -> P y -> lt x y = true -> R x y.
  Hypothesis nlt_R : forall x y, P x -> P y -> lt x y = false -> R y x.
  Hypothesis R_trans : forall x y z, P x -> P y -> P z -> R x y -> R y z -> R x z.
  Notation all_P l := (forall x, In x l -> P x).

  (* binarysort's inner loop: everything left of l may stand before the pivot, everything from r on after it *)
  Lemma bisect_spec fuel : forall pre pivot l r, ordered R pre -> all_P pre -> P pivot ->
    l <= r <= length pre -> r - l < fuel ->
    (forall x, In x (firstn l pre) -> R x pivot) -> (forall y, In y (skipn r pre) -> R pivot y) ->
    let k := bisect lt fuel pre pivot l r in
    (forall x, In x (firstn k pre) -> R x pivot) /\ (forall y, In y (skipn k pre) -> R pivot y).
  Proof.
    induction fuel as [|f IH]; intros pre pivot l r Hs HP Hpv Hlr Hf Hb Ha; [lia|]. cbn [bisect].
    destruct (Nat.ltb_spec l r) as [Hlt|Hge].
    2:{ assert (l = r) by lia. subst. split; [exact Hb|exact Ha]. }
    set (p := l + Nat.div2 (r - l)).
    assert (l <= p < r) as Hp.
    { unfold p. clear - Hlt. destruct (r - l) as [|n] eqn:Erl; [lia|].
      assert (Nat.div2 (S n) <= n) by (apply Nat.div2_decr; lia). lia. }
    destruct (nth_error pre p) as [x|] eqn:Hx.
    2:{ apply nth_error_None in Hx. lia. }
    destruct (nth_error_split pre p x Hx) as [Hsk Hfi].
    assert (P x) as HPx by (apply HP; eapply nth_error_In; exact Hx).
    pose proof Hs as Hs'. rewrite <- (firstn_skipn p pre) in Hs'. apply ordered_app in Hs'. destruct Hs' as (_ & S2 & S12).
    rewrite Hsk in S2, S12. destruct S2 as [Sx _].
    destruct (lt pivot x) eqn:L.
    - (* pivot < pre[p]: r := p *)
      apply IH; try assumption; [lia|lia|].
      intros y Hy. rewrite Hsk in Hy. pose proof (lt_R _ _ Hpv HPx L) as Rpx. destruct Hy as [<-|Hy]; [exact Rpx|].
      apply (R_trans pivot x y); auto. apply HP. apply (in_skipn (S p)). exact Hy.
    - (* l := p + 1 *)
      apply IH; try assumption; [lia|lia|].
      intros y Hy. rewrite Hfi in Hy. apply in_app_or in Hy. pose proof (nlt_R _ _ Hpv HPx L) as Rxp.
      destruct Hy as [Hy|[<-|[]]]; [|exact Rxp].
      apply (R_trans y x pivot); auto; [apply HP; apply (in_firstn p); exact Hy|apply S12; [exact Hy|left; reflexivity]].
  Qed.

  Lemma insert_at_ordered pre k pivot : ordered R pre ->
    (forall x, In x (firstn k pre) -> R x pivot) -> (forall y, In y (skipn k pre) -> R pivot y) ->
    ordered R (insert_at pre k pivot).
  Proof.
    intros Hs Hb Ha. unfold insert_at. rewrite <- (firstn_skipn k pre) in Hs. apply ordered_app in Hs.
    destruct Hs as (S1 & S2 & S12). apply ordered_app. split; [exact S1|]. split.
    - cbn. split; [exact Ha|exact S2].
    - intros x y Hx [<-|Hy]; [apply Hb; exact Hx|apply S12; assumption].
  Qed.

  Lemma binarysort_ordered rest : forall pre, ordered R pre -> all_P pre -> all_P rest -> ordered R (binarysort lt pre rest).
  Proof.
    induction rest as [|x rest IH]; intros pre Hs HP HR; cbn [binarysort]; [exact Hs|].
    assert (P x) as Hx by (apply HR; left; reflexivity).
    destruct (bisect_spec (S (length pre)) pre x 0 (length pre) Hs HP Hx) as (Hb & Ha); try lia.
    - intros y [].
    - rewrite skipn_all. intros y [].
    - apply IH; [apply insert_at_ordered; assumption| |intros y Hy; apply HR; right; exact Hy].
      intros y Hy. apply (Permutation_in _ (insert_at_perm pre _ x)) in Hy. destruct Hy as [<-|Hy]; [exact Hx|apply HP; exact Hy].
  Qed.

  Lemma run_asc_asc l : forall last, all_P (last :: l) -> chain R last (fst (run_asc lt last l)).
  Proof.
    induction l as [|x l IH]; intros last HP; cbn; [exact I|].
    destruct (lt x last) eqn:L; [exact I|]. specialize (IH x). destruct (run_asc lt x l). cbn in *. split.
    - apply (nlt_R x last); auto.
    - apply IH. intros y Hy. apply HP. right. exact Hy.
  Qed.
  Lemma run_desc_desc l : forall last, all_P (last :: l) -> chain (fun x y => R y x) last (fst (run_desc lt last l)).
  Proof.
    induction l as [|x l IH]; intros last HP; cbn; [exact I|].
    destruct (lt x last) eqn:L; [|exact I]. specialize (IH x). destruct (run_desc lt x l). cbn in *. split.
    - apply (lt_R x last); auto.
    - apply IH. intros y Hy. apply HP. right. exact Hy.
  Qed.

  Theorem py_sort_ordered l : all_P l -> ordered R (py_sort lt l).
  Proof.
    intros HP. destruct l as [|a [|b l]]; cbn [py_sort]; [exact I|split; [intros y []|exact I]|].
    assert (P a /\ P b /\ all_P (b :: l)) as (Pa & Pb & HPl) by (repeat split; intros; apply HP; cbn; auto).
    assert (forall r t, r ++ t = l -> all_P (a :: b :: r) /\ all_P t) as Hsplit.
    { intros r t <-. split; intros y Hy; apply HP; [destruct Hy as [<-|[<-|Hy]]|]; cbn; auto using in_or_app. }
    destruct (lt b a) eqn:L.
    - pose proof (run_desc_desc l b HPl) as D. pose proof (run_desc_app lt l b) as App.
      destruct (run_desc lt b l) as [r t]. destruct (Hsplit r t App) as [PA Pt]. cbn [fst] in D.
      apply binarysort_ordered; [| |exact Pt].
      + apply ordered_rev. apply (chain_ordered _ P) with (l := b :: r); [|split; [apply (lt_R b a); auto|exact D]|exact PA].
        intros x y z Px Py Pz H1 H2. apply (R_trans z y x); assumption.
      + intros y Hy. apply PA. apply in_rev. exact Hy.
    - pose proof (run_asc_asc l b HPl) as D. pose proof (run_asc_app lt l b) as App.
      destruct (run_asc lt b l) as [r t]. destruct (Hsplit r t App) as [PA Pt]. cbn [fst] in D.
      apply binarysort_ordered; [|exact PA|exact Pt].
      apply (chain_ordered R P R_trans (b :: r) a); [split; [apply (nlt_R b a); auto|exact D]|exact PA].
  Qed.
End PySortOrdered.

Lemma filter_partition_perm {A} (f : A -> bool) l :
  Permutation (filter f l ++ filter (fun x => negb (f x)) l) l.
Proof.
  induction l as [|x l IH]; cbn; [reflexivity|].
  destruct (f x); cbn; [apply perm_skip; exact IH|].
  rewrite <- Permutation_middle. apply perm_skip. exact IH.
Qed.
Lemma group_by_perm fs : forall l, Permutation (group_by fs l) l.
Proof.
  induction fs as [|f fs IH]; intros l; cbn; [reflexivity|].
  rewrite IH. apply (filter_partition_perm (fun o => ofrom o =? f)).
Qed.
Lemma order_py_perm sub dist all cur l : Permutation (order_py sub dist all cur l) l.
Proof.
  unfold order_py. rewrite py_sort_perm. rewrite map_map. cbn. rewrite map_id. apply group_by_perm.
Qed.
Lemma env_of_order_perm c : forall p l, Permutation (e_order (env_of c) p l) l.
Proof. intros p l. cbn. apply order_py_perm. Qed.

Lemma order_py_ordered (R : nat * offer -> nat * offer -> Prop) sub dist all cur l :
  ordered R (py_sort (edge_lt sub) (map (fun o => (dist cur (ofrom o), o)) (group_by (map ofrom all) l))) ->
  forall l1 o1 l2 o2, order_py sub dist all cur l = l1 ++ o1 :: l2 -> In o2 l2 ->
    R (dist cur (ofrom o1), o1) (dist cur (ofrom o2), o2).
Proof.
  unfold order_py. set (key := fun o => (dist cur (ofrom o), o)). set (L := py_sort _ _).
  assert (map key (map snd L) = L) as HL.
  { assert (forall e, In e L -> key (snd e) = e) as Hkey.
    { intros e He. apply (Permutation_in _ (py_sort_perm (edge_lt sub) _)) in He. apply in_map_iff in He.
      destruct He as (x & <- & _). reflexivity. }
    clearbody L. induction L as [|e L IH]; [reflexivity|]. cbn [map].
    rewrite (Hkey e (or_introl eq_refl)), IH; [reflexivity|]. intros x Hx. apply Hkey. right. exact Hx. }
  intros Hs l1 o1 l2 o2 Hm Hin. rewrite <- HL, Hm, map_app in Hs. cbn [map] in Hs. apply ordered_app in Hs. destruct Hs as (_ & [Hs _] & _).
  apply Hs. apply (in_map key). exact Hin.
Qed.

Lemma edge_lt_dist sub (x y : nat * offer) :
  (edge_lt sub x y = true -> fst x <= fst y) /\ (edge_lt sub x y = false -> fst y <= fst x).
Proof. destruct x as [d1 o1], y as [d2 o2]. unfold edge_lt. cbn [fst]. lia. Qed.

Lemma order_py_distance sub dist all cur l l1 o l2 o' :
  order_py sub dist all cur l = l1 ++ o :: l2 -> In o' l2 -> dist cur (ofrom o) <= dist cur (ofrom o').
Proof.
  apply (order_py_ordered (fun x y => fst x <= fst y)).
  apply (py_sort_ordered (edge_lt sub) (fun _ => True)).
  - intros x y _ _. apply edge_lt_dist.
  - intros x y _ _. apply edge_lt_dist.
  - intros x y z _ _ _. apply Nat.le_trans.
  - intros x _. exact I.
Qed.

Section EdgeOrder.
  Variable sub : ty -> ty -> bool.
  Variable dist : ty -> ty -> nat.
  Variable cur : ty.
  Variable l : list offer.          (* the applicable offers *)

  (* on the from-protocols of the applicable offers: issubclass is antisymmetric and transitive, and two different
     from-protocols at the same MRO distance are always related one way or the other *)
  Definition froms_comparable : Prop :=
    (forall o1 o2, In o1 l -> In o2 l -> ofrom o1 <> ofrom o2 -> sub (ofrom o1) (ofrom o2) = true -> sub (ofrom o2) (ofrom o1) = false)
    /\ (forall o1 o2 o3, In o1 l -> In o2 l -> In o3 l ->
          sub (ofrom o1) (ofrom o2) = true -> sub (ofrom o2) (ofrom o3) = true -> sub (ofrom o1) (ofrom o3) = true)
    /\ (forall o1 o2, In o1 l -> In o2 l -> dist cur (ofrom o1) = dist cur (ofrom o2) -> ofrom o1 <> ofrom o2 ->
          sub (ofrom o1) (ofrom o2) = true \/ sub (ofrom o2) (ofrom o1) = true).
  Hypothesis Hc : froms_comparable.

  Definition is_edge (e : nat * offer) : Prop := In (snd e) l /\ fst e = dist cur (ofrom (snd e)).

  Lemma edge_lt_true (x y : nat * offer) : edge_lt sub x y = true <->
    fst x < fst y \/ (fst x = fst y /\ ofrom (snd x) <> ofrom (snd y) /\ sub (ofrom (snd x)) (ofrom (snd y)) = true).
  Proof.
    destruct x as [d1 o1], y as [d2 o2]. unfold edge_lt. cbn [fst snd]. rewrite orb_true_iff, !andb_true_iff, Nat.ltb_lt, Nat.eqb_eq, negb_true_iff, Nat.eqb_neq.
    tauto.
  Qed.

  Lemma edge_lt_asym x y : is_edge x -> is_edge y -> edge_lt sub x y = true -> edge_lt sub y x = false.
  Proof.
    intros [Ix Dx] [Iy Dy] H. apply edge_lt_true in H. destruct (edge_lt sub y x) eqn:R; [|reflexivity].
    apply edge_lt_true in R. destruct Hc as (Ha & _ & _).
    destruct H as [H|(He & Hn & Hs)], R as [R|(Re & Rn & Rs)]; try lia.
    rewrite (Ha _ _ Ix Iy Hn Hs) in Rs. discriminate.
  Qed.

  Lemma edge_lt_ntrans x y z : is_edge x -> is_edge y -> is_edge z ->
    edge_lt sub x y = false -> edge_lt sub y z = false -> edge_lt sub x z = false.
  Proof.
    intros [Ix Dx] [Iy Dy] [Iz Dz] H1 H2. destruct (edge_lt sub x z) eqn:R; [|reflexivity]. exfalso.
    apply edge_lt_true in R. destruct Hc as (Ha & Ht & Hcmp).
    assert (forall a b, edge_lt sub a b = false -> ~ (fst a < fst b) /\
              ~ (fst a = fst b /\ ofrom (snd a) <> ofrom (snd b) /\ sub (ofrom (snd a)) (ofrom (snd b)) = true)) as Hf.
    { intros a b Hab. split; intros Hx; assert (edge_lt sub a b = true) by (apply edge_lt_true; tauto); congruence. }
    destruct (Hf _ _ H1) as [A1 B1]. destruct (Hf _ _ H2) as [A2 B2].
    destruct R as [R|(Re & Rn & Rs)]; [clear - R A1 A2; lia|].
    assert (fst x = fst y /\ fst y = fst z) as [Exy Eyz] by (clear - Re A1 A2; lia).
    destruct (Nat.eq_dec (ofrom (snd x)) (ofrom (snd y))) as [Fxy|Fxy].
    - apply B2. split; [exact Eyz|]. rewrite <- Fxy. split; assumption.
    - destruct (Nat.eq_dec (ofrom (snd y)) (ofrom (snd z))) as [Fyz|Fyz].
      + apply B1. split; [exact Exy|]. rewrite Fyz. split; [rewrite <- Fyz; exact Fxy|exact Rs].
      + (* all three different: y below x and z below y, hence z below x, against x below z *)
        assert (sub (ofrom (snd y)) (ofrom (snd x)) = true) as Syx.
        { destruct (Hcmp _ _ Ix Iy ltac:(congruence) Fxy) as [S|S]; [|exact S]. exfalso. apply B1. tauto. }
        assert (sub (ofrom (snd z)) (ofrom (snd y)) = true) as Szy.
        { destruct (Hcmp _ _ Iy Iz ltac:(congruence) Fyz) as [S|S]; [|exact S]. exfalso. apply B2. tauto. }
        pose proof (Ht _ _ _ Iz Iy Ix Szy Syx) as Szx.
        rewrite (Ha _ _ Ix Iz Rn Rs) in Szx. discriminate.
  Qed.
End EdgeOrder.

Lemma order_py_no_inversion sub dist all cur l l1 o1 l2 o2 l3 :
  froms_comparable sub dist cur l ->
  order_py sub dist all cur l = l1 ++ o1 :: l2 ++ o2 :: l3 ->
  edge_lt sub (dist cur (ofrom o2), o2) (dist cur (ofrom o1), o1) = false.
Proof.
  intros Hc Hm.
  refine (order_py_ordered (fun x y => edge_lt sub y x = false) sub dist all cur l _ l1 o1 (l2 ++ o2 :: l3) o2 Hm (in_elt _ _ _)).
  apply (py_sort_ordered (edge_lt sub) (is_edge dist cur l)).
  - intros x y Px Py. apply (edge_lt_asym sub dist cur l Hc); assumption.
  - intros x y _ _ H. exact H.
  - intros x y z Px Py Pz H1 H2. apply (edge_lt_ntrans sub dist cur l Hc z y x); assumption.
  - intros e He. apply in_map_iff in He. destruct He as (x & <- & Hx). split; [|reflexivity].
    apply (Permutation_in _ (group_by_perm (map ofrom all) l)). exact Hx.
Qed.

Section TotalSort.
  Context {A : Type}.
  Variable le : A -> A -> bool.
  Hypothesis le_total : forall x y, le x y = true \/ le y x = true.
  Hypothesis le_trans : forall x y z, le x y = true -> le y z = true -> le x z = true.

  Lemma insert_by_perm x l : Permutation (insert_by le x l) (x :: l).
  Proof.
    induction l as [|y l IH]; cbn; [reflexivity|]. destruct (le x y); [reflexivity|].
    rewrite IH. apply perm_swap.
  Qed.
  Lemma isort_perm l : Permutation (isort le l) l.
  Proof. induction l as [|x l IH]; cbn; [reflexivity|]. rewrite insert_by_perm. apply perm_skip. exact IH. Qed.

  Notation sorted_by := (ordered (fun x y => le x y = true)).
  Lemma insert_by_sorted x l : sorted_by l -> sorted_by (insert_by le x l).
  Proof.
    induction l as [|y l IH]; intros Hs; cbn; [split; [intros ? []|exact I]|].
    destruct Hs as [Hy Hs]. destruct (le x y) eqn:Hxy.
    - split; [|split; assumption]. intros z [<-|Hz]; [exact Hxy|]. eapply le_trans; [exact Hxy|apply Hy; exact Hz].
    - split; [|apply IH; exact Hs]. intros z Hz. apply (Permutation_in _ (insert_by_perm x l)) in Hz.
      destruct Hz as [<-|Hz]; [|apply Hy; exact Hz]. destruct (le_total x y) as [H|H]; [congruence|exact H].
  Qed.
  Lemma isort_sorted l : sorted_by (isort le l).
  Proof. induction l as [|x l IH]; cbn; [exact I|apply insert_by_sorted; exact IH]. Qed.
End TotalSort.

(* edges ordered by (MRO distance, number of registered from-protocols the from-protocol is a subclass
   of — more is more specific): a total preorder that respects [better] when issubclass is reflexive
   and transitive.  This instance shows that the hypothesis of single_step_specific is satisfiable. *)
Section RankOrder.
  Variable E : env.
  Hypothesis sub_refl : forall a, e_sub E a a = true.
  Hypothesis sub_trans : forall a b c, e_sub E a b = true -> e_sub E b c = true -> e_sub E a c = true.

  Definition rank (t : ty) : nat := length (filter (fun u => e_sub E t u) (map ofrom (e_offers E))).
  Definition edge_key (o : offer) : nat * nat := (e_dist E (e_src E) (ofrom o), rank (ofrom o)).
  Definition edge_le (a b : offer) : bool :=
    (fst (edge_key a) <? fst (edge_key b))
    || ((fst (edge_key a) =? fst (edge_key b)) && (snd (edge_key b) <=? snd (edge_key a))).
  Definition order_rank (p l : list offer) : list offer := isort edge_le l.
  Definition with_order_rank : env :=
    {| e_sub := e_sub E; e_dist := e_dist E; e_offers := e_offers E; e_target := e_target E; e_src := e_src E;
       e_step_ok := e_step_ok E; e_order := order_rank |}.

  Lemma edge_le_total x y : edge_le x y = true \/ edge_le y x = true.
  Proof. unfold edge_le. lia. Qed.
  Lemma edge_le_trans x y z : edge_le x y = true -> edge_le y z = true -> edge_le x z = true.
  Proof. unfold edge_le. lia. Qed.

  Lemma filter_length_le {A} (f g : A -> bool) l : (forall x, f x = true -> g x = true) ->
    length (filter f l) <= length (filter g l).
  Proof.
    intros H. induction l as [|x l IH]; cbn; [lia|].
    destruct (f x) eqn:Hf; [rewrite (H _ Hf); cbn; lia|destruct (g x); cbn; lia].
  Qed.
  Lemma filter_length_lt {A} (f g : A -> bool) l w : (forall x, f x = true -> g x = true) ->
    In w l -> f w = false -> g w = true -> length (filter f l) < length (filter g l).
  Proof.
    intros H. induction l as [|x l IH]; intros Hin Hf Hg; [destruct Hin|]. cbn.
    destruct Hin as [->|Hin].
    - rewrite Hf, Hg. cbn. pose proof (filter_length_le f g l H). lia.
    - specialize (IH Hin Hf Hg). destruct (f x) eqn:Hfx; [rewrite (H _ Hfx); cbn; lia|destruct (g x); cbn; lia].
  Qed.

  Lemma strict_sub_rank a b : In a (map ofrom (e_offers E)) -> strict_sub E a b = true -> rank b < rank a.
  Proof.
    intros Ha Hs. unfold strict_sub in Hs. apply andb_true_iff in Hs. destruct Hs as [Hab Hba].
    apply negb_true_iff in Hba. unfold rank.
    apply (filter_length_lt _ _ _ a).
    - intros u Hu. eapply sub_trans; [exact Hab|exact Hu].
    - exact Ha.
    - exact Hba.
    - apply sub_refl.
  Qed.

  Lemma order_rank_perm : forall p l, Permutation (e_order with_order_rank p l) l.
  Proof. intros p l. cbn. apply isort_perm. Qed.

  Lemma order_rank_no_inversion : no_inversion with_order_rank.
  Proof.
    unfold no_inversion. cbn [e_order with_order_rank]. unfold order_rank. intros l1 o1 l2 o2 l3 H.
    pose proof (isort_sorted edge_le edge_le_total edge_le_trans
                  (filter (usable with_order_rank []) (e_offers with_order_rank))) as S.
    rewrite H in S. apply ordered_app in S. destruct S as (_ & [S _] & _). specialize (S o2 (in_elt _ _ _)).
    assert (In o2 (e_offers E)) as Hin.
    { assert (In o2 (isort edge_le (filter (usable with_order_rank []) (e_offers with_order_rank)))) as Hi
        by (rewrite H; apply in_or_app; right; right; apply in_or_app; right; left; reflexivity).
      apply (Permutation_in _ (isort_perm edge_le _)) in Hi. apply filter_In in Hi. apply Hi. }
    unfold better. cbn [e_dist e_src with_order_rank].
    destruct (strict_sub with_order_rank (ofrom o2) (ofrom o1)) eqn:Hs.
    - pose proof (strict_sub_rank (ofrom o2) (ofrom o1) (in_map ofrom _ _ Hin) Hs) as R.
      unfold edge_le, edge_key in S. cbn [fst snd] in S. lia.
    - unfold edge_le, edge_key in S. cbn [fst snd] in S. lia.
  Qed.
End RankOrder.

Section Api.
  Variable E : env.
  Hypothesis Hperm : forall p l, Permutation (e_order E p l) l.
  Notation provides := (e_sub E (e_src E) (e_target E)).
  Definition chain_exists : Prop := exists Q, valid E Q = true /\ succ E Q = true /\ complete E Q = true.

  Lemma adapt_adapter_sound fuel p : adapt E fuel = RAdapter p ->
    provides = false /\ valid E p = true /\ succ E p = true /\ complete E p = true.
  Proof.
    intros Ha. destruct (adapt_adapter E fuel p Ha) as [Hp Hf]. split; [exact Hp|apply (adapt_sound E Hperm fuel p Hf)].
  Qed.

  Lemma adapt_complete_minimal fuel Q : provides = false ->
    valid E Q = true -> succ E Q = true -> complete E Q = true ->
    adapt E fuel <> RNone /\ adapt E fuel <> RSelf /\ forall p, adapt E fuel = RAdapter p -> length p <= length Q.
  Proof.
    intros Hp Hv Hs Hc. pose proof (adapt_complete_minimal_any E Hperm Q Hv Hs Hc fuel) as M.
    unfold adapt. rewrite Hp. destruct (adapt_search E fuel) as [p| |].
    - split; [discriminate|split; [discriminate|]]. intros p0 [= <-]. exact M.
    - destruct M.
    - split; [discriminate|split; [discriminate|]]. intros p0 [=].
  Qed.

  Lemma adapt_none_iff fuel : adapt E fuel <> RFuel ->
    (adapt E fuel = RNone <-> provides = false /\ ~ chain_exists).
  Proof.
    intros Hf. split.
    - intros Hn. pose proof (adapt_none_provides E fuel Hn) as Hp. split; [exact Hp|]. intros (Q & Hv & Hs & Hc).
      destruct (adapt_complete_minimal fuel Q Hp Hv Hs Hc) as [H _]. contradiction.
    - intros [Hp Hno]. destruct (adapt E fuel) as [|p| |] eqn:Ha; [| |reflexivity|congruence].
      + apply (proj1 (adapt_self_iff E fuel)) in Ha. congruence.
      + destruct (adapt_adapter_sound fuel p Ha) as (_ & Hv & Hs & Hc). exfalso. apply Hno. exists p. tauto.
  Qed.

  (* failure is reported as AdaptationError / the supplied default / False / TraitError / the trait's default,
     and in no other case *)
  Lemma none_iff_default_or_error fuel : adapt E fuel <> RFuel ->
    let none := provides = false /\ ~ chain_exists in
    (none <-> run_api E fuel ApiAdapt = OAdaptationError) /\
    (none <-> run_api E fuel ApiAdaptDefault = OValue VDefault) /\
    (none <-> run_api E fuel ApiSupports = OBool false) /\
    (none <-> run_api E fuel (TraitInstance 1) = OTraitError) /\
    (none <-> run_api E fuel (TraitInstance 2) = OStored VDefault None) /\
    (none <-> run_api E fuel TraitSupports = OTraitError) /\
    (none <-> run_api E fuel TraitAdaptsTo = OTraitError).
  Proof.
    intros Hf none. pose proof (adapt_none_iff fuel Hf) as N. fold none in N.
    assert (adapt E fuel = RNone -> provides = false) as Hp by (intros H; apply N in H; apply H).
    unfold run_api. cbn [validate_adapt].
    destruct (adapt E fuel) eqn:Ha; try congruence.
    1,2: assert (~ none) as Nn by (intros H; apply N in H; discriminate H); repeat split; (contradiction || discriminate).
    assert none as Nn by (apply N; reflexivity). rewrite (Hp eq_refl). repeat split; auto; apply Nn.
  Qed.

  (* Supports and AdaptsTo accept exactly the values adapt() adapts, and hold exactly adapt()'s result:
     Supports as the trait value (shadow = the original), AdaptsTo as the shadow (value = the original) *)
  Lemma supports_adaptsto_same fuel :
    (forall v, run_api E fuel ApiAdapt = OValue v <-> run_api E fuel TraitSupports = OStored v (Some VSelf)) /\
    (forall v, run_api E fuel ApiAdapt = OValue v <-> run_api E fuel TraitAdaptsTo = OStored VSelf (Some v)) /\
    (run_api E fuel ApiAdapt = OAdaptationError <-> run_api E fuel TraitSupports = OTraitError) /\
    (run_api E fuel ApiAdapt = OAdaptationError <-> run_api E fuel TraitAdaptsTo = OTraitError) /\
    (forall v, run_api E fuel ApiAdapt = OValue v <-> run_api E fuel (TraitInstance 1) = OStored v None).
  Proof.
    pose proof (adapt_none_provides E fuel) as Hp. unfold run_api. cbn [validate_adapt].
    destruct (adapt E fuel) eqn:Ha; try (rewrite (Hp eq_refl));
      repeat split; try (intros [= <-]; reflexivity); try discriminate; try reflexivity.
  Qed.

  Lemma self_when_provides fuel : provides = true ->
    adapt E fuel = RSelf /\ run_api E fuel ApiAdapt = OValue VSelf /\ run_api E fuel ApiAdaptDefault = OValue VSelf
    /\ run_api E fuel ApiSupports = OBool true
    /\ run_api E fuel TraitSupports = OStored VSelf (Some VSelf)
    /\ run_api E fuel TraitAdaptsTo = OStored VSelf (Some VSelf)
    /\ forall m, run_api E fuel (TraitInstance m) = OStored VSelf None.
  Proof.
    intros Hp. pose proof (proj2 (adapt_self_iff E fuel) Hp) as Ha. unfold run_api. rewrite Ha, Hp.
    repeat split. intros [|[|m]]; reflexivity.
  Qed.

  Lemma single_step_reading fuel o : no_inversion E -> adapt E fuel = RAdapter [o] ->
    forall o', In o' (e_offers E) -> usable E [] o' = true -> e_sub E (oto o') (e_target E) = true ->
      e_step_ok E [] o' = true ->
      e_dist E (e_src E) (ofrom o) <= e_dist E (e_src E) (ofrom o') /\
      (e_dist E (e_src E) (ofrom o) = e_dist E (e_src E) (ofrom o') -> strict_sub E (ofrom o') (ofrom o) = false).
  Proof.
    intros Hs Ha o' Hin Hu Ht Hk. destruct (adapt_adapter E fuel [o] Ha) as [_ Hf].
    pose proof (single_step_specific E Hperm Hs fuel o Hf) as S.
    unfold single_step_ok in S. rewrite forallb_forall in S. specialize (S o' Hin).
    unfold single_candidate in S. rewrite Hu, Ht, Hk in S. cbn in S. apply negb_true_iff in S.
    unfold better in S. apply orb_false_iff in S. destruct S as [S1 S2].
    apply Nat.ltb_ge in S1. split; [exact S1|]. intros Heq. rewrite Heq, Nat.eqb_refl in S2. exact S2.
  Qed.
End Api.

(* the adaptable-object check inside a compound trait applies adapt() the same way *)
Lemma compound_same E fuel :
  (forall v, run_api E fuel ApiAdapt = OValue v <-> run_api E fuel (TraitEither 0) = OStored v (Some v)) /\
  (forall v, run_api E fuel ApiAdapt = OValue v <-> run_api E fuel (TraitEither 1) = OStored v (Some v)) /\
  (forall v, v <> VDefault -> (run_api E fuel ApiAdapt = OValue v <-> run_api E fuel (TraitEither 2) = OStored v None)) /\
  (run_api E fuel ApiAdapt = OAdaptationError <-> run_api E fuel (TraitEither 0) = OTraitError) /\
  (run_api E fuel ApiAdapt = OAdaptationError <-> run_api E fuel (TraitEither 1) = OTraitError) /\
  (run_api E fuel ApiAdapt = OAdaptationError <-> run_api E fuel (TraitEither 2) = OStored VDefault None).
Proof.
  pose proof (adapt_none_provides E fuel) as Hp. unfold run_api. cbn [validate_adapt].
  destruct (adapt E fuel) eqn:Ha; try (rewrite (Hp eq_refl));
    repeat split; try (intros [= <-]; reflexivity); try discriminate; try reflexivity; try (intros [= <-]; congruence).
Qed.

(* The recorded defect of the single-step clause (F21): T0=X, T1=A, T2=C(A), T3=B, T4=S(X, C, B), T5=target; offers A->T5, B->T5, C->T5 registered in this order.
   All three MRO distances from S are 0 (X, first in the MRO, provides none of them); B is incomparable to A and C,
   so CPython's insertion leaves the order A, B, C and the offer for the base type A is chosen. *)
Definition f21_config : config :=
  let t := true in let f := false in
  {| c_sub := [[t;f;f;f;f;f]; [f;t;f;f;f;f]; [f;t;t;f;f;f]; [f;f;f;t;f;f]; [t;t;t;t;t;f]; [f;f;f;f;f;t]];
     c_mro := [[0]; [1]; [2;1]; [3]; [4;0;2;1;3]; [5]];
     c_offers := [(1, 5, FAlways); (3, 5, FAlways); (2, 5, FAlways)];
     c_src := 4; c_target := 5; c_flag := false |}.

Lemma exec_law_except_specificity c fuel a : run_api (env_of c) fuel a <> OOutOfFuel ->
  forall code, In code (law (env_of c) a (run_api (env_of c) fuel a)) -> code = 6%Z.
Proof. exact (model_law_except_specificity (env_of c) (env_of_order_perm c) fuel a). Qed.

(* for the executable model (edge order = CPython's sort on the code's comparator): a single-step answer has the
   smallest MRO distance among all succeeding single-offer chains — no hypothesis; only the specificity tie-break
   is affected by F21 *)
Lemma min_distance_first_exec c fuel o : adapt (env_of c) fuel = RAdapter [o] ->
  forall o', In o' (e_offers (env_of c)) -> single_candidate (env_of c) o' = true ->
    e_dist (env_of c) (e_src (env_of c)) (ofrom o) <= e_dist (env_of c) (e_src (env_of c)) (ofrom o').
Proof.
  intros Ha o' Hin Hc. destruct (adapt_adapter (env_of c) fuel [o] Ha) as [_ Hf].
  destruct (first_expansion (env_of c) (env_of_order_perm c) fuel o Hf) as (l1 & l2 & Hes & Hall).
  destruct (Hall o' Hin Hc) as [->|H2]; [lia|].
  cbn [e_order env_of] in Hes. cbn [rev] in Hes.
  exact (order_py_distance _ _ _ _ _ _ _ _ _ Hes H2).
Qed.

(* for the executable model: no incomparable applicable from-protocols at one distance => the whole law holds *)
Definition exec_comparable (c : config) : Prop :=
  let E := env_of c in
  froms_comparable (e_sub E) (e_dist E) (e_src E) (filter (usable E []) (e_offers E)).

Lemma exec_no_inversion c : exec_comparable c -> no_inversion (env_of c).
Proof.
  intros Hc l1 o1 l2 o2 l3 Hes. cbn [e_order env_of rev] in Hes.
  pose proof (order_py_no_inversion _ _ _ _ _ _ _ _ _ _ Hc Hes) as H.
  unfold better, strict_sub. unfold edge_lt in H. cbn [e_dist e_sub e_src env_of] in *.
  apply orb_false_iff in H. destruct H as [H1 H2]. rewrite H1. cbn [orb].
  destruct (tbl_dist (c_sub c) (c_mro c) (c_src c) (ofrom o2) =? tbl_dist (c_sub c) (c_mro c) (c_src c) (ofrom o1)); [|reflexivity].
  cbn [andb] in *. destruct (ofrom o2 =? ofrom o1) eqn:Ef.
  - apply Nat.eqb_eq in Ef. rewrite Ef. destruct (tbl_sub (c_sub c) (ofrom o1) (ofrom o1)); reflexivity.
  - cbn [negb andb] in H2. rewrite H2. reflexivity.
Qed.

Lemma exec_law_when_comparable c : exec_comparable c ->
  forall fuel a, run_api (env_of c) fuel a <> OOutOfFuel -> law (env_of c) a (run_api (env_of c) fuel a) = [].
Proof. intros Hc. exact (model_law (env_of c) (env_of_order_perm c) (exec_no_inversion c Hc)). Qed.

(* the twin of the F21 witness without the incomparable offer: the hypotheses hold and the specific offer wins *)
Definition f21_twin_config : config :=
  let t := true in let f := false in
  {| c_sub := [[t;f;f;f;f;f]; [f;t;f;f;f;f]; [f;t;t;f;f;f]; [f;f;f;t;f;f]; [t;t;t;t;t;f]; [f;f;f;f;f;t]];
     c_mro := [[0]; [1]; [2;1]; [3]; [4;0;2;1;3]; [5]];
     c_offers := [(1, 5, FAlways); (2, 5, FAlways)];
     c_src := 4; c_target := 5; c_flag := false |}.
Lemma comparable_nontrivial :
  exec_comparable f21_twin_config /\ adapt (env_of f21_twin_config) default_fuel = RAdapter [mk_offer_ 1 2 5].
Proof.
  split; [|vm_compute; reflexivity].
  unfold exec_comparable, froms_comparable.
  set (l := filter _ _). vm_compute in l. subst l.
  repeat split.
  - intros o1 o2 [<-|[<-|[]]] [<-|[<-|[]]] Hn Hs; vm_compute in *; congruence.
  - intros o1 o2 o3 [<-|[<-|[]]] [<-|[<-|[]]] [<-|[<-|[]]] H1 H2; vm_compute in *; congruence.
  - intros o1 o2 [<-|[<-|[]]] [<-|[<-|[]]] Hd Hn; vm_compute in *; try congruence; tauto.
Qed.

(* T k bounds the number of queue entries ever produced below a path that can still use k offers *)
Fixpoint T (k : nat) : nat := match k with O => 1 | S k' => 1 + S k' * T k' end.

Section Fuel.
  Variable E : env.
  Hypothesis Hperm : forall p l, Permutation (e_order E p l) l.
  Notation n := (length (e_offers E)).

  Definition weight (e : entry) : nat := T (n - length (snd e)).
  Definition measure (q : list entry) : nat := fold_right (fun e a => weight e + a) 0 q.

  Lemma measure_perm q q' : Permutation q q' -> measure q = measure q'.
  Proof. unfold measure. induction 1; cbn [fold_right]; lia. Qed.

  Lemma filter_and_length {A} (f g : A -> bool) l : length (filter (fun x => f x && g x) l) <= length (filter g l).
  Proof. induction l as [|x l IH]; cbn; [lia|]. destruct (f x), (g x); cbn; lia. Qed.
  Lemma filter_split_length {A} (f : A -> bool) l : length (filter f l) + length (filter (fun x => negb (f x)) l) = length l.
  Proof. induction l as [|x l IH]; cbn; [lia|]. destruct (f x); cbn; lia. Qed.

  Lemma edges_bound p : valid E p = true -> length (filter (usable E p) (e_offers E)) + length p <= n.
  Proof.
    intros Hv. destruct (valid_from_nodup E [] p Hv) as (Hnd & _ & Hin).
    assert (length p <= length (filter (fun o => Model.mem o p) (e_offers E))) as H1.
    { apply NoDup_incl_length; [exact Hnd|]. intros x Hx. apply filter_In. split; [apply Hin; exact Hx|].
      unfold Model.mem. apply existsb_exists. exists x. split; [exact Hx|apply offer_eqb_refl]. }
    pose proof (filter_split_length (fun o => Model.mem o p) (e_offers E)) as H2.
    pose proof (filter_and_length (fun o => e_sub E (cur_of E p) (ofrom o)) (fun o => negb (Model.mem o p)) (e_offers E)) as H3.
    unfold usable. lia.
  Qed.

  Lemma measure_app a b : measure (a ++ b) = measure a + measure b.
  Proof. unfold measure. induction a as [|e a IH]; cbn [app fold_right]; [reflexivity|]. rewrite IH. apply Nat.add_assoc. Qed.

  Lemma expand_measure k p es q cnt q' cnt' : expand E k p es q cnt = (None, q', cnt') ->
    measure q' <= measure q + length es * T (n - S (length p)).
  Proof.
    intros Ex. destruct (expand_none E _ _ _ _ _ _ _ Ex) as (_ & new & -> & Hnew & _). rewrite measure_app.
    assert (length new <= length es) as Hl.
    { assert (length new = length (map snd new)) as -> by (symmetry; apply map_length).
      rewrite Hnew, rev_length, map_length. clear. induction es as [|x es IH]; cbn; [lia|]. destruct (negb _); cbn; lia. }
    assert (measure new = length new * T (n - S (length p))) as ->.
    { assert (forall e, In e new -> weight e = T (n - S (length p))) as Hw.
      { intros e He. destruct (pushed_in E _ _ _ _ Hnew He) as (o & _ & Ee). unfold weight.
        rewrite Ee, app_length, Nat.add_1_r. reflexivity. }
      clear - Hw. induction new as [|e new IH]; [reflexivity|]. cbn [measure fold_right length]. fold (measure new).
      rewrite (Hw e (or_introl eq_refl)), IH by (intros x Hx; apply Hw; right; exact Hx). reflexivity. }
    pose proof (Nat.mul_le_mono_r _ _ (T (n - S (length p))) Hl). lia.
  Qed.

  Theorem search_terminates fuel : forall q cnt, Forall (good E) q -> measure q < fuel -> search E fuel q cnt <> OutOfFuel.
  Proof.
    induction fuel as [|f IH]; intros q cnt Hq Hm; [lia|]. cbn [search].
    destruct (pop_min q) as [[[k p] rest]|] eqn:Eq; [|discriminate].
    destruct (pop_min_Forall (good E) _ _ _ Eq Hq) as [Hp Hrest]. fold (edges E p).
    rewrite <- (measure_perm _ _ (pop_min_in _ _ _ Eq)) in Hm. cbn [measure fold_right] in Hm. fold (measure rest) in Hm.
    unfold weight in Hm. cbn [snd] in Hm.
    assert (length (edges E p) + length p <= n) as Hes.
    { unfold edges. rewrite (Permutation_length (Hperm _ _)). apply edges_bound. apply Hp. }
    destruct (expand E k p (edges E p) rest cnt) as [[[np|] q'] cnt'] eqn:Ex; [discriminate|].
    apply IH; [apply (expand_Forall E (good E) (good_push E Hperm) k p rest cnt q' cnt'); assumption|].
    pose proof (expand_measure k p _ rest cnt q' cnt' Ex) as M. clear - Hm Hes M.
    (* T (n - |p|) = 1 + (n - |p|) * T (n - |p| - 1) pays for the popped entry and for each of its edges *)
    destruct (n - length p) as [|d] eqn:Ed.
    - assert (length (edges E p) = 0) as El by lia. rewrite El in M. cbn in *. lia.
    - replace (n - S (length p)) with d in M by lia. cbn [T] in Hm.
      assert (length (edges E p) * T d <= S d * T d) by (apply Nat.mul_le_mono_r; lia). lia.
  Qed.

  Corollary adapt_search_terminates fuel : T n < fuel -> adapt_search E fuel <> OutOfFuel.
  Proof.
    intros H. apply search_terminates; [apply good_init|]. cbn. unfold weight. cbn. rewrite Nat.sub_0_r. lia.
  Qed.
  Corollary adapt_terminates fuel : T n < fuel -> adapt E fuel <> RFuel.
  Proof.
    intros H. unfold adapt. destruct (e_sub E (e_src E) (e_target E)); [discriminate|].
    pose proof (adapt_search_terminates fuel H). destruct (adapt_search E fuel); congruence.
  Qed.
  Corollary run_api_terminates fuel a : T n < fuel -> run_api E fuel a <> OOutOfFuel.
  Proof.
    intros H. pose proof (adapt_terminates fuel H) as Ha. unfold run_api.
    destruct a as [| | | |[|[|m]]| | |[|[|v]]]; cbn [validate_adapt];
      destruct (adapt E fuel); try congruence; try discriminate;
      destruct (e_sub E (e_src E) (e_target E)); discriminate.
  Qed.
End Fuel.


Lemma hrun_cons fuel st o r : hrun fuel st (o :: r) = (o, snd (hstep fuel st o)) :: hrun fuel (hnext st o) r.
Proof. destruct o; reflexivity. Qed.

Definition answered (h : list (hop * option outcome)) : Prop := forall o, In (o, Some OOutOfFuel) h -> False.

Lemma answered_cons fuel st o r : answered (hrun fuel st (o :: r)) ->
  (forall q, o = HQuery q -> run_api (env_of (config_of st q)) fuel (snd q) <> OOutOfFuel)
  /\ answered (hrun fuel (hnext st o) r).
Proof.
  rewrite hrun_cons. intros Ha. split.
  - intros q -> Ho. apply (Ha (HQuery q)). left. cbn. rewrite Ho. reflexivity.
  - intros o' Ho'. apply (Ha o'). right. exact Ho'.
Qed.

Fixpoint hcomparable (st : hstate) (ops : list hop) : Prop :=
  match ops with
  | [] => True
  | o :: r => match o with HQuery q => exec_comparable (config_of st q) | _ => True end /\ hcomparable (hnext st o) r
  end.

Lemma hrun_law_except_specificity fuel : forall ops st i, answered (hrun fuel st ops) ->
  forall c, In c (hlaw i st (hrun fuel st ops)) -> exists j, c = (100 * j + 6)%Z.
Proof.
  induction ops as [|o r IH]; intros st i Ha c Hc; [destruct Hc|]. destruct (answered_cons _ _ _ _ Ha) as [Hq Hr].
  rewrite hrun_cons in Hc. cbn [hlaw] in Hc. apply in_app_or in Hc. destruct Hc as [Hc|Hc]; [|apply (IH _ _ Hr c Hc)].
  destruct o as [q| | | |]; try destruct Hc. cbn [hstep snd] in Hc.
  apply in_map_iff in Hc. destruct Hc as (c0 & <- & Hc0). exists i. f_equal.
  apply (exec_law_except_specificity (config_of st q) fuel (snd q) (Hq q eq_refl) c0 Hc0).
Qed.

Lemma hrun_law_when_comparable fuel : forall ops st i, answered (hrun fuel st ops) -> hcomparable st ops ->
  hlaw i st (hrun fuel st ops) = [].
Proof.
  induction ops as [|o r IH]; intros st i Ha Hc; [reflexivity|]. destruct Hc as [Hq Hr]. destruct (answered_cons _ _ _ _ Ha) as [Hf Har].
  rewrite hrun_cons. cbn [hlaw]. rewrite (IH _ _ Har Hr), app_nil_r. destruct o as [q| | | |]; try reflexivity.
  cbn [hstep snd]. rewrite (exec_law_when_comparable (config_of st q) Hq fuel (snd q) (Hf q eq_refl)). reflexivity.
Qed.

Lemma T_mono a b : a <= b -> T a <= T b.
Proof.
  induction 1 as [|b Hab IH]; [lia|]. cbn [T]. pose proof (Nat.le_0_l (b * T b)). lia.
Qed.
Lemma number_offers_length l : forall i, length (number_offers i l) = length l.
Proof. induction l as [|[[a b] c] l IH]; intros i; cbn; [reflexivity|]. rewrite IH. reflexivity. Qed.
Fixpoint offers_bounded (k : nat) (st : hstate) (ops : list hop) : Prop :=
  length (h_offers st) <= k /\ match ops with [] => True | o :: r => offers_bounded k (hnext st o) r end.
Lemma hrun_answered fuel k : T k < fuel -> forall ops st, offers_bounded k st ops -> answered (hrun fuel st ops).
Proof.
  intros Hf. induction ops as [|o r IH]; intros st [Hk Hr] o' Hin; [destruct Hin|]. rewrite hrun_cons in Hin.
  destruct Hin as [Hin|Hin]; [|apply (IH _ Hr o' Hin)].
  destruct o as [q| | | |]; try discriminate Hin. cbn [hstep snd] in Hin. injection Hin as _ Hq.
  apply (run_api_terminates (env_of (config_of st q)) (env_of_order_perm _) fuel (snd q)); [|exact Hq].
  assert (length (e_offers (env_of (config_of st q))) <= length (h_offers st)) as Hle.
  { destruct q as [[[a b] f] ap]. cbn. rewrite number_offers_length.
    destruct (uses_global ap && negb (h_global st)); cbn; lia. }
  pose proof (T_mono _ _ Hle). pose proof (T_mono _ _ Hk). lia.
Qed.
