(* C10 — proofs about the model of default values and instance isolation.
   [Model.step w o = step0 (resolved w o) o]: the operation proper, [step0], after the on-demand resolution of a
   wildcard name, [resolved].  Lemmas whose name ends in 0 are about [step0] / [final0] (histories of [step0]); the
   lemmas on [resolved] follow them, and the theorems about [step] combine the two ([step_read], [step_unnamed]:
   when [resolved] changes nothing). *)
From Coq Require Import ZArith List Bool Lia.
From TV Require Import Common.Harness C10.Model C10.Law C10.Corr.
Import ListNotations.
Open Scope Z_scope.

Lemma chk_nil k b : chk k b = [] <-> b = true.
Proof. destruct b; cbn; split; intros; congruence. Qed.

Lemma zlist_eqb_refl l : zlist_eqb l l = true.
Proof. induction l as [|x l IH]; [reflexivity|]. cbn. rewrite Z.eqb_refl. exact IH. Qed.

Lemma zlist_eqb_eq a : forall b, zlist_eqb a b = true -> a = b.
Proof.
  induction a as [|x a IH]; intros [|y b] H; cbn in H; try discriminate; [reflexivity|].
  apply andb_true_iff in H. destruct H as [H1 H2]. apply Z.eqb_eq in H1. subst. f_equal. apply IH. exact H2.
Qed.

Lemma update_nth_length {A} (f : A -> A) l : forall n, length (update_nth n f l) = length l.
Proof. induction l as [|a l IH]; intros [|n]; cbn; try reflexivity. rewrite IH. reflexivity. Qed.

Lemma nth_error_update_nth_other {A} (f : A -> A) l : forall n j, n <> j ->
  nth_error (update_nth n f l) j = nth_error l j.
Proof.
  induction l as [|a l IH]; intros [|n] [|j] H; cbn; try reflexivity; try congruence.
  apply IH. congruence.
Qed.

Lemma nth_update_nth_same {A} (f : A -> A) (d : A) l : forall n, (n < length l)%nat ->
  nth n (update_nth n f l) d = f (nth n l d).
Proof.
  induction l as [|a l IH]; intros [|n] H; cbn in *; try lia; try reflexivity. apply IH. lia.
Qed.

Lemma nth_update_nth_other {A} (f : A -> A) (d : A) l : forall n j, n <> j -> nth j (update_nth n f l) d = nth j l d.
Proof. induction l as [|a l IH]; intros [|n] [|j] H; cbn; try reflexivity; try congruence. apply IH. congruence. Qed.

Lemma nth_update_nth_any {A} (f : A -> A) (d : A) l : forall n j,
  nth j (update_nth n f l) d = if (Nat.eqb n j && Nat.ltb j (length l))%bool then f (nth j l d) else nth j l d.
Proof.
  induction l as [|a l IH]; intros n j.
  - replace (update_nth n f []) with (@nil A) by (destruct n; reflexivity). cbn [length].
    replace (Nat.ltb j 0) with false by (symmetry; apply Nat.ltb_ge; lia). rewrite andb_false_r. reflexivity.
  - destruct n as [|n], j as [|j]; cbn [update_nth nth length]; try reflexivity.
    rewrite IH. reflexivity.
Qed.

Lemma update_nth_id {A} (d : A) l : forall n, (n < length l)%nat ->
  update_nth n (fun _ => nth n l d) l = l.
Proof.
  induction l as [|a l IH]; intros [|n] H; cbn in *; try lia; try reflexivity. rewrite IH by lia. reflexivity.
Qed.

Lemma update_nth_twice {A} (f g : A -> A) l : forall n,
  update_nth n f (update_nth n g l) = update_nth n (fun x => f (g x)) l.
Proof. induction l as [|a l IH]; intros [|n]; cbn; try reflexivity. rewrite IH. reflexivity. Qed.

Lemma update_nth_ext {A} (f g : A -> A) l : forall n, (forall x, f x = g x) -> update_nth n f l = update_nth n g l.
Proof. induction l as [|a l IH]; intros [|n] H; cbn; try reflexivity; [rewrite H | rewrite (IH n H)]; reflexivity. Qed.

Lemma Forall_update_nth {A} (P : A -> Prop) f l : forall n,
  Forall P l -> (forall x, P x -> P (f x)) -> Forall P (update_nth n f l).
Proof.
  induction l as [|a l IH]; intros [|n] H Hf; cbn; try constructor; inversion H; subst; auto.
Qed.

Lemma Forall_nth {A} (P : A -> Prop) l d : forall n, Forall P l -> P d -> P (nth n l d).
Proof. induction l as [|a l IH]; intros [|n] H Hd; cbn; inversion H; subst; auto. Qed.

Lemma fold_left_keeps {A B} (f : A -> B -> A) (P : A -> Prop) :
  (forall a b, P a -> P (f a b)) -> forall l a, P a -> P (fold_left f l a).
Proof. intros H. induction l as [|b l IH]; intros a Ha; [exact Ha|]. apply IH, H, Ha. Qed.

Lemma alookup_app {A} k (a b : list (Z * A)) :
  alookup k (a ++ b) = match alookup k a with Some x => Some x | None => alookup k b end.
Proof. induction a as [|[k' x] a IH]; [reflexivity|]. cbn. destruct (k =? k'); [reflexivity | exact IH]. Qed.

Lemma alookup_aset {A} k k' (x : A) l : alookup k (aset k' x l) = if k =? k' then Some x else alookup k l.
Proof.
  induction l as [|[k2 y] l IH]; cbn.
  - destruct (k =? k'); reflexivity.
  - destruct (Z.eqb_spec k' k2) as [->|Hne]; cbn.
    + destruct (k =? k2); reflexivity.
    + destruct (Z.eqb_spec k k2) as [->|Hne2].
      * destruct (Z.eqb_spec k2 k'); [congruence | reflexivity].
      * exact IH.
Qed.

Lemma alookup_aremove {A} k n (l : list (Z * A)) : alookup k (aremove n l) = if k =? n then None else alookup k l.
Proof.
  unfold aremove. induction l as [|[k2 a] r IH]; cbn [filter alookup fst]; [destruct (k =? n); reflexivity|].
  destruct (Z.eqb_spec n k2) as [->|Hne]; cbn [negb alookup].
  - rewrite IH. destruct (Z.eqb_spec k k2); reflexivity.
  - rewrite IH. destruct (Z.eqb_spec k k2) as [->|]; [|reflexivity].
    destruct (Z.eqb_spec k2 n); [congruence | reflexivity].
Qed.

Lemma alookup_bump_same n l : alookup n l = None -> alookup n (bump n l) = Some 1.
Proof.
  induction l as [|[k c] l IH]; cbn; intros H; [rewrite Z.eqb_refl; reflexivity|].
  destruct (Z.eqb_spec n k) as [->|Hne]; [discriminate|]. cbn.
  destruct (n <? k); cbn.
  - rewrite Z.eqb_refl. reflexivity.
  - destruct (Z.eqb_spec n k); [contradiction | exact (IH H)].
Qed.

Lemma alookup_bump_other n m l : m <> n -> alookup m (bump n l) = alookup m l.
Proof.
  intros Hne. induction l as [|[k c] l IH]; cbn.
  - destruct (Z.eqb_spec m n); [contradiction | reflexivity].
  - destruct (Z.eqb_spec n k) as [->|Hnk]; cbn.
    + destruct (Z.eqb_spec m k); [contradiction | reflexivity].
    + destruct (n <? k); cbn.
      * destruct (Z.eqb_spec m n); [contradiction | reflexivity].
      * destruct (m =? k); [reflexivity | exact IH].
Qed.

Lemma world_eta w : mkW (w_classes w) (w_insts w) (w_next w) = w.
Proof. destruct w; reflexivity. Qed.

Definition final0 (w : world) (ops : list op) : world := fold_left (fun w o => fst (step0 w o)) ops w.

Definition op_index (o : op) : option Z :=
  match o with
  | Read i _ | Assign i _ _ _ | Mutate i _ _ | Register i _ _ _ | AddTrait i _ _ | Introspect i _
  | SetMeta i _ _ | AssignFrom i _ _ | Delete i _ => Some i
  | NewInst _ => None
  end.

Definition valid_index (w : world) (i : Z) : Prop := 0 <= i < Z.of_nat (length (w_insts w)).
Definition inst_at (w : world) (i : Z) : inst := nth (Z.to_nat i) (w_insts w) (new_inst 0).

Lemma range_check w i : valid_index w i -> (i <? 0) || (Z.of_nat (length (w_insts w)) <=? i) = false.
Proof. intros [H1 H2]. apply orb_false_iff. split; [apply Z.ltb_ge | apply Z.leb_gt]; lia. Qed.

Lemma step_shape0 w o :
  (exists c, o = NewInst c) \/
  (step0 w o = (w, error_value) /\ ~ valid_index w (target w o)) \/
  (exists ins' r nx,
      valid_index w (target w o) /\ op_index o = Some (target w o) /\
      step_inst w (inst_at w (target w o)) o = (ins', r, nx) /\
      step0 w o = (mkW (w_classes w) (update_nth (Z.to_nat (target w o)) (fun _ => ins') (w_insts w)) nx, r)).
Proof.
  destruct o as [i n|i n content scalar|i n x|i n hid via|i n t|i n|i n code|i n src|i md|c]; [| | | | | | | | |left; eexists; reflexivity]; right;
    cbn [step0 target op_index];
    (destruct ((i <? 0) || (Z.of_nat (length (w_insts w)) <=? i)) eqn:Ec;
     [left; split; [reflexivity|]; intros Hv; rewrite (range_check w i Hv) in Ec; discriminate
     |right; unfold inst_at;
      match goal with |- context [step_inst w ?a ?o] => destruct (step_inst w a o) as [[ins' r] nx] eqn:Es end;
      exists ins', r, nx; apply orb_false_iff in Ec; destruct Ec as [E1 E2];
      apply Z.ltb_ge in E1; apply Z.leb_gt in E2; unfold valid_index; repeat split; try lia; reflexivity]).
Qed.

Lemma step_classes0 w o : w_classes (fst (step0 w o)) = w_classes w.
Proof. destruct (step_shape0 w o) as [[c ->]|[[-> _]|(ins' & r & nx & _ & _ & _ & ->)]]; reflexivity. Qed.

Lemma final_classes0 ops : forall w, w_classes (final0 w ops) = w_classes w.
Proof.
  intros w. unfold final0. apply (fold_left_keeps _ (fun w' => w_classes w' = w_classes w)); [|reflexivity].
  intros a o <-. apply step_classes0.
Qed.

(* non-interference: no operation changes an instance it does not target, or removes one *)
Lemma step_other_instance0 w o j :
  (j < length (w_insts w))%nat -> op_index o <> Some (Z.of_nat j) ->
  (j < length (w_insts (fst (step0 w o))))%nat /\ nth_error (w_insts (fst (step0 w o))) j = nth_error (w_insts w) j.
Proof.
  intros Hj Hne.
  destruct (step_shape0 w o) as [[c ->]|[[-> _]|(ins' & r & nx & Hv & Hi & _ & ->)]]; cbn [step0 fst w_insts].
  - rewrite app_length. split; [lia | apply nth_error_app1, Hj].
  - split; [exact Hj | reflexivity].
  - rewrite update_nth_length. split; [exact Hj|].
    apply nth_error_update_nth_other. intros E. apply Hne. rewrite Hi. f_equal. rewrite <- E.
    rewrite Z2Nat.id; [reflexivity | destruct Hv; lia].
Qed.

(* ... hence no history does, whatever the step function *)
Lemma others_kept (stp : world -> op -> world) :
  (forall w o j, (j < length (w_insts w))%nat -> op_index o <> Some (Z.of_nat j) ->
                 (j < length (w_insts (stp w o)))%nat /\ nth_error (w_insts (stp w o)) j = nth_error (w_insts w) j) ->
  forall ops w j, (j < length (w_insts w))%nat -> Forall (fun o => op_index o <> Some (Z.of_nat j)) ops ->
                  nth_error (w_insts (fold_left stp ops w)) j = nth_error (w_insts w) j.
Proof.
  intros H. induction ops as [|o ops IH]; intros w j Hj Hall; [reflexivity|].
  inversion Hall as [|? ? Ho Hr]; subst. destruct (H w o j Hj Ho) as [Hj' E]. cbn [fold_left]. rewrite IH; assumption.
Qed.

Lemma final_other_instance0 ops : forall w j,
  (j < length (w_insts w))%nat -> Forall (fun o => op_index o <> Some (Z.of_nat j)) ops ->
  nth_error (w_insts (final0 w ops)) j = nth_error (w_insts w) j.
Proof. exact (others_kept _ step_other_instance0 ops). Qed.

Lemma new_instance_is_empty0 w c :
  nth_error (w_insts (fst (step0 w (NewInst c)))) (length (w_insts w)) = Some (new_inst c)
  /\ w_next (fst (step0 w (NewInst c))) = w_next w.
Proof.
  cbn [step0 fst w_insts w_next]. split; [|reflexivity].
  rewrite nth_error_app2 by lia. rewrite Nat.sub_diag. reflexivity.
Qed.

(* first read of an unassigned trait: the declared default, freshly allocated, stored, silent
   (notify ... None ... = []: the wrappers filter old = Uninitialized) *)
Lemma first_read0 w i n t :
  valid_index w i -> alookup n (i_dict (inst_at w i)) = None -> resolve w (inst_at w i) n = Some t ->
  let ins := inst_at w i in
  let v := fst (default_value t (w_next w)) in
  step0 w (Read i n)
  = (mkW (w_classes w)
         (update_nth (Z.to_nat i)
            (fun _ => mkI (i_cls ins) (i_dict ins ++ [(n, v)]) (i_itraits ins)
                          (if counted t then bump n (i_calls ins) else i_calls ins) (i_log ins) (i_regs ins))
            (w_insts w))
         (snd (default_value t (w_next w))),
     v).
Proof.
  intros Hv Hd Hr. cbn zeta. cbn [step0 target]. rewrite (range_check w i Hv).
  unfold inst_at in *. cbn [step_inst]. rewrite Hd, Hr. unfold materialise.
  destruct (default_value t (w_next w)) as [v next'] eqn:Ed. cbn [fst snd notify].
  rewrite app_nil_r. reflexivity.
Qed.

Lemma step0_inert w o r :
  valid_index w (target w o) -> (forall c, o <> NewInst c) ->
  step_inst w (inst_at w (target w o)) o = (inst_at w (target w o), r, w_next w) -> step0 w o = (w, r).
Proof.
  intros Hv Hno Hs. destruct (step_shape0 w o) as [[c ->]|[[_ Hbad]|(ins' & r' & nx & _ & _ & Hs' & ->)]].
  - destruct (Hno c eq_refl).
  - destruct (Hbad Hv).
  - rewrite Hs in Hs'. injection Hs' as <- <- <-. unfold inst_at.
    rewrite update_nth_id by (destruct Hv; lia). rewrite world_eta. reflexivity.
Qed.

Lemma stored_read0 w i n v :
  valid_index w i -> alookup n (i_dict (inst_at w i)) = Some v -> step0 w (Read i n) = (w, v).
Proof. intros Hv Hd. apply step0_inert; [exact Hv | discriminate |]. cbn [target step_inst]. rewrite Hd. reflexivity. Qed.

Lemma introspect_inert0 w i md : valid_index w i -> step0 w (Introspect i md) = (w, mkV 0 []).
Proof. intros Hv. apply step0_inert; [exact Hv | discriminate | reflexivity]. Qed.

Lemma after_first_read w i n t :
  valid_index w i -> alookup n (i_dict (inst_at w i)) = None -> resolve w (inst_at w i) n = Some t ->
  let w1 := fst (step0 w (Read i n)) in
  valid_index w1 i /\ alookup n (i_dict (inst_at w1 i)) = Some (snd (step0 w (Read i n)))
  /\ resolve w1 (inst_at w1 i) n = Some t.
Proof.
  intros Hv Hd Hr. cbn zeta. rewrite (first_read0 w i n t Hv Hd Hr). cbn [fst snd].
  unfold valid_index, inst_at, resolve, class_of in *. cbn [w_insts w_classes]. rewrite update_nth_length.
  rewrite nth_update_nth_same by (destruct Hv; lia). cbn [i_dict i_itraits i_cls].
  split; [exact Hv|]. split; [|exact Hr]. rewrite alookup_app, Hd. cbn. rewrite Z.eqb_refl. reflexivity.
Qed.

Lemma later_reads_same0 w i n t :
  valid_index w i -> alookup n (i_dict (inst_at w i)) = None -> resolve w (inst_at w i) n = Some t ->
  let w1 := fst (step0 w (Read i n)) in
  let v := snd (step0 w (Read i n)) in
  step0 w1 (Read i n) = (w1, v).
Proof.
  intros Hv Hd Hr. cbn zeta. destruct (after_first_read w i n t Hv Hd Hr) as (Hv1 & Hd1 & _).
  apply stored_read0; assumption.
Qed.

Definition dict_oids (d : list (Z * value)) : list Z := flat_map (fun p => value_oids (snd p)) d.
Definition itrait_oids (its : list (Z * tdef)) : list Z := map (fun p => t_doid (snd p)) its.

Lemma doids_aset (P : Z -> Prop) n t its : Forall P (itrait_oids its) -> P (t_doid t) -> Forall P (itrait_oids (aset n t its)).
Proof.
  intros Hd Hv. induction its as [|[k x] its IH]; cbn [aset itrait_oids map snd] in *.
  - constructor; [exact Hv | constructor].
  - inversion Hd as [|? ? H1 H2]; subst. destruct (n =? k); cbn [itrait_oids map snd]; constructor; auto.
Qed.
Lemma doids_snoc (P : Z -> Prop) n t its : Forall P (itrait_oids its) -> P (t_doid t) -> Forall P (itrait_oids (its ++ [(n, t)])).
Proof. intros Hd Hv. unfold itrait_oids. rewrite map_app. apply Forall_app. split; [exact Hd | constructor; [exact Hv | constructor]]. Qed.
Lemma doids_lookup (P : Z -> Prop) n t (its : list (Z * tdef)) : Forall P (itrait_oids its) -> alookup n its = Some t -> P (t_doid t).
Proof.
  intros Hd Hl. induction its as [|[k x] its IH]; cbn in *; [discriminate|].
  inversion Hd as [|? ? H1 H2]; subst. destruct (n =? k); [injection Hl as <-; exact H1 | apply IH; assumption].
Qed.

Lemma aset_absent {A} n (x : A) d : alookup n d = None -> aset n x d = d ++ [(n, x)].
Proof.
  induction d as [|[k y] d IH]; cbn; [reflexivity|]. destruct (n =? k); [discriminate|]. intros H. rewrite (IH H). reflexivity.
Qed.

Lemma default_value_fresh t next :
  next <= snd (default_value t next) /\
  Forall (fun x => next <= x < snd (default_value t next)) (value_oids (fst (default_value t next))).
Proof.
  unfold default_value, value_oids.
  destruct (t_kind t); cbn [fst snd v_parts map filter];
    repeat match goal with
           | |- context [negb (?a =? 0)] =>
               destruct (Z.eqb_spec a 0) as [E|E]; cbn [negb]; try (exfalso; apply E; reflexivity); clear E
           end;
    (split; [lia|]); repeat constructor; lia.
Qed.

Lemma value_oids_mutate v x : value_oids (mutate_value v x) = value_oids v.
Proof.
  unfold mutate_value, value_oids. destruct v as [sh ps]. cbn [v_shape v_parts].
  destruct sh as [|p|p]; try reflexivity.
  (* the shapes are the numerals 1..8: four binary digits of the positive decide which *)
  do 4 (try (destruct p as [p|p|]; try reflexivity));
    destruct ps as [|[o c] [|[o2 c2] [|[o3 c3] r3]]]; try reflexivity; destruct c; reflexivity.
Qed.

(* The instance-trait transformers of the model put in only definitions the instance or its class has already,
   and events without a default object: whatever holds of those default objects holds afterwards. *)
Section Itraits.
  Variables (w : world) (ins : inst) (P : Z -> Prop).
  Hypothesis P0 : P 0.
  Hypothesis Pcls : forall n t, alookup n (class_of w ins) = Some t -> P (t_doid t).

  Lemma resolve_doid n t : Forall P (itrait_oids (i_itraits ins)) -> resolve w ins n = Some t -> P (t_doid t).
  Proof.
    intros Hi. unfold resolve. destruct (alookup n (i_itraits ins)) as [t0|] eqn:E; [|apply Pcls].
    intros H. injection H as <-. exact (doids_lookup P _ _ _ Hi E).
  Qed.

  Lemma ensure_itrait_doids n t (c : bool) :
    Forall P (itrait_oids (i_itraits ins)) -> P (t_doid t) ->
    Forall P (itrait_oids (if c then ensure_itrait ins n t else i_itraits ins)).
  Proof.
    intros H Ht. destruct c; [|exact H]. unfold ensure_itrait.
    destruct (alookup n (i_itraits ins)); [exact H | apply doids_snoc; assumption].
  Qed.

  Lemma fire_doids (its : list (Z * tdef)) :
    Forall P (itrait_oids its) ->
    Forall P (itrait_oids (match alookup trait_added its, alookup trait_added (class_of w ins) with
                           | None, Some ta => its ++ [(trait_added, ta)]
                           | _, _ => its
                           end)).
  Proof.
    intros H. destruct (alookup trait_added its); [exact H|].
    destruct (alookup trait_added (class_of w ins)) as [ta|] eqn:E; [|exact H].
    apply doids_snoc; [exact H | exact (Pcls _ _ E)].
  Qed.

  Lemma items_fix_doids n v its : Forall P (itrait_oids its) -> Forall P (itrait_oids (items_fix w ins n v its)).
  Proof.
    intros Hb. unfold items_fix. destruct (_ && _); [|exact Hb].
    destruct (alookup (items_name n) its); [exact Hb|]. apply fire_doids, doids_snoc; [exact Hb | exact P0].
  Qed.

  Lemma any_fix_doids n v its : Forall P (itrait_oids its) -> Forall P (itrait_oids (any_fix w ins n v its)).
  Proof.
    intros Hb. unfold any_fix. destruct (_ && _); [|exact Hb].
    destruct (alookup (items_name n) its); [exact Hb|]. apply doids_snoc; [exact Hb|].
    destruct (alookup (items_name n) (class_of w ins)) as [ct|] eqn:Ec; [exact (Pcls _ _ Ec) | exact P0].
  Qed.
End Itraits.

(* The elementary changes of an instance of a class with table [cls], the objects allocated meanwhile being
   lo <= x < hi.  Every operation is a sequence of them ([step_inst_moves]); what each of them keeps, every
   operation keeps. *)
Section Moves.
  Variables (cls : list (Z * tdef)) (lo hi : Z).

  Definition fresh (l : list Z) : Prop := Forall (fun x => lo <= x < hi) l.
  (* default objects of the definitions an operation may put into the instance traits *)
  Definition known (its : list (Z * tdef)) (x : Z) : Prop :=
    x = 0 \/ In x (itrait_oids its) \/ In x (itrait_oids cls) \/ lo <= x < hi.

  Inductive moves : inst -> inst -> Prop :=
  | M_done a : moves a a
  | M_store a n v z :        (* a new value is stored *)
      fresh (value_oids v) ->
      moves (mkI (i_cls a) (aset n v (i_dict a)) (i_itraits a) (i_calls a) (i_log a) (i_regs a)) z -> moves a z
  | M_mutate a n v0 x z :    (* the stored value is edited in place *)
      alookup n (i_dict a) = Some v0 ->
      moves (mkI (i_cls a) (aset n (mutate_value v0 x) (i_dict a)) (i_itraits a) (i_calls a) (i_log a) (i_regs a)) z ->
      moves a z
  | M_default a n v (b : bool) z :   (* an attribute without a value gets one; its default was computed (counted if b) *)
      alookup n (i_dict a) = None -> fresh (value_oids v) ->
      moves (mkI (i_cls a) (i_dict a ++ [(n, v)]) (i_itraits a) (if b then bump n (i_calls a) else i_calls a)
                 (i_log a) (i_regs a)) z ->
      moves a z
  | M_remove a n z :         (* del: value and counter go *)
      moves (mkI (i_cls a) (aremove n (i_dict a)) (i_itraits a) (aremove n (i_calls a)) (i_log a) (i_regs a)) z ->
      moves a z
  | M_itraits a its' lg' rg' z :   (* instance traits, handler log, registry *)
      Forall (known (i_itraits a)) (itrait_oids its') ->
      moves (mkI (i_cls a) (i_dict a) its' (i_calls a) lg' rg') z -> moves a z.

  Lemma known_refl its : Forall (known its) (itrait_oids its).
  Proof. apply Forall_forall. intros x Hx. right. left. exact Hx. Qed.
  Lemma known_class its n t : alookup n cls = Some t -> known its (t_doid t).
  Proof.
    intros E. right. right. left. induction cls as [|[k x] c IH]; cbn in *; [discriminate|].
    destruct (n =? k); [injection E as <-; left; reflexivity | right; exact (IH E)].
  Qed.
End Moves.

Section StepMoves.
  Variables (w : world) (ins : inst).
  Let mv := moves (class_of w ins) (w_next w).
  Let kn := known (class_of w ins) (w_next w).

  (* the outcome of an operation: allocator after, and the way from [ins] to the instance after *)
  Definition outcome (res : inst * value * Z) : Prop :=
    w_next w <= snd res /\ mv (snd res) ins (fst (fst res)).

  Lemma outcome_same r : outcome (ins, r, w_next w).
  Proof. split; [apply Z.le_refl | apply M_done]. Qed.

  Lemma kn_resolve hi n t : resolve w ins n = Some t -> kn hi (i_itraits ins) (t_doid t).
  Proof.
    apply (resolve_doid w ins (kn hi (i_itraits ins))); [intros n' t' E; exact (known_class _ _ _ _ _ _ E) | apply known_refl].
  Qed.
End StepMoves.

(* the last move of an operation: instance traits, log and registry become what the goal says *)
Ltac last_move := eapply M_itraits; [|apply M_done].

Lemma materialise_moves w ins n t :
  alookup n (i_dict ins) = None -> outcome w ins (materialise w ins n t).
Proof.
  intros Hd. unfold materialise. destruct (default_value_fresh t (w_next w)) as [H1 H2].
  destruct (default_value t (w_next w)) as [v nx]. cbn [fst snd] in *. split; [exact H1|]. cbn [fst snd].
  apply (M_default _ _ _ _ n v (counted t)); [exact Hd | exact H2|]. cbn [i_cls i_dict i_itraits i_calls i_log i_regs].
  last_move. apply known_refl.
Qed.

Lemma assign_inst_moves w ins n content scalar : outcome w ins (assign_inst w ins n content scalar).
Proof.
  unfold assign_inst. destruct (resolve w ins n) as [t|] eqn:Er; [|apply outcome_same].
  unfold assigned_value.
  destruct (default_value_fresh (mkT (t_kind t) content scalar 0 0 false 2 0) (w_next w)) as [H1 H2].
  destruct (default_value (mkT (t_kind t) content scalar 0 0 false 2 0) (w_next w)) as [v nx]. cbn [fst snd] in *.
  (* a handler that is called clones the trait into the instance *)
  assert (Hits : forall c : bool, Forall (known (class_of w ins) (w_next w) nx (i_itraits ins))
                                         (itrait_oids (if c then ensure_itrait ins n t else i_itraits ins))).
  { intros c. apply ensure_itrait_doids; [apply known_refl | exact (kn_resolve w ins nx n t Er)]. }
  destruct (hids w ins t n) as [|h hs]; [|destruct (alookup n (i_dict ins)) as [ov|] eqn:Ed];
    (split; [exact H1|]); cbn [fst snd].
  - apply (M_store _ _ _ _ n v); [exact H2 | apply M_done].
  - apply (M_store _ _ _ _ n v); [exact H2|]. last_move. apply Hits.
  - (* the old value shown to the handlers is the default, computed now *)
    rewrite (aset_absent n v _ Ed). apply (M_default _ _ _ _ n v (counted t)); [exact Ed | exact H2|].
    last_move. apply Hits.
Qed.

Lemma delete_inst_moves w ins n : outcome w ins (delete_inst w ins n).
Proof.
  unfold delete_inst. destruct (alookup n (i_dict ins)) as [ov|]; [|apply outcome_same].
  assert (H1 : forall ins1, ins1 = mkI (i_cls ins) (aremove n (i_dict ins)) (i_itraits ins) (aremove n (i_calls ins)) (i_log ins) (i_regs ins) ->
                            outcome w ins (ins1, mkV 0 [], w_next w)).
  { intros ins1 ->. split; [apply Z.le_refl | apply (M_remove _ _ _ _ n), M_done]. }
  destruct (resolve w ins n) as [t|] eqn:Er; [|exact (H1 _ eq_refl)].
  destruct (hids w ins t n) as [|h hs]; [exact (H1 _ eq_refl)|].
  unfold materialise. destruct (default_value_fresh t (w_next w)) as [Hle H2].
  destruct (default_value t (w_next w)) as [v nx]. cbn [fst snd] in *.
  split; [exact Hle|]. cbn [fst snd]. apply (M_remove _ _ _ _ n).
  apply (M_default _ _ _ _ n v (counted t)); [cbn [i_dict]; rewrite alookup_aremove, Z.eqb_refl; reflexivity | exact H2|].
  last_move. apply ensure_itrait_doids; [apply known_refl | exact (kn_resolve w ins nx n t Er)].
Qed.

Section OpMoves.
  Variables (w : world) (ins : inst).
  Let K0 hi : known (class_of w ins) (w_next w) hi (i_itraits ins) 0 := or_introl eq_refl.
  Let Kc hi k t : alookup k (class_of w ins) = Some t -> known (class_of w ins) (w_next w) hi (i_itraits ins) (t_doid t) :=
    known_class _ _ _ _ k t.
  Let Kr := known_refl (class_of w ins) (w_next w).

  Lemma mutate_moves i n x : outcome w ins (step_inst w ins (Mutate i n x)).
  Proof.
    cbn [step_inst]. destruct (alookup n (i_dict ins)) as [v|] eqn:Ed.
    - split; [apply Z.le_refl|]. cbn [fst snd]. apply (M_mutate _ _ _ _ n v x); [exact Ed|].
      last_move. apply (any_fix_doids w ins _ (K0 _) (Kc _)), (items_fix_doids w ins _ (K0 _) (Kc _)), Kr.
    - destruct (resolve w ins n) as [t|]; [|apply outcome_same].
      unfold materialise. destruct (default_value_fresh t (w_next w)) as [H1 H2].
      destruct (default_value t (w_next w)) as [v nx]. cbn [fst snd] in *. split; [exact H1|].
      cbn [fst snd i_cls i_dict i_itraits i_calls i_log i_regs].
      apply (M_default _ _ _ _ n v (counted t)); [exact Ed | exact H2|].
      apply (M_mutate _ _ _ _ n v x); [cbn [i_dict]; rewrite alookup_app, Ed; cbn; rewrite Z.eqb_refl; reflexivity|].
      last_move. apply (any_fix_doids w ins _ (K0 _) (Kc _)), (items_fix_doids w ins _ (K0 _) (Kc _)), Kr.
  Qed.

  Lemma register_moves i n hid via : outcome w ins (step_inst w ins (Register i n hid via)).
  Proof.
    cbn [step_inst]. destruct (n =? any_name); [split; [apply Z.le_refl | last_move; apply Kr]|].
    destruct (resolve w ins n) as [t|] eqn:Er; [|apply outcome_same]. split; [apply Z.le_refl|]. cbn [fst snd]. last_move.
    pose proof (kn_resolve w ins (w_next w) n t Er) as Kt.
    assert (H1 : Forall (known (class_of w ins) (w_next w) (w_next w) (i_itraits ins))
                   (itrait_oids (aset n (mkT (t_kind t) (t_content t) (t_scalar t) (t_doid t) (t_nnotif t + 1) (t_static t) (t_cmp t) (t_label t))
                                      (ensure_itrait ins n t)))).
    { apply doids_aset; [apply (ensure_itrait_doids ins _ n t true); [apply Kr | exact Kt] | exact Kt]. }
    destruct via; [|exact H1].
    match goal with |- context [alookup trait_added ?l] => set (its := l) in * end.
    destruct (alookup trait_added its) as [ta|] eqn:Ea.
    - apply doids_aset; [exact H1 | exact (doids_lookup _ _ _ _ H1 Ea)].
    - destruct (alookup trait_added (class_of w ins)) as [ta|] eqn:Ec; [|exact H1].
      apply doids_snoc; [exact H1 | exact (Kc _ _ _ Ec)].
  Qed.

  (* Only the instance traits change.  Afterwards they are [aset n new its0], followed by trait_added if n had no
     trait, where its0 is the instance traits before or, for a container trait, [aset (items_name n) event its],
     again possibly followed by trait_added.  The script peels these layers from the outside: the new definition's
     default object is the one allocated here (container) or none, the event has none, trait_added is the class's. *)
  Lemma add_trait_moves i n t : outcome w ins (step_inst w ins (AddTrait i n t)).
  Proof.
    cbn [step_inst].
    destruct (match t_kind t with KConst => false | _ => true end); (split; [cbn [snd]; lia|]); cbn [fst snd];
      last_move;
      (match goal with |- context [match ?o with Some _ => _ | None => _ end] => destruct o end; [|apply fire_doids; [apply Kc|]]);
      (apply doids_aset; [|cbn [t_doid]; try apply K0; right; right; right; lia]);
      try apply Kr;
      (match goal with |- context [if ?c then _ else _] => destruct c end; [|apply fire_doids; [apply Kc|]]);
      (apply doids_aset; [apply Kr | apply K0]).
  Qed.

  Lemma step_inst_moves o : outcome w ins (step_inst w ins o).
  Proof.
    pose proof (outcome_same w ins) as Hsame.
    destruct o as [i n|i n content scalar|i n x|i n hid via|i n t|i n|i n code|i n src|i md|c];
      [|apply assign_inst_moves|apply mutate_moves|apply register_moves|apply add_trait_moves|apply delete_inst_moves| | | |];
      cbn [step_inst]; try apply Hsame.
    - destruct (alookup n (i_dict ins)) eqn:Ed; [apply Hsame|].
      destruct (resolve w ins n) as [t|]; [|apply Hsame]. apply materialise_moves, Ed.
    - destruct (alookup n (i_itraits ins)) as [t|] eqn:Et; [|apply Hsame].
      destruct (alookup n (class_of w ins)); [apply Hsame|]. split; [apply Z.le_refl|]. cbn [fst snd].
      last_move. apply doids_aset; [apply Kr | exact (doids_lookup _ _ _ _ (Kr _ _) Et)].
    - destruct (alookup n (i_dict (nth (Z.to_nat src) (w_insts w) (new_inst 0)))) as [v|]; [|apply Hsame].
      destruct ((0 <=? src) && (src <? Z.of_nat (length (w_insts w)))); [|apply Hsame].
      destruct (payload_of v) as [c0 s0]. apply assign_inst_moves.
  Qed.
End OpMoves.

(* every counter is 1 and belongs to a materialised attribute *)
Definition calls_ok (ins : inst) : Prop :=
  Forall (fun p => snd p = 1 /\ alookup (fst p) (i_dict ins) <> None) (i_calls ins).

(* the same of counters against a dict: kept while the dict only grows, and when a default is computed
   for an attribute that is stored in the same operation *)
Definition counts_ok (calls : list (Z * Z)) (d : list (Z * value)) : Prop :=
  Forall (fun p => snd p = 1 /\ alookup (fst p) d <> None) calls.
Definition grows {A} (d d' : list (Z * A)) : Prop := forall m, alookup m d <> None -> alookup m d' <> None.

Lemma grows_aset {A} n (x : A) d : grows d (aset n x d).
Proof. intros m H. rewrite alookup_aset. destruct (m =? n); [discriminate | exact H]. Qed.
Lemma grows_snoc {A} n (x : A) d : grows d (d ++ [(n, x)]).
Proof. intros m H. rewrite alookup_app. destruct (alookup m d); [discriminate | contradiction]. Qed.
Lemma in_snoc {A} n (x : A) d : alookup n (d ++ [(n, x)]) <> None.
Proof. rewrite alookup_app. destruct (alookup n d); [discriminate|]. cbn. rewrite Z.eqb_refl. discriminate. Qed.

Lemma counts_ok_grows calls d d' : counts_ok calls d -> grows d d' -> counts_ok calls d'.
Proof. intros H Hg. eapply Forall_impl; [|exact H]. intros p [H1 H2]. split; [exact H1 | apply Hg, H2]. Qed.

Lemma bump_forall (P : Z * Z -> Prop) n l :
  (forall p, In p l -> fst p <> n) -> Forall P l -> P (n, 1) -> Forall P (bump n l).
Proof.
  intros Hk Hl Hn. induction l as [|[k c] l IH]; cbn.
  - constructor; [exact Hn | constructor].
  - inversion Hl as [|? ? H1 H2]; subst.
    destruct (Z.eqb_spec n k) as [->|Hne]; [exfalso; apply (Hk (k, c)); [left; reflexivity | reflexivity]|].
    destruct (n <? k).
    + constructor; [exact Hn | exact Hl].
    + constructor; [exact H1|]. apply IH; [|exact H2]. intros p Hp. apply Hk. right. exact Hp.
Qed.

(* the default of attribute n, not stored so far, is computed (counted if [b]) and n is stored *)
Lemma counts_ok_default (b : bool) n calls d d' :
  counts_ok calls d -> alookup n d = None -> grows d d' -> alookup n d' <> None ->
  counts_ok (if b then bump n calls else calls) d'.
Proof.
  intros Hok Hd Hg Hn. pose proof (counts_ok_grows _ _ _ Hok Hg) as Hok'. destruct b; [|exact Hok'].
  apply bump_forall; [|exact Hok'|split; [reflexivity | exact Hn]].
  intros p Hp E. unfold counts_ok in Hok. rewrite Forall_forall in Hok. destruct (Hok p Hp) as [_ Hin].
  rewrite E in Hin. contradiction.
Qed.

Lemma counts_ok_aremove n calls d : counts_ok calls d -> counts_ok (aremove n calls) (aremove n d).
Proof.
  intros Hok. apply Forall_forall. intros p Hp. apply filter_In in Hp. destruct Hp as [Hin Hne].
  unfold counts_ok in Hok. rewrite Forall_forall in Hok. destruct (Hok p Hin) as [Hc Hd].
  split; [exact Hc|]. rewrite alookup_aremove. apply negb_true_iff in Hne. rewrite Z.eqb_sym, Hne. exact Hd.
Qed.

Lemma moves_calls_ok cls lo hi a z : moves cls lo hi a z -> calls_ok a -> calls_ok z.
Proof.
  induction 1 as [a|a n v z Hf _ IH|a n v0 x z Hl _ IH|a n v b z Hd Hf _ IH|a n z _ IH|a its' lg' rg' z Hk _ IH];
    intros Hok; [exact Hok|apply IH..].
  - exact (counts_ok_grows _ _ _ Hok (grows_aset n v _)).
  - exact (counts_ok_grows _ _ _ Hok (grows_aset n _ _)).
  - exact (counts_ok_default b n _ _ _ Hok Hd (grows_snoc n v _) (in_snoc n v _)).
  - exact (counts_ok_aremove n _ _ Hok).
  - exact Hok.
Qed.

Lemma step_inst_calls_ok w ins o : calls_ok ins -> calls_ok (fst (fst (step_inst w ins o))).
Proof. exact (moves_calls_ok _ _ _ _ _ (proj2 (step_inst_moves w ins o))). Qed.

Definition world_calls_ok (w : world) : Prop := Forall calls_ok (w_insts w).

Lemma new_inst_calls_ok c : calls_ok (new_inst c).
Proof. constructor. Qed.

Lemma inst_at_calls_ok w i : world_calls_ok w -> calls_ok (inst_at w i).
Proof. intros H. unfold inst_at. apply Forall_nth; [exact H | apply new_inst_calls_ok]. Qed.

Lemma step_calls_ok0 w o : world_calls_ok w -> world_calls_ok (fst (step0 w o)).
Proof.
  unfold world_calls_ok. intros H.
  destruct (step_shape0 w o) as [[c ->]|[[-> _]|(ins' & r & nx & _ & _ & Hs & ->)]]; cbn [step0 fst w_insts].
  - apply Forall_app. split; [exact H | constructor; [apply new_inst_calls_ok | constructor]].
  - exact H.
  - apply Forall_update_nth; [exact H | intros _ _].
    pose proof (step_inst_calls_ok w _ o (inst_at_calls_ok w (target w o) H)) as H'. rewrite Hs in H'. exact H'.
Qed.

Lemma final_calls_ok0 ops : forall w, world_calls_ok w -> world_calls_ok (final0 w ops).
Proof. intros w. apply fold_left_keeps. intros a o. apply step_calls_ok0. Qed.

Lemma calls_ok_in w ins n c :
  world_calls_ok w -> In ins (w_insts w) -> In (n, c) (i_calls ins) -> c = 1 /\ alookup n (i_dict ins) <> None.
Proof.
  intros H Hin Hl. unfold world_calls_ok in H. rewrite Forall_forall in H. specialize (H ins Hin).
  unfold calls_ok in H. rewrite Forall_forall in H. exact (H (n, c) Hl).
Qed.

Lemma default_method_once0 cls next0 ops ins n c :
  In ins (w_insts (final0 (mkW cls [] next0) ops)) -> In (n, c) (i_calls ins) ->
  c = 1 /\ alookup n (i_dict ins) <> None.
Proof. apply calls_ok_in, final_calls_ok0. constructor. Qed.

(* allocation: every object in the world lies below the allocator, every
   default is allocated at or above it — so a default never aliases anything *)

Definition below (b : Z) (l : list Z) : Prop := Forall (fun x => x < b) l.
Definition class_oids (w : world) : list Z := flat_map (fun c => map (fun p => t_doid (snd p)) c) (w_classes w).

Lemma below_weaken b b' l : b <= b' -> below b l -> below b' l.
Proof. intros H. unfold below. apply Forall_impl. intros; lia. Qed.
Lemma below_app b l1 l2 : below b (l1 ++ l2) <-> below b l1 /\ below b l2.
Proof. unfold below. apply Forall_app. Qed.
Lemma below_flat_map {A} b (f : A -> list Z) l : below b (flat_map f l) <-> Forall (fun a => below b (f a)) l.
Proof.
  induction l as [|a l IH]; cbn; [split; constructor|]. rewrite below_app, IH. split.
  - intros [H1 H2]. constructor; assumption.
  - intros H. inversion H; subst. split; assumption.
Qed.
Lemma between_below a b l : Forall (fun x => a <= x < b) l -> below b l.
Proof. apply Forall_impl. intros; lia. Qed.

Lemma below_inst b ins :
  below b (inst_oids ins) <-> below b (dict_oids (i_dict ins)) /\ below b (itrait_oids (i_itraits ins)).
Proof. apply below_app. Qed.

Lemma below_dict_aset b n v d : below b (dict_oids d) -> below b (value_oids v) -> below b (dict_oids (aset n v d)).
Proof.
  intros Hd Hv. induction d as [|[k x] d IH]; cbn [aset dict_oids flat_map snd] in *.
  - rewrite app_nil_r. exact Hv.
  - apply below_app in Hd. destruct Hd as [H1 H2]. destruct (n =? k); cbn [dict_oids flat_map snd]; apply below_app.
    + split; assumption.
    + split; [exact H1 | apply IH; exact H2].
Qed.

Lemma below_dict_snoc b n v d : below b (dict_oids d) -> below b (value_oids v) -> below b (dict_oids (d ++ [(n, v)])).
Proof.
  intros Hd Hv. unfold dict_oids. rewrite flat_map_app. apply below_app. split; [exact Hd|].
  cbn. rewrite app_nil_r. exact Hv.
Qed.

Lemma below_dict_aremove b n d : below b (dict_oids d) -> below b (dict_oids (aremove n d)).
Proof.
  intros Hd. unfold aremove. induction d as [|[k x] d IH]; cbn [filter dict_oids flat_map snd fst] in *; [constructor|].
  apply below_app in Hd. destruct Hd as [H1 H2]. destruct (negb (n =? k)); cbn [dict_oids flat_map snd];
    [apply below_app; split; [exact H1 | apply IH, H2] | apply IH, H2].
Qed.

Lemma below_dict_lookup b n v d : below b (dict_oids d) -> alookup n d = Some v -> below b (value_oids v).
Proof.
  intros Hd Hl. induction d as [|[k x] d IH]; cbn in *; [discriminate|].
  apply below_app in Hd. destruct Hd as [H1 H2]. destruct (n =? k); [injection Hl as <-; exact H1 | apply IH; assumption].
Qed.

Lemma class_table_below w b ins : below b (class_oids w) -> below b (itrait_oids (class_of w ins)).
Proof.
  unfold class_oids, class_of. intros Hb. apply below_flat_map in Hb.
  apply (Forall_nth (fun cl => below b (itrait_oids cl))); [exact Hb | constructor].
Qed.

Lemma class_of_below w b ins n t : below b (class_oids w) -> alookup n (class_of w ins) = Some t -> t_doid t < b.
Proof. intros Hb. exact (doids_lookup (fun x => x < b) n t _ (class_table_below w b ins Hb)). Qed.

Lemma moves_below cls lo hi a z :
  moves cls lo hi a z -> 0 < hi -> below hi (itrait_oids cls) -> below hi (inst_oids a) -> below hi (inst_oids z).
Proof.
  intros H Hp Hc.
  induction H as [a|a n v z Hf _ IH|a n v0 x z Hl _ IH|a n v b z Hd Hf _ IH|a n z _ IH|a its' lg' rg' z Hk _ IH];
    intros Hb; [exact Hb|apply IH; apply below_inst in Hb; destruct Hb as [Hd' Hi]; apply below_inst; (split; [|try exact Hi])..].
  - exact (below_dict_aset _ _ _ _ Hd' (between_below _ _ _ Hf)).
  - apply below_dict_aset; [exact Hd'|]. rewrite value_oids_mutate. exact (below_dict_lookup _ _ _ _ Hd' Hl).
  - exact (below_dict_snoc _ _ _ _ Hd' (between_below _ _ _ Hf)).
  - exact (below_dict_aremove _ _ _ Hd').
  - exact Hd'.
  - (* a definition put into the instance traits has no default object, one that was there, or a new one *)
    eapply Forall_impl; [|exact Hk]. unfold below in Hi, Hc. rewrite Forall_forall in Hi, Hc.
    intros x [->|[Hx|[Hx|Hx]]]; [exact Hp | exact (Hi x Hx) | exact (Hc x Hx) | lia].
Qed.

Lemma step_inst_below w ins o :
  0 < w_next w -> below (w_next w) (class_oids w) -> below (w_next w) (inst_oids ins) ->
  w_next w <= snd (step_inst w ins o) /\ below (snd (step_inst w ins o)) (inst_oids (fst (fst (step_inst w ins o)))).
Proof.
  intros Hp Hc Hb. destruct (step_inst_moves w ins o) as [Hle Hm]. split; [exact Hle|].
  apply (moves_below _ _ _ _ _ Hm); [lia | apply class_table_below | ]; eapply below_weaken; eassumption.
Qed.

Lemma below_insert_row b n t c : below b (itrait_oids c) -> t_doid t < b -> below b (itrait_oids (insert_row n t c)).
Proof.
  intros Hc Ht. induction c as [|[k2 t2] r IH]; cbn [insert_row itrait_oids map snd].
  - constructor; [exact Ht | constructor].
  - inversion Hc as [|? ? H1 H2]; subst. destruct ((k2 <? 0) || (n <? k2)); cbn [itrait_oids map snd].
    + constructor; [exact Ht | exact Hc].
    + constructor; [exact H1 | apply IH, H2].
Qed.

Definition wf (w : world) : Prop :=
  0 < w_next w /\ below (w_next w) (class_oids w)
  /\ Forall (fun ins => below (w_next w) (inst_oids ins)) (w_insts w)
  /\ world_calls_ok w.

Lemma wf_calls_ok w : wf w -> world_calls_ok w.
Proof. intros (_ & _ & _ & H). exact H. Qed.

Lemma world_oids_below w b :
  below b (world_oids w) <-> below b (class_oids w) /\ Forall (fun ins => below b (inst_oids ins)) (w_insts w).
Proof. unfold world_oids. rewrite below_app. fold (class_oids w). rewrite (below_flat_map b inst_oids). reflexivity. Qed.

(* what is allocated from a well-formed world on is no object of that world *)
Lemma fresh_not_in w b l : wf w -> Forall (fun x => w_next w <= x < b) l -> forall x, In x l -> ~ In x (world_oids w).
Proof.
  intros (_ & Hc & Hi & _) Hl x Hx Hin. rewrite Forall_forall in Hl. specialize (Hl x Hx).
  assert (Hb : below (w_next w) (world_oids w)) by (apply world_oids_below; split; assumption).
  unfold below in Hb. rewrite Forall_forall in Hb. specialize (Hb x Hin). lia.
Qed.

Lemma wf_init cls next0 : 0 < next0 -> below next0 (flat_map (fun c => map (fun p => t_doid (snd p)) c) cls) ->
  wf (mkW cls [] next0).
Proof. intros H1 H2. repeat split; try assumption; constructor. Qed.

Lemma inst_at_below w i : wf w -> below (w_next w) (inst_oids (inst_at w i)).
Proof.
  intros (_ & _ & Hi & _). unfold inst_at.
  apply (Forall_nth (fun ins => below (w_next w) (inst_oids ins))); [exact Hi | constructor].
Qed.

Lemma step_wf0 w o : wf w -> wf (fst (step0 w o)).
Proof.
  intros Hwf. pose proof Hwf as (Hp & Hc & Hi & Hk). pose proof (step_calls_ok0 w o Hk) as Hk'.
  destruct (step_shape0 w o) as [[c ->]|[[E _]|(ins' & r & nx & Hv & _ & Hs & E)]].
  - cbn [step0 fst] in *. repeat split; try assumption. cbn [w_insts w_next].
    apply Forall_app. split; [exact Hi | constructor; [constructor | constructor]].
  - rewrite E. exact Hwf.
  - rewrite E in *. cbn [fst w_next w_insts w_classes] in *.
    pose proof (step_inst_below w _ o Hp Hc (inst_at_below w (target w o) Hwf)) as H. rewrite Hs in H. destruct H as [Hle Hb'].
    unfold wf, class_oids in *. cbn [w_next w_insts w_classes fst snd] in *.
    split; [lia|]. split; [eapply below_weaken; eassumption|]. split; [|exact Hk'].
    apply Forall_update_nth.
    + eapply Forall_impl; [|exact Hi]. intros a Ha. eapply below_weaken; eassumption.
    + intros _ _. exact Hb'.
Qed.

Lemma final_wf0 ops : forall w, wf w -> wf (final0 w ops).
Proof. intros w. apply fold_left_keeps. intros a o. apply step_wf0. Qed.

Lemma default_not_aliased0 w i n t :
  wf w -> valid_index w i -> alookup n (i_dict (inst_at w i)) = None -> resolve w (inst_at w i) n = Some t ->
  forall x, In x (value_oids (snd (step0 w (Read i n)))) -> ~ In x (world_oids w).
Proof.
  intros Hwf Hv Hd Hr. rewrite (first_read0 w i n t Hv Hd Hr). cbn [snd].
  exact (fresh_not_in w _ _ Hwf (proj2 (default_value_fresh t (w_next w)))).
Qed.

Definition valid_op0 (w : world) (o : op) : Prop :=
  match op_index o with Some i => valid_index w i | None => True end.

Lemma others_ok_app i : forall insts j rest,
  others_ok i j insts (map (fun x => digest (enc_inst x)) insts ++ rest) = true.
Proof.
  induction insts as [|a l IH]; intros j rest; [reflexivity|]. cbn [map app others_ok].
  rewrite Z.eqb_refl, orb_true_r. cbn [andb]. apply IH.
Qed.

Lemma others_ok_update i f : forall insts j k,
  i = j + Z.of_nat k ->
  others_ok i j insts (map (fun x => digest (enc_inst x)) (update_nth k f insts)) = true.
Proof.
  induction insts as [|a l IH]; intros j k Hi; [reflexivity|]. destruct k as [|k]; cbn [update_nth map others_ok].
  - replace (j =? i) with true by (symmetry; apply Z.eqb_eq; lia). cbn [orb andb].
    pose proof (others_ok_app i l (j + 1) []) as H. rewrite app_nil_r in H. exact H.
  - rewrite Z.eqb_refl, orb_true_r. cbn [andb]. apply IH. lia.
Qed.

Lemma inst_eqb_refl a : inst_eqb a a = true. Proof. apply zlist_eqb_refl. Qed.
Lemma value_eqb_refl a : value_eqb a a = true. Proof. apply zlist_eqb_refl. Qed.

Lemma calls_ok_leb ins : calls_ok ins -> forallb (fun p => snd p <=? 1) (i_calls ins) = true.
Proof.
  unfold calls_ok. intros H. apply forallb_forall. intros p Hp. rewrite Forall_forall in H.
  destruct (H p Hp) as [-> _]. reflexivity.
Qed.

Lemma default_value_like t next : 0 < next -> t_kind t <> KEvent ->
  value_like (fst (default_value t next)) (fst (default_value t 1)) = true
  /\ v_shape (fst (default_value t next)) <> 9.
Proof.
  intros Hp Hk.
  assert (E0 : (next =? 0) = false) by (apply Z.eqb_neq; lia).
  assert (E1 : (next + 1 =? 0) = false) by (apply Z.eqb_neq; lia).
  assert (E1' : (next + 2 =? 0) = false) by (apply Z.eqb_neq; lia).
  unfold default_value, value_like. destruct (t_kind t); try congruence;
    cbn [fst v_shape v_parts parts_like]; rewrite ?E0, ?E1, ?E1', ?zlist_eqb_refl; cbn; (split; [reflexivity | discriminate]).
Qed.

Lemma default_value_nodup t next : 0 < next -> znodup (value_oids (fst (default_value t next))) = true.
Proof.
  intros Hp.
  assert (E0 : (next =? 0) = false) by (apply Z.eqb_neq; lia).
  assert (E1 : (next + 1 =? 0) = false) by (apply Z.eqb_neq; lia).
  assert (E2 : (next =? next + 1) = false) by (apply Z.eqb_neq; lia).
  assert (E1' : (next + 2 =? 0) = false) by (apply Z.eqb_neq; lia).
  assert (E3 : (next =? next + 2) = false) by (apply Z.eqb_neq; lia).
  assert (E4 : (next + 1 =? next + 2) = false) by (apply Z.eqb_neq; lia).
  unfold default_value, value_oids. destruct (t_kind t); cbn [fst v_parts map filter fst];
    rewrite ?E0, ?E1, ?E1'; cbn [negb filter znodup zmem existsb andb orb]; rewrite ?E2, ?E3, ?E4; reflexivity.
Qed.

Lemma fresh_forallb w b l :
  wf w -> Forall (fun x => w_next w <= x < b) l -> forallb (fun x => negb (zmem x (world_oids w))) l = true.
Proof.
  intros Hwf Hl. apply forallb_forall. intros x Hx. apply negb_true_iff.
  destruct (zmem x (world_oids w)) eqn:Ez; [|reflexivity]. exfalso.
  unfold zmem in Ez. apply existsb_exists in Ez. destruct Ez as [y [Hy Exy]]. apply Z.eqb_eq in Exy. subst y.
  exact (fresh_not_in w b l Hwf Hl x Hx Hy).
Qed.

(* what the model shows of an operation that rewrote slot i *)
Definition shown (w : world) (i : Z) (ins' : inst) (r : value) (nx : Z) : obs :=
  mkO r ins' (map (fun x => digest (enc_inst x)) (update_nth (Z.to_nat i) (fun _ => ins') (w_insts w)))
      (digest (enc_classes (w_classes w))) nx (match v_shape r with 9 => true | _ => false end).

(* clauses 3, 6, 7, 8, 10 of [Law.law_core], as they read on [shown]: they do not depend on the kind of operation *)
Lemma common_clauses w o ins' r nx :
  wf w -> valid_index w (target w o) -> (forall c, o <> NewInst c) ->
  calls_ok ins' ->
  let i := target w o in
  let ob := shown w i ins' r nx in
  chk 3 (forallb (fun p => snd p <=? 1) (i_calls (o_target ob)))
  ++ chk 6 (others_ok i 0 (w_insts w) (o_digests ob)
            && (zlen (o_digests ob) =? zlen (w_insts w) + (match o with NewInst _ => 1 | _ => 0 end)))
  ++ chk 7 (o_classes ob =? digest (enc_classes (w_classes w)))
  ++ chk 8 (match o with NewInst c => inst_eqb (o_target ob) (new_inst c) | _ => true end)
  ++ chk 10 (opt_eqb Z.eqb (nth_error (o_digests ob) (Z.to_nat i)) (Some (digest (enc_inst (o_target ob))))) = [].
Proof.
  intros Hwf Hv Hno Hc. cbn zeta. unfold shown. cbn [o_target o_digests o_classes].
  rewrite (calls_ok_leb _ Hc). rewrite others_ok_update by (destruct Hv; rewrite Z2Nat.id; lia).
  unfold zlen. rewrite map_length, update_nth_length.
  assert (E8 : match o with NewInst c => inst_eqb ins' (new_inst c) | _ => true end = true).
  { destruct o; try reflexivity. exfalso. eapply Hno. reflexivity. }
  rewrite E8.
  assert (E6 : (Z.of_nat (length (w_insts w)) =? Z.of_nat (length (w_insts w)) + match o with NewInst _ => 1 | _ => 0 end) = true).
  { destruct o; try (apply Z.eqb_eq; lia). exfalso. eapply Hno. reflexivity. }
  rewrite E6, Z.eqb_refl. cbn [andb chk app].
  assert (Hlt : (Z.to_nat (target w o) < length (w_insts w))%nat) by (destruct Hv; lia).
  rewrite nth_error_map.
  rewrite (nth_error_nth' _ (new_inst 0)) by (rewrite update_nth_length; exact Hlt).
  rewrite nth_update_nth_same by exact Hlt. cbn [option_map opt_eqb]. rewrite Z.eqb_refl. reflexivity.
Qed.

Lemma exc_flag_false s : s <> 9 -> match s with 9 => true | _ => false end = false.
Proof.
  intros H. destruct s as [|p|p]; try reflexivity.
  (* 9 has four binary digits *)
  do 4 (try (destruct p as [p|p|]; try reflexivity)). contradiction.
Qed.

Lemma observe_normal0 w o ins' r nx :
  step0 w o = (mkW (w_classes w) (update_nth (Z.to_nat (target w o)) (fun _ => ins') (w_insts w)) nx, r) ->
  valid_index w (target w o) ->
  observe0 w o = shown w (target w o) ins' r nx.
Proof.
  intros E Hv. unfold observe0, shown. rewrite E. cbn [w_insts w_classes w_next]. f_equal.
  apply nth_update_nth_same. destruct Hv. lia.
Qed.

Lemma in_range w i : valid_index w i -> (0 <=? i) && (i <? zlen (w_insts w)) = true.
Proof. intros [H1 H2]. unfold zlen. apply andb_true_iff. split; [apply Z.leb_le | apply Z.ltb_lt]; lia. Qed.

(* [is_default_read] tests the kind against KEvent only *)
Lemma not_event_match {A} k (x y : A) : k <> KEvent -> match k with KEvent => x | _ => y end = y.
Proof. destruct k; congruence. Qed.

(* clauses 11, 1, 5, 9 (first read), 4 (stored read) and 2 of [Law.law_core] for a Read *)
Lemma read_clauses w i n ins' r nx :
  wf w -> valid_index w i -> step_inst w (inst_at w i) (Read i n) = (ins', r, nx) ->
  let ob := shown w i ins' r nx in
  match is_default_read w (Read i n) with
  | Some (ins, n, t) =>
      chk 11 (negb (o_exc ob))
      ++ chk 1 (value_like (o_ret ob) (fst (default_value t 1)))
      ++ chk 5 (znodup (value_oids (o_ret ob))
                && forallb (fun x => negb (zmem x (world_oids w))) (value_oids (o_ret ob)))
      ++ chk 9 (opt_eqb value_eqb (alookup n (i_dict (o_target ob))) (Some (o_ret ob))
                && (zlen (i_dict (o_target ob)) =? zlen (i_dict ins) + 1)
                && zlist_eqb (flat_map (fun p => fst p :: enc_tdef (snd p)) (i_itraits (o_target ob)))
                             (flat_map (fun p => fst p :: enc_tdef (snd p)) (i_itraits ins)))
  | None => []
  end
  ++ match is_stored_read w (Read i n) with
     | Some (ins, v) => chk 4 (value_eqb (o_ret ob) v && inst_eqb (o_target ob) ins)
     | None => []
     end
  ++ chk 2 (negb (is_read (Read i n)) || (zlen (i_log (o_target ob)) =? zlen (i_log (inst_at w i)))) = [].
Proof.
  intros Hwf Hv Hs. cbn zeta. unfold shown. cbn [o_ret o_target o_exc is_read negb orb].
  unfold is_default_read, is_stored_read. rewrite (in_range w i Hv). fold (inst_at w i).
  cbn [step_inst] in Hs. destruct (alookup n (i_dict (inst_at w i))) as [v|] eqn:Ed.
  - injection Hs as <- <- <-. rewrite value_eqb_refl, inst_eqb_refl, Z.eqb_refl. reflexivity.
  - destruct (resolve w (inst_at w i) n) as [t|] eqn:Er; [|injection Hs as <- <- <-; rewrite Z.eqb_refl; reflexivity].
    unfold materialise in Hs. destruct (default_value t (w_next w)) as [v nx0] eqn:Edv.
    injection Hs as <- <- <-. cbn [i_log i_dict i_itraits notify]. rewrite ?app_nil_r, Z.eqb_refl.
    assert (Hk : t_kind t = KEvent \/ t_kind t <> KEvent) by (destruct (t_kind t); auto; right; discriminate).
    destruct Hk as [Hk|Hk]; [rewrite Hk; reflexivity|]. rewrite (not_event_match _ _ _ Hk).
    pose proof (proj1 Hwf) as Hp.
    destruct (default_value_like t (w_next w) Hp Hk) as [Hl Hsh].
    pose proof (default_value_nodup t (w_next w) Hp) as Hnd.
    pose proof (fresh_forallb w _ _ Hwf (proj2 (default_value_fresh t (w_next w)))) as Hfresh.
    rewrite Edv in Hl, Hsh, Hnd, Hfresh. cbn [fst snd] in Hl, Hsh, Hnd, Hfresh.
    rewrite (exc_flag_false _ Hsh), Hl, Hnd, Hfresh.
    rewrite alookup_app, Ed. cbn [alookup]. rewrite Z.eqb_refl. cbn [opt_eqb].
    rewrite value_eqb_refl, zlist_eqb_refl. unfold zlen. rewrite app_length. cbn [length].
    replace (Z.of_nat (length (i_dict (inst_at w i)) + 1) =? Z.of_nat (length (i_dict (inst_at w i))) + 1)
      with true by (symmetry; apply Z.eqb_eq; lia).
    reflexivity.
Qed.

Lemma app3_nil {A} (a b c rest : list A) : a ++ b ++ c = [] -> rest = [] -> a ++ b ++ c ++ rest = [].
Proof.
  intros H ->. rewrite app_nil_r. exact H.
Qed.

Lemma valid_op0_shape w o :
  valid_op0 w o ->
  (exists c, o = NewInst c) \/
  exists ins' r nx,
    valid_index w (target w o) /\ op_index o = Some (target w o) /\
    step_inst w (inst_at w (target w o)) o = (ins', r, nx) /\
    step0 w o = (mkW (w_classes w) (update_nth (Z.to_nat (target w o)) (fun _ => ins') (w_insts w)) nx, r).
Proof.
  intros Hvo. destruct (step_shape0 w o) as [H|[[Eerr Hbad]|H]]; [left; exact H| |right; exact H].
  exfalso. unfold valid_op0 in Hvo. destruct o; cbn [op_index target] in *; try (apply Hbad; exact Hvo).
  cbn [step0] in Eerr. unfold error_value in Eerr. congruence.
Qed.

(* Every clause of the law holds on what the operation proper shows, in every well-formed world: a NewInst by
   computation; otherwise the clauses of [common_clauses] and, for a Read, of [read_clauses]. *)
Theorem law_on_model0 w o : wf w -> valid_op0 w o -> law_core w o (observe0 w o) = [].
Proof.
  intros Hwf Hvo. destruct (valid_op0_shape w o Hvo) as [[c ->]|(ins' & r & nx & Hv & Hi & Hs & E)].
  - unfold observe0, law_core. cbn [addressed negb].
    cbn [step0 target w_insts w_classes w_next is_default_read is_stored_read is_read negb orb app
                                   o_ret o_target o_digests o_classes o_exc].
    rewrite Nat2Z.id. rewrite app_nth2 by lia. rewrite Nat.sub_diag. cbn [nth new_inst i_calls forallb i_log].
    rewrite map_app, others_ok_app. unfold zlen. rewrite app_length, !map_length. cbn [length map].
    rewrite Z.eqb_refl, inst_eqb_refl.
    replace (Z.of_nat (length (w_insts w) + 1) =? Z.of_nat (length (w_insts w)) + 1) with true
      by (symmetry; apply Z.eqb_eq; lia).
    rewrite nth_error_app2 by (rewrite map_length; lia). rewrite map_length, Nat.sub_diag. cbn. rewrite Z.eqb_refl. reflexivity.
  - rewrite (observe_normal0 w o ins' r nx E Hv).
    assert (Hno : forall c, o <> NewInst c) by (intros c ->; discriminate).
    assert (Hc : calls_ok ins').
    { pose proof (step_inst_calls_ok w _ o (inst_at_calls_ok w (target w o) (wf_calls_ok w Hwf))) as H.
      rewrite Hs in H. exact H. }
    pose proof (common_clauses w o ins' r nx Hwf Hv Hno Hc) as Hcommon. cbn zeta in Hcommon.
    unfold law_core.
    assert (Hadd : addressed w o = true).
    { unfold addressed. destruct o; try reflexivity; apply in_range; exact Hv. }
    rewrite Hadd. cbn [negb]. fold (inst_at w (target w o)).
    destruct o as [i n|i n content scalar|i n x|i n hid via|i n t|i n|i n code|i n src|i md|c]; try (exfalso; eapply Hno; reflexivity);
      try (cbn [is_default_read is_stored_read is_read negb orb chk app]; exact Hcommon).
    pose proof (read_clauses w i n ins' r nx Hwf Hv Hs) as Hr. cbn zeta in Hr. cbn [target] in *.
    exact (app3_nil _ _ _ _ Hr Hcommon).
Qed.

Lemma track_observe0 w o : valid_op0 w o -> track0 w o (observe0 w o) = fst (step0 w o).
Proof.
  intros Hvo. destruct (valid_op0_shape w o Hvo) as [[c ->]|(ins' & r & nx & Hv & Hi & Hs & E)].
  - unfold track0, observe0. cbn [step0 fst o_target o_next w_insts w_next w_classes target].
    rewrite Nat2Z.id, app_nth2 by lia. rewrite Nat.sub_diag. reflexivity.
  - rewrite (observe_normal0 w o ins' r nx E Hv), E. unfold track0. cbn [o_target o_next fst].
    destruct o; try reflexivity. discriminate Hi.
Qed.

Lemma set_meta_effect0 w i n code t :
  valid_index w i -> alookup n (i_itraits (inst_at w i)) = Some t -> alookup n (class_of w (inst_at w i)) = None ->
  let ins := inst_at w i in
  step0 w (SetMeta i n code)
  = (mkW (w_classes w)
         (update_nth (Z.to_nat i)
            (fun _ => mkI (i_cls ins) (i_dict ins)
                          (aset n (mkT (t_kind t) (t_content t) (t_scalar t) (t_doid t) (t_nnotif t) (t_static t) (t_cmp t) code)
                                (i_itraits ins))
                          (i_calls ins) (i_log ins) (i_regs ins))
            (w_insts w))
         (w_next w),
     mkV 0 []).
Proof.
  intros Hv Ht Hc. cbn zeta. cbn [step0 target]. rewrite (range_check w i Hv). unfold inst_at in *.
  cbn [step_inst]. rewrite Ht, Hc. reflexivity.
Qed.

Lemma assign_inst_stores w ins n content scalar t :
  resolve w ins n = Some t ->
  alookup n (i_dict (fst (fst (assign_inst w ins n content scalar))))
  = Some (fst (assigned_value t content scalar (w_next w))).
Proof.
  intros Hr. unfold assign_inst. rewrite Hr. destruct (assigned_value t content scalar (w_next w)) as [v nx]. cbn [fst].
  destruct (hids w ins t n) as [|h hs]; [cbn [fst i_dict]; rewrite alookup_aset, Z.eqb_refl; reflexivity|].
  destruct (alookup n (i_dict ins)); cbn [fst i_dict]; rewrite alookup_aset, Z.eqb_refl; reflexivity.
Qed.

Lemma assign_from_copies0 w i n src t v :
  wf w -> valid_index w i -> valid_index w src -> src <> i ->
  alookup n (i_dict (inst_at w src)) = Some v -> resolve w (inst_at w i) n = Some t ->
  let w' := fst (step0 w (AssignFrom i n src)) in
  nth_error (w_insts w') (Z.to_nat src) = nth_error (w_insts w) (Z.to_nat src) /\
  w_classes w' = w_classes w /\
  exists v', alookup n (i_dict (inst_at w' i)) = Some v' /\
             vcontent v' = vcontent (fst (assigned_value t (fst (payload_of v)) (snd (payload_of v)) (w_next w))) /\
             forall x, In x (value_oids v') -> ~ In x (world_oids w).
Proof.
  intros Hwf Hv Hs Hne Hsv Hr. cbn zeta. split; [|split].
  - apply step_other_instance0; [destruct Hs; lia|]. cbn [op_index]. intros E. injection E as E.
    apply Hne. rewrite E. rewrite Z2Nat.id; [reflexivity | destruct Hs; lia].
  - apply step_classes0.
  - cbn [step0 target]. rewrite (range_check w i Hv). unfold inst_at in *. cbn [step_inst]. rewrite Hsv.
    pose proof (in_range w src Hs) as Hir. unfold zlen in Hir. rewrite Hir.
    destruct (payload_of v) as [c0 s0] eqn:Ep. cbn [fst snd].
    pose proof (assign_inst_stores w (nth (Z.to_nat i) (w_insts w) (new_inst 0)) n c0 s0 t Hr) as Hst.
    destruct (assign_inst w (nth (Z.to_nat i) (w_insts w) (new_inst 0)) n c0 s0) as [[ins' r] nx]. cbn [fst] in *.
    cbn [w_insts]. rewrite nth_update_nth_same by (destruct Hv; lia).
    exists (fst (assigned_value t c0 s0 (w_next w))). split; [exact Hst|]. split; [reflexivity|].
    exact (fresh_not_in w _ _ Hwf (proj2 (default_value_fresh _ (w_next w)))).
Qed.

Lemma assign_log_by_mode w ins n content scalar t ov h hs :
  resolve w ins n = Some t -> hids w ins t n = h :: hs -> alookup n (i_dict ins) = Some ov ->
  let v := fst (assigned_value t content scalar (w_next w)) in
  let same := (shape_class (v_shape ov) =? shape_class (v_shape v)) && zlist_eqb (vcontent ov) (vcontent v) in
  let calls := map (fun x => (x, n, vcontent ov, vcontent v)) (h :: hs) in
  i_log (fst (fst (assign_inst w ins n content scalar)))
  = i_log ins ++ (if t_cmp t =? 0 then calls
                  else if (v_shape v =? 0) && same then []
                  else if (t_cmp t =? 2) && same then [] else calls).
Proof.
  intros Hr Hh Hd. cbn zeta. unfold assign_inst. rewrite Hr.
  destruct (assigned_value t content scalar (w_next w)) as [v nx]. cbn [fst]. rewrite Hh, Hd. cbn [fst i_log].
  f_equal. destruct (t_cmp t =? 0) eqn:E0.
  - cbn [notify]. assert (E2 : (t_cmp t =? 2) = false) by (apply Z.eqb_eq in E0; rewrite E0; reflexivity).
    rewrite E2. reflexivity.
  - destruct ((v_shape v =? 0) && _) eqn:Es; cbn [negb]; [reflexivity|].
    destruct (t_cmp t =? 2); cbn [notify andb]; [|reflexivity].
    destruct ((shape_class (v_shape ov) =? shape_class (v_shape v)) && zlist_eqb (vcontent ov) (vcontent v)); reflexivity.
Qed.

Lemma delete_inst_effect w ins n ov t :
  alookup n (i_dict ins) = Some ov -> resolve w ins n = Some t ->
  let ins' := fst (fst (delete_inst w ins n)) in
  match hids w ins t n with
  | [] => alookup n (i_dict ins') = None /\ alookup n (i_calls ins') = None
  | _ :: _ => alookup n (i_dict ins') = Some (fst (default_value t (w_next w)))
              /\ alookup n (i_calls ins') = (if counted t then Some 1 else None)
  end.
Proof.
  intros Hd Hr. cbn zeta. unfold delete_inst. rewrite Hd, Hr.
  destruct (hids w ins t n) as [|h hs]; cbn [fst i_dict i_calls].
  - rewrite !alookup_aremove, Z.eqb_refl. split; reflexivity.
  - unfold materialise. destruct (default_value t (w_next w)) as [v nx]. cbn [fst i_dict i_calls].
    rewrite alookup_app, alookup_aremove, Z.eqb_refl. cbn [alookup]. rewrite Z.eqb_refl. split; [reflexivity|].
    destruct (counted t); [|rewrite alookup_aremove, Z.eqb_refl; reflexivity].
    apply alookup_bump_same. rewrite alookup_aremove, Z.eqb_refl. reflexivity.
Qed.

Lemma alookup_insert_row_other k n t : k <> n -> forall c, alookup k (insert_row n t c) = alookup k c.
Proof.
  intros Hne. induction c as [|[k2 t2] r IH]; cbn [insert_row alookup].
  - destruct (Z.eqb_spec k n); [contradiction | reflexivity].
  - destruct ((k2 <? 0) || (n <? k2)); cbn [alookup].
    + destruct (Z.eqb_spec k n); [contradiction | reflexivity].
    + destruct (k =? k2); [reflexivity | exact IH].
Qed.

Lemma alookup_insert_row_same n t : forall c, alookup n c = None -> alookup n (insert_row n t c) = Some t.
Proof.
  induction c as [|[k2 t2] r IH]; cbn [insert_row alookup]; intros H.
  - rewrite Z.eqb_refl. reflexivity.
  - destruct (Z.eqb_spec n k2) as [->|Hne]; [discriminate|].
    destruct ((k2 <? 0) || (n <? k2)); cbn [alookup].
    + rewrite Z.eqb_refl. reflexivity.
    + destruct (Z.eqb_spec n k2); [contradiction | apply IH, H].
Qed.

Lemma prefix_use_cases w ins o :
  prefix_use w ins o = (w_classes w, ins) \/
  exists n t, op_name o = Some n /\ wild_range n = true /\ alookup n (i_itraits ins) = None /\
              alookup n (class_of w ins) = None /\ prefix_resolve (class_of w ins) n = Some t /\
              prefix_use w ins o
              = (update_nth (Z.to_nat (i_cls ins)) (insert_row n t) (w_classes w), fire_trait_added w ins).
Proof.
  unfold prefix_use. destruct (op_name o) as [n|]; [|left; reflexivity].
  destruct (wild_range n) eqn:Er; [|left; reflexivity].
  destruct (alookup n (i_itraits ins)) eqn:E1; [left; reflexivity|].
  destruct (alookup n (class_of w ins)) eqn:E2; [left; reflexivity|].
  destruct (prefix_resolve (class_of w ins) n) as [t|] eqn:E3; [|left; reflexivity].
  right. exists n, t. repeat split; assumption.
Qed.

(* ... and to the world: nothing, or - on the first use of a wildcard name n by instance i - the class of i
   gains the row of n and trait_added fires on i *)
Lemma resolved_cases w o :
  resolved w o = w \/
  exists i n t,
    let ins := inst_at w i in
    op_index o = Some i /\ target w o = i /\ valid_index w i /\ op_name o = Some n /\ wild_range n = true /\
    alookup n (i_itraits ins) = None /\ alookup n (class_of w ins) = None /\
    prefix_resolve (class_of w ins) n = Some t /\
    resolved w o = mkW (update_nth (Z.to_nat (i_cls ins)) (insert_row n t) (w_classes w))
                       (update_nth (Z.to_nat i) (fun _ => fire_trait_added w ins) (w_insts w)) (w_next w).
Proof.
  destruct (op_index o) as [i|] eqn:Ei; [|left; destruct o; try discriminate; reflexivity].
  assert (Ht : target w o = i) by (destruct o; try discriminate; injection Ei as <-; reflexivity).
  assert (E : resolved w o
              = if (i <? 0) || (Z.of_nat (length (w_insts w)) <=? i) then w
                else let '(cls', ins0) := prefix_use w (inst_at w i) o in
                     mkW cls' (update_nth (Z.to_nat i) (fun _ => ins0) (w_insts w)) (w_next w))
    by (destruct o; try discriminate; injection Ei as <-; reflexivity).
  rewrite E. destruct (_ || _) eqn:Ec; [left; reflexivity|].
  assert (Hv : valid_index w i).
  { apply orb_false_iff in Ec. destruct Ec as [E1 E2]. apply Z.ltb_ge in E1. apply Z.leb_gt in E2. split; assumption. }
  destruct (prefix_use_cases w (inst_at w i) o) as [->|(n & t & Hn & Hr & H1 & H2 & H3 & ->)].
  - left. unfold inst_at. rewrite update_nth_id by (destruct Hv; lia). apply world_eta.
  - right. exists i, n, t. cbn zeta. repeat split; try assumption; apply Hv.
Qed.

Lemma resolved_unnamed w o : op_name o = None -> resolved w o = w.
Proof. intros H. destruct (resolved_cases w o) as [E|(i & n & t & _ & _ & _ & Hn & _)]; [exact E | congruence]. Qed.

Lemma resolved_resolvable w o n :
  op_name o = Some n -> resolve w (inst_at w (target w o)) n <> None -> resolved w o = w.
Proof.
  intros Hn Hres. destruct (resolved_cases w o) as [E|(i & n' & t & _ & Ht & _ & Hn' & _ & H1 & H2 & _)]; [exact E|].
  exfalso. rewrite Hn in Hn'. injection Hn' as <-. apply Hres. rewrite Ht. unfold resolve. rewrite H1. exact H2.
Qed.

Lemma resolved_length w o : length (w_insts (resolved w o)) = length (w_insts w).
Proof.
  destruct (resolved_cases w o) as [->|(i & n & t & _ & _ & _ & _ & _ & _ & _ & _ & ->)]; [reflexivity|].
  apply update_nth_length.
Qed.

Lemma resolved_next w o : w_next (resolved w o) = w_next w.
Proof. destruct (resolved_cases w o) as [->|(i & n & t & _ & _ & _ & _ & _ & _ & _ & _ & ->)]; reflexivity. Qed.

Lemma resolved_target w o : target (resolved w o) o = target w o.
Proof. destruct o; reflexivity. Qed.

Lemma resolved_other_instance w o j :
  op_index o <> Some (Z.of_nat j) -> nth_error (w_insts (resolved w o)) j = nth_error (w_insts w) j.
Proof.
  intros Hne. destruct (resolved_cases w o) as [->|(i & n & t & Hi & _ & Hv & _ & _ & _ & _ & _ & ->)]; [reflexivity|].
  apply nth_error_update_nth_other. intros E. apply Hne. rewrite Hi, <- E, Z2Nat.id; [reflexivity | apply Hv].
Qed.

Lemma resolved_classes_keep w o c n t :
  alookup n (nth c (w_classes w) []) = Some t -> alookup n (nth c (w_classes (resolved w o)) []) = Some t.
Proof.
  intros H. destruct (resolved_cases w o) as [->|(i & n' & t' & _ & _ & _ & _ & _ & _ & H2 & _ & ->)]; [exact H|].
  cbn [w_classes]. rewrite nth_update_nth_any. destruct (_ && _)%bool eqn:Eb; [|exact H].
  apply andb_true_iff in Eb. destruct Eb as [Eb _]. apply Nat.eqb_eq in Eb. subst c.
  rewrite alookup_insert_row_other; [exact H|]. intros ->. unfold class_of in H2. congruence.
Qed.

Lemma resolved_classes_length w o : length (w_classes (resolved w o)) = length (w_classes w).
Proof.
  destruct (resolved_cases w o) as [->|(i & n & t & _ & _ & _ & _ & _ & _ & _ & _ & ->)]; [reflexivity|].
  apply update_nth_length.
Qed.

Definition no_wildcard (cls : list (list (Z * tdef))) : Prop := forall c n, prefix_resolve (nth c cls []) n = None.

Lemma resolved_classes_without_wildcard w o : no_wildcard (w_classes w) -> w_classes (resolved w o) = w_classes w.
Proof.
  intros Hnw. destruct (resolved_cases w o) as [->|(i & n & t & _ & _ & _ & _ & _ & _ & _ & H3 & _)]; [reflexivity|].
  unfold class_of in H3. rewrite Hnw in H3. discriminate.
Qed.

Lemma resolved_wf w o : wf w -> wf (resolved w o).
Proof.
  intros Hwf. destruct (resolved_cases w o) as [->|(i & n & t & _ & _ & _ & _ & _ & _ & _ & H3 & ->)]; [exact Hwf|].
  pose proof (inst_at_below w i Hwf) as Hb. pose proof (inst_at_calls_ok w i (wf_calls_ok w Hwf)) as Hcok.
  destruct Hwf as (Hp & Hc & Hi & Hk). unfold wf, class_oids. cbn [w_next w_classes w_insts].
  assert (Ht : t_doid t < w_next w).
  { unfold prefix_resolve in H3. destruct (alookup (template_name n) (class_of w (inst_at w i))) eqn:E1.
    - injection H3 as <-. exact (class_of_below w _ _ _ _ Hc E1).
    - exact (class_of_below w _ _ _ _ Hc H3). }
  split; [exact Hp|]. split; [|split].
  - unfold class_oids in Hc. apply below_flat_map. apply below_flat_map in Hc.
    apply Forall_update_nth; [exact Hc|]. intros c0 Hc0. apply below_insert_row; assumption.
  - apply Forall_update_nth; [exact Hi|]. intros _ _. unfold fire_trait_added.
    apply below_inst in Hb. destruct Hb as [Hb1 Hb2]. apply below_inst. cbn [i_dict i_itraits].
    split; [exact Hb1|]. apply (fire_doids w _ (fun x => x < w_next w)); [|exact Hb2].
    intros k t' E. exact (class_of_below w _ _ _ _ Hc E).
  - unfold world_calls_ok. cbn [w_insts]. apply Forall_update_nth; [exact Hk | intros _ _; exact Hcok].
Qed.

Definition valid_op (w : world) (o : op) : Prop := valid_op0 w o.

Lemma valid_op_resolved w o : valid_op w o -> valid_op0 (resolved w o) o.
Proof.
  unfold valid_op, valid_op0. destruct (op_index o) as [i|]; [|auto]. unfold valid_index.
  rewrite resolved_length. auto.
Qed.

Lemma step_wf w o : wf w -> wf (fst (step w o)).
Proof. intros H. unfold step. apply step_wf0, resolved_wf, H. Qed.

Lemma final_wf ops : forall w, wf w -> wf (final w ops).
Proof. intros w. apply fold_left_keeps. intros a o. apply step_wf. Qed.

Lemma step_other_instance w o j :
  (j < length (w_insts w))%nat -> op_index o <> Some (Z.of_nat j) ->
  (j < length (w_insts (fst (step w o))))%nat /\ nth_error (w_insts (fst (step w o))) j = nth_error (w_insts w) j.
Proof.
  intros Hj Hne. unfold step. rewrite <- (resolved_other_instance w o j Hne).
  apply step_other_instance0; [rewrite resolved_length; exact Hj | exact Hne].
Qed.

Lemma final_other_instance ops : forall w j,
  (j < length (w_insts w))%nat -> Forall (fun o => op_index o <> Some (Z.of_nat j)) ops ->
  nth_error (w_insts (final w ops)) j = nth_error (w_insts w) j.
Proof. exact (others_kept _ step_other_instance ops). Qed.

Lemma final_classes_keep ops : forall w c n t,
  alookup n (nth c (w_classes w) []) = Some t -> alookup n (nth c (w_classes (final w ops)) []) = Some t.
Proof.
  intros w c n t. apply (fold_left_keeps _ (fun w' => alookup n (nth c (w_classes w') []) = Some t)).
  intros a o H. unfold step. rewrite step_classes0. apply resolved_classes_keep, H.
Qed.

Lemma final_classes_without_wildcard ops : forall w, no_wildcard (w_classes w) -> w_classes (final w ops) = w_classes w.
Proof.
  intros w Hnw. apply (fold_left_keeps _ (fun w' => w_classes w' = w_classes w)); [|reflexivity].
  intros a o E. unfold step. rewrite step_classes0, resolved_classes_without_wildcard; rewrite E; trivial.
Qed.

(* the one sanctioned change: first use of a wildcard name *)
Lemma wildcard_first_use w i n t :
  valid_index w i -> wild_range n = true ->
  alookup n (i_itraits (inst_at w i)) = None -> alookup n (class_of w (inst_at w i)) = None ->
  prefix_resolve (class_of w (inst_at w i)) n = Some t ->
  let ins := inst_at w i in
  let wr := mkW (update_nth (Z.to_nat (i_cls ins)) (insert_row n t) (w_classes w))
                (update_nth (Z.to_nat i) (fun _ => fire_trait_added w ins) (w_insts w)) (w_next w) in
  resolved w (Read i n) = wr /\ step w (Read i n) = step0 wr (Read i n) /\
  ((Z.to_nat (i_cls ins) < length (w_classes w))%nat -> resolve wr (inst_at wr i) n = Some t).
Proof.
  intros Hv Hr H1 H2 H3. cbn zeta.
  assert (E : resolved w (Read i n)
              = mkW (update_nth (Z.to_nat (i_cls (inst_at w i))) (insert_row n t) (w_classes w))
                    (update_nth (Z.to_nat i) (fun _ => fire_trait_added w (inst_at w i)) (w_insts w)) (w_next w)).
  { unfold resolved. cbn [target]. rewrite (range_check w i Hv). fold (inst_at w i).
    unfold prefix_use. cbn [op_name]. rewrite Hr, H1, H2, H3. reflexivity. }
  split; [exact E|]. split; [unfold step; rewrite E; reflexivity|].
  intros Hc. unfold resolve, inst_at, class_of. cbn [w_insts w_classes].
  rewrite nth_update_nth_same by (destruct Hv; lia). unfold fire_trait_added at 1 2. cbn [i_itraits i_cls].
  fold (inst_at w i).
  (* trait_added (-1) is not a wildcard name (60..69) *)
  assert (Hn : alookup n (match alookup trait_added (i_itraits (inst_at w i)), alookup trait_added (class_of w (inst_at w i)) with
                          | None, Some ta => i_itraits (inst_at w i) ++ [(trait_added, ta)]
                          | _, _ => i_itraits (inst_at w i)
                          end) = None).
  { destruct (alookup trait_added (i_itraits (inst_at w i))); [exact H1|].
    destruct (alookup trait_added (class_of w (inst_at w i))); [|exact H1].
    rewrite alookup_app, H1. cbn. unfold wild_range in Hr. apply andb_true_iff in Hr. destruct Hr as [Hr _].
    apply Z.leb_le in Hr. destruct (Z.eqb_spec n trait_added) as [E0|]; [unfold trait_added in E0; lia | reflexivity]. }
  rewrite Hn. rewrite nth_update_nth_same by exact Hc. apply alookup_insert_row_same. exact H2.
Qed.

Lemma step_read w i n : resolve w (inst_at w i) n <> None -> step w (Read i n) = step0 w (Read i n).
Proof. intros H. unfold step. rewrite (resolved_resolvable w (Read i n) n eq_refl H). reflexivity. Qed.

Lemma step_unnamed w o : op_name o = None -> step w o = step0 w o.
Proof. intros H. unfold step. rewrite (resolved_unnamed w o H). reflexivity. Qed.

Lemma later_reads_same w i n t :
  valid_index w i -> alookup n (i_dict (inst_at w i)) = None -> resolve w (inst_at w i) n = Some t ->
  let w1 := fst (step w (Read i n)) in
  let v := snd (step w (Read i n)) in
  step w1 (Read i n) = (w1, v).
Proof.
  intros Hv Hd Hr. cbn zeta. rewrite (step_read w i n) by (rewrite Hr; discriminate).
  destruct (after_first_read w i n t Hv Hd Hr) as (Hv1 & Hd1 & Hr1).
  rewrite step_read by (rewrite Hr1; discriminate). apply stored_read0; assumption.
Qed.

Theorem law_on_model w o : wf w -> valid_op w o -> law_step w o (observe w o) = [].
Proof.
  intros Hwf Hvo. unfold law_step, observe. apply law_on_model0; [apply resolved_wf, Hwf | apply valid_op_resolved, Hvo].
Qed.

Lemma track_observe w o : valid_op w o -> track w o (observe w o) = fst (step w o).
Proof. intros Hvo. unfold track, observe, step. apply track_observe0, valid_op_resolved, Hvo. Qed.

Fixpoint obs_run (w : world) (ops : list op) : list (op * obs) :=
  match ops with
  | [] => []
  | o :: r => (o, observe w o) :: obs_run (fst (step w o)) r
  end.

Fixpoint valid_hist (w : world) (ops : list op) : Prop :=
  match ops with
  | [] => True
  | o :: r => valid_op w o /\ valid_hist (fst (step w o)) r
  end.

Theorem law_on_histories : forall ops w k, wf w -> valid_hist w ops -> law_hist k w (obs_run w ops) = [].
Proof.
  induction ops as [|o ops IH]; intros w k Hwf Hvh; [reflexivity|]. cbn [obs_run law_hist].
  destruct Hvh as [Hvo Hvh]. rewrite (law_on_model w o Hwf Hvo). cbn [map app].
  rewrite (track_observe w o Hvo). apply IH; [apply step_wf, Hwf | exact Hvh].
Qed.

Definition valid_opb (w : world) (o : op) : bool :=
  match op_index o with
  | Some i => (0 <=? i) && (i <? Z.of_nat (length (w_insts w)))
  | None => true
  end.
Fixpoint valid_histb (w : world) (ops : list op) : bool :=
  match ops with
  | [] => true
  | o :: r => valid_opb w o && valid_histb (fst (step w o)) r
  end.
Lemma valid_histb_ok ops : forall w, valid_histb w ops = true -> valid_hist w ops.
Proof.
  induction ops as [|o ops IH]; intros w H; [exact I|]. cbn [valid_histb valid_hist] in *.
  apply andb_true_iff in H. destruct H as [H1 H2]. split; [|apply IH, H2].
  unfold valid_opb, valid_op, valid_op0 in *. destruct (op_index o) as [i|]; [|exact I].
  apply andb_true_iff in H1. destruct H1 as [Ha Hb]. apply Z.leb_le in Ha. apply Z.ltb_lt in Hb.
  unfold valid_index. lia.
Qed.
