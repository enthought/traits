(* C14 — what validation, stripping and one step of the copy loop do to a value; the copy trait by trait. *)
From Coq Require Import ZArith List Bool Lia.
From TV Require Import Common.Harness C14.Model C14.Law C14.Corr.
Import ListNotations.
Open Scope Z_scope.

Section value_ind'.
  Variable P : value -> Prop.
  Hypothesis HSc : forall z, P (Sc z).
  Hypothesis HCt : forall id ow items, Forall P items -> P (Ct id ow items).
  Fixpoint value_ind' (v : value) : P v :=
    match v with
    | Sc z => HSc z
    | Ct id ow items =>
        HCt id ow items ((fix go (l : list value) : Forall P l :=
                            match l with
                            | [] => Forall_nil P
                            | x :: r => Forall_cons x (value_ind' x) (go r)
                            end) items)
    end.
End value_ind'.

(* the list loops of validate / strip as named functions *)
Definition validate_list (inner : ttype) (o : Z) : list value -> Z -> option (list value * Z) :=
  fix go (l : list value) (m : Z) {struct l} : option (list value * Z) :=
    match l with
    | [] => Some ([], m)
    | x :: r => match validate inner o x m with
                | None => None
                | Some (x', m1) => match go r m1 with
                                   | None => None
                                   | Some (r', m2) => Some (x' :: r', m2)
                                   end
                end
    end.

Lemma validate_cont : forall inner o id ow items n,
  validate (TCont inner) o (Ct id ow items) n =
  match validate_list inner o items (n + 1) with
  | None => None
  | Some (items', n') => Some (Ct n (Some o) items', n')
  end.
Proof. reflexivity. Qed.

Definition strip_list : list value -> Z -> list value * Z :=
  fix go (l : list value) (m : Z) {struct l} : list value * Z :=
    match l with
    | [] => ([], m)
    | x :: r => let '(x', m1) := strip x m in let '(r', m2) := go r m1 in (x' :: r', m2)
    end.

Lemma strip_cont : forall id ow items n,
  strip (Ct id ow items) n = let '(items', n') := strip_list items (n + 1) in (Ct n None items', n').
Proof. reflexivity. Qed.

Definition ids_in (lo hi : Z) (v : value) : Prop := forall x, In x (ids v) -> lo <= x < hi.
Definition ids_in_l (lo hi : Z) (l : list value) : Prop := forall x, In x (flat_map ids l) -> lo <= x < hi.

Lemma ids_in_l_cons : forall lo hi x r, ids_in lo hi x -> ids_in_l lo hi r -> ids_in_l lo hi (x :: r).
Proof. intros lo hi x r H1 H2 y Hy. simpl in Hy. apply in_app_or in Hy. destruct Hy; auto. Qed.

Lemma ids_in_weaken : forall lo hi lo' hi' v, ids_in lo hi v -> lo' <= lo -> hi <= hi' -> ids_in lo' hi' v.
Proof. intros lo hi lo' hi' v H Hl Hh x Hx. specialize (H x Hx). lia. Qed.
Lemma ids_in_l_weaken : forall lo hi lo' hi' l, ids_in_l lo hi l -> lo' <= lo -> hi <= hi' -> ids_in_l lo' hi' l.
Proof. intros lo hi lo' hi' v H Hl Hh x Hx. specialize (H x Hx). lia. Qed.

Lemma strip_spec : forall v n v' n', strip v n = (v', n') -> n <= n' /\ ids_in n n' v' /\ erase v' = erase v.
Proof.
  induction v as [z | id ow items IH] using value_ind'; intros n v' n' H.
  - simpl in H. inversion H; subst. split; [lia|]. split; [intros x [] | reflexivity].
  - rewrite strip_cont in H.
    assert (L : forall l m l' m',
               Forall (fun v => forall n v' n', strip v n = (v', n') -> n <= n' /\ ids_in n n' v' /\ erase v' = erase v) l ->
               strip_list l m = (l', m') -> m <= m' /\ ids_in_l m m' l' /\ map erase l' = map erase l).
    { induction l as [|x r IHr]; intros m l' m' HF HS; simpl in HS.
      - inversion HS; subst. split; [lia|]. split; [intros y [] | reflexivity].
      - inversion HF as [|? ? Hx Hr]; subst.
        destruct (strip x m) as [x' m1] eqn:E1. destruct (strip_list r m1) as [r' m2] eqn:E2.
        inversion HS; subst. destruct (Hx _ _ _ E1) as (A1 & A2 & A3). destruct (IHr _ _ _ Hr E2) as (B1 & B2 & B3).
        split; [lia|]. split; [|simpl; congruence]. apply ids_in_l_cons.
        + eapply ids_in_weaken; eauto; lia.
        + eapply ids_in_l_weaken; eauto; lia. }
    destruct (strip_list items (n + 1)) as [items' n1] eqn:E. inversion H; subst.
    destruct (L _ _ _ _ IH E) as (A & B & C). split; [lia|]. split; [|simpl; congruence].
    intros y Hy. simpl in Hy. destruct Hy as [<- | Hy]; [lia|]. specialize (B y Hy). lia.
Qed.

(* what the validator of t accepts, read on the erased value *)
Fixpoint conf (t : ttype) (s : shape) {struct s} : bool :=
  match t, s with
  | TInt, SSc z => 0 <=? z
  | TInt, SCt _ => false
  | TCont _, SSc _ => false
  | TCont inner, SCt items =>
      (fix go (l : list shape) {struct l} : bool :=
         match l with [] => true | x :: r => conf inner x && go r end) items
  | _, _ => true
  end.
Definition conforms (t : ttype) (v : value) : bool := conf t (erase v).

Definition conf_list (inner : ttype) : list shape -> bool :=
  fix go (l : list shape) {struct l} : bool := match l with [] => true | x :: r => conf inner x && go r end.
Lemma conf_cont : forall inner items, conf (TCont inner) (SCt items) = conf_list inner items.
Proof. reflexivity. Qed.

(* container types all the way down to Int (what List/Dict/Set nestings of the generator are) *)
Fixpoint pure (t : ttype) : bool := match t with TInt => true | TCont i => pure i | _ => false end.

(* every container inside v, at any depth, is bound to o *)
Definition owned_by (o : Z) (v : value) : Prop := forall x, In x (owners v) -> x = Some o.

Lemma validate_spec : forall v t o n v' n', validate t o v n = Some (v', n') ->
  n <= n' /\ erase v' = erase v /\ conforms t v' = true /\
  (pure t = true -> ids_in n n' v' /\ owned_by o v').
Proof.
  induction v as [z | id ow items IH] using value_ind'; intros t o n v' n' H.
  - destruct t; simpl in H; try discriminate; [destruct (0 <=? z) eqn:Z0|..]; inversion H; subst;
      (split; [lia|]; split; [reflexivity|]; split; [first [exact Z0 | reflexivity]|]);
      try discriminate. intros _. split; intros y [].
  - destruct t as [| inner | |]; try (simpl in H; discriminate).
    2,3: simpl in H; inversion H; subst; split; [lia|]; split; [reflexivity|]; split; [reflexivity | discriminate].
    rewrite validate_cont in H.
    assert (L : forall l m l' m',
               Forall (fun v => forall t o n v' n', validate t o v n = Some (v', n') ->
                         n <= n' /\ erase v' = erase v /\ conforms t v' = true /\
                         (pure t = true -> ids_in n n' v' /\ owned_by o v')) l ->
               validate_list inner o l m = Some (l', m') ->
               m <= m' /\ map erase l' = map erase l /\ conf_list inner (map erase l') = true /\
               (pure inner = true -> ids_in_l m m' l' /\ forall x, In x (flat_map owners l') -> x = Some o)).
    { induction l as [|x r IHr]; intros m l' m' HF HS; simpl in HS.
      - inversion HS; subst. split; [lia|]. split; [reflexivity|]. split; [reflexivity|]. intros _. split; intros y [].
      - inversion HF as [|? ? Hx Hr]; subst.
        destruct (validate inner o x m) as [[x' m1]|] eqn:E1; [|discriminate].
        destruct (validate_list inner o r m1) as [[r' m2]|] eqn:E2; [|discriminate].
        inversion HS; subst. destruct (Hx _ _ _ _ _ E1) as (A1 & A2 & A3 & A4).
        destruct (IHr _ _ _ Hr E2) as (B1 & B2 & B3 & B4).
        split; [lia|]. split; [simpl; congruence|]. split; [simpl; unfold conforms in A3; rewrite A3; exact B3|].
        intro Hp. destruct (A4 Hp) as [A5 A6]. destruct (B4 Hp) as [B5 B6]. split.
        + apply ids_in_l_cons; [eapply ids_in_weaken; eauto; lia | eapply ids_in_l_weaken; eauto; lia].
        + intros y Hy. simpl in Hy. apply in_app_or in Hy. destruct Hy; auto. }
    destruct (validate_list inner o items (n + 1)) as [[items' n1]|] eqn:E; [|discriminate].
    inversion H; subst. destruct (L _ _ _ _ IH E) as (A & B & C & D).
    split; [lia|]. split; [simpl; congruence|]. split; [exact C|].
    intro Hp. simpl in Hp. destruct (D Hp) as [D1 D2]. split.
    + intros x Hx. simpl in Hx. destruct Hx as [<- | Hx]; [lia|]. specialize (D1 x Hx). lia.
    + intros x Hx. simpl in Hx. destruct Hx as [<- | Hx]; [reflexivity | auto].
Qed.

Lemma conforms_cont : forall inner id ow items,
  conforms (TCont inner) (Ct id ow items) = true <-> Forall (fun y => conforms inner y = true) items.
Proof.
  intros. unfold conforms. cbn [erase]. rewrite conf_cont.
  induction items as [|y r IH]; simpl.
  - split; [constructor | reflexivity].
  - rewrite andb_true_iff, IH, Forall_cons_iff. reflexivity.
Qed.

Lemma ids_in_cont : forall lo hi id ow items,
  ids_in lo hi (Ct id ow items) <-> lo <= id < hi /\ Forall (ids_in lo hi) items.
Proof.
  intros. unfold ids_in. cbn [ids]. rewrite Forall_forall. split.
  - intro H. split; [apply H; left; reflexivity|]. intros y Hy x Hx. apply H. right. apply in_flat_map. eauto.
  - intros [Hid H] x [<-|Hx]; [exact Hid|]. apply in_flat_map in Hx as [y [Hy Hx]]. eauto.
Qed.

Lemma owned_by_cont : forall o id ow items,
  owned_by o (Ct id ow items) <-> ow = Some o /\ Forall (owned_by o) items.
Proof.
  intros. unfold owned_by. cbn [owners]. rewrite Forall_forall. split.
  - intro H. split; [apply H; left; reflexivity|]. intros y Hy x Hx. apply H. right. apply in_flat_map. eauto.
  - intros [Hid H] x [<-|Hx]; [exact Hid|]. apply in_flat_map in Hx as [y [Hy Hx]]. eauto.
Qed.

Lemma validate_any : forall o v n, validate TAny o v n = Some (v, n).
Proof. intros o [] n; reflexivity. Qed.

Lemma Forall_replace : forall {A} (P : A -> Prop) l i y,
  Forall P l -> P y -> Forall P (firstn i l ++ y :: skipn (S i) l).
Proof.
  intros A P l. induction l as [|x r IH]; intros i y HF Hy.
  - destruct i; simpl; repeat constructor; exact Hy.
  - inversion HF; subst. destruct i as [|i]; [simpl | change (Forall P (x :: (firstn i r ++ y :: skipn (S i) r)))];
      constructor; auto.
Qed.

Lemma validate_total : forall v t o n, conforms t v = true -> exists v' n', validate t o v n = Some (v', n').
Proof.
  induction v as [z | id ow items IH] using value_ind'; intros t o n H; unfold conforms in H.
  - destruct t; simpl in *; try discriminate; try (eexists; eexists; reflexivity).
    rewrite H. eexists; eexists; reflexivity.
  - destruct t as [| inner | |]; simpl erase in H; try (simpl in H; discriminate);
      try (simpl; eexists; eexists; reflexivity).
    rewrite conf_cont in H. rewrite validate_cont.
    assert (L : forall l m, Forall (fun v => forall t o n, conforms t v = true ->
                                     exists v' n', validate t o v n = Some (v', n')) l ->
                            conf_list inner (map erase l) = true ->
                            exists l' m', validate_list inner o l m = Some (l', m')).
    { induction l as [|x r IHr]; intros m HF HC; simpl.
      - eexists; eexists; reflexivity.
      - inversion HF as [|? ? Hx Hr]; subst. simpl in HC. apply andb_true_iff in HC. destruct HC as [C1 C2].
        destruct (Hx inner o m C1) as [x' [m1 E1]]. rewrite E1.
        destruct (IHr m1 Hr C2) as [r' [m2 E2]]. rewrite E2. eexists; eexists; reflexivity. }
    destruct (L items (n + 1) IH H) as [l' [m' E]]. rewrite E. eexists; eexists; reflexivity.
Qed.

Lemma vget_vdel_other : forall s k k', k' <> k -> vget (vdel s k) k' = vget s k'.
Proof.
  induction s as [|[a v] r IH]; intros k k' Hne; simpl; [reflexivity|].
  destruct (a =? k) eqn:E.
  - apply Z.eqb_eq in E. subst. destruct (k =? k') eqn:E2; [apply Z.eqb_eq in E2; congruence | reflexivity].
  - simpl. destruct (a =? k'); [reflexivity | apply IH; assumption].
Qed.
Lemma vget_vset_same : forall s k v, vget (vset s k v) k = Some v.
Proof. intros. unfold vset. simpl. rewrite Z.eqb_refl. reflexivity. Qed.
Lemma vget_vset_other : forall s k v k', k' <> k -> vget (vset s k v) k' = vget s k'.
Proof.
  intros. unfold vset. simpl. destruct (k =? k') eqn:E; [apply Z.eqb_eq in E; congruence|].
  apply vget_vdel_other. assumption.
Qed.

Lemma assign_frame : forall c o s k raw n s' n' out k', assign c o s k raw n = (s', n', out) -> k' <> k ->
  vget s' k' = vget s k'.
Proof.
  intros c o s k raw n s' n' out k' H Hne. unfold assign in H.
  destruct (cget c k) as [d|]; [|inversion H; subst; reflexivity].
  destruct (td_type d) eqn:T; try (destruct (vget s k) eqn:G; [inversion H; subst; reflexivity|]);
    destruct (validate _ o raw n) as [[v m]|]; inversion H; subst; try reflexivity; apply vget_vset_other; assumption.
Qed.

Lemma assign_mono : forall c o s k raw n s' n' out, assign c o s k raw n = (s', n', out) -> n <= n'.
Proof.
  intros c o s k raw n s' n' out H. unfold assign in H.
  destruct (cget c k) as [d|]; [|inversion H; subst; lia].
  assert (V : forall t, match validate t o raw n with Some (_, m) => n <= m | None => True end).
  { intro t. destruct (validate t o raw n) as [[v m]|] eqn:E; [|exact I]. apply validate_spec in E. tauto. }
  destruct (td_type d) eqn:T; try (destruct (vget s k) eqn:G; [inversion H; subst; lia|]);
    match goal with H : context[validate ?t o raw n] |- _ => specialize (V t); destruct (validate t o raw n) as [[v m]|] end;
    inversion H; subst; lia.
Qed.

Lemma copy_value_spec : forall m v n v1 n1, copy_value m v n = (v1, n1) ->
  n <= n1 /\ erase v1 = erase v /\ (m = CDeep -> ids_in n n1 v1).
Proof.
  intros m v n v1 n1 H. destruct m; simpl in H.
  - inversion H; subst. split; [lia|]. split; [reflexivity | discriminate].
  - destruct v; simpl in H; inversion H; subst; (split; [lia|]; split; [reflexivity | discriminate]).
  - destruct (strip_spec _ _ _ _ H) as (M & F & E). split; [exact M|]. split; [exact E | intros _; exact F].
Qed.

Definition skipped (op : copyop) (c0 : cls) (d : tdef) : bool := td_transient d.
Lemma skipped_transient : forall op c0 d, skipped op c0 d = td_transient d.
Proof. reflexivity. Qed.

Definition copy_one (op : copyop) (c0 : cls) (src : vals) (o : Z) (st : vals * Z) (kd : Z * tdef) : vals * Z :=
  let '(dst, n) := st in
  let '(k, d) := kd in
  if skipped op c0 d then (dst, n)
  else match vget src k with
       | None => (dst, n)
       | Some v => let '(v1, n1) := copy_value (effective op d) v n in
                   let '(dst', n2, _) := assign c0 o dst k v1 n1 in (dst', n2)
       end.

Lemma copy_into_fold : forall op c0 src o c dst n,
  copy_into op c0 c src o dst n = fold_left (copy_one op c0 src o) c (dst, n).
Proof.
  intros op c0 src o c. induction c as [|[k d] r IH]; intros dst n; simpl; [reflexivity|].
  unfold skipped. destruct (td_transient d); [apply IH|].
  destruct (vget src k) as [v|]; [|apply IH].
  destruct (copy_value (effective op d) v n) as [v1 n1]. destruct (assign c0 o dst k v1 n1) as [[dst' n2] out].
  apply IH.
Qed.

Definition fresh_kind (op : copyop) (d : tdef) : Prop :=
  pure (td_type d) = true \/ effective op d = CDeep.

(* One step of the loop.  The copied value has the shape of a conforming one, so [assign] accepts it (validate_total) and
   stores what validate_spec describes; for Any / ReadOnly the validator stores the copied value itself. *)
Lemma copy_one_spec : forall op c0 src o dst n k d dst' n',
  copy_one op c0 src o (dst, n) (k, d) = (dst', n') ->
  n <= n' /\ (forall k', k' <> k -> vget dst' k' = vget dst k') /\
  (skipped op c0 d = true \/ vget src k = None -> vget dst' k = vget dst k) /\
  (forall v, skipped op c0 d = false -> vget src k = Some v -> cget c0 k = Some d -> vget dst k = None ->
             conforms (td_type d) v = true ->
     exists v', vget dst' k = Some v' /\ erase v' = erase v /\
                (pure (td_type d) = true -> ids_in n n' v' /\ owned_by o v') /\
                (effective op d = CDeep -> td_type d = TAny \/ td_type d = TReadOnly -> ids_in n n' v')).
Proof.
  intros op c0 src o dst n k d dst' n' H. unfold copy_one in H.
  destruct (skipped op c0 d) eqn:S.
  { inversion H; subst. split; [lia|]. split; [reflexivity|]. split; [reflexivity | discriminate]. }
  destruct (vget src k) as [v|] eqn:G.
  2:{ inversion H; subst. split; [lia|]. split; [reflexivity|]. split; [reflexivity | discriminate]. }
  destruct (copy_value (effective op d) v n) as [v1 n1] eqn:CV.
  destruct (assign c0 o dst k v1 n1) as [[dst2 n2] out] eqn:A. inversion H; subst.
  destruct (copy_value_spec _ _ _ _ _ CV) as [M1 [E1 F1]]. pose proof (assign_mono _ _ _ _ _ _ _ _ _ A) as M2.
  split; [lia|]. split; [intros k' Hne; eapply assign_frame; eauto|].
  split; [intros [X|X]; discriminate|].
  intros v0 _ Hv Hc Hd Hconf. inversion Hv; subst v0.
  unfold assign in A. rewrite Hc in A.
  assert (Hconf1 : conforms (td_type d) v1 = true) by (unfold conforms in *; rewrite E1; exact Hconf).
  destruct (validate_total v1 (td_type d) o n1 Hconf1) as [v' [m E]].
  assert (A' : (vset dst k v', m, Ok) = (dst', n', out)).
  { revert A E. destruct (td_type d); intros A E; try rewrite Hd in A; rewrite E in A; exact A. }
  inversion A'; subst. destruct (validate_spec _ _ _ _ _ _ E) as (V1 & V2 & _ & V3).
  exists v'. split; [apply vget_vset_same|]. split; [congruence|]. split.
  - intro Hp. destruct (V3 Hp) as [I O]. split; [eapply ids_in_weaken; eauto; lia | exact O].
  - intros Hdeep Hty. assert (v' = v1).
    { destruct Hty as [T|T]; rewrite T in E; destruct v1; simpl in E; inversion E; reflexivity. }
    subst v'. eapply ids_in_weaken; [apply F1; exact Hdeep | lia | lia].
Qed.

Arguments copy_one : simpl never.

Lemma fold_mono : forall op c0 src o c st, snd st <= snd (fold_left (copy_one op c0 src o) c st).
Proof.
  intros op c0 src o c. induction c as [|[k d] r IH]; intros [dst n]; simpl; [lia|].
  destruct (copy_one op c0 src o (dst, n) (k, d)) as [dst1 n1] eqn:E.
  pose proof (copy_one_spec _ _ _ _ _ _ _ _ _ _ E) as [M _]. specialize (IH (dst1, n1)). simpl in *. lia.
Qed.

Lemma fold_frame : forall op c0 src o c st k, ~ In k (map fst c) ->
  vget (fst (fold_left (copy_one op c0 src o) c st)) k = vget (fst st) k.
Proof.
  intros op c0 src o c. induction c as [|[k1 d] r IH]; intros [dst n] k Hn; simpl; [reflexivity|].
  destruct (copy_one op c0 src o (dst, n) (k1, d)) as [dst1 n1] eqn:E.
  pose proof (copy_one_spec _ _ _ _ _ _ _ _ _ _ E) as [_ [F _]].
  rewrite IH; [|intro X; apply Hn; right; exact X]. simpl. apply F. intro X; apply Hn; left; simpl; congruence.
Qed.

(* the value the copy ends up with for trait k is the one its own step stored *)
Lemma fold_key : forall op c0 src o c st k d, NoDup (map fst c) -> In (k, d) c ->
  exists dst1 n1, snd st <= n1 /\ vget dst1 k = vget (fst st) k /\
    let st2 := copy_one op c0 src o (dst1, n1) (k, d) in
    vget (fst (fold_left (copy_one op c0 src o) c st)) k = vget (fst st2) k /\
    snd st2 <= snd (fold_left (copy_one op c0 src o) c st).
Proof.
  intros op c0 src o c. induction c as [|[k1 d1] r IH]; intros [dst n] k d ND Hin; [destruct Hin|].
  simpl in ND. inversion ND as [|? ? Hnotin ND']; subst. simpl.
  destruct Hin as [Heq | Hin].
  - inversion Heq; subst. exists dst, n. split; [simpl; lia|]. split; [reflexivity|].
    destruct (copy_one op c0 src o (dst, n) (k, d)) as [dst1 n1] eqn:E. simpl. split.
    + apply (fold_frame op c0 src o r (dst1, n1) k Hnotin).
    + apply (fold_mono op c0 src o r (dst1, n1)).
  - destruct (copy_one op c0 src o (dst, n) (k1, d1)) as [dstA nA] eqn:E.
    pose proof (copy_one_spec _ _ _ _ _ _ _ _ _ _ E) as [M [F _]].
    destruct (IH (dstA, nA) k d ND' Hin) as [dst1 [n1 [A [B C]]]].
    exists dst1, n1. split; [simpl in *; lia|]. split.
    + simpl in *. rewrite B. apply F. intro X. subst. apply Hnotin.
      apply in_map_iff. exists (k1, d). split; [reflexivity | exact Hin].
    + exact C.
Qed.

Lemma cget_in : forall c k d, NoDup (map fst c) -> In (k, d) c -> cget c k = Some d.
Proof.
  induction c as [|[k1 d1] r IH]; intros k d ND Hin; [destruct Hin|]. simpl in *.
  inversion ND as [|? ? Hnotin ND']; subst. destruct Hin as [Heq | Hin].
  - inversion Heq; subst. rewrite Z.eqb_refl. reflexivity.
  - destruct (k1 =? k) eqn:E; [|apply IH; assumption].
    apply Z.eqb_eq in E. subst. exfalso. apply Hnotin. apply in_map_iff. exists (k, d). split; [reflexivity | exact Hin].
Qed.

Lemma do_copy_trait : forall op c src o n k d v, NoDup (map fst c) -> In (k, d) c ->
  skipped op c d = false -> vget src k = Some v -> conforms (td_type d) v = true ->
  exists v', vget (fst (do_copy op c src o n)) k = Some v' /\ erase v' = erase v /\
    (pure (td_type d) = true -> ids_in n (snd (do_copy op c src o n)) v' /\ owned_by o v') /\
    (effective op d = CDeep -> td_type d = TAny \/ td_type d = TReadOnly ->
     ids_in n (snd (do_copy op c src o n)) v').
Proof.
  intros op c src o n k d v ND Hin Hs Hv Hc. unfold do_copy. rewrite copy_into_fold.
  destruct (fold_key op c src o c ([], n) k d ND Hin) as [dst1 [n1 [A [B [C D]]]]]. simpl in A, B.
  destruct (copy_one op c src o (dst1, n1) (k, d)) as [dst2 n2] eqn:E. simpl in C, D.
  destruct (copy_one_spec _ _ _ _ _ _ _ _ _ _ E) as [M [_ [_ S]]].
  destruct (S v Hs Hv (cget_in _ _ _ ND Hin) B Hc) as [v' [G [Er [P Q]]]].
  exists v'. split; [etransitivity; [exact C | exact G]|]. split; [exact Er|]. split.
  - intro Hp. destruct (P Hp) as [I O]. split; [|exact O].
    intros x Hx. specialize (I x Hx). split; [lia|]. eapply Z.lt_le_trans; [apply I | exact D].
  - intros X Y. intros x Hx. specialize (Q X Y x Hx). split; [lia|]. eapply Z.lt_le_trans; [apply Q | exact D].
Qed.

Lemma do_copy_skipped : forall op c src o n k d, NoDup (map fst c) -> In (k, d) c ->
  skipped op c d = true \/ vget src k = None -> vget (fst (do_copy op c src o n)) k = None.
Proof.
  intros op c src o n k d ND Hin Hs. unfold do_copy. rewrite copy_into_fold.
  destruct (fold_key op c src o c ([], n) k d ND Hin) as [dst1 [n1 [A [B [C D]]]]]. simpl in A, B.
  destruct (copy_one op c src o (dst1, n1) (k, d)) as [dst2 n2] eqn:E. simpl in C.
  destruct (copy_one_spec _ _ _ _ _ _ _ _ _ _ E) as [_ [_ [S _]]].
  etransitivity; [exact C|]. rewrite (S Hs). exact B.
Qed.

Definition cpaths_list : list value -> nat -> list (list nat) :=
  fix go (l : list value) (i : nat) {struct l} : list (list nat) :=
    match l with [] => [] | x :: r => map (cons i) (cpaths x) ++ go r (S i) end.

Lemma cpaths_cont : forall id ow items, cpaths (Ct id ow items) = [] :: cpaths_list items 0%nat.
Proof. reflexivity. Qed.

Lemma cpaths_list_in : forall l i0 j q, In (j :: q) (cpaths_list l i0) ->
  exists y, (i0 <= j)%nat /\ nth_error l (j - i0) = Some y /\ In q (cpaths y).
Proof.
  induction l as [|x r IH]; intros i0 j q H; simpl in H; [destruct H|].
  apply in_app_or in H. destruct H as [H | H].
  - apply in_map_iff in H. destruct H as [q' [E Hq]]. inversion E; subst.
    exists x. split; [lia|]. rewrite Nat.sub_diag. split; [reflexivity | exact Hq].
  - destruct (IH _ _ _ H) as [y [A [B C]]]. exists y. split; [lia|]. split; [|exact C].
    replace (j - i0)%nat with (S (j - S i0)) by lia. exact B.
Qed.

Lemma pure_validate_invalid : forall inner o n, pure inner = true -> validate inner o invalid_item n = None.
Proof. intros inner o n H. destruct inner; simpl in *; try discriminate; reflexivity. Qed.

Lemma pure_validate_valid : forall inner o n, pure inner = true ->
  exists x' n', validate inner o (valid_item inner) n = Some (x', n').
Proof.
  intros inner o n H. destruct inner; simpl in H; try discriminate.
  - simpl. eexists; eexists; reflexivity.
  - unfold valid_item. rewrite validate_cont. simpl. eexists; eexists; reflexivity.
Qed.

Lemma live_append : forall v t o n p, pure t = true -> conforms t v = true -> owned_by o v -> In p (cpaths v) ->
  append_at t v p invalid_item n = Rejected /\
  exists v' n', append_at t v p (valid_item (elem_at t p)) n = Appended v' n' (Some o).
Proof.
  induction v as [z | id ow items IH] using value_ind'; intros t o n p Hp Hc Ho Hin; [destruct Hin|].
  destruct t as [| inner | |]; simpl in Hp; try discriminate.
  apply owned_by_cont in Ho as [-> Ho]. apply conforms_cont in Hc.
  rewrite cpaths_cont in Hin. destruct Hin as [<- | Hin].
  - cbn [append_at]. rewrite (pure_validate_invalid inner o n Hp). split; [reflexivity|].
    change (elem_at (TCont inner) []) with inner.
    destruct (pure_validate_valid inner o n Hp) as [x' [n' E]]. rewrite E. eexists; eexists; reflexivity.
  - destruct p as [|j q].
    { exfalso. clear - Hin. revert Hin. generalize 0%nat. induction items as [|x r IHr]; intros i H; simpl in H; [exact H|].
      apply in_app_or in H. destruct H as [H|H]; [apply in_map_iff in H; destruct H as [? [E _]]; discriminate | eapply IHr; eauto]. }
    destruct (cpaths_list_in _ _ _ _ Hin) as [y [_ [Hn Hq]]]. rewrite Nat.sub_0_r in Hn.
    pose proof (nth_error_In _ _ Hn) as Hy.
    rewrite Forall_forall in IH, Hc, Ho.
    destruct (IH y Hy inner o n q Hp (Hc y Hy) (Ho y Hy) Hq) as [R [v' [n' A]]].
    cbn [append_at]. rewrite Hn. rewrite R. split; [reflexivity|].
    change (elem_at (TCont inner) (j :: q)) with (elem_at inner q). rewrite A. eexists; eexists; reflexivity.
Qed.
