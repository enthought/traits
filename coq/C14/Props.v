(* C14 — property theorems only.  `c` is the class (trait name -> type, transient flag, copy
   metadata) with distinct names, `src` the state of the original, `o` the identity of the new object,
   `n` the identity counter before the copy; the copy is `do_copy op c src o n` for
   op in {Pickle, Deepcopy, Clone None|shallow|deep}.  `conforms` = the stored value is one the
   trait's validator accepts (every state reached through the validators is). *)
From Coq Require Import ZArith List Bool.
From TV Require Import Common.Harness Common.CTables C14.Model C14.Law C14.Corr C14.Proofs C14.Whole C14.Hist C14.Graph.
Import ListNotations.
Open Scope Z_scope.

(* MAIN THEOREM.  The whole law (all 9 clauses of C14/Law.v: same class, equal values, transients at
   default, no shared container where the mode is deep, containers bound to the copy, invalid items
   rejected and valid mutations notifying exactly the copy on every container path, write-once stays
   written; the clause about child objects has no probe in the model's own observation, and "same class" is
   true of it by construction) holds on the model's observation of a copy taken by ANY copy operation after ANY history
   of assignments and nested appends (valid or rejected) on an object of ANY class with distinct trait
   names whose container types are List/Dict/Set nestings over Int — the listed finding excluded: no
   Any/ReadOnly trait without copy metadata is deep-copied by copy.deepcopy (which copies it by
   reference). *)
Theorem law_holds_after_every_history :
  forall (op : copyop) (c : cls) (hs : list hop),
    NoDup (map fst c) ->
    (forall k d, In (k, d) c -> simple (td_type d) = true) ->
    (forall k d, In (k, d) c -> td_type d = TAny \/ td_type d = TReadOnly ->
                 law_mode op d = CDeep -> effective op d = CDeep) ->
    law op c (model_obs op c hs) = [].
Proof. exact Hist.law_holds_after_every_history. Qed.
Print Assumptions law_holds_after_every_history.

(* the same for every well-formed source state, however reached *)
Theorem law_holds_on_copy :
  forall op c s0 n0, wf op c s0 n0 -> law op c (obs_of op c s0 n0) = [].
Proof. exact Whole.law_holds_on_copy. Qed.
Print Assumptions law_holds_on_copy.

(* every state reached by a history is well-formed (values conform, identities below the counter,
   containers of container traits bound to the object at every depth) *)
Theorem reachable_states_wellformed :
  forall c, NoDup (map fst c) -> (forall k d, In (k, d) c -> simple (td_type d) = true) ->
  forall hs, wfs c (fst (hrun c orig_atom [] first_id hs)) (snd (hrun c orig_atom [] first_id hs)).
Proof. intros c ND SI hs. apply hrun_wfs; [exact ND | exact SI | apply wfs_empty]. Qed.
Print Assumptions reachable_states_wellformed.

(* equal non-transient values: every copied trait reads back == the original's value *)
Theorem roundtrip_values :
  forall op c src o n k d v, NoDup (map fst c) -> In (k, d) c ->
    skipped op c d = false -> vget src k = Some v -> conforms (td_type d) v = true ->
    exists v', vget (fst (do_copy op c src o n)) k = Some v' /\ erase v' = erase v.
Proof.
  intros op c src o n k d v ND Hin Hs Hv Hc.
  destruct (do_copy_trait op c src o n k d v ND Hin Hs Hv Hc) as [v' [A [B _]]]. exists v'. tauto.
Qed.
Print Assumptions roundtrip_values.

(* transient traits (and never-set ones) are not carried over: the copy reads their default
   ([skipped] = the trait is transient) — also when EVERY trait is transient. *)
Theorem transients_reset :
  forall op c src o n k d, NoDup (map fst c) -> In (k, d) c ->
    skipped op c d = true \/ vget src k = None -> vget (fst (do_copy op c src o n)) k = None.
Proof. exact do_copy_skipped. Qed.
Print Assumptions transients_reset.

(* no shared container, at any nesting depth: every container identity inside the copy's value was
   allocated during the copy (>= n), for List/Dict/Set nestings under EVERY copy mode (assignment
   re-wraps) and for Any/ReadOnly traits whenever the effective mode is deep. *)
Theorem no_shared_container :
  forall op c src o n k d v, NoDup (map fst c) -> In (k, d) c ->
    skipped op c d = false -> vget src k = Some v -> conforms (td_type d) v = true ->
    pure (td_type d) = true \/ (effective op d = CDeep /\ (td_type d = TAny \/ td_type d = TReadOnly)) ->
    exists v', vget (fst (do_copy op c src o n)) k = Some v' /\
               forall x, In x (ids v') -> n <= x < snd (do_copy op c src o n).
Proof.
  intros op c src o n k d v ND Hin Hs Hv Hc Hk.
  destruct (do_copy_trait op c src o n k d v ND Hin Hs Hv Hc) as [v' [A [_ [P Q]]]]. exists v'. split; [exact A|].
  destruct Hk as [Hp | [Hd Ht]]; [destruct (P Hp) as [I _]; exact I | exact (Q Hd Ht)].
Qed.
Print Assumptions no_shared_container.

(* the copy is live: every (nested) container of a container trait of the copy is bound to the copy,
   rejects the invalid item and accepts a valid one notifying the copy — for every container path *)
Theorem copy_is_live :
  forall op c src o n k d v, NoDup (map fst c) -> In (k, d) c ->
    skipped op c d = false -> vget src k = Some v -> conforms (td_type d) v = true -> pure (td_type d) = true ->
    exists v', vget (fst (do_copy op c src o n)) k = Some v' /\ owned_by o v' /\
      forall p m, In p (cpaths v') ->
        append_at (td_type d) v' p invalid_item m = Rejected /\
        exists v'' m', append_at (td_type d) v' p (valid_item (elem_at (td_type d) p)) m = Appended v'' m' (Some o).
Proof.
  intros op c src o n k d v ND Hin Hs Hv Hc Hp.
  destruct (do_copy_trait op c src o n k d v ND Hin Hs Hv Hc) as [v' [A [E [P _]]]].
  destruct (P Hp) as [_ O]. exists v'. split; [exact A|]. split; [exact O|].
  intros p m Hpath. apply live_append; try assumption. unfold conforms in *. rewrite E. exact Hc.
Qed.
Print Assumptions copy_is_live.

(* write-once attributes stay written: the copy holds the value and a further assignment raises *)
Theorem readonly_stays_written :
  forall op c src o n k d v x m, NoDup (map fst c) -> In (k, d) c -> td_type d = TReadOnly ->
    skipped op c d = false -> vget src k = Some v ->
    exists v', vget (fst (do_copy op c src o n)) k = Some v' /\ erase v' = erase v /\
               snd (assign c o (fst (do_copy op c src o n)) k x m) = TraitError.
Proof.
  intros op c src o n k d v x m ND Hin Ht Hs Hv.
  assert (Hc : conforms (td_type d) v = true) by (unfold conforms; rewrite Ht; destruct (erase v); reflexivity).
  destruct (do_copy_trait op c src o n k d v ND Hin Hs Hv Hc) as [v' [A [E _]]].
  exists v'. split; [exact A|]. split; [exact E|].
  unfold assign. rewrite (cget_in _ _ _ ND Hin), Ht, A. reflexivity.
Qed.
Print Assumptions readonly_stays_written.

(* trait definition objects: general form of T3's round trip (instantiated on the tables regenerated
   from ctraits.c on every run) *)
Theorem ctrait_roundtrip :
  forall (T : ctables), tables_ok T = true -> forall tr tr0, wf_ctrait T tr ->
    exists st, getstate T tr = Some st /\ ctrait_agree T (setstate T st tr0) tr.
Proof. exact CTables.ctrait_roundtrip. Qed.
Print Assumptions ctrait_roundtrip.

(* ----- Instance graphs (C14/Graph.v): objects holding child objects through Instance / List(Instance) / Dict traits
   with per-trait copy metadata; trees of any depth and width ----- *)

(* the copy of an object graph: equal state at every depth; the new root and every object reached from it through
   fields whose effective mode is deep are NEW (identities allocated during the copy), recursively with the same
   operation and the children's own metadata; all of them are initialised *)
Theorem instance_graph_copy :
  forall op meta o n o' n', copy_obj op meta o n = (o', n') ->
    n < n' /\ oerase o' = oerase o /\ (forall x, In x (dids op meta o') -> n <= x < n') /\
    dinited op meta o' = true /\ id_of o' = n.
Proof. intros op meta o. exact (copy_obj_spec op meta o). Qed.
Print Assumptions instance_graph_copy.

(* children reached through a field that is not deep (ref / shallow / no metadata under a reference copy) are the
   original's child objects themselves — sharing by definition *)
Theorem reference_children_are_shared :
  forall op meta id ini sc ch n,
    kept op meta (children_of (fst (copy_obj op meta (Ob id ini sc ch) n))) = kept op meta ch.
Proof. exact copy_obj_kept. Qed.
Print Assumptions reference_children_are_shared.

(* a pickle copies the whole graph: every identity below the copy is new *)
Theorem pickle_copies_whole_graph :
  forall meta o n o' n', copy_obj Pickle meta o n = (o', n') -> forall x, In x (oids o') -> n <= x < n'.
Proof.
  intros meta o n o' n' H x Hx. destruct (copy_obj_spec Pickle meta o n o' n' H) as [_ [_ [D _]]].
  apply D. rewrite dids_pickle_all. exact Hx.
Qed.
Print Assumptions pickle_copies_whole_graph.

(* write-once-until-initialised attributes (UUID(can_init=True)): every copy is initialised, so the attribute
   cannot be written again on it *)
Theorem copy_is_initialised :
  forall op meta o n k v, assign_initonly (fst (copy_obj op meta o n)) k v = None.
Proof. intros op meta [id ini sc ch] n k v. rewrite copy_obj_eq.
       destruct (copy_children (copy_obj op meta) op meta ch (n + 1)). reflexivity. Qed.
Print Assumptions copy_is_initialised.

(* aliasing inside one copy (the memo): an object reached a second time — anything with the same identity — is
   given the very same copy, and nothing is allocated *)
Theorem aliasing_preserved_by_memo :
  forall op meta o1 o2 memo n c1 memo1 n1,
    copy_m op meta o1 memo n = (c1, memo1, n1) -> id_of o2 = id_of o1 ->
    copy_m op meta o2 memo1 n1 = (c1, memo1, n1).
Proof. exact alias_preserved. Qed.
Print Assumptions aliasing_preserved_by_memo.

(* __setstate__ hooks the post_init handlers up after trait_set: every key of the restored object reads what the
   pickled state says, whatever the handlers would write (probe 910; early_hooks_refuted = seed C14-t1) *)
Theorem setstate_restores_quietly :
  forall w flag state k,
    sget (setstate_quiet w flag state) k =
    match find (fun p => fst p =? k) (rev state) with Some p => snd p | None => 0 end.
Proof. exact Graph.setstate_restores_quietly. Qed.
Print Assumptions setstate_restores_quietly.

(* a non-write-through delegate pickles only its local override: the unpickled one reads as the original and a
   never-overridden one keeps following its target (probe 909; resolved_pickle_refuted = seed C14-n3) *)
Theorem unpickled_delegate_follows :
  forall o v, dread (dpickle o) = dread o /\ (d_override o = None -> dread (dset_target (dpickle o) v) = v).
Proof. exact Graph.unpickled_delegate_follows. Qed.
Print Assumptions unpickled_delegate_follows.

Example seeded_shapes_refuted :
  (exists w flag state, sget (setstate_early_hooks w flag state) flag <> sget (setstate_quiet w flag state) flag)
  /\ (exists o v, d_override o = None /\ dread (dset_target (dpickle_resolved o) v) <> v)
  /\ (let shared := Ob 7 true [(0, 1)] [] in
      let '(c1, m1, n1) := copy_m Pickle (fun _ => None) shared [] 100 in
      copy_m Pickle (fun _ => None) shared m1 n1 = (c1, m1, n1) /\ id_of c1 = 100).
Proof. split; [exact early_hooks_refuted|]. split; [exact resolved_pickle_refuted|]. vm_compute. split; reflexivity. Qed.

Example instance_graph_nontrivial :
  let meta := fun k => if k =? 1 then Some CDeep else None in      (* field 1: Instance (deep), field 2: Dict values *)
  let leaf := fun i => Ob i true [(0, i)] [] in
  let o := Ob 10 true [(0, 5)] [(1, Ob 11 true [] [(1, leaf 12); (2, leaf 13)]); (2, leaf 14)] in
  let c := fst (copy_obj Deepcopy meta o 100) in
  oerase c = oerase o
  /\ oids c = [100; 101; 102; 13; 14]          (* deep fields new at every depth, reference fields shared *)
  /\ oids (fst (copy_obj Pickle meta o 100)) = [100; 101; 102; 103; 104]
  /\ assign_initonly c 9 9 = None /\ assign_initonly (Ob 1 false [] []) 9 9 <> None.
Proof. vm_compute. repeat split; try reflexivity. discriminate. Qed.

(* ----- refuted on the current tree (known findings): the model follows the code ----- *)
(* copy.deepcopy shares a list held by an Any trait without copy metadata *)
Theorem deepcopy_any_shared_refuted :
  exists c src, let '(cv, _) := do_copy Deepcopy c src 1 200 in
    vget cv 0 = vget src 0 /\ vget src 0 = Some (Ct 100 None [Sc 1]).
Proof.
  exists [(0, {| td_type := TAny; td_transient := false; td_copy := None |})], [(0, Ct 100 None [Sc 1])].
  vm_compute. split; reflexivity.
Qed.
Print Assumptions deepcopy_any_shared_refuted.

(* with only transient traits nothing is copied, under every operation *)
Example all_transient_reset :
  let c := [(0, {| td_type := TInt; td_transient := true; td_copy := None |});
            (1, {| td_type := TCont TInt; td_transient := true; td_copy := None |})] in
  map (fun op => fst (do_copy op c [(0, Sc 5); (1, Ct 100 (Some 0) [Sc 3])] 1 200))
      [Pickle; Deepcopy; Clone None; Clone (Some CShallow); Clone (Some CDeep)] = [[]; []; []; []; []].
Proof. vm_compute. reflexivity. Qed.

(* Non-vacuity: a class with a nested container trait, an Any trait, a transient and a write-once
   trait; after a history with a rejected item the pickled copy satisfies the whole law, the
   hypotheses of the theorems above are met, and the copy's containers are new and bound to it. *)
Example copy_nontrivial :
  let c := [(0, {| td_type := TCont (TCont TInt); td_transient := false; td_copy := Some CDeep |});
            (1, {| td_type := TAny; td_transient := false; td_copy := None |});
            (2, {| td_type := TInt; td_transient := true; td_copy := None |});
            (3, {| td_type := TReadOnly; td_transient := false; td_copy := None |})] in
  let hs := [HAssign 0 (Ct 0 None [Ct 0 None [Sc 1]; Ct 0 None []]); HAppend 0 [0%nat] (Sc (-1));
             HAppend 0 [1%nat] (Sc 4); HAssign 1 (Ct 0 None [Sc 2]); HAssign 2 (Sc 42); HAssign 3 (Sc 9)] in
  law Pickle c (model_obs Pickle c hs) = []
  /\ NoDup (map fst c)
  /\ length (co_probes (model_obs Pickle c hs)) = 5%nat
  /\ map (fun p => erase (snd p)) (co_copy (model_obs Pickle c hs))
     = [SCt [SCt [SSc 1]; SCt [SSc 4]]; SCt [SSc 2]; SSc 0; SSc 9].
Proof.
  vm_compute. repeat split; try reflexivity.
  repeat constructor; simpl; intuition discriminate.
Qed.
