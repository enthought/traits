(* C14 — every state reached by an assignment / nested-append history is well-formed, hence the whole
   law holds on the model's observation of a copy taken after ANY history. *)
From Coq Require Import ZArith List Bool Lia.
From TV Require Import Common.Harness C14.Model C14.Law C14.Corr C14.Proofs C14.Whole.
Import ListNotations.
Open Scope Z_scope.

Lemma validate_conforms : forall v t o n v' n', validate t o v n = Some (v', n') -> conforms t v' = true.
Proof. intros v t o n v' n' H. apply (validate_spec _ _ _ _ _ _ H). Qed.

Definition bounded (lo hi : Z) (v : value) : Prop := forall x, In x (ids v) -> lo <= x < hi.

Lemma validate_bounded : forall t o v n v' n' lo, simple t = true -> lo <= n -> bounded lo n v ->
  validate t o v n = Some (v', n') -> n <= n' /\ bounded lo n' v'.
Proof.
  intros t o v n v' n' lo Hs Hlo Hb H. destruct (validate_spec _ _ _ _ _ _ H) as (M & _ & _ & P). split; [exact M|].
  destruct t; simpl in Hs.
  - destruct (P eq_refl) as [I _]. intros x Hx. specialize (I x Hx). lia.
  - destruct (P Hs) as [I _]. intros x Hx. specialize (I x Hx). lia.
  - destruct v; simpl in H; inversion H; subst; intros x Hx; specialize (Hb x Hx); lia.
  - destruct v; simpl in H; inversion H; subst; intros x Hx; specialize (Hb x Hx); lia.
Qed.

(* a container trait's value is bound to its object at every depth; plain (Any) values are not.  Also demands that the
   item type is a List/Dict/Set nesting over Int ([pure]): no value of a TCont TAny trait satisfies it. *)
Definition bound_if_cont (t : ttype) (oo : Z) (v : value) : Prop :=
  forall i, t = TCont i -> pure i = true /\ owned_by oo v.

(* what [wfs] says of one stored value *)
Definition value_ok (t : ttype) (lo hi oo : Z) (v : value) : Prop :=
  conforms t v = true /\ bounded lo hi v /\ bound_if_cont t oo v.

Lemma value_ok_mono : forall t lo hi hi' oo v, value_ok t lo hi oo v -> hi <= hi' -> value_ok t lo hi' oo v.
Proof. intros t lo hi hi' oo v (C & B & O) Hh. split; [exact C|]. split; [|exact O]. eapply ids_in_weaken; eauto; lia. Qed.

(* a container is well-formed when its header is and every item is, at the item type *)
Lemma value_ok_cont : forall t lo hi oo id ow items,
  value_ok t lo hi oo (Ct id ow items) <->
  t <> TInt /\ lo <= id < hi /\ (forall i, t = TCont i -> pure i = true /\ ow = Some oo) /\
  Forall (value_ok (inner_of t) lo hi oo) items.
Proof.
  intros t lo hi oo id ow items. unfold value_ok, bound_if_cont. change bounded with ids_in. rewrite ids_in_cont.
  destruct t as [| inner | |]; cbn [inner_of].
  (* Any, ReadOnly: whatever was stored; only the identities matter *)
  3,4: split;
    [ intros (_ & (Hid & B) & _); split; [discriminate|]; split; [exact Hid|]; split; [discriminate|];
      eapply Forall_impl; [|exact B]; intros y By; split; [destruct y; reflexivity|]; split; [exact By | discriminate]
    | intros (_ & Hid & _ & F); split; [reflexivity|]; split; [|discriminate]; split; [exact Hid|];
      eapply Forall_impl; [|exact F]; intros y W; apply W ].
  - split; [intros [C _]; discriminate C | intros [N _]; contradiction].
  - rewrite conforms_cont, !Forall_forall. split.
    + intros (C & (Hid & B) & O). destruct (O inner eq_refl) as [P Ow]. apply owned_by_cont in Ow as [-> Ow].
      rewrite Forall_forall in Ow.
      split; [discriminate|]. split; [exact Hid|]. split; [intros i [= <-]; auto|].
      intros y Hy. split; [auto|]. split; [auto|]. intros j ->. split; [exact P | auto].
    + intros (_ & Hid & Hd & F). destruct (Hd inner eq_refl) as [P ->].
      split; [intros y Hy; apply F, Hy|]. split; [split; [exact Hid|]; intros y Hy; apply F, Hy|].
      intros i [= <-]. split; [exact P|]. apply owned_by_cont. split; [reflexivity|]. apply Forall_forall. intros y Hy.
      destruct (F y Hy) as (C & _ & O). destruct inner; try discriminate P.
      * destruct y; [intros o [] | discriminate C].
      * exact (proj2 (O _ eq_refl)).
Qed.

Lemma pure_simple : forall t, pure t = true -> simple t = true.
Proof. intros [] H; try reflexivity; exact H. Qed.

Lemma validated_ok : forall t oo x n x' n' lo, simple t = true -> lo <= n -> bounded lo n x ->
  validate t oo x n = Some (x', n') -> n <= n' /\ value_ok t lo n' oo x'.
Proof.
  intros t oo x n x' n' lo S Hlo Hx E.
  destruct (validate_bounded _ _ _ _ _ _ lo S Hlo Hx E) as [M B].
  destruct (validate_spec _ _ _ _ _ _ E) as (_ & _ & C & P).
  split; [exact M|]. split; [exact C|]. split; [exact B|]. intros j ->. split; [exact S | apply (P S)].
Qed.

Lemma value_ok_items : forall t lo hi hi' oo id ow items items',
  value_ok t lo hi oo (Ct id ow items) -> hi <= hi' -> Forall (value_ok (inner_of t) lo hi' oo) items' ->
  value_ok t lo hi' oo (Ct id ow items').
Proof.
  intros t lo hi hi' oo id ow items items' W Hh F. apply value_ok_cont in W as (Ht & Hid & Hd & _).
  apply value_ok_cont. split; [exact Ht|]. split; [lia|]. split; assumption.
Qed.

Lemma append_at_spec : forall path t v x n v' n' who lo oo,
  lo <= n -> conforms t v = true -> bounded lo n v -> bounded lo n x -> bound_if_cont t oo v ->
  append_at t v path x n = Appended v' n' who ->
  n <= n' /\ conforms t v' = true /\ bounded lo n' v' /\ bound_if_cont t oo v'.
Proof.
  induction path as [|i p IH]; intros t v x n v' n' who lo oo Hlo Hc Hb Hx Hp H;
    destruct v as [z | id ow items]; cbn [append_at] in H; try discriminate;
    fold (inner_of t) in H; pose proof (conj Hc (conj Hb Hp) : value_ok t lo n oo _) as W;
    pose proof (proj1 (value_ok_cont _ _ _ _ _ _ _) W) as (Ht & _ & Hd & F).
  - (* the validated item joins the items *)
    assert (I : exists x', v' = Ct id ow (items ++ [x']) /\ n <= n' /\ value_ok (inner_of t) lo n' oo x').
    { destruct t as [| inner | |]; [contradiction| | |]; cbn [inner_of] in *.
      - destruct (Hd inner eq_refl) as [P ->].
        destruct (validate inner oo x n) as [[x' m]|] eqn:E; inversion H; subst.
        exists x'. split; [reflexivity|]. exact (validated_ok _ _ _ _ _ _ _ (pure_simple _ P) Hlo Hx E).
      - exists x. destruct ow; [rewrite validate_any in H|]; inversion H; subst;
          (split; [reflexivity|]; split; [lia|]; split; [destruct x; reflexivity|]; split; [exact Hx | discriminate]).
      - exists x. destruct ow; [rewrite validate_any in H|]; inversion H; subst;
          (split; [reflexivity|]; split; [lia|]; split; [destruct x; reflexivity|]; split; [exact Hx | discriminate]).
    }
    destruct I as (x' & -> & M & Wx). split; [exact M|]. apply (value_ok_items _ _ _ _ _ _ _ _ _ W M).
    apply Forall_app. split; [|constructor; [exact Wx | constructor]].
    eapply Forall_impl; [|exact F]. intros y Wy. exact (value_ok_mono _ _ _ _ _ _ Wy M).
  - (* the item on the path is replaced by its updated version *)
    destruct (nth_error items i) as [y|] eqn:N; [|discriminate].
    destruct (append_at (inner_of t) y p x n) as [y' m who' | |] eqn:A; inversion H; subst.
    rewrite Forall_forall in F. destruct (F y (nth_error_In _ _ N)) as (Cy & By & Py).
    destruct (IH _ _ _ _ _ _ _ lo oo Hlo Cy By Hx Py A) as [M Wy']. split; [exact M|].
    apply (value_ok_items _ _ _ _ _ _ _ _ _ W M). apply Forall_replace; [|exact Wy'].
    apply Forall_forall. intros z Hz. exact (value_ok_mono _ _ _ _ _ _ (F z Hz) M).
Qed.

Definition wfs (c : cls) (s : vals) (n : Z) : Prop :=
  0 <= n /\
  forall k v, vget s k = Some v ->
    exists d, In (k, d) c /\ conforms (td_type d) v = true /\ bounded 0 n v /\ bound_if_cont (td_type d) orig_atom v.

Lemma cget_some_in : forall c k d, cget c k = Some d -> In (k, d) c.
Proof.
  induction c as [|[k1 d1] r IH]; intros k d H; simpl in H; [discriminate|].
  destruct (k1 =? k) eqn:E; [apply Z.eqb_eq in E; inversion H; subst; left; reflexivity | right; apply IH; exact H].
Qed.

Lemma wfs_mono : forall c s n n', wfs c s n -> n <= n' -> wfs c s n'.
Proof.
  intros c s n n' [N H] Hn. split; [lia|]. intros k v G. destruct (H k v G) as (d & A & W).
  exists d. split; [exact A | exact (value_ok_mono _ _ _ _ _ _ W Hn)].
Qed.

Lemma wfs_vset : forall c s n k d v, wfs c s n -> In (k, d) c -> value_ok (td_type d) 0 n orig_atom v -> wfs c (vset s k v) n.
Proof.
  intros c s n k d v [N H] Hin W. split; [exact N|]. intros k' v' G.
  destruct (Z.eq_dec k' k) as [->|Hne].
  - rewrite vget_vset_same in G. inversion G; subst. exists d. split; [exact Hin | exact W].
  - rewrite vget_vset_other in G by assumption. exact (H k' v' G).
Qed.

Section Reach.
Variable c : cls.
Hypothesis ND : NoDup (map fst c).
Hypothesis SIMPLE : forall k d, In (k, d) c -> simple (td_type d) = true.

Lemma assign_wfs : forall s k raw n s' n' out, wfs c s n -> bounded 0 n raw ->
  assign c orig_atom s k raw n = (s', n', out) -> n <= n' /\ wfs c s' n'.
Proof.
  intros s k raw n s' n' out Wf Hraw H. pose proof (assign_mono _ _ _ _ _ _ _ _ _ H) as M. split; [exact M|].
  unfold assign in H. destruct (cget c k) as [d|] eqn:G; [|inversion H; subst; exact Wf].
  pose proof (cget_some_in _ _ _ G) as Hin.
  assert (K : forall v m, validate (td_type d) orig_atom raw n = Some (v, m) -> wfs c (vset s k v) m).
  { intros v m E. destruct (validated_ok _ _ _ _ _ _ 0 (SIMPLE _ _ Hin) (proj1 Wf) Hraw E) as [M' W].
    apply wfs_vset with (d := d); [eapply wfs_mono; eauto | exact Hin | exact W]. }
  destruct (td_type d) eqn:T;
    try (destruct (vget s k) eqn:Gk; [inversion H; subst; exact Wf|]);
    (destruct (validate _ orig_atom raw n) as [[v m]|] eqn:E; inversion H; subst; [apply K; reflexivity | exact Wf]).
Qed.

Lemma hstep_wfs : forall s n h s' n' out, wfs c s n -> hstep c orig_atom s n h = (s', n', out) ->
  n <= n' /\ wfs c s' n'.
Proof.
  intros s n h s' n' out Wf H. pose proof (proj1 Wf) as N. destruct h as [k raw | k path x]; simpl in H.
  - destruct (strip raw n) as [raw' n1] eqn:S. destruct (strip_spec _ _ _ _ S) as (M1 & B1 & _).
    destruct (assign_wfs _ _ _ _ _ _ _ (wfs_mono _ _ _ _ Wf M1) (ids_in_weaken _ _ 0 n1 _ B1 N (Z.le_refl _)) H)
      as [M2 W2].
    split; [lia | exact W2].
  - destruct (cget c k) as [d|] eqn:G; [|inversion H; subst; split; [lia | exact Wf]].
    destruct (vget s k) as [v|] eqn:Gv; [|inversion H; subst; split; [lia | exact Wf]].
    destruct (strip x n) as [x' n1] eqn:S. destruct (strip_spec _ _ _ _ S) as (M1 & B1 & _).
    pose proof (wfs_mono _ _ _ _ Wf M1) as Wf1.
    destruct (proj2 Wf1 k v Gv) as (d' & Hin & Hc & Hb & Ho).
    assert (d' = d) by (pose proof (cget_in _ _ _ ND Hin); congruence). subst d'.
    destruct (append_at (td_type d) v path x' n1) as [v' m who | |] eqn:A; inversion H; subst; try (split; [lia | exact Wf1]).
    destruct (append_at_spec path (td_type d) v x' n1 v' n' who 0 orig_atom ltac:(lia) Hc Hb
                (ids_in_weaken _ _ 0 n1 _ B1 N (Z.le_refl _)) Ho A) as [M2 W2].
    split; [lia|]. apply wfs_vset with (d := d); [eapply wfs_mono; eauto | exact Hin | exact W2].
Qed.

Lemma hrun_wfs : forall hs s n, wfs c s n -> wfs c (fst (hrun c orig_atom s n hs)) (snd (hrun c orig_atom s n hs)).
Proof.
  induction hs as [|h r IH]; intros s n Wf; simpl; [exact Wf|].
  destruct (hstep c orig_atom s n h) as [[s' n'] out] eqn:E.
  destruct (hstep_wfs _ _ _ _ _ _ Wf E) as [_ W']. exact (IH _ _ W').
Qed.

Lemma wfs_empty : wfs c [] first_id.
Proof. split; [unfold first_id; lia|]. intros k v G. discriminate. Qed.
End Reach.

Theorem law_holds_after_every_history :
  forall (op : copyop) (c : cls) (hs : list hop),
    NoDup (map fst c) ->
    (forall k d, In (k, d) c -> simple (td_type d) = true) ->
    (forall k d, In (k, d) c -> td_type d = TAny \/ td_type d = TReadOnly -> law_mode op d = CDeep -> effective op d = CDeep) ->
    law op c (model_obs op c hs) = [].
Proof.
  intros op c hs ND SI DD. rewrite model_obs_is_obs_of.
  pose proof (hrun_wfs c ND SI hs [] first_id (wfs_empty c)) as [N H].
  apply law_holds_on_copy. constructor; try assumption.
  intros k v G. destruct (H k v G) as [d [A [B [C _]]]]. exists d. split; [exact A|]. split; [exact B | exact C].
Qed.
