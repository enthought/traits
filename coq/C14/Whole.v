(* C14 — the whole law on the model's own observation, for every well-formed source state. *)
From Coq Require Import ZArith List Bool Lia.
From TV Require Import Common.Harness C14.Model C14.Law C14.Corr C14.Proofs.
Import ListNotations.
Open Scope Z_scope.

Section shape_ind'.
  Variable P : shape -> Prop.
  Hypothesis HS : forall z, P (SSc z).
  Hypothesis HC : forall items, Forall P items -> P (SCt items).
  Fixpoint shape_ind' (s : shape) : P s :=
    match s with
    | SSc z => HS z
    | SCt items => HC items ((fix go (l : list shape) : Forall P l :=
                                match l with [] => Forall_nil P | x :: r => Forall_cons x (shape_ind' x) (go r) end) items)
    end.
End shape_ind'.

Lemma shape_eqb_refl : forall s, shape_eqb s s = true.
Proof.
  induction s as [z | items IH] using shape_ind'; simpl; [apply Z.eqb_refl|].
  induction items as [|x r IHr]; [reflexivity|]. inversion IH; subst. rewrite H1. simpl. apply IHr. assumption.
Qed.

Definition obs_of (op : copyop) (c : cls) (s0 : vals) (n0 : Z) : cobs :=
  let '(cv, n1) := do_copy op c s0 copy_atom n0 in
  {| co_same_class := true;
     co_orig := read_all c orig_atom s0;
     co_copy := read_all c copy_atom cv;
     co_probes := probes_of c copy_atom cv n1 |}.

Lemma model_obs_is_obs_of : forall op c hs,
  model_obs op c hs = obs_of op c (fst (hrun c orig_atom [] first_id hs)) (snd (hrun c orig_atom [] first_id hs)).
Proof. intros. unfold model_obs, obs_of. destruct (hrun c orig_atom [] first_id hs). reflexivity. Qed.

Lemma vget_read_all : forall c0 o s c k,
  vget (flat_map (fun p : Z * tdef => match read c0 o s (fst p) with Some v => [(fst p, v)] | None => [] end) c) k
  = if memz k (map fst c) then read c0 o s k else None.
Proof.
  intros c0 o s c k. induction c as [|[k1 d1] r IH]; [reflexivity|]. simpl.
  destruct (k =? k1) eqn:E.
  - apply Z.eqb_eq in E. subst k1. simpl. destruct (read c0 o s k) as [v|] eqn:R; simpl.
    + rewrite Z.eqb_refl. reflexivity.
    + rewrite IH. destruct (memz k (map fst r)); reflexivity.
  - simpl. destruct (read c0 o s k1) as [v|]; simpl.
    + rewrite Z.eqb_sym, E. exact IH.
    + exact IH.
Qed.

Lemma memz_of_in : forall k l, In k l -> memz k l = true.
Proof. intros k l H. unfold memz. apply existsb_exists. exists k. split; [exact H | apply Z.eqb_refl]. Qed.

Lemma vget_read_all_in : forall c o s k d, In (k, d) c -> vget (read_all c o s) k = read c o s k.
Proof.
  intros c o s k d Hin. unfold read_all. rewrite vget_read_all.
  rewrite memz_of_in; [reflexivity|]. apply in_map_iff. exists (k, d). split; [reflexivity | exact Hin].
Qed.

Lemma in_all_ids_read_all : forall c o s x, In x (all_ids (read_all c o s)) ->
  exists k v, read c o s k = Some v /\ In x (ids v).
Proof.
  intros c o s x H. unfold all_ids in H. apply in_flat_map in H. destruct H as [[k v] [Hin Hx]]. simpl in Hx.
  unfold read_all in Hin. apply in_flat_map in Hin. destruct Hin as [[k1 d1] [_ Hin]]. simpl in Hin.
  destruct (read c o s k1) as [v1|] eqn:R; [|destruct Hin]. destruct Hin as [E|[]]. inversion E; subst.
  exists k, v. split; assumption.
Qed.

(* the trait types of the theorems: scalars, Any, ReadOnly, and List/Dict/Set nestings that end in Int *)
Definition simple (t : ttype) : bool := match t with TCont _ => pure t | _ => true end.

Record wf (op : copyop) (c : cls) (s0 : vals) (n0 : Z) : Prop := {
  wf_nodup : NoDup (map fst c);
  wf_simple : forall k d, In (k, d) c -> simple (td_type d) = true;
  wf_vals : forall k v, vget s0 k = Some v ->
              exists d, In (k, d) c /\ conforms (td_type d) v = true /\ (forall x, In x (ids v) -> 0 <= x < n0);
  wf_n0 : 0 <= n0;
  (* the listed finding (copy.deepcopy copies Any/ReadOnly traits without copy metadata by reference) is excluded *)
  wf_deep_is_deep : forall k d, In (k, d) c -> td_type d = TAny \/ td_type d = TReadOnly ->
                      law_mode op d = CDeep -> effective op d = CDeep
}.

Section Whole.
Variables (op : copyop) (c : cls) (s0 : vals) (n0 : Z).
Hypothesis W : wf op c s0 n0.

Let cv := fst (do_copy op c s0 copy_atom n0).
Let n1 := snd (do_copy op c s0 copy_atom n0).

Lemma cget_of : forall k d, In (k, d) c -> cget c k = Some d.
Proof. intros. apply cget_in; [exact (wf_nodup _ _ _ _ W) | assumption]. Qed.

(* a stored value belongs to its trait as the class declares it *)
Lemma wf_val : forall k d v, In (k, d) c -> vget s0 k = Some v ->
  conforms (td_type d) v = true /\ forall x, In x (ids v) -> 0 <= x < n0.
Proof.
  intros k d v Hin G. destruct (wf_vals _ _ _ _ W k v G) as (d' & Hin' & H).
  replace d with d'; [exact H|]. pose proof (cget_of _ _ Hin). pose proof (cget_of _ _ Hin'). congruence.
Qed.

Lemma copy_stored : forall k d, In (k, d) c ->
  match vget s0 k with
  | Some v =>
      if td_transient d then vget cv k = None
      else exists v', vget cv k = Some v' /\ erase v' = erase v /\
             (pure (td_type d) = true -> ids_in n0 n1 v' /\ owned_by copy_atom v') /\
             (effective op d = CDeep -> td_type d = TAny \/ td_type d = TReadOnly -> ids_in n0 n1 v')
  | None => vget cv k = None
  end.
Proof.
  intros k d Hin. pose proof (wf_nodup _ _ _ _ W) as ND. destruct (vget s0 k) as [v|] eqn:G.
  - destruct (td_transient d) eqn:T.
    + apply (do_copy_skipped op c s0 copy_atom n0 k d ND Hin). left. exact T.
    + apply (do_copy_trait op c s0 copy_atom n0 k d v ND Hin T G). apply (wf_val k d v Hin G).
  - apply (do_copy_skipped op c s0 copy_atom n0 k d ND Hin). right. exact G.
Qed.

Lemma mono_copy : n0 <= n1.
Proof.
  unfold n1, do_copy. rewrite copy_into_fold.
  exact (fold_mono op c s0 copy_atom c ([], n0)).
Qed.

Lemma conforms_default : forall t o, t <> TReadOnly ->
  match t with
  | TCont _ => conforms t (Ct (- (1 + o)) (Some o) []) = true
  | _ => conforms t (Sc 0) = true
  end.
Proof. intros t o _. destruct t; reflexivity. Qed.

Lemma erase_sc : forall v z, erase v = SSc z -> v = Sc z.
Proof. intros v z H. destruct v; simpl in H; [congruence | discriminate]. Qed.

(* reading trait k on the copy yields the value its copy step stored, or the copy's own default *)
Lemma copy_read_cases : forall k d v', In (k, d) c -> read c copy_atom cv k = Some v' ->
  (exists v, vget s0 k = Some v /\ td_transient d = false /\ erase v' = erase v /\
     (pure (td_type d) = true -> ids_in n0 n1 v' /\ owned_by copy_atom v') /\
     (effective op d = CDeep -> td_type d = TAny \/ td_type d = TReadOnly -> ids_in n0 n1 v'))
  \/ v' = match td_type d with TCont _ => Ct (- (1 + copy_atom)) (Some copy_atom) [] | _ => Sc 0 end.
Proof.
  intros k d v' Hin R. pose proof (copy_stored k d Hin) as S. unfold read in R. rewrite (cget_of _ _ Hin) in R.
  destruct (vget cv k) as [w|] eqn:G.
  - left. inversion R; subst w. destruct (vget s0 k) as [v|]; [|discriminate].
    destruct (td_transient d); [discriminate|]. destruct S as (w & A & S). inversion A; subst w.
    exists v. split; [reflexivity|]. split; [reflexivity | exact S].
  - right. destruct (td_type d); inversion R; reflexivity.
Qed.

Lemma pure_cont : forall k d, In (k, d) c -> is_cont (td_type d) = true -> pure (td_type d) = true.
Proof. intros k d Hin C. pose proof (wf_simple _ _ _ _ W k d Hin). destruct (td_type d); try discriminate; assumption. Qed.

Lemma copy_read_conforms : forall k d v', In (k, d) c -> read c copy_atom cv k = Some v' ->
  conforms (td_type d) v' = true.
Proof.
  intros k d v' Hin R. destruct (copy_read_cases k d v' Hin R) as [(v & G & _ & E & _) | ->].
  - unfold conforms. rewrite E. apply (wf_val k d v Hin G).
  - destruct (td_type d); reflexivity.
Qed.

Lemma copy_read_owned : forall k d v', In (k, d) c -> is_cont (td_type d) = true ->
  read c copy_atom cv k = Some v' -> owned_by copy_atom v'.
Proof.
  intros k d v' Hin C R. destruct (copy_read_cases k d v' Hin R) as [(v & _ & _ & _ & P & _) | ->].
  - apply (P (pure_cont k d Hin C)).
  - destruct (td_type d); try discriminate. intros x [<- | []]. reflexivity.
Qed.

(* identities of the copy's value: allocated during the copy, or the copy's own default container *)
Lemma copy_read_ids : forall k d v', In (k, d) c -> td_transient d = false -> law_mode op d = CDeep ->
  read c copy_atom cv k = Some v' -> forall x, In x (ids v') -> n0 <= x \/ x = - (1 + copy_atom).
Proof.
  intros k d v' Hin Ht Hm R x Hx. destruct (copy_read_cases k d v' Hin R) as [(v & G & _ & E & P & Q) | ->].
  - left. pose proof (wf_deep_is_deep _ _ _ _ W k d Hin) as Hd. pose proof (wf_simple _ _ _ _ W k d Hin) as Hs.
    destruct (td_type d) eqn:T.
    + destruct v'; [destruct Hx|]. pose proof (proj1 (wf_val k d v Hin G)) as Hc.
      unfold conforms in Hc. rewrite T, <- E in Hc. discriminate.
    + apply (proj1 (P Hs)), Hx.
    + apply (Q (Hd (or_introl eq_refl) Hm) (or_introl eq_refl)), Hx.
    + apply (Q (Hd (or_intror eq_refl) Hm) (or_intror eq_refl)), Hx.
  - right. destruct (td_type d); simpl in Hx; try contradiction. destruct Hx as [<- | []]. reflexivity.
Qed.

(* identities of the original: allocated before the copy, or the original's own default container *)
Lemma orig_read_ids : forall k v x, read c orig_atom s0 k = Some v -> In x (ids v) ->
  (0 <= x < n0) \/ x = - (1 + orig_atom).
Proof.
  intros k v x R Hx. unfold read in R. destruct (vget s0 k) as [w|] eqn:G.
  - inversion R; subst w. destruct (wf_vals _ _ _ _ W k v G) as [_ [_ [_ B]]]. left. exact (B x Hx).
  - destruct (cget c k) as [d|]; [|discriminate]. destruct (td_type d); inversion R; subst; simpl in Hx; try contradiction.
    destruct Hx as [<- | []]. right. reflexivity.
Qed.

Lemma copy_read_shape : forall k d, In (k, d) c -> td_transient d = false ->
  oshape_eqb (read c copy_atom cv k) (read c orig_atom s0 k) = true.
Proof.
  intros k d Hin Ht. pose proof (copy_stored k d Hin) as S. unfold read. rewrite (cget_of _ _ Hin).
  destruct (vget s0 k) as [v|] eqn:G0.
  - rewrite Ht in S. destruct S as [w [A [E _]]]. rewrite A. simpl. rewrite E. apply shape_eqb_refl.
  - rewrite S. destruct (td_type d); reflexivity.
Qed.

Lemma copy_read_transient : forall k d, In (k, d) c -> td_transient d = true ->
  match read c copy_atom cv k with
  | Some v => shape_eqb (erase v) (default_shape (td_type d)) = true
  | None => True
  end.
Proof.
  intros k d Hin Ht. pose proof (copy_stored k d Hin) as S. unfold read. rewrite (cget_of _ _ Hin).
  assert (G : vget cv k = None) by (destruct (vget s0 k); [rewrite Ht in S|]; exact S).
  rewrite G. destruct (td_type d); simpl; try reflexivity; exact I.
Qed.
End Whole.

Section WholeLaw.
Variables (op : copyop) (c : cls) (s0 : vals) (n0 : Z).
Hypothesis W : wf op c s0 n0.

Let cv := fst (do_copy op c s0 copy_atom n0).
Let n1 := snd (do_copy op c s0 copy_atom n0).
Let ob := obs_of op c s0 n0.

Lemma ob_eq : ob = {| co_same_class := true; co_orig := read_all c orig_atom s0;
                      co_copy := read_all c copy_atom cv; co_probes := probes_of c copy_atom cv n1 |}.
Proof. unfold ob, obs_of, cv, n1. destruct (do_copy op c s0 copy_atom n0). reflexivity. Qed.

Lemma whole_values : clause_values c ob = true.
Proof.
  rewrite ob_eq. unfold clause_values. apply forallb_forall. intros [k d] Hin. simpl.
  destruct (td_transient d) eqn:T; [reflexivity|]. simpl.
  rewrite (vget_read_all_in c copy_atom cv k d Hin), (vget_read_all_in c orig_atom s0 k d Hin).
  exact (copy_read_shape op c s0 n0 W k d Hin T).
Qed.

Lemma whole_transient : clause_transient c ob = true.
Proof.
  rewrite ob_eq. unfold clause_transient. apply forallb_forall. intros [k d] Hin. simpl.
  destruct (td_transient d) eqn:T; [|reflexivity]. simpl.
  rewrite (vget_read_all_in c copy_atom cv k d Hin).
  pose proof (copy_read_transient op c s0 n0 W k d Hin T) as H. fold cv in H.
  destruct (read c copy_atom cv k); [exact H | reflexivity].
Qed.

Lemma whole_unshared : clause_unshared op c ob = true.
Proof.
  rewrite ob_eq. unfold clause_unshared. apply forallb_forall. intros [k d] Hin. simpl.
  destruct (law_mode op d) eqn:M; try reflexivity. destruct (td_transient d) eqn:T; [reflexivity|].
  rewrite (vget_read_all_in c copy_atom cv k d Hin).
  destruct (read c copy_atom cv k) as [v'|] eqn:R; [|reflexivity].
  unfold disjoint. apply forallb_forall. intros x Hx.
  destruct (Law.memz x (all_ids (read_all c orig_atom s0))) eqn:E; [|reflexivity]. exfalso.
  unfold Law.memz in E. apply existsb_exists in E. destruct E as [y [Hy Exy]]. apply Z.eqb_eq in Exy. subst y.
  destruct (in_all_ids_read_all _ _ _ _ Hy) as [k2 [v2 [R2 Hx2]]].
  pose proof (orig_read_ids op c s0 n0 W k2 v2 x R2 Hx2) as A.
  pose proof (copy_read_ids op c s0 n0 W k d v' Hin T M R x Hx) as B.
  pose proof (wf_n0 _ _ _ _ W) as N0. unfold copy_atom, orig_atom in *. lia.
Qed.

Lemma whole_owner : clause_owner c ob = true.
Proof.
  rewrite ob_eq. unfold clause_owner. apply forallb_forall. intros [k d] Hin. simpl.
  destruct (is_cont (td_type d)) eqn:C; [|reflexivity]. simpl.
  rewrite (vget_read_all_in c copy_atom cv k d Hin).
  destruct (read c copy_atom cv k) as [v'|] eqn:R; [|reflexivity].
  apply forallb_forall. intros o Ho.
  rewrite (copy_read_owned op c s0 n0 W k d v' Hin C R o Ho). apply Z.eqb_refl.
Qed.

Lemma cont_probe_ok : forall k d v' path, In (k, d) c -> is_cont (td_type d) = true ->
  read c copy_atom cv k = Some v' -> In path (cpaths v') ->
  probe_cont (td_type d) v' k path n1 =
    PCont k path TraitError Ok [copy_atom] [copy_atom] [copy_atom] true.
Proof.
  intros k d v' path Hin C R Hp.
  destruct (live_append v' (td_type d) copy_atom n1 path (pure_cont op c s0 n0 W k d Hin C)
              (copy_read_conforms op c s0 n0 W k d v' Hin R) (copy_read_owned op c s0 n0 W k d v' Hin C R) Hp)
    as [Ri [v'' [m Rv]]].
  unfold probe_cont. rewrite Ri, Rv. reflexivity.
Qed.

(* every probe of the copy: a live container path, a rejected scalar, or the re-assignment of a write-once trait *)
Lemma copy_probes : forall pr, In pr (probes_of c copy_atom cv n1) ->
  (exists k path, pr = PCont k path TraitError Ok [copy_atom] [copy_atom] [copy_atom] true) \/
  (exists k, pr = PScalar k TraitError) \/
  (exists k d, In (k, d) c /\ td_type d = TReadOnly /\ pr = PReadOnly k (snd (assign c copy_atom cv k (Sc 5) n1))).
Proof.
  intros pr H. unfold probes_of in H. apply in_flat_map in H as [[k d] [Hin H]]. cbn [fst snd] in H.
  destruct (td_type d) eqn:T.
  - destruct H as [<-|[]]. right; left. exists k. reflexivity.
  - destruct (read c copy_atom cv k) as [v'|] eqn:R; [|destruct H]. apply in_map_iff in H as [path [<- Hp]].
    left. exists k, path. rewrite <- T. apply (cont_probe_ok k d v' path Hin); [rewrite T; reflexivity | exact R | exact Hp].
  - destruct H.
  - destruct H as [<-|[]]. right; right. exists k, d. auto.
Qed.

Lemma whole_invalid : clause_invalid ob = true.
Proof.
  rewrite ob_eq. apply forallb_forall. intros pr Hpr.
  destruct (copy_probes pr Hpr) as [(k & path & ->) | [(k & ->) | (k & d & _ & _ & ->)]]; reflexivity.
Qed.

Lemma whole_valid : clause_valid ob = true.
Proof.
  rewrite ob_eq. apply forallb_forall. intros pr Hpr.
  destruct (copy_probes pr Hpr) as [(k & [|] & ->) | [(k & ->) | (k & d & _ & _ & ->)]]; reflexivity.
Qed.

Lemma whole_instances : clause_instances op ob = true.
Proof.
  rewrite ob_eq. apply forallb_forall. intros pr Hpr.
  destruct (copy_probes pr Hpr) as [(k & path & ->) | [(k & ->) | (k & d & _ & _ & ->)]]; reflexivity.
Qed.

(* a write-once trait the original has written and the copy carries: the copy holds an equal value, so a further
   assignment is refused *)
Lemma whole_readonly : clause_readonly c ob = true.
Proof.
  rewrite ob_eq. apply forallb_forall. intros pr Hpr.
  destruct (copy_probes pr Hpr) as [(k & path & ->) | [(k & ->) | (k & d & Hin & T & ->)]]; try reflexivity.
  cbn [co_orig co_copy]. rewrite (cget_of op c s0 n0 W k d Hin), (vget_read_all_in c orig_atom s0 k d Hin).
  unfold read at 1. destruct (vget s0 k) as [v|] eqn:G0; [|rewrite (cget_of op c s0 n0 W k d Hin), T; reflexivity].
  destruct (td_transient d) eqn:Tr; [reflexivity|].
  pose proof (copy_stored op c s0 n0 W k d Hin) as S. rewrite G0, Tr in S. destruct S as [w [A _]]. fold cv in A.
  unfold assign. rewrite (cget_of op c s0 n0 W k d Hin), T, A, (vget_read_all_in c copy_atom cv k d Hin).
  pose proof (copy_read_shape op c s0 n0 W k d Hin Tr) as Sh. fold cv in Sh. rewrite Sh. reflexivity.
Qed.

(* The whole law holds on the model's observation of the copy, for every copy operation, every class
   and every well-formed source state (the listed finding excluded by [wf_deep_is_deep]). *)
Theorem law_holds_on_copy : law op c ob = [].
Proof.
  unfold law.
  rewrite whole_values, whole_transient, whole_unshared, whole_owner, whole_invalid, whole_valid, whole_readonly,
    whole_instances.
  rewrite ob_eq. reflexivity.
Qed.
End WholeLaw.
