(* C14 — Instance graphs: objects holding child objects through Instance / List(Instance) / Dict(K, Instance)
   traits with per-trait copy metadata, and the `inited` flag (write-once-until-initialised attributes).

   Executable model of the recursion of HasTraits.__deepcopy__ / clone_traits / copy_traits through child
   objects (has_traits.py 1546-1693): a child reached through a trait whose EFFECTIVE mode is deep is copied by
   copy.deepcopy(value, memo) -> child.__deepcopy__(memo) -> child.clone_traits(copy=memo["traits_copy_mode"]),
   i.e. recursively with the SAME operation and the child's own per-trait metadata; ref / shallow keep the child
   objects (a shallow copy of a List/Dict of instances is a new container of the same objects); pickling copies
   everything.  Every clone ends with _trait_set_inited() (1682) and __setstate__ with the same call (1360).
   Object graphs are TREES in copy_obj (no aliasing between fields); the memo that preserves aliasing inside one copy
   is modelled separately by copy_m below, on subtrees with the same identity.
   One child entry (k, c) per child object: a List(Instance) / Dict field with three children is three entries
   with the same field id k.  Field metadata is global (field id -> copy metadata). *)
From Coq Require Import ZArith List Bool Lia.
From TV Require Import Common.Harness C14.Model.
Import ListNotations.
Open Scope Z_scope.

Inductive obj := Ob (id : Z) (inited : bool) (scalars : list (Z * Z)) (children : list (Z * obj)).

Section obj_ind'.
  Variable P : obj -> Prop.
  Hypothesis H : forall id ini sc ch, Forall (fun p => P (snd p)) ch -> P (Ob id ini sc ch).
  Fixpoint obj_ind' (o : obj) : P o :=
    match o with
    | Ob id ini sc ch =>
        H id ini sc ch ((fix go (l : list (Z * obj)) : Forall (fun p => P (snd p)) l :=
                           match l with
                           | [] => Forall_nil _
                           | p :: r => Forall_cons p (obj_ind' (snd p)) (go r)
                           end) ch)
    end.
End obj_ind'.

(* effective mode of a child field under a copy operation: the rule of copy_traits (Model.effective) *)
Definition eff (op : copyop) (meta : option cmode) : cmode :=
  effective op {| td_type := TAny; td_transient := false; td_copy := meta |}.

Definition copy_children (copy_obj : obj -> Z -> obj * Z) (op : copyop) (meta : Z -> option cmode)
  : list (Z * obj) -> Z -> list (Z * obj) * Z :=
  fix go (l : list (Z * obj)) (m : Z) {struct l} : list (Z * obj) * Z :=
    match l with
    | [] => ([], m)
    | (k, c) :: r =>
        match eff op (meta k) with
        | CDeep => let '(c', m1) := copy_obj c m in let '(r', m2) := go r m1 in ((k, c') :: r', m2)
        | _ => let '(r', m2) := go r m in ((k, c) :: r', m2)
        end
    end.

Fixpoint copy_obj (op : copyop) (meta : Z -> option cmode) (o : obj) (n : Z) {struct o} : obj * Z :=
  match o with
  | Ob id ini sc ch =>
      let '(ch', n') :=
        (fix go (l : list (Z * obj)) (m : Z) {struct l} : list (Z * obj) * Z :=
           match l with
           | [] => ([], m)
           | (k, c) :: r =>
               match eff op (meta k) with
               | CDeep => let '(c', m1) := copy_obj op meta c m in let '(r', m2) := go r m1 in ((k, c') :: r', m2)
               | _ => let '(r', m2) := go r m in ((k, c) :: r', m2)
               end
           end) ch (n + 1) in
      (Ob n true sc ch', n')                               (* new object; _trait_set_inited() at the end *)
  end.

Lemma copy_obj_eq : forall op meta id ini sc ch n,
  copy_obj op meta (Ob id ini sc ch) n =
  let '(ch', n') := copy_children (copy_obj op meta) op meta ch (n + 1) in (Ob n true sc ch', n').
Proof. reflexivity. Qed.

Inductive oshape := OS (scalars : list (Z * Z)) (children : list (Z * oshape)).
Fixpoint oerase (o : obj) : oshape :=
  match o with Ob _ _ sc ch => OS sc (map (fun p => (fst p, oerase (snd p))) ch) end.

(* identities of the object and of everything below it *)
Fixpoint oids (o : obj) : list Z :=
  match o with Ob id _ _ ch => id :: flat_map (fun p => oids (snd p)) ch end.

(* identities reached from o through deep fields only (the part of the graph the property demands to be new) *)
Fixpoint dids (op : copyop) (meta : Z -> option cmode) (o : obj) : list Z :=
  match o with
  | Ob id _ _ ch =>
      id :: flat_map (fun p => match eff op (meta (fst p)) with CDeep => dids op meta (snd p) | _ => [] end) ch
  end.

(* children kept by reference *)
Definition kept (op : copyop) (meta : Z -> option cmode) (ch : list (Z * obj)) : list (Z * obj) :=
  filter (fun p => match eff op (meta (fst p)) with CDeep => false | _ => true end) ch.

Definition children_of (o : obj) : list (Z * obj) := match o with Ob _ _ _ ch => ch end.
Definition inited_of (o : obj) : bool := match o with Ob _ i _ _ => i end.
Definition id_of (o : obj) : Z := match o with Ob i _ _ _ => i end.

(* every object below o reached through deep fields is initialised *)
Fixpoint dinited (op : copyop) (meta : Z -> option cmode) (o : obj) : bool :=
  match o with
  | Ob _ ini _ ch =>
      ini && forallb (fun p => match eff op (meta (fst p)) with CDeep => dinited op meta (snd p) | _ => true end) ch
  end.

(* a write-once-until-initialised attribute (UUID(can_init=True)): assignable only while not inited *)
Definition assign_initonly (o : obj) (k v : Z) : option obj :=
  match o with
  | Ob id ini sc ch => if ini then None else Some (Ob id ini ((k, v) :: sc) ch)
  end.

Section Copy.
Variables (op : copyop) (meta : Z -> option cmode).

Definition Pcopy (o : obj) : Prop := forall n o' n', copy_obj op meta o n = (o', n') ->
  n < n' /\ oerase o' = oerase o /\ (forall x, In x (dids op meta o') -> n <= x < n') /\
  dinited op meta o' = true /\ id_of o' = n.

Lemma copy_children_spec : forall ch, Forall (fun p => Pcopy (snd p)) ch -> forall m ch' m',
  copy_children (copy_obj op meta) op meta ch m = (ch', m') ->
  m <= m' /\ map (fun p => (fst p, oerase (snd p))) ch' = map (fun p => (fst p, oerase (snd p))) ch /\
  (forall x, In x (flat_map (fun p => match eff op (meta (fst p)) with CDeep => dids op meta (snd p) | _ => [] end) ch')
             -> m <= x < m') /\
  forallb (fun p => match eff op (meta (fst p)) with CDeep => dinited op meta (snd p) | _ => true end) ch' = true /\
  kept op meta ch' = kept op meta ch.
Proof.
  induction ch as [|[k c] r IH]; intros HF m ch' m' H; simpl in H.
  - inversion H; subst. split; [lia|]. split; [reflexivity|]. split; [intros y []|]. split; reflexivity.
  - inversion HF as [|? ? Hc Hr]; subst. simpl in Hc.
    destruct (eff op (meta k)) eqn:E.
    3: { (* a deep field: the child is copied first *)
      destruct (copy_obj op meta c m) as [c' m1] eqn:CC.
      destruct (copy_children (copy_obj op meta) op meta r m1) as [r' m2] eqn:R. inversion H; subst.
      destruct (Hc _ _ _ CC) as [A1 [A2 [A3 [A4 _]]]]. destruct (IH Hr _ _ _ R) as [A [B [C [D K]]]].
      split; [lia|]. split; [simpl; congruence|]. split.
      - intros x Hx. simpl in Hx. rewrite E in Hx. apply in_app_or in Hx. destruct Hx as [Hx|Hx].
        + specialize (A3 x Hx). lia.
        + specialize (C x Hx). lia.
      - split; [simpl; rewrite E, A4; exact D | unfold kept in *; simpl; rewrite E; simpl; exact K]. }
    (* ref / shallow: the child object itself is kept *)
    all: destruct (copy_children (copy_obj op meta) op meta r m) as [r' m2] eqn:R; inversion H; subst;
      destruct (IH Hr _ _ _ R) as [A [B [C [D K]]]]; split; [exact A|]; split; [simpl; congruence|]; split;
      [ intros x Hx; simpl in Hx; rewrite E in Hx; exact (C x Hx)
      | split; [simpl; rewrite E; exact D | unfold kept in *; simpl; rewrite E; simpl; congruence] ].
Qed.

Lemma copy_obj_spec : forall o, Pcopy o.
Proof.
  induction o as [id ini sc ch IH] using obj_ind'. intros n o' n' H. rewrite copy_obj_eq in H.
  destruct (copy_children (copy_obj op meta) op meta ch (n + 1)) as [ch' m'] eqn:C. inversion H; subst.
  destruct (copy_children_spec ch IH _ _ _ C) as [A [B [D [E _]]]].
  split; [lia|]. split; [simpl; congruence|]. split.
  - intros x Hx. simpl in Hx. destruct Hx as [<- | Hx]; [lia|]. specialize (D x Hx). lia.
  - split; [simpl; exact E | reflexivity].
Qed.

Lemma copy_obj_kept : forall id ini sc ch n,
  kept op meta (children_of (fst (copy_obj op meta (Ob id ini sc ch) n))) = kept op meta ch.
Proof.
  intros id ini sc ch n. rewrite copy_obj_eq.
  destruct (copy_children (copy_obj op meta) op meta ch (n + 1)) as [ch' m'] eqn:C. simpl.
  assert (HF : Forall (fun p => Pcopy (snd p)) ch) by (apply Forall_forall; intros p _; apply copy_obj_spec).
  destruct (copy_children_spec ch HF _ _ _ C) as [_ [_ [_ [_ K]]]]. exact K.
Qed.
End Copy.

(* pickling: every field is deep, so [dids] is all identities *)
Lemma eff_pickle : forall m, eff Pickle m = CDeep.
Proof. reflexivity. Qed.

Lemma dids_pickle_all : forall meta o, dids Pickle meta o = oids o.
Proof.
  intros meta. induction o as [id ini sc ch IH] using obj_ind'. simpl. f_equal.
  induction ch as [|p r IHr]; [reflexivity|]. inversion IH; subst. simpl. rewrite H1, IHr; auto.
Qed.

(* prediction used by the correspondence: is a child reached through a field with this metadata shared? *)
Definition child_shared (op : copyop) (meta : option cmode) : bool :=
  match eff op meta with CDeep => false | _ => true end.

(* ---------- aliasing inside one copy: the memo of copy.deepcopy / clone_traits ----------
   clone_traits records memo[id(self)] = new and every deepcopy(value, memo) consults it, so an object reachable
   through two fields is copied ONCE.  Shared objects are represented here by subtrees with the same identity. *)
Fixpoint mlookup (memo : list (Z * obj)) (i : Z) : option obj :=
  match memo with [] => None | (k, c) :: r => if k =? i then Some c else mlookup r i end.

Fixpoint copy_m (op : copyop) (meta : Z -> option cmode) (o : obj) (memo : list (Z * obj)) (n : Z) {struct o}
  : obj * list (Z * obj) * Z :=
  match o with
  | Ob id ini sc ch =>
      match mlookup memo id with
      | Some c => (c, memo, n)                                  (* already copied: the same copy again *)
      | None =>
          let '(ch', memo', n') :=
            (fix go (l : list (Z * obj)) (mm : list (Z * obj)) (m : Z) {struct l} : list (Z * obj) * list (Z * obj) * Z :=
               match l with
               | [] => ([], mm, m)
               | (k, c) :: r =>
                   match eff op (meta k) with
                   | CDeep => let '(c', mm1, m1) := copy_m op meta c mm m in
                              let '(r', mm2, m2) := go r mm1 m1 in ((k, c') :: r', mm2, m2)
                   | _ => let '(r', mm2, m2) := go r mm m in ((k, c) :: r', mm2, m2)
                   end
               end) ch memo (n + 1) in
          let c := Ob n true sc ch' in
          (c, (id, c) :: memo', n')
      end
  end.

Lemma copy_m_records : forall op meta o memo n,
  let '(c, memo', _) := copy_m op meta o memo n in mlookup memo' (id_of o) = Some c.
Proof.
  intros op meta [id ini sc ch] memo n. simpl.
  destruct (mlookup memo id) as [c|] eqn:L; [exact L|].
  match goal with |- context[?F ch memo (n + 1)] => destruct (F ch memo (n + 1)) as [[ch' memo'] n'] end.
  simpl. rewrite Z.eqb_refl. reflexivity.
Qed.

(* aliasing is preserved: copying (later, with the memo the first copy produced) any object with the same identity
   yields the very same copy, and allocates nothing *)
Theorem alias_preserved : forall op meta o1 o2 memo n c1 memo1 n1,
  copy_m op meta o1 memo n = (c1, memo1, n1) -> id_of o2 = id_of o1 ->
  copy_m op meta o2 memo1 n1 = (c1, memo1, n1).
Proof.
  intros op meta o1 o2 memo n c1 memo1 n1 H Hid.
  pose proof (copy_m_records op meta o1 memo n) as R. rewrite H in R.
  destruct o2 as [id2 ini2 sc2 ch2]. simpl in Hid. subst id2. simpl. rewrite R. reflexivity.
Qed.

(* ---------- __setstate__ and post_init handlers (probe 910) ----------
   A handler watches key [w]; when it is hooked up and [w] is assigned a value different from the stored one it
   writes [flag := 1].  __setstate__ (has_traits.py 1353-1358) restores the state with trait_set and hooks the
   post_init handlers up AFTERWARDS. *)
Definition st := list (Z * Z).
Fixpoint sget (s : st) (k : Z) : Z := match s with [] => 0 | (k', v) :: r => if k' =? k then v else sget r k end.
Definition sset (s : st) (k v : Z) : st := (k, v) :: s.

Definition assign_h (hooked : bool) (w flag : Z) (s : st) (k v : Z) : st :=
  let s1 := sset s k v in
  if hooked && (k =? w) && negb (sget s k =? v) then sset s1 flag 1 else s1.

Fixpoint trait_set_h (hooked : bool) (w flag : Z) (s : st) (state : list (Z * Z)) : st :=
  match state with [] => s | (k, v) :: r => trait_set_h hooked w flag (assign_h hooked w flag s k v) r end.

(* hooks attached after the state is in place (the code) / before it (the shape of seed C14-t1) *)
Definition setstate_quiet (w flag : Z) (state : list (Z * Z)) : st := trait_set_h false w flag [] state.
Definition setstate_early_hooks (w flag : Z) (state : list (Z * Z)) : st := trait_set_h true w flag [] state.

Lemma find_app' : forall {A} (f : A -> bool) l m,
  find f (l ++ m) = match find f l with Some x => Some x | None => find f m end.
Proof. intros A f l m. induction l as [|x r IH]; [reflexivity|]. simpl. destruct (f x); [reflexivity | exact IH]. Qed.

Lemma trait_set_quiet_get : forall w flag state s k,
  sget (trait_set_h false w flag s state) k =
  match find (fun p => fst p =? k) (rev state) with Some p => snd p | None => sget s k end.
Proof.
  intros w flag state. induction state as [|[k0 v0] r IH]; intros s k; simpl; [reflexivity|].
  rewrite IH. unfold assign_h. simpl. rewrite find_app'.
  destruct (find (fun p => fst p =? k) (rev r)) as [p|]; [reflexivity|]. simpl.
  destruct (k0 =? k); reflexivity.
Qed.

(* restoring a state quietly: every key reads the value the state gives it (last binding), whatever the handlers
   would have done — in particular the flag reads what was pickled *)
Theorem setstate_restores_quietly : forall w flag state k,
  sget (setstate_quiet w flag state) k =
  match find (fun p => fst p =? k) (rev state) with Some p => snd p | None => 0 end.
Proof. intros. unfold setstate_quiet. rewrite trait_set_quiet_get. reflexivity. Qed.

Theorem early_hooks_refuted : exists w flag state,
  sget (setstate_early_hooks w flag state) flag <> sget (setstate_quiet w flag state) flag.
Proof. exists 2, 1, [(1, 0); (2, 7)]. vm_compute. discriminate. Qed.

(* ---------- non-write-through delegates across a pickle (probe 909) ----------
   A delegated attribute reads its local override if there is one, else the delegated-to object's attribute.
   __getstate__ (1301-1314) pickles a delegate only when it has a local override (name in __dict__). *)
Record dobj := { d_override : option Z; d_target : Z }.          (* local override; the target's attribute *)
Definition dread (o : dobj) : Z := match d_override o with Some v => v | None => d_target o end.
Definition dpickle (o : dobj) : dobj := {| d_override := d_override o; d_target := d_target o |}.
(* the shape of seed C14-n3: the resolved value is pickled and comes back as a local override *)
Definition dpickle_resolved (o : dobj) : dobj := {| d_override := Some (dread o); d_target := d_target o |}.
Definition dset_target (o : dobj) (v : Z) : dobj := {| d_override := d_override o; d_target := v |}.

(* an unpickled delegate reads as the original, and a never-overridden one keeps following its target *)
Theorem unpickled_delegate_follows : forall o v,
  dread (dpickle o) = dread o /\ (d_override o = None -> dread (dset_target (dpickle o) v) = v).
Proof. intros o v. split; [reflexivity|]. intro H. unfold dread, dset_target, dpickle. simpl. rewrite H. reflexivity. Qed.

Theorem resolved_pickle_refuted : exists o v,
  d_override o = None /\ dread (dset_target (dpickle_resolved o) v) <> v.
Proof. exists {| d_override := None; d_target := 3 |}, 55. split; [reflexivity | vm_compute; discriminate]. Qed.
