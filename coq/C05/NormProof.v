(* C05 — the arithmetic core: _normalize_slice_or_index returns the direction flag,
   an index/slice in normal form, and selects exactly the positions of the original
   slice (reversed when the flag is set).  The proof script refers to [normalize_gen]
   unqualified: the C05 check replays this very file against the definition that the
   translator regenerates from the source when it differs from C05/Normalize.v. *)
From Coq Require Import ZArith List Lia Bool.
From TV Require Import Common.PySlice Common.PyList C05.Normalize.
(*GEN-IMPORT*)
Import ListNotations.
Local Open Scope Z_scope.

Definition canon {A} (P : list A) (rv : bool) := if rv then rev P else P.

Definition norm_spec (len : Z) (sl : slice) : Prop :=
  let '(a, b, c) := indices len sl in
  let n := slicelen a b c in
  let P := positions a c (Z.to_nat n) in
  let '(rv, r) := normalize_gen len sl in
  rv = (c <? 0) /\
  match r with
  | I s => 0 <= s <= len /\
           (n = 0 \/ ((c = 1 \/ c = -1 \/ n = 1) /\ canon P rv = positions s 1 (Z.to_nat n)))
  | S3 s e k => 0 <= s < e /\ e <= len /\ 2 <= k /\ 2 <= n /\
                canon P rv = positions s k (Z.to_nat n) /\
                slicelen s e k = n /\ e = s + (n - 1) * k + 1
  end.

(* The second half of _normalize_slice_or_index works on a forward triple (a, b, c), c > 0: it moves the stop to
   last + 1 and tells a run of step 1 or a single element (an integer key) from an extended slice. *)
Lemma forward_tail len a b c :
  0 < c -> 0 <= a -> b <= len ->
  let n := slicelen a b c in
  let stop := b - ((b - a - 1) mod c) in
  if (c =? 1) || (stop - a <=? c) then n = 0 \/ c = 1 \/ n = 1
  else 2 <= c /\ 2 <= n /\ a < stop <= len /\ slicelen a stop c = n /\ stop = a + (n - 1) * c + 1.
Proof.
  intros Hc Ha Hb. unfold slicelen. replace (c <? 0) with false by lia. cbv zeta.
  pose proof (Z.mod_pos_bound (b - a - 1) c Hc) as MB.
  destruct (Z.ltb_spec a b) as [Hab|Hab].
  - destruct (len_pos_spec (b - a - 1) c ltac:(lia) Hc) as (E & B & N).
    set (n := (b - a - 1) / c + 1) in *.
    replace (b - (b - a - 1) mod c) with (a + (n - 1) * c + 1) by lia.
    destruct (Z.eqb_spec c 1); cbn [orb]; [auto|].
    destruct (Z.leb_spec (a + (n - 1) * c + 1 - a) c); [right; right; nia|].
    assert (2 <= n) by nia. repeat split; try lia; try nia.
    replace (a <? a + (n - 1) * c + 1) with true by nia.
    replace (a + (n - 1) * c + 1 - a - 1) with (c * (n - 1) + 0) by lia. rewrite div_mul_add_l; lia.
  - replace ((c =? 1) || (b - (b - a - 1) mod c - a <=? c)) with true; [auto|]. destruct (c =? 1); cbn; lia.
Qed.

(* The first half turns a reversed triple round: (start', a + 1, - c) selects the same positions forwards. *)
Lemma reversed_triple len a b c :
  c < 0 -> -1 <= a <= len - 1 -> -1 <= b <= len - 1 ->
  let n := slicelen a b c in
  let a' := Z.min (b - c + (a - b) mod c) len in
  0 <= a' <= len /\ slicelen a' (a + 1) (- c) = n /\
  rev (positions a c (Z.to_nat n)) = positions a' (- c) (Z.to_nat n).
Proof.
  intros Hc Ha Hb. set (s := - c). assert (0 < s) as Hs by (subst s; lia).
  unfold slicelen. replace (c <? 0) with true by lia. change (- c) with s. replace (s <? 0) with false by lia. cbv zeta.
  destruct (Z.ltb_spec b a) as [Hba|Hba].
  - destruct (len_pos_spec (a - b - 1) s ltac:(lia) Hs) as (E & B & N).
    pose proof (neg_mod_spec (a - b) s ltac:(lia) Hs) as M. cbn zeta in M.
    replace (- s) with c in M by (subst s; lia). rewrite M. clear M.
    set (n := (a - b - 1) / s + 1) in *.
    replace (b - c + (a - b - s * n)) with (a - s * (n - 1)) by (subst s; lia).
    set (last := a - s * (n - 1)). assert (0 <= last <= a) as Hl by (subst last; nia).
    rewrite Z.min_l by lia. replace (last <? a + 1) with true by lia.
    replace (a + 1 - last - 1) with (s * (n - 1) + 0) by (subst last; lia). rewrite div_mul_add_l by lia.
    repeat split; try lia. destruct (Z.to_nat n) as [|m] eqn:En; [lia|].
    rewrite positions_rev. f_equal; subst last s; nia.
  - assert (c < (a - b) mod c <= 0) as MB by (apply Z.mod_neg_bound; lia).
    set (a' := Z.min (b - c + (a - b) mod c) len). assert (a + 1 <= a' <= len) by (subst a' s; lia).
    replace (a' <? a + 1) with false by lia. repeat split; try lia.
Qed.

Theorem normalize_gen_spec len sl :
  0 <= len -> slice_step sl <> 0 -> norm_spec len sl.
Proof.
  intros Hlen Hstep. rewrite <- (indices_step len) in Hstep. unfold norm_spec, normalize_gen.
  destruct sl as [[oa ob] oc].
  destruct (indices len (oa, ob, oc)) as [[a b] c] eqn:Hidx. cbn [snd] in Hstep.
  destruct (Z.ltb_spec c 0) as [Hc|Hc]; cbv beta iota zeta.
  - destruct (indices_neg _ _ _ _ _ _ _ Hlen Hidx Hc) as [Ha Hb].
    destruct (reversed_triple len a b c Hc Ha Hb) as (Ha' & Hn & HP). cbv zeta in Hn, HP.
    set (a' := Z.min (b - c + (a - b) mod c) len) in *. set (n := slicelen a b c) in *.
    pose proof (forward_tail len a' (a + 1) (- c) ltac:(lia) ltac:(lia) ltac:(lia)) as T. cbv zeta in T. rewrite Hn in T.
    unfold canon. rewrite HP.
    destruct ((- c =? 1) || (a + 1 - (a + 1 - a' - 1) mod - c - a' <=? - c)); cbv beta iota zeta.
    + split; [reflexivity|]. split; [lia|]. destruct T as [T|T]; [left; exact T|right].
      split; [lia|]. destruct T as [T|T]; [rewrite T; reflexivity|]. replace (Z.to_nat n) with 1%nat by lia. reflexivity.
    + split; [reflexivity|]. intuition lia.
  - assert (0 < c) as Hc' by lia.
    destruct (indices_pos _ _ _ _ _ _ _ Hlen Hidx Hc') as [Ha Hb].
    pose proof (forward_tail len a b c Hc' ltac:(lia) ltac:(lia)) as T. cbv zeta in T. set (n := slicelen a b c) in *.
    unfold canon.
    destruct ((c =? 1) || (b - (b - a - 1) mod c - a <=? c)); cbv beta iota zeta.
    + split; [reflexivity|]. split; [lia|]. destruct T as [T|T]; [left; exact T|right].
      split; [lia|]. destruct T as [T|T]; [rewrite T; reflexivity|]. replace (Z.to_nat n) with 1%nat by lia. reflexivity.
    + split; [reflexivity|]. intuition lia.
Qed.
