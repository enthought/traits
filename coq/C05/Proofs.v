(* C05 — proofs that the model of TraitList / TraitListObject satisfies the law, for
   every validator, every list, every operation (all integer indices, all slices)
   and every history. *)
From Coq Require Import ZArith List Bool Lia Arith PeanoNat.
From TV Require Import Common.PySlice Common.PyList Common.PyListInv Common.Harness
  C05.Normalize C05.NormProof C05.Model C05.Law.
Import ListNotations.
Local Open Scope Z_scope.

Lemma chk_app_nil k b r : chk k b ++ r = [] -> b = true /\ r = [].
Proof. destruct b; cbn; intros H; [split; [reflexivity|exact H]|discriminate]. Qed.
Lemma chk_nil k b : chk k b = [] -> b = true.
Proof. destruct b; [reflexivity|discriminate]. Qed.

Lemma zlist_eqb_spec a b : zlist_eqb a b = true <-> a = b.
Proof.
  unfold zlist_eqb. revert b. induction a as [|x a IH]; intros [|y b]; cbn; split; intros H; try congruence; try reflexivity.
  - apply andb_true_iff in H. destruct H as [H1 H2]. apply Z.eqb_eq in H1. apply IH in H2. congruence.
  - injection H as -> ->. rewrite Z.eqb_refl. cbn. apply IH. reflexivity.
Qed.
Lemma zlist_eqb_refl a : zlist_eqb a a = true.
Proof. apply zlist_eqb_spec. reflexivity. Qed.

Lemma exn_eqb_refl e : exn_eqb e e = true.
Proof. destruct e; reflexivity. Qed.

Lemma nonempty_false {A} (l : list A) : nonempty l = false -> l = [].
Proof. destruct l; cbn; congruence. Qed.
Lemma nonempty_true {A} (l : list A) : nonempty l = true -> l <> [].
Proof. destruct l; cbn; congruence. Qed.

(* the reordering that NormProof.v calls [canon] *)
Lemma canon_flip {A} (P : list A) rv : canon P rv = flip rv P.
Proof. reflexivity. Qed.

Lemma flip_length {A} rv (l : list A) : length (flip rv l) = length l.
Proof. destruct rv; cbn; [apply rev_length|reflexivity]. Qed.
Lemma flip_map {A B} (f : A -> B) rv l : flip rv (map f l) = map f (flip rv l).
Proof. destruct rv; cbn; [symmetry; apply map_rev|reflexivity]. Qed.
Lemma flip_In {A} rv (l : list A) x : In x (flip rv l) <-> In x l.
Proof. destruct rv; cbn; [symmetry; apply in_rev|reflexivity]. Qed.

Lemma vld_all_length vld xs ys : vld_all vld xs = Some ys -> length ys = length xs.
Proof. exact (all_valid_length vld xs ys). Qed.

Lemma assign_at_nil {A} (l : list A) V : assign_at l [] V = l.
Proof. unfold assign_at. apply mapi_from_id. intros. cbn. reflexivity. Qed.
Lemma delete_at_nil {A} (l : list A) : delete_at l [] = l.
Proof. unfold delete_at. apply filteri_from_all. reflexivity. Qed.

(* an event reports a reversed slice forwards: the same positions in the other order *)
Lemma select_flip {A} (l : list A) rv P : select l (flip rv P) = flip rv (select l P).
Proof. destruct rv; cbn; [apply select_rev|reflexivity]. Qed.
Lemma assign_at_flip {A} (l : list A) rv P V : NoDup P -> length P = length V ->
  assign_at l (flip rv P) (flip rv V) = assign_at l P V.
Proof. destruct rv; cbn; intros; [apply assign_at_rev; assumption|reflexivity]. Qed.
Lemma delete_at_flip {A} (l : list A) rv P : delete_at l (flip rv P) = delete_at l P.
Proof. destruct rv; cbn; [apply delete_at_rev|reflexivity]. Qed.

Lemma nth_error_firstn1 {A} (l : list A) n x : nth_error l n = Some x -> firstn 1 (skipn n l) = [x].
Proof.
  revert l. induction n as [|n IH]; intros [|a l] H; cbn in *; try discriminate.
  - injection H as ->. reflexivity.
  - exact (IH l H).
Qed.

Lemma index_of_nth eqb x (l : list Z) n : index_of eqb x l = Some n -> exists y, nth_error l n = Some y.
Proof.
  intros H. apply index_of_lt in H. destruct (nth_error l n) eqn:E; [eauto|]. apply nth_error_None in E. lia.
Qed.

Lemma in_range_nth {A} (l : list A) i : in_range (zlen l) i = true ->
  0 <= norm_index (zlen l) i /\ exists x, nth_error l (nat_index (zlen l) i) = Some x.
Proof.
  intros R. destruct (in_range_lt l i R) as [H0 H]. split; [exact H0|].
  destruct (nth_error l (nat_index (zlen l) i)) eqn:E; [eauto|]. apply nth_error_None in E. lia.
Qed.

Lemma norm_positions {A} (l : list A) (sl : slice) :
  slice_step sl <> 0 -> npos (zlen l) sl <> [] ->
  let NP := npos (zlen l) sl in
  let '(rv, r) := normalize_gen (zlen l) sl in
  match r with
  | I s => 0 <= s /\ flip rv NP = upto (Z.to_nat s) (length NP) /\ (Z.to_nat s + length NP <= length l)%nat
  | S3 s e k => 0 <= s < e /\ e <= zlen l /\ 2 <= k /\ npos (zlen l) (Some s, Some e, Some k) = flip rv NP
  end.
Proof.
  intros Hs Hne. pose proof (normalize_gen_spec (zlen l) sl (zlen_nonneg l) Hs) as SP.
  pose proof (fun p => npos_bounds l sl p Hs) as HB. revert Hne HB.
  unfold norm_spec, npos, slice_positions in *.
  destruct (indices (zlen l) sl) as [[a b] c].
  destruct (normalize_gen (zlen l) sl) as [rv r].
  destruct SP as [_ SP]. cbv zeta. rewrite map_length, positions_length. rewrite canon_flip in SP.
  intros Hne HB. destruct r as [s|s e k].
  - destruct SP as [Hs0 [Hn|[_ Hc]]]; [rewrite Hn in Hne; contradiction|].
    assert (flip rv (map Z.to_nat (positions a c (Z.to_nat (slicelen a b c))))
            = upto (Z.to_nat s) (Z.to_nat (slicelen a b c))) as Hf
      by (rewrite flip_map, Hc; apply positions_upto; lia).
    repeat split; [lia|exact Hf|].
    destruct (Z.to_nat (slicelen a b c)) as [|n] eqn:En; [contradiction|].
    specialize (HB (Z.to_nat s + n)%nat). rewrite <- flip_In, Hf, upto_In in HB. lia.
  - destruct SP as (H1 & H2 & H3 & H4 & H5 & H6 & H7).
    repeat split; try lia. rewrite indices_normal, H6, flip_map, H5 by lia. reflexivity.
Qed.

Definition event_good (l l' : list Z) (ev : event) : Prop :=
  replays_to l l' ev = true /\ normal_form (zlen l) ev = true /\ removed_selected l ev = true.

(* an integer key: the items removed stand at the index and the added ones take their place *)
Lemma int_event (l : list Z) i removed added :
  0 <= i -> firstn (length removed) (skipn (Z.to_nat i) l) = removed ->
  event_good l (firstn (Z.to_nat i) l ++ added ++ skipn (Z.to_nat i + length removed) l) (I i, removed, added).
Proof.
  intros Hi Hsel. unfold event_good, replays_to, replay, normal_form, removed_selected. cbn [fst].
  replace (i <? 0) with false by lia. replace (0 <=? i) with true by lia.
  rewrite Hsel, !zlist_eqb_refl. repeat split; reflexivity.
Qed.

Lemma block_event (l : list Z) s n added : 0 <= s -> (Z.to_nat s + n <= length l)%nat ->
  event_good l (firstn (Z.to_nat s) l ++ added ++ skipn (Z.to_nat s + n) l) (I s, select l (upto (Z.to_nat s) n), added).
Proof.
  intros Hs Hle. rewrite select_upto by exact Hle.
  pose proof (int_event l s (firstn n (skipn (Z.to_nat s) l)) added Hs) as E.
  rewrite firstn_length, skipn_length, Nat.min_l in E by lia. exact (E eq_refl).
Qed.

Lemma del_event (l : list Z) i x : 0 <= i -> nth_error l (Z.to_nat i) = Some x ->
  event_good l (del_nth (Z.to_nat i) l) (I i, [x], []).
Proof.
  intros Hi H. unfold del_nth. rewrite <- Nat.add_1_r.
  apply (int_event l i [x] [] Hi), nth_error_firstn1, H.
Qed.

Lemma set_event (l : list Z) i x y : 0 <= i -> nth_error l (Z.to_nat i) = Some x ->
  event_good l (set_nth (Z.to_nat i) y l) (I i, [x], [y]).
Proof.
  intros Hi H. unfold set_nth. rewrite <- Nat.add_1_r.
  apply (int_event l i [x] [y] Hi), nth_error_firstn1, H.
Qed.

Lemma insert_event (l : list Z) i y : event_good l (insert l i y) (I (insert_index (zlen l) i), [], [y]).
Proof.
  assert (0 <= insert_index (zlen l) i) as Hk
    by (unfold insert_index; pose proof (zlen_nonneg l); destruct (i <? 0) eqn:E; lia).
  pose proof (int_event l _ [] [y] Hk eq_refl) as E. cbn [length] in E. rewrite Nat.add_0_r in E. exact E.
Qed.

Lemma whole_event (l l' : list Z) : event_good l l' (I 0, l, l').
Proof.
  pose proof (int_event l 0 l l' ltac:(lia)) as E. cbn [Z.to_nat firstn skipn app Nat.add] in E.
  rewrite skipn_all, app_nil_r in E. apply E, firstn_all.
Qed.

Lemma tail_event (l added : list Z) : event_good l (l ++ added) (I (zlen l), [], added).
Proof.
  pose proof (int_event l (zlen l) [] added (zlen_nonneg l) eq_refl) as E.
  replace (Z.to_nat (zlen l)) with (length l) in E by (unfold zlen; lia).
  cbn [length] in E. rewrite Nat.add_0_r, firstn_all, skipn_all, app_nil_r in E. exact E.
Qed.

(* a slice key in normal form: the listener deletes or assigns the extended slice *)
Lemma s3_event (l l' : list Z) s e k P added :
  0 <= s < e -> e <= zlen l -> 2 <= k -> npos (zlen l) (Some s, Some e, Some k) = P ->
  (if is_nil added then l' = delete_at l P else length added = length P /\ l' = assign_at l P added) ->
  event_good l l' (S3 s e k, select l P, added).
Proof.
  intros H1 H2 H3 <- HL. set (sl := (Some s, Some e, Some k)).
  assert (slice_step sl <> 0) as Hs by (cbn; lia).
  unfold event_good, replays_to, replay, normal_form, removed_selected. cbn [fst]. fold sl.
  rewrite (getitem_slice_ok l sl Hs), zlist_eqb_refl.
  replace ((0 <=? s) && (s <? e) && (e <=? zlen l) && (2 <=? k)) with true by lia.
  destruct (is_nil added).
  - rewrite (delitem_slice_ok l sl Hs), HL, zlist_eqb_refl. auto.
  - destruct HL as [HL ->].
    rewrite (setitem_slice_ok l added sl s e k Hs) by (apply indices_normal; lia).
    replace (k =? 1) with false by lia. rewrite HL, Nat.eqb_refl, zlist_eqb_refl. auto.
Qed.

Lemma slice_del_event (l : list Z) sl :
  slice_step sl <> 0 -> npos (zlen l) sl <> [] ->
  let '(rv, nk) := normalize_gen (zlen l) sl in
  event_good l (delete_at l (npos (zlen l) sl)) (nk, flip rv (select l (npos (zlen l) sl)), []).
Proof.
  intros Hs Hne. pose proof (norm_positions l sl Hs Hne) as NF. cbv zeta in NF.
  destruct (normalize_gen (zlen l) sl) as [rv [s|s e k]];
    rewrite <- (delete_at_flip l rv), <- select_flip.
  - destruct NF as (Hs0 & -> & Hle). rewrite delete_at_upto. apply (block_event l s _ [] Hs0 Hle).
  - destruct NF as (H1 & H2 & H3 & H4). apply s3_event; auto. reflexivity.
Qed.

Lemma slice_set_event (l : list Z) sl V :
  slice_step sl <> 0 -> npos (zlen l) sl <> [] -> length V = length (npos (zlen l) sl) ->
  let '(rv, nk) := normalize_gen (zlen l) sl in
  event_good l (assign_at l (npos (zlen l) sl) V) (nk, flip rv (select l (npos (zlen l) sl)), flip rv V).
Proof.
  intros Hs Hne HV. pose proof (norm_positions l sl Hs Hne) as NF. cbv zeta in NF.
  destruct (normalize_gen (zlen l) sl) as [rv [s|s e k]];
    rewrite <- (assign_at_flip l rv _ V (npos_NoDup l sl Hs) (eq_sym HV)), <- select_flip;
    rewrite <- (flip_length rv V) in HV.
  - destruct NF as (Hs0 & -> & Hle). rewrite <- HV in *.
    rewrite assign_at_upto by exact Hle. apply (block_event l s _ _ Hs0 Hle).
  - destruct NF as (H1 & H2 & H3 & H4). apply s3_event; auto.
    destruct (flip rv V); [|rewrite flip_length; split; [exact HV|reflexivity]].
    destruct (npos (zlen l) sl); [contradiction|discriminate HV].
Qed.

Lemma normalize_gen_step1 len sl a b : indices len sl = (a, b, 1) -> normalize_gen len sl = (false, I a).
Proof. intros H. unfold normalize_gen. rewrite H. reflexivity. Qed.

Lemma step1_event (l : list Z) sl a b V :
  indices (zlen l) sl = (a, b, 1) ->
  let NP := npos (zlen l) sl in
  let l' := firstn (Z.to_nat a) l ++ V ++ skipn (Z.to_nat (Z.max a b)) l in
  event_good l l' (I a, select l NP, V) /\ (V = [] -> select l NP = [] -> l' = l).
Proof.
  intros H. destruct (step1_positions l sl a b H) as (Ha & n & HP & Hn & Hle).
  cbv zeta. rewrite HP, <- Hn. split; [apply block_event; lia|].
  intros -> E. apply (f_equal (@length Z)) in E.
  rewrite select_length, upto_length in E by (intros p Hp; apply upto_In in Hp; lia).
  cbn in E. subst n. rewrite Nat.add_0_r. apply firstn_skipn.
Qed.

(* [law_step] with the reference result as an argument, so that the ways a method ends can be judged for any
   reference result, and a proof about an operation can unfold the reference next to the method *)
Definition law_of (sr : spec_result) (before : list Z) (ob : obs) : list Z :=
  let exp_after := match fst sr with Ok (l', _) => l' | Raise _ => before end in
  let exp_ret := match fst sr with Ok (_, r) => r | Raise _ => None end in
  let changed := negb (zlist_eqb before (o_after ob)) in
  chk 1 (outcome_ok (o_out ob) sr)
  ++ chk 2 (zlist_eqb (o_after ob) exp_after)
  ++ chk 3 (is_ok (o_out ob) || (negb changed && is_nil (o_events ob)))
  ++ chk 4 (Nat.leb (length (o_events ob)) 1)
  ++ chk 5 (negb changed || negb (is_nil (o_events ob)))
  ++ chk 6 (forallb (replays_to before (o_after ob)) (o_events ob))
  ++ chk 7 (forallb (normal_form (zlen before)) (o_events ob))
  ++ chk 8 (forallb (removed_selected before) (o_events ob))
  ++ chk 9 (opt_eqb Z.eqb (o_ret ob) exp_ret).

Lemma law_step_of vld l o ob : law_step vld l o ob = law_of (builtin vld l o) l ob.
Proof. reflexivity. Qed.

(* the three ways a method ends: an exception the reference raises too (or may raise instead),
   the reference result with one faithful event, or without any if nothing changed *)
Lemma law_raise sr l e : outcome_ok (Raise e) sr = true -> law_of sr l (raise e l) = [].
Proof.
  destruct sr as [[[l' r]|e'] alt]; cbn; [discriminate|]. intros H. unfold law_of. cbn. rewrite H, zlist_eqb_refl. reflexivity.
Qed.

Lemma law_event l l' ev ret alt :
  event_good l l' ev -> law_of (Ok (l', ret), alt) l (mkObs (Ok tt) l' [ev] ret) = [].
Proof.
  intros (H1 & H2 & H3). unfold law_of. cbn [fst snd o_out o_after o_events o_ret outcome_ok forallb length].
  rewrite zlist_eqb_refl, H1, H2, H3.
  destruct ret; cbn; rewrite ?Z.eqb_refl, ?orb_true_r; reflexivity.
Qed.

Lemma law_silent l alt : law_of (Ok (l, None), alt) l (ok l []) = [].
Proof. unfold law_of. cbn. rewrite zlist_eqb_refl. reflexivity. Qed.

Lemma law_change l l' ev (b : bool) alt :
  (b = true -> event_good l l' ev) -> (b = false -> l' = l) ->
  law_of (Ok (l', None), alt) l (ok l' (if b then [ev] else [])) = [].
Proof.
  intros HE HU. destruct b; [apply law_event, HE; reflexivity|].
  rewrite HU by reflexivity. apply law_silent.
Qed.

(* reverse, sort, clear, *= 0 report the whole list *)
Lemma law_whole l l' alt : (l = [] -> l' = []) ->
  law_of (Ok (l', None), alt) l (ok l' (if nonempty l then [(I 0, l, l')] else [])) = [].
Proof.
  intros H. apply law_change; [intros _; apply whole_event|].
  intros E. apply nonempty_false in E. rewrite (H E), E. reflexivity.
Qed.

Section Step.
  Variable vld : Z -> option Z.

  Lemma removed_items_int (l : list Z) i :
    removed_items l (KInt i) None =
    if in_range (zlen l) i then
      match nth_error l (nat_index (zlen l) i) with Some x => Ok (Some [x]) | None => Ok None end
    else Ok None.
  Proof.
    unfold removed_items, getitem_int. destruct (in_range (zlen l) i); [|reflexivity].
    destruct (nth_error l (nat_index (zlen l) i)); reflexivity.
  Qed.

  Lemma select_nil_npos (l : list Z) sl : slice_step sl <> 0 ->
    select l (npos (zlen l) sl) = [] -> npos (zlen l) sl = [].
  Proof.
    intros Hs H. apply length_zero_iff_nil. rewrite <- (select_npos_length l sl Hs), H. reflexivity.
  Qed.

  (* extend and += *)
  Lemma extend_law l vs : law_of (builtin vld l (Extend vs)) l (tl_core vld l (Extend vs)) = [].
  Proof.
    cbn [builtin tl_core].
    destruct (vld_all vld vs) as [ys|]; [|apply law_raise; reflexivity].
    apply law_change; [intros _; apply tail_event|]. intros E. apply nonempty_false in E. rewrite E. apply app_nil_r.
  Qed.

  Lemma setslice_law l sl vs : law_of (builtin vld l (SetSlice sl vs)) l (tl_core vld l (SetSlice sl vs)) = [].
  Proof.
    cbn [builtin tl_core removed_items]. destruct (Z.eq_dec (slice_step sl) 0) as [S0|S0].
    - rewrite (getitem_slice_0 l sl S0). cbn [bind].
      destruct (vld_all vld vs) as [ys|]; rewrite setitem_slice_0 by exact S0; apply law_raise; reflexivity.
    - rewrite (getitem_slice_ok l sl S0). cbn [bind truthy olist normalize].
      destruct (vld_all vld vs) as [ys|]; [|apply law_raise; reflexivity].
      destruct (indices (zlen l) sl) as [[a b] c] eqn:Hidx. rewrite (setitem_slice_ok l ys sl a b c S0 Hidx).
      destruct (Z.eqb_spec c 1) as [->|Hc1].
      + (* contiguous *)
        rewrite (normalize_gen_step1 _ _ _ _ Hidx). cbn [flip lift bind].
        destruct (step1_event l sl a b ys Hidx) as [HE HU].
        destruct (nonempty ys || nonempty (select l (npos (zlen l) sl))) eqn:NE; [apply law_event, HE|].
        apply orb_false_iff in NE. destruct NE as [N1 N2]. apply nonempty_false in N1, N2.
        rewrite HU by assumption. apply law_silent.
      + (* extended *)
        destruct (Nat.eqb_spec (length ys) (length (npos (zlen l) sl))) as [HL|HL]; [|apply law_raise; reflexivity].
        cbn [lift bind].
        destruct (nonempty ys || nonempty (select l (npos (zlen l) sl))) eqn:NE.
        *  assert (npos (zlen l) sl <> []) as Hne.
           { intros E. rewrite E in *. destruct ys; [discriminate NE|discriminate HL]. }
           pose proof (slice_set_event l sl ys S0 Hne HL) as HE.
           destruct (normalize_gen (zlen l) sl) as [rv nk]. apply law_event, HE.
        *  apply orb_false_iff in NE. destruct NE as [_ N2]. apply nonempty_false in N2.
           rewrite (select_nil_npos l sl S0 N2), assign_at_nil.
           apply law_silent.
  Qed.

  Lemma delslice_law l sl : law_of (builtin vld l (DelSlice sl)) l (tl_core vld l (DelSlice sl)) = [].
  Proof.
    cbn [builtin tl_core removed_items]. destruct (Z.eq_dec (slice_step sl) 0) as [S0|S0].
    - rewrite (getitem_slice_0 l sl S0), (delitem_slice_0 l sl S0). apply law_raise; reflexivity.
    - rewrite (getitem_slice_ok l sl S0), (delitem_slice_ok l sl S0). cbn [bind truthy olist normalize lift].
      destruct (nonempty (select l (npos (zlen l) sl))) eqn:NE.
      + assert (npos (zlen l) sl <> []) as Hne by (intros E; rewrite E in NE; discriminate NE).
        pose proof (slice_del_event l sl S0 Hne) as HE.
        destruct (normalize_gen (zlen l) sl) as [rv nk]. apply law_event, HE.
      + apply nonempty_false in NE. rewrite (select_nil_npos l sl S0 NE), delete_at_nil.
        apply law_silent.
  Qed.

  Theorem tl_core_law l o : xkey o = false -> law_step vld l o (tl_core vld l o) = [].
  Proof.
    intros XK.
    destruct o as [i v|sl vs|i|sl|v|vs|vs|n|p q|i v|oi|v| |m r| |xi xv|xi|xn|nsl| | ]; try discriminate XK; clear XK;
      rewrite law_step_of; cbn [builtin]; unfold tl_core.
    - (* SetInt *)
      rewrite removed_items_int. unfold setitem_int. destruct (in_range (zlen l) i) eqn:R.
      + destruct (in_range_nth l i R) as [Hn [x Hx]]. rewrite Hx.
        destruct (vld v) as [y|]; [|apply law_raise; reflexivity].
        exact (law_event _ _ _ _ _ (set_event l _ x y Hn Hx)).
      + destruct (vld v); apply law_raise; reflexivity.
    - (* SetSlice *)
      exact (setslice_law l sl vs).
    - (* DelInt *)
      rewrite removed_items_int. unfold delitem_int. destruct (in_range (zlen l) i) eqn:R; [|apply law_raise; reflexivity].
      destruct (in_range_nth l i R) as [Hn [x Hx]]. rewrite Hx.
      exact (law_event _ _ _ _ _ (del_event l _ x Hn Hx)).
    - (* DelSlice *)
      exact (delslice_law l sl).
    - (* Append *)
      destruct (vld v) as [y|]; [|apply law_raise; reflexivity].
      rewrite skipn_app, skipn_all, Nat.sub_diag. apply law_event, tail_event.
    - (* Extend *)
      exact (extend_law l vs).
    - (* Iadd *)
      exact (extend_law l vs).
    - (* Imul *)
      destruct (fits n); cbn [negb]; [|apply law_raise; reflexivity].
      unfold imul. destruct (n <? 1) eqn:N; [apply law_whole; intros _; reflexivity|].
      destruct (Z.to_nat n) as [|k] eqn:K; [lia|]. cbv zeta. rewrite rep_skip. cbn [rep].
      apply law_change; [intros _; apply tail_event|]. intros E. apply nonempty_false in E. rewrite E. apply app_nil_r.
    - (* ImulQ *)
      apply law_raise; reflexivity.
    - (* Insert *)
      destruct (vld v) as [y|]; destruct (fits i); try (apply law_raise; reflexivity).
      apply law_event, insert_event.
    - (* Pop *)
      cbv zeta. set (i := match oi with Some i => i | None => -1 end).
      destruct (fits i); cbn [negb]; [|apply law_raise; reflexivity].
      unfold pop, getitem_int. destruct (in_range (zlen l) i) eqn:R; [|apply law_raise; reflexivity].
      destruct (in_range_nth l i R) as [Hn [x Hx]]. rewrite Hx.
      exact (law_event _ _ _ _ _ (del_event l _ x Hn Hx)).
    - (* Remove *)
      unfold remove. destruct (index_of py_eq v l) as [n|] eqn:IX; [|apply law_raise; reflexivity].
      destruct (index_of_nth py_eq v l n IX) as [x Hx]. rewrite Hx.
      pose proof (del_event l (Z.of_nat n) x) as E. rewrite Nat2Z.id in E.
      exact (law_event _ _ _ _ _ (E ltac:(lia) Hx)).
    - (* Reverse *)
      apply law_whole. intros ->. reflexivity.
    - (* Sort *)
      apply law_whole. intros ->. destruct r; reflexivity.
    - (* Clear *)
      apply law_whole. reflexivity.
    - (* SetSliceN *)
      unfold getitem_slice. destruct (slice_step nsl =? 0); apply law_raise; reflexivity.
    - (* ExtendN *)
      apply law_raise; reflexivity.
    - (* SortPos *)
      apply law_raise; reflexivity.
  Qed.

  (* an index-like argument is converted by operator.index first: the same operation as with the int, judged by the same
     reference (the built-in list does the same conversion) *)
  Lemma builtin_deX l o : builtin vld l o = builtin vld l (deX o).
  Proof. destruct o; reflexivity. Qed.

  Theorem tl_step_law l o : law_step vld l o (tl_step vld l o) = [].
  Proof.
    unfold tl_step, law_step. rewrite builtin_deX. apply (tl_core_law l (deX o)). destruct o; reflexivity.
  Qed.
End Step.

(* TraitListObject: the same law, or a refusal for length reasons *)
Section Tlo.
  Variable vld : Z -> option Z.

  (* [tlo_step] sets `*=` by a non-integer apart, but [tlo_step0] gives the same for it: nothing is announced
     (Ok None), so the guard is skipped and the TraitList step raises TypeError *)
  Lemma tlo_step_step0 mn mx l o : tlo_step vld mn mx l o = tlo_step0 vld mn mx l o.
  Proof. destruct o; reflexivity. Qed.

  Lemma is_step1_eqb sl : is_step1 sl = (slice_step sl =? 1).
  Proof. destruct sl as [[a b] [k|]]; reflexivity. Qed.

  (* when the override's own `len(self[key])` or size comparison raises, so does the built-in assignment,
     whatever the items are validated to *)

  Lemma setslice_refused (l : list Z) sl vs e : announced l (SetSlice sl vs) = Raise e ->
    e = ValueError /\ forall ws, length ws = length vs -> setitem_slice l sl ws = Raise ValueError.
  Proof.
    cbn [announced]. destruct (Z.eq_dec (slice_step sl) 0) as [S0|S0].
    - rewrite (getitem_slice_0 l sl S0). intros [= <-]. split; [reflexivity|].
      intros ws _. apply setitem_slice_0, S0.
    - rewrite (getitem_slice_ok l sl S0), is_step1_eqb. cbn [bind].
      destruct (Z.eqb_spec (slice_step sl) 1) as [|S1]; [discriminate|].
      destruct (Z.eqb_spec (zlen vs) (zlen (select l (npos (zlen l) sl)))) as [|HL]; [discriminate|].
      intros [= <-]. split; [reflexivity|]. intros ws Hws.
      pose proof (indices_step (zlen l) sl) as HS.
      destruct (indices (zlen l) sl) as [[a b] c] eqn:Hidx. cbn [snd] in HS. subst c.
      rewrite (setitem_slice_ok l ws sl a b _ S0 Hidx), (proj2 (Z.eqb_neq _ _) S1).
      destruct (Nat.eqb_spec (length ws) (length (npos (zlen l) sl))) as [E|]; [|reflexivity].
      contradiction HL. pose proof (select_npos_length l sl S0). unfold zlen in *. lia.
  Qed.

  Theorem tlo_step_law mn mx l o :
    law_step vld l o (tlo_step vld mn mx l o) = [] \/ tlo_step vld mn mx l o = raise TraitError l.
  Proof.
    rewrite tlo_step_step0. unfold tlo_step0.
    destruct (announced l o) as [[n|]|e] eqn:AN.
    - destruct (len_ok mn mx n); [left; apply tl_step_law|right; reflexivity].
    - left; apply tl_step_law.
    - left. rewrite law_step_of.
      destruct o; cbn [announced] in AN; try discriminate; cbn [builtin].
      + (* SetSlice *)
        destruct (setslice_refused l sl vs e AN) as [-> HSS].
        destruct (vld_all vld vs) as [ys|] eqn:V; rewrite HSS by eauto using vld_all_length; apply law_raise; reflexivity.
      + (* DelSlice *)
        unfold getitem_slice, delitem_slice in *.
        destruct (slice_step sl =? 0); [injection AN as <-; apply law_raise; reflexivity|discriminate].
      + (* SetSliceN: list(value) raises TypeError first *)
        injection AN as <-. destruct (slice_step sl =? 0); apply law_raise; reflexivity.
      + (* ExtendN *)
        injection AN as <-. apply law_raise; reflexivity.
  Qed.
End Tlo.

Section Hist.
  Variable vld : Z -> option Z.

  Theorem run_law : forall ops l i, law_hist vld i l (run (tl_step vld) l ops) = [].
  Proof.
    induction ops as [|o ops IH]; intros l i; cbn [run law_hist]; [reflexivity|].
    rewrite tl_step_law, IH. reflexivity.
  Qed.

  Theorem run_law_tlo mn mx : forall ops l i, law_hist_tlo vld i l (run (tlo_step vld mn mx) l ops) = [].
  Proof.
    induction ops as [|o ops IH]; intros l i; cbn [run law_hist_tlo]; [reflexivity|].
    rewrite IH, app_nil_r. destruct (tlo_step_law vld mn mx l o) as [H|H]; rewrite H.
    - destruct (refused l (tlo_step vld mn mx l o)); reflexivity.
    - unfold refused, raise. cbn. rewrite zlist_eqb_refl. reflexivity.
  Qed.
End Hist.

Lemma normal_form_spec len idx removed added : normal_form len (idx, removed, added) = true ->
  match idx with
  | I i => 0 <= i
  | S3 s e k => 0 <= s /\ s < e /\ e <= len /\ 2 <= k
  end.
Proof. unfold normal_form. cbn [fst]. destruct idx; lia. Qed.

Lemma removed_selected_spec l idx removed added : removed_selected l (idx, removed, added) = true ->
  match idx with
  | I i => firstn (length removed) (skipn (Z.to_nat i) l) = removed
  | S3 s e k => getitem_slice l (Some s, Some e, Some k) = Ok removed
  end.
Proof.
  unfold removed_selected. destruct idx.
  - intros RS. apply andb_true_iff in RS. apply zlist_eqb_spec, RS.
  - destruct (getitem_slice l (Some a, Some b, Some c)); [|discriminate]. intros RS. apply zlist_eqb_spec in RS. congruence.
Qed.

Section Read.
  Variable vld : Z -> option Z.

  Lemma law_step_inv l o ob : law_step vld l o ob = [] ->
    let sr := builtin vld l o in
    outcome_ok (o_out ob) sr = true /\
    o_after ob = (match fst sr with Ok (l', _) => l' | Raise _ => l end) /\
    (is_raise (o_out ob) = true -> o_after ob = l /\ o_events ob = []) /\
    (length (o_events ob) <= 1)%nat /\
    (o_after ob <> l -> o_events ob <> []) /\
    (forall ev, In ev (o_events ob) ->
       replay l ev = Some (o_after ob) /\ normal_form (zlen l) ev = true /\ removed_selected l ev = true) /\
    o_ret ob = (match fst sr with Ok (_, r) => r | Raise _ => None end).
  Proof.
    unfold law_step. intros H.
    repeat (apply chk_app_nil in H; let X := fresh "C" in destruct H as [X H]).
    apply chk_nil in H. cbv zeta.
    apply zlist_eqb_spec in C0.
    split; [exact C|]. split; [exact C0|].
    split.
    { intros R. unfold is_ok in C1. rewrite R in C1. cbn in C1. apply andb_true_iff in C1. destruct C1 as [A B].
      apply negb_true_iff, negb_false_iff, zlist_eqb_spec in A. split; [congruence|].
      destruct (o_events ob); [reflexivity|discriminate]. }
    split; [apply Nat.leb_le; exact C2|].
    split.
    { intros Hne E. rewrite E in C3. cbn in C3. rewrite orb_false_r in C3. apply negb_true_iff, negb_false_iff, zlist_eqb_spec in C3.
      congruence. }
    split.
    { intros ev Hin. rewrite forallb_forall in C4, C5, C6.
      specialize (C4 ev Hin). specialize (C5 ev Hin). specialize (C6 ev Hin).
      unfold replays_to in C4. destruct (replay l ev) as [l'|]; [|discriminate].
      apply zlist_eqb_spec in C4. subst l'. auto. }
    destruct (o_ret ob) as [x|], (match fst (builtin vld l o) with Ok (_, r) => r | Raise _ => None end) as [y|];
      cbn in H; try discriminate; try reflexivity. apply Z.eqb_eq in H. congruence.
  Qed.

  Lemma weak l o :
    let ob := tl_step vld l o in
    (is_raise (o_out ob) = true -> o_after ob = l /\ o_events ob = []) /\
    (length (o_events ob) <= 1)%nat /\
    (o_after ob <> l -> o_events ob <> []) /\
    (forall ev, In ev (o_events ob) ->
       replay l ev = Some (o_after ob) /\ normal_form (zlen l) ev = true /\ removed_selected l ev = true).
  Proof.
    destruct (law_step_inv l o (tl_step vld l o) (tl_step_law vld l o)) as (_ & _ & A & B & C & D & _).
    cbv zeta. auto.
  Qed.

  Lemma step_events l o ev : In ev (o_events (tl_step vld l o)) ->
    replay l ev = Some (o_after (tl_step vld l o)) /\ normal_form (zlen l) ev = true /\ removed_selected l ev = true.
  Proof. apply (weak l o). Qed.

  Lemma step_refines l o :
    let ob := tl_step vld l o in
    let sr := builtin vld l o in
    outcome_ok (o_out ob) sr = true /\
    o_after ob = (match fst sr with Ok (l', _) => l' | Raise _ => l end) /\
    o_ret ob = (match fst sr with Ok (_, r) => r | Raise _ => None end).
  Proof.
    destruct (law_step_inv l o (tl_step vld l o) (tl_step_law vld l o)) as (A & B & _ & _ & _ & _ & C).
    cbv zeta. auto.
  Qed.

  Lemma step_failing_untouched l o e :
    o_out (tl_step vld l o) = Raise e -> o_after (tl_step vld l o) = l /\ o_events (tl_step vld l o) = [].
  Proof. intros H. apply (weak l o). rewrite H. reflexivity. Qed.

  Lemma step_one_event l o :
    (length (o_events (tl_step vld l o)) <= 1)%nat /\
    (o_after (tl_step vld l o) <> l -> exists ev, o_events (tl_step vld l o) = [ev]).
  Proof.
    destruct (weak l o) as (_ & L & N & _). split; [exact L|].
    intros H. specialize (N H). destruct (o_events (tl_step vld l o)) as [|ev [|ev' r]]; [congruence|eauto|cbn in L; lia].
  Qed.
End Read.

Theorem run_refines_pylist (vld : Z -> option Z) : forall ops l,
  map (fun p => o_after (snd p)) (run (tl_step vld) l ops) = pylist_run vld l ops.
Proof.
  induction ops as [|o ops IH]; intros l; cbn [run pylist_run map]; [reflexivity|].
  destruct (step_refines vld l o) as (_ & HA & _). cbv zeta in HA. cbn [snd]. rewrite HA, IH. reflexivity.
Qed.

Lemma vld_all_fix (vld : Z -> option Z) l :
  Forall (fun y => vld y = Some y) l -> vld_all vld l = Some l.
Proof.
  induction 1 as [|y l Hy _ IH]; cbn; [reflexivity|]. rewrite Hy, IH. reflexivity.
Qed.

Lemma vpart_idem a : vpart (vpart a) = vpart a.
Proof.
  unfold vpart. destruct (1000 <=? a) eqn:E; [|rewrite E; reflexivity].
  pose proof (Z.mod_pos_bound a 1000 ltac:(lia)). replace (1000 <=? a mod 1000) with false by lia. reflexivity.
Qed.

(* for a validator that is idempotent on its range, a list of validated items is copied unchanged, by all three means *)
Theorem tl_copy_keeps_contents (vld : Z -> option Z) k l :
  (forall x y, vld x = Some y -> vld y = Some y) -> Forall (fun y => exists x, vld x = Some y) l ->
  exists l', tl_copy vld k l = Ok l' /\ map vpart l' = map vpart l /\ (k <> CopyPickle -> l' = l).
Proof.
  intros Hid F. destruct k; cbn.
  1,2: exists l; rewrite vld_all_fix; [repeat split; reflexivity|];
       (eapply Forall_impl; [|exact F]; cbn; intros y [x Hx]; eapply Hid; exact Hx).
  exists (map vpart l). split; [reflexivity|]. split; [|congruence].
  rewrite map_map. apply map_ext. apply vpart_idem.
Qed.
