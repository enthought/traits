(* C05 — property theorems only.  Each theorem is closed by a lemma of Proofs.v / NormProof.v in a line
   and followed by Print Assumptions; the three Examples at the end are closed by evaluation.  [vld] ranges over every item
   validator (accepting, rejecting, converting); lists, integer indices and slices
   (None / negative / oversized start, stop, step) are unbounded. *)
From Coq Require Import ZArith List Bool.
From TV Require Import Common.PySlice Common.PyList Common.Harness C05.Normalize C05.NormProof C05.Model C05.Law C05.Proofs.
Import ListNotations.
Local Open Scope Z_scope.

(* The whole law (all 9 clauses) holds at every step of every history on a TraitList; integer arguments may be
   index-like objects (the operations InsertX / PopX / ImulX of finding F26). *)
Theorem law_holds_on_every_history :
  forall (vld : Z -> option Z) (ops : list op) (l : list Z) (i : Z),
    law_hist vld i l (run (tl_step vld) l ops) = [].
Proof. exact run_law. Qed.
Print Assumptions law_holds_on_every_history.

(* TraitListObject (any length bounds): every step either obeys the same law or is
   refused with TraitError, leaving the list alone and notifying nobody. *)
Theorem law_holds_on_every_history_of_a_list_trait :
  forall (vld : Z -> option Z) (minlen : Z) (maxlen : option Z) (ops : list op) (l : list Z) (i : Z),
    law_hist_tlo vld i l (run (tlo_step vld minlen maxlen) l ops) = [].
Proof. exact run_law_tlo. Qed.
Print Assumptions law_holds_on_every_history_of_a_list_trait.

(* The centre piece: replaying the emitted event on the old contents yields the new contents. *)
Theorem replay_law :
  forall (vld : Z -> option Z) (l : list Z) (o : op) (ev : event),
    In ev (o_events (tl_step vld l o)) -> replay l ev = Some (o_after (tl_step vld l o)).
Proof. intros vld l o ev H. apply (step_events vld l o ev H). Qed.
Print Assumptions replay_law.

Theorem refines_list :
  forall (vld : Z -> option Z) (l : list Z) (o : op),
    let ob := tl_step vld l o in
    let sr := builtin vld l o in
    outcome_ok (o_out ob) sr = true /\
    o_after ob = (match fst sr with Ok (l', _) => l' | Raise _ => l end) /\
    o_ret ob = (match fst sr with Ok (_, r) => r | Raise _ => None end).
Proof. exact step_refines. Qed.
Print Assumptions refines_list.

(* ... and over whole histories: the contents after every step are those of the built-in list *)
Theorem refines_list_on_histories :
  forall (vld : Z -> option Z) (ops : list op) (l : list Z),
    map (fun p => o_after (snd p)) (run (tl_step vld) l ops) = pylist_run vld l ops.
Proof. exact run_refines_pylist. Qed.
Print Assumptions refines_list_on_histories.

Theorem failing_op_untouched :
  forall (vld : Z -> option Z) (l : list Z) (o : op) (e : exn),
    o_out (tl_step vld l o) = Raise e -> o_after (tl_step vld l o) = l /\ o_events (tl_step vld l o) = [].
Proof. exact step_failing_untouched. Qed.
Print Assumptions failing_op_untouched.

Theorem one_event_per_change :
  forall (vld : Z -> option Z) (l : list Z) (o : op),
    (length (o_events (tl_step vld l o)) <= 1)%nat /\
    (o_after (tl_step vld l o) <> l -> exists ev, o_events (tl_step vld l o) = [ev]).
Proof. exact step_one_event. Qed.
Print Assumptions one_event_per_change.

Theorem event_index_normal_form :
  forall (vld : Z -> option Z) (l : list Z) (o : op) idx removed added,
    In (idx, removed, added) (o_events (tl_step vld l o)) ->
    match idx with
    | I i => 0 <= i
    | S3 s e k => 0 <= s /\ s < e /\ e <= zlen l /\ 2 <= k
    end.
Proof. intros vld l o idx removed added H. apply (normal_form_spec _ _ removed added), (step_events vld l o _ H). Qed.
Print Assumptions event_index_normal_form.

Theorem removed_are_the_selected_items :
  forall (vld : Z -> option Z) (l : list Z) (o : op) idx removed added,
    In (idx, removed, added) (o_events (tl_step vld l o)) ->
    match idx with
    | I i => firstn (length removed) (skipn (Z.to_nat i) l) = removed
    | S3 s e k => getitem_slice l (Some s, Some e, Some k) = Ok removed
    end.
Proof. intros vld l o idx removed added H. apply (removed_selected_spec _ _ _ added), (step_events vld l o _ H). Qed.
Print Assumptions removed_are_the_selected_items.

Theorem noop_event_is_identity :
  forall (vld : Z -> option Z) (l : list Z) (o : op) (ev : event),
    o_after (tl_step vld l o) = l -> In ev (o_events (tl_step vld l o)) -> replay l ev = Some l.
Proof. intros vld l o ev E H. rewrite <- E at 2. apply (step_events vld l o ev H). Qed.
Print Assumptions noop_event_is_identity.

(* single steps of a TraitListObject *)
Theorem list_trait_step_obeys_or_refuses :
  forall (vld : Z -> option Z) (minlen : Z) (maxlen : option Z) (l : list Z) (o : op),
    law_step vld l o (tlo_step vld minlen maxlen l o) = [] \/ tlo_step vld minlen maxlen l o = raise TraitError l.
Proof. exact tlo_step_law. Qed.
Print Assumptions list_trait_step_obeys_or_refuses.

(* Finding F26: insert / pop / *= convert an index-like argument with operator.index first, as the built-in
   list does: the operation with the object is the operation with the int (and obeys the whole law, above) *)
Theorem index_like_arguments_behave_as_ints :
  forall (vld : Z -> option Z) (l : list Z) (o : op), tl_step vld l o = tl_step vld l (deX o).
Proof. intros vld l o. unfold tl_step. destruct o; reflexivity. Qed.
Print Assumptions index_like_arguments_behave_as_ints.

(* a change made from inside a notifier (re-entrant) is an operation like any other: it too obeys the whole law,
   in particular it is notified *)
Theorem nested_operation_obeys_the_law :
  forall (vld : Z -> option Z) (l : list Z) (o : op),
    let ob := tl_step vld l o in
    law_step vld l o ob = [] /\ law_step vld (o_after ob) (Pop (Some 0)) (tl_step vld (o_after ob) (Pop (Some 0))) = [].
Proof. intros vld l o. split; apply tl_step_law. Qed.
Print Assumptions nested_operation_obeys_the_law.

(* copies: copy.copy / copy.deepcopy / pickle of a TraitList: the same values (a pickle round trip creates new
   objects: the same values up to identity, [vpart]) *)
Theorem copy_keeps_contents :
  forall (vld : Z -> option Z) (k : copykind) (l : list Z),
    (forall x y, vld x = Some y -> vld y = Some y) -> Forall (fun y => exists x, vld x = Some y) l ->
    exists l', tl_copy vld k l = Ok l' /\ map vpart l' = map vpart l /\ (k <> CopyPickle -> l' = l).
Proof. exact tl_copy_keeps_contents. Qed.
Print Assumptions copy_keeps_contents.

Theorem law_holds_on_every_history_of_a_copy :
  forall (vld : Z -> option Z) (k : copykind) (l l' : list Z),
    tl_copy vld k l = Ok l' -> forall ops i, law_hist vld i l' (run (tl_step vld) l' ops) = [].
Proof. intros vld k l l' _ ops i. apply run_law. Qed.
Print Assumptions law_holds_on_every_history_of_a_copy.

(* the arithmetic core, about the definition translated from the source (T1) *)
Theorem normalize_spec :
  forall len sl, 0 <= len -> slice_step sl <> 0 -> norm_spec len sl.
Proof. exact normalize_gen_spec. Qed.
Print Assumptions normalize_spec.

(* Identity: two distinct objects that are equal and of the same type (atoms 1301, 2301: two floats 1.0) are two items;
   reversing [a; b] changes the list, is notified, and the event replays *)
Example reverse_of_equal_but_distinct_objects :
  let l := [1301; 2301] in
  let ob := tl_step (vld_of VAll) l Reverse in
  py_eq 1301 2301 = true /\ o_after ob = [2301; 1301] /\ o_events ob = [(I 0, [1301; 2301], [2301; 1301])]
  /\ replay l (I 0, [1301; 2301], [2301; 1301]) = Some (o_after ob)
  /\ o_events (tl_step (vld_of VAll) l (Remove 1)) = [(I 0, [1301], [])].
Proof. vm_compute. repeat split; reflexivity. Qed.

Example index_like_arguments_nontrivial :
  let h := run (tl_step (vld_of VCInt)) [1; 2] [InsertX 0 105; PopX (-1); ImulX 2; InsertX 9 200; PopX 7] in
  map (fun p => o_after (snd p)) h = [[5; 1; 2]; [5; 1]; [5; 1; 5; 1]; [5; 1; 5; 1]; [5; 1; 5; 1]]
  /\ map (fun p => o_out (snd p)) h = [Ok tt; Ok tt; Ok tt; Raise TraitError; Raise IndexError].
Proof. vm_compute. split; reflexivity. Qed.

(* Non-vacuity: a history with a converting validator in which extended and reversed
   slices are assigned and deleted, an operation fails, and a no-op event is emitted. *)
Example history_nontrivial :
  let h := run (tl_step (vld_of VCInt)) [1; 2; 3; 4; 5]
             [SetSlice (None, None, Some (-2)) [7; 108; 9]; DelSlice (Some 4, None, Some (-3));
              SetInt 7 200; Append 200; Sort 0 false; Sort 0 false; SetSlice (Some 1, Some 1, None) []] in
  map (fun p => o_events (snd p)) h =
    [[(S3 0 5 2, [1; 3; 5], [9; 8; 7])]; [(S3 1 5 3, [2; 7], [])]; []; [];
     [(I 0, [9; 8; 4], [4; 8; 9])]; [(I 0, [4; 8; 9], [4; 8; 9])]; []]
  /\ map (fun p => o_out (snd p)) h = [Ok tt; Ok tt; Raise TraitError; Raise TraitError; Ok tt; Ok tt; Ok tt].
Proof. vm_compute. split; reflexivity. Qed.
