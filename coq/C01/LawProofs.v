(* C01/LawProofs.v — the law (every clause of law_step) holds on every step of every history of the model's
   operations, with any number of keywords; invariants Inv (domain) and ShInv (shadow = mapped value). *)
From Coq Require Import ZArith List Bool Lia.
From TV Require Import Common.PyVal Common.Harness C03.Model C03.Law C03.Proofs C01.Model C01.Law C01.Proofs.
Import ListNotations.
Open Scope Z_scope.

Lemma opt_pv_refl o : opt_eqb pv_eqb o o = true.
Proof. destruct o; cbn; [apply pv_eqb_refl | reflexivity]. Qed.
Lemma same_on_refl ns s : same_on ns s s = true.
Proof. unfold same_on. apply forallb_forall. intros. apply opt_pv_refl. Qed.

Lemma same_on_get ns a b : (forall m, In m ns -> get a m = get b m) -> same_on ns a b = true.
Proof. intros H. unfold same_on. apply forallb_forall. intros m Hm. rewrite (H m Hm). apply opt_pv_refl. Qed.

Definition ShInv (c : cls) (s : inst) : Prop :=
  forall n d dflt w, trait_of c n = Some (d, dflt) -> get s n = Some w -> shadow_ok d w (get s (shadow n)) = true.

Lemma dict_get_shadow m w x : dict_get m w = Some x ->
  existsb (fun kx => py_eq w (fst kx) && pv_eqb x (snd kx)) m = true.
Proof.
  induction m as [|[k y] m IH]; cbn [dict_get existsb fst snd]; [discriminate|]. destruct (py_eq w k).
  - intros H; inversion H; subst. now rewrite pv_eqb_refl.
  - intros H. rewrite (IH H). apply orb_true_r.
Qed.
Lemma str_get_shadow m s x : str_get m s = Some x ->
  existsb (fun kx => zlist_eqb (fst kx) s && pv_eqb x (snd kx)) m = true.
Proof.
  induction m as [|[k y] m IH]; cbn [str_get existsb fst snd]; [discriminate|]. destruct (zlist_eqb k s).
  - intros H; inversion H; subst. now rewrite pv_eqb_refl.
  - intros H. rewrite (IH H). apply orb_true_r.
Qed.

Lemma post_set_shadow_ok d w x : is_mapped d = true -> post_setattr d w = PostSet x -> shadow_ok d w (Some x) = true.
Proof.
  destruct d; cbn; try discriminate; intros _.
  - destruct (hashable w); [|discriminate]. destruct (dict_get m w) eqn:H; [|discriminate].
    intros Hx; inversion Hx; subst. now apply dict_get_shadow.
  - destruct (str_of w) as [s|]; [|discriminate]. destruct (str_get m s) eqn:H; [|discriminate].
    intros Hx; inversion Hx; subst. now apply str_get_shadow.
Qed.

Lemma shadow_ok_unmapped d w o : is_mapped d = false -> shadow_ok d w o = true.
Proof. destruct d; cbn; try discriminate; reflexivity. Qed.

Lemma setattr_frame E c s n v m :
  m <> n -> m <> shadow n -> get (fst (setattr E c s n v)) m = get s m.
Proof. exact (writes_frame _ _ _ _ m (setattr_writes E c s n v)). Qed.

Lemma setattr_ok E c s n v s' d dflt :
  is_undefined v = false -> ShInv c s -> trait_of c n = Some (d, dflt) -> setattr E c s n v = (s', Ok) ->
  exists w, validate_s E c s d v = Accept w /\ get s' n = Some w /\ shadow_ok d w (get s' (shadow n)) = true.
Proof.
  intros Hu HS Ht Hs. pose proof (setattr_unaccepted E c s n v d dflt Ht) as Hr.
  assert (Hc : checked E c s d v = validate_s E c s d v) by (unfold checked; now rewrite Hu).
  rewrite Hc in Hr. destruct (validate_s E c s d v) as [w| |e]; [|congruence..].
  destruct (setattr_accept E c s n v d dflt w s' _ Ht Hc Hs) as [Hg Hsh]. exists w. repeat split; [exact Hg|].
  destruct (is_mapped d) eqn:Hm; [|now apply shadow_ok_unmapped].
  destruct Hsh as [Hn|[(x & Hx & ->)|[Hgs ->]]].
  - destruct d; try discriminate; cbn [post_setattr] in Hn; destruct (mapped_of _ w); discriminate.
  - now apply post_set_shadow_ok.
  - eapply HS; eauto.
Qed.

Lemma names_shadow_disjoint E c n m d dflt d' dflt' :
  class_ok E c = true -> trait_of c n = Some (d, dflt) -> trait_of c m = Some (d', dflt') -> m <> shadow n.
Proof.
  intros Hc Hn Hm. destruct (class_ok_at E c _ _ _ Hc Hn) as (_ & H1 & _).
  destruct (class_ok_at E c _ _ _ Hc Hm) as (_ & H2 & _). unfold shadow. lia.
Qed.

Definition keys_unique (c : cls) : Prop := forall n e, In (n, e) c -> trait_of c n = Some e.

Lemma setattr_shinv E c s n v :
  is_undefined v = false -> class_ok E c = true -> post_safe c = true -> keys_unique c -> ShInv c s ->
  ShInv c (fst (setattr E c s n v)).
Proof.
  intros Hu Hc Hp Hk HS. destruct (trait_of c n) as [[d dflt]|] eqn:Ht.
  2:{ unfold setattr. now rewrite Ht. }
  destruct (setattr E c s n v) as [s' out] eqn:Hs. cbn [fst].
  destruct out as [|e].
  - destruct (setattr_ok E c s n v s' d dflt Hu HS Ht Hs) as (w & Hv & Hg & Hsh).
    intros m dm dfm wm Htm Hgm. destruct (Z.eq_dec m n) as [->|Hmn].
    + rewrite Ht in Htm. inversion Htm; subst. rewrite Hg in Hgm. inversion Hgm; subst. exact Hsh.
    + assert (Hms : m <> shadow n) by (eapply names_shadow_disjoint; eauto).
      destruct (class_ok_at E c _ _ _ Hc Htm) as (_ & Hrm & _).
      destruct (class_ok_at E c _ _ _ Hc Ht) as (_ & Hrn & _).
      pose proof (setattr_frame E c s n v m Hmn Hms) as F1. rewrite Hs in F1. cbn in F1.
      pose proof (setattr_frame E c s n v (shadow m)) as F2. rewrite Hs in F2. cbn in F2.
      rewrite F2 by (unfold shadow in *; lia). rewrite F1 in Hgm. eapply HS; eauto.
  - now rewrite (setattr_exception_no_effect E c s n v s' e Hu Hp Hs).
Qed.

Definition model_obs (E : env) (c : cls) (s : inst) (o : op) : obs :=
  mkObs (snd (step E c s o)) true (fst (step E c s o)).
Fixpoint model_hist (E : env) (c : cls) (s : inst) (ops : list op) : list (op * obs) :=
  match ops with
  | [] => []
  | o :: r => (o, model_obs E c s o) :: model_hist E c (fst (step E c s o)) r
  end.

Lemma shinv_empty c : ShInv c [].
Proof. intros n d dflt w _ H. discriminate. Qed.

Definition kw_ok (c : cls) (kw : list (Z * pv)) : Prop :=
  NoDup (map fst kw) /\ (forall p, In p kw -> exists e, trait_of c (fst p) = Some e) /\ kw_defined kw = true.

Lemma assign_all_shinv E c kw : forall s,
  kw_defined kw = true -> class_ok E c = true -> post_safe c = true -> keys_unique c -> ShInv c s ->
  ShInv c (fst (assign_all E c s kw)).
Proof.
  induction kw as [|[n v] kw IH]; intros s Hd Hc Hp Hk HS; cbn; [exact HS|].
  cbn in Hd. apply andb_prop in Hd as [Hv Hd]. apply negb_true_iff in Hv.
  pose proof (setattr_shinv E c s n v Hv Hc Hp Hk HS) as H1.
  destruct (setattr E c s n v) as [s1 [|e]]; cbn in *; [now apply IH | exact H1].
Qed.

Lemma step_shinv E c s o :
  kw_defined (snd o) = true -> class_ok E c = true -> post_safe c = true -> keys_unique c -> ShInv c s ->
  ShInv c (fst (step E c s o)).
Proof.
  intros Hd Hc Hp Hk HS. destruct o as [h kw]. destruct h; cbn [step]; try now apply assign_all_shinv.
  pose proof (assign_all_shinv E c kw [] Hd Hc Hp Hk (shinv_empty c)) as X.
  destruct (assign_all E c [] kw) as [s1 [|e]]; cbn in *; assumption.
Qed.

Lemma assign_all_frame E c kw : forall s m,
  (forall p, In p kw -> m <> fst p /\ m <> shadow (fst p)) ->
  get (fst (assign_all E c s kw)) m = get s m.
Proof.
  induction kw as [|[n v] kw IH]; intros s m H; cbn; [reflexivity|].
  destruct (H (n, v) (or_introl eq_refl)) as [H1 H2]. cbn in H1, H2.
  pose proof (setattr_frame E c s n v m H1 H2) as F.
  destruct (setattr E c s n v) as [s1 [|e]]; cbn in *.
  - rewrite IH; [exact F|]. intros p Hp. apply H. now right.
  - exact F.
Qed.

Lemma entries_ok E c s' (skip : Z * (desc * pv) -> bool) :
  keys_unique c -> Inv E c s' -> ShInv c s' ->
  forallb (fun nd => skip nd || entry_ok E s' nd) c = true.
Proof.
  intros Hk HI HS. apply forallb_forall. intros [m [dm dfm]] Hin. apply orb_true_iff. right. cbn.
  pose proof (Hk _ _ Hin) as Htm. destruct (get s' m) as [w|] eqn:Hg; [|reflexivity].
  rewrite (HI m dm dfm w Htm Hg). cbn. eapply HS; eauto.
Qed.

Lemma assign_all_ok E c kw : forall s s',
  class_ok E c = true -> post_safe c = true -> ShInv c s -> keys_unique c -> kw_ok c kw ->
  assign_all E c s kw = (s', Ok) ->
  forallb (fun p => match trait_of c (fst p), get s' (fst p) with
                    | Some (d, _), Some w => conv_ok1 E d (snd p) w
                    | _, _ => false
                    end) kw = true.
Proof.
  induction kw as [|[n v] kw IH]; intros s s' Hc Hp HS Hk (Hnd & Htr & Hdef) H; [reflexivity|].
  cbn in Hdef. apply andb_prop in Hdef as [Hu Hdef]. apply negb_true_iff in Hu.
  cbn in H. destruct (setattr E c s n v) as [s1 [|e]] eqn:Hs; [|discriminate].
  destruct (Htr (n, v) (or_introl eq_refl)) as [[d dflt] Ht]. cbn in Ht.
  destruct (setattr_ok E c s n v s1 d dflt Hu HS Ht Hs) as (w & Hv & Hg & _).
  destruct (class_ok_at E c _ _ _ Hc Ht) as (Hsd & Hr & _).
  destruct (sound_hyp_parts E d Hsd) as (Hwf & _ & _ & HB).
  cbn in Hnd. inversion Hnd as [|? ? Hnotin Hnd']; subst.
  assert (HS1 : ShInv c s1).
  { pose proof (setattr_shinv E c s n v Hu Hc Hp Hk HS) as X. now rewrite Hs in X. }
  cbn [forallb fst snd]. rewrite Ht.
  (* the later keywords do not touch n *)
  assert (Hgn : get s' n = Some w).
  { pose proof (assign_all_frame E c kw s1 n) as F. rewrite H in F. cbn in F. rewrite F; [exact Hg|].
    intros p Hp'. destruct (Htr p (or_intror Hp')) as [[dp dfp] Htp].
    split.
    - intros ->. apply Hnotin. apply in_map_iff. now exists p.
    - destruct (class_ok_at E c _ _ _ Hc Htp) as (_ & Hrp & _). unfold shadow. lia. }
  rewrite Hgn, (vs_conv1 E c s d v w Hwf HB Hv). cbn.
  apply (IH s1 s'); auto. split; [exact Hnd'|]. split; [|exact Hdef]. intros p Hp'. apply Htr. now right.
Qed.

Lemma assign_all_exn E c kw : forall s s' e,
  class_ok E c = true -> post_safe c = true -> kw_ok c kw ->
  assign_all E c s kw = (s', Raise e) ->
  e = ETraitError \/ existsb (fun p => raises_own (snd p) e) kw = true.
Proof.
  induction kw as [|[n v] kw IH]; intros s s' e Hc Hp (Hnd & Htr & Hdef) H; [discriminate|].
  cbn in Hdef. apply andb_prop in Hdef as [Hu Hdef]. apply negb_true_iff in Hu.
  cbn in H. destruct (setattr E c s n v) as [s1 [|e1]] eqn:Hs.
  - inversion Hnd; subst. destruct (IH s1 s' e Hc Hp) as [->|Hx]; auto.
    + split; [assumption|]. split; [|exact Hdef]. intros p Hp'. apply Htr. now right.
    + right. cbn. rewrite Hx. apply orb_true_r.
  - inversion H; subst. destruct (Htr (n, v) (or_introl eq_refl)) as [[d dflt] Ht]. cbn in Ht.
    destruct (class_ok_at E c _ _ _ Hc Ht) as (Hsd & _).
    destruct (sound_hyp_parts E d Hsd) as (Hwf & _).
    destruct (setattr_exception_class E c s n v s' e d dflt Hu Hp Ht Hwf Hs) as [->|Hown]; auto.
    right. cbn. now rewrite Hown.
Qed.

Definition op_ok (c : cls) (o : op) : Prop := kw_ok c (snd o).

Lemma untouched kw m : touched kw m = false -> forall p, In p kw -> m <> fst p /\ m <> shadow (fst p).
Proof.
  unfold touched. intros Hm p Hp.
  destruct ((fst p =? m) || (shadow (fst p) =? m)) eqn:Hb.
  - rewrite (proj2 (existsb_exists _ _)) in Hm by eauto. discriminate.
  - apply orb_false_iff in Hb as [Ha Hb]. apply Z.eqb_neq in Ha, Hb. split; congruence.
Qed.

(* clause 2: a name no keyword touches reads as before (for a successful constructor: as in a fresh dictionary) *)
Lemma step_untouched E c s h kw m :
  touched kw m = false ->
  get (match h with
       | Ctor => match snd (step E c s (h, kw)) with Ok => [] | Raise _ => s end
       | _ => s
       end) m = get (fst (step E c s (h, kw))) m.
Proof.
  intros Hm. pose proof (untouched kw m Hm) as Hnt. destruct h; cbn [step].
  3:{ destruct (assign_all E c [] kw) as [s1 [|e]] eqn:Ha; cbn [fst snd]; [|reflexivity].
      pose proof (assign_all_frame E c kw [] m Hnt) as F. rewrite Ha in F. cbn in F. now rewrite F. }
  all: destruct (assign_all E c s kw) as [s1 out] eqn:Ha; cbn [fst snd];
    pose proof (assign_all_frame E c kw s m Hnt) as F; rewrite Ha in F; cbn in F; now destruct out.
Qed.

(* clause 6: a single assignment to a name-based Range / Enum stores a value within the bounds / collection of that moment *)
Lemma setattr_dyn_assign E c s n v :
  is_undefined v = false -> ShInv c s ->
  match snd (setattr E c s n v) with
  | Ok => dyn_assign_ok c s (fst (setattr E c s n v)) [(n, v)]
  | Raise _ => true
  end = true.
Proof.
  intros Hu HS. destruct (setattr E c s n v) as [s1 [|e]] eqn:Hs; [|reflexivity]. cbn [fst snd dyn_assign_ok].
  destruct (trait_of c n) as [[d dflt]|] eqn:Ht; [|reflexivity].
  destruct (setattr_ok E c s n v s1 d dflt Hu HS Ht Hs) as (w & Hv & Hg & _).
  destruct d; try reflexivity.
  - destruct (dyn_range_accepts _ _ _ _ _ Hv) as (l & hh & z & Hl & Hh & -> & _ & Hr). now rewrite Hg, Hl, Hh.
  - destruct (dyn_enum_accepts _ _ _ Hv) as (-> & items & Hi & Hm). now rewrite Hg, Hi.
Qed.

Lemma step_dyn_assign E c s h kw :
  kw_defined kw = true -> ShInv c s ->
  match snd (step E c s (h, kw)) with
  | Ok => dyn_assign_ok c (match h with Ctor => [] | _ => s end) (fst (step E c s (h, kw))) kw
  | Raise _ => true
  end = true.
Proof.
  intros Hdef HS. destruct kw as [|[n v] [|q kw']]; try (destruct (snd (step E c s (h, _))); reflexivity).
  cbn in Hdef. apply andb_prop in Hdef as [Hu _]. apply negb_true_iff in Hu.
  destruct h; cbn [step assign_all].
  3:{ pose proof (setattr_dyn_assign E c [] n v Hu (shinv_empty c)) as G. destruct (setattr E c [] n v) as [s1 [|e]]; exact G. }
  all: pose proof (setattr_dyn_assign E c s n v Hu HS) as G; destruct (setattr E c s n v) as [s1 [|e]]; exact G.
Qed.

Lemma law_step_model E c s o :
  class_ok E c = true -> post_safe c = true -> keys_unique c -> Inv E c s -> ShInv c s -> op_ok c o ->
  law_step E c s o (model_obs E c s o) = [].
Proof.
  intros Hc Hp Hk HI HS Hok. destruct o as [h kw]. unfold op_ok in Hok. cbn [snd] in Hok.
  unfold model_obs, law_step. cbn [o_out o_after o_names_attr].
  assert (Hdef : kw_defined kw = true) by (destruct Hok as (_ & _ & Hd); exact Hd).
  pose proof (step_inv E c s (h, kw) Hdef Hc HI) as HI'.
  pose proof (step_shinv E c s (h, kw) Hdef Hc Hp Hk HS) as HS'.
  rewrite (entries_ok E c _ _ Hk HI' HS'). cbn [chk app].
  rewrite same_on_get by (intros m Hm; apply filter_In in Hm as [_ Hm]; apply negb_true_iff in Hm; now apply step_untouched).
  cbn [chk app]. pose proof (step_dyn_assign E c s h kw Hdef HS) as H6.
  destruct h; cbn [step] in *.
  3:{ (* a constructor works on a fresh dictionary and leaves the old one when it fails *)
      destruct (assign_all E c [] kw) as [s1 [|e]] eqn:Ha; cbn [fst snd].
      - rewrite (assign_all_ok E c kw [] s1 Hc Hp (shinv_empty c) Hk Hok Ha). cbn [fst snd] in H6. rewrite H6. reflexivity.
      - rewrite same_on_refl. cbn [chk app].
        destruct (assign_all_exn E c kw [] s1 e Hc Hp Hok Ha) as [->|Hx]; [reflexivity|].
        destruct e; rewrite ?Hx; reflexivity. }
  (* attribute assignment, trait_set, the quiet routes: assign_all on the dictionary itself *)
  all: destruct (assign_all E c s kw) as [s1 [|e]] eqn:Ha; cbn [fst snd];
    [rewrite (assign_all_ok E c kw s s1 Hc Hp HS Hk Hok Ha); cbn [fst snd] in H6; rewrite H6; reflexivity|].
  all: assert (H3 : match kw with [_] => same_on (names_of c) s s1 | _ => true end = true)
    by (destruct kw as [|[n v] [|q kw']]; try reflexivity;
        cbn in Ha; destruct (setattr E c s n v) as [s2 [|e2]] eqn:Hs; inversion Ha; subst;
        cbn in Hdef; apply andb_prop in Hdef as [Hu _]; apply negb_true_iff in Hu;
        rewrite (setattr_exception_no_effect E c s n v s1 e Hu Hp Hs); apply same_on_refl).
  all: destruct (assign_all_exn E c kw s s1 e Hc Hp Hok Ha) as [->|Hx];
    [destruct kw as [|p [|q kw']]; rewrite ?H3; reflexivity
    |destruct kw as [|p [|q kw']]; rewrite ?H3; cbn [chk app]; destruct e; rewrite ?Hx; reflexivity].
Qed.

Lemma law_on_every_history E c : class_ok E c = true -> post_safe c = true -> keys_unique c ->
  forall ops s i, Inv E c s -> ShInv c s -> Forall (op_ok c) ops ->
    law_hist E c i s (model_hist E c s ops) = [].
Proof.
  intros Hc Hp Hk. induction ops as [|o ops IH]; intros s i HI HS Hok; [reflexivity|].
  inversion Hok as [|? ? Ho Hok']; subst.
  cbn [model_hist law_hist]. rewrite (law_step_model E c s o Hc Hp Hk HI HS Ho). cbn [map app].
  unfold model_obs at 1. cbn [o_after].
  assert (Hdef : kw_defined (snd o) = true) by (destruct Ho as (_ & _ & Hd); exact Hd).
  apply IH; auto; [now apply step_inv | now apply step_shinv].
Qed.

(* what is stored is no licence: an assignment the validator rejects is rejected in EVERY dictionary — also one
   that already holds that very value (an unvalidated default a read put there) — and changes nothing *)
Lemma setattr_rejects_whatever_is_stored E c s n d dflt v :
  trait_of c n = Some (d, dflt) -> is_undefined v = false -> validate_s E c s d v = Reject ->
  setattr E c s n v = (s, Raise ETraitError).
Proof. intros Ht Hu Hv. unfold setattr. now rewrite Ht, Hu, Hv. Qed.

Lemma read_then_assign_default_rejected E c s n d dflt :
  trait_of c n = Some (d, dflt) -> is_undefined dflt = false -> validate_s E c (read_attr c s n) d dflt = Reject ->
  get (read_attr c s n) n <> None /\
  setattr E c (read_attr c s n) n dflt = (read_attr c s n, Raise ETraitError).
Proof.
  intros Ht Hu Hv. split.
  - unfold read_attr. rewrite Ht. destruct (get s n) eqn:Hg; [congruence | rewrite get_set_same; discriminate].
  - eapply setattr_rejects_whatever_is_stored; eauto.
Qed.

(* reads of attributes without a post_setattr whose default lies in the domain keep both invariants: the law holds on
   every history that starts after such reads *)
Definition read_ok (E : env) (c : cls) (n : Z) : Prop :=
  forall d dflt, trait_of c n = Some (d, dflt) -> has_post d = false /\ dom E d dflt = true.

Lemma has_post_false_unmapped d : has_post d = false -> is_mapped d = false.
Proof. destruct d; cbn; try discriminate; reflexivity. Qed.

Lemma read_attr_inv E c s n : read_ok E c n -> Inv E c s -> Inv E c (read_attr c s n).
Proof.
  intros Hr HI. unfold read_attr. destruct (trait_of c n) as [[d dflt]|] eqn:Ht; [|exact HI].
  destruct (get s n); [exact HI|]. apply inv_set; [exact HI|].
  intros d' dflt' H. rewrite Ht in H. inversion H; subst. now destruct (Hr _ _ Ht).
Qed.

Lemma read_attr_shinv E c s n : class_ok E c = true -> read_ok E c n -> ShInv c s -> ShInv c (read_attr c s n).
Proof.
  intros Hc Hr HS. unfold read_attr. destruct (trait_of c n) as [[d dflt]|] eqn:Ht; [|exact HS].
  destruct (get s n) eqn:Hg; [exact HS|].
  destruct (class_ok_at E c _ _ _ Hc Ht) as (_ & Hn & _).
  intros m dm dfm w Htm. destruct (Z.eq_dec m n) as [->|Hmn].
  - rewrite Ht in Htm. inversion Htm; subst. intros _. apply shadow_ok_unmapped, has_post_false_unmapped.
    now destruct (Hr _ _ Ht).
  - rewrite get_set_other by auto. intros Hw.
    assert (Hsn : shadow m <> n).
    { destruct (class_ok_at E c _ _ _ Hc Htm) as (_ & Hm & _). unfold shadow. lia. }
    rewrite get_set_other by auto. eapply HS; eauto.
Qed.

Lemma pre_state_invs E c pre : class_ok E c = true -> Forall (read_ok E c) pre ->
  Inv E c (pre_state c pre) /\ ShInv c (pre_state c pre).
Proof.
  intros Hc. unfold pre_state.
  assert (G : forall s, Inv E c s -> ShInv c s -> Forall (read_ok E c) pre ->
                        Inv E c (fold_left (read_attr c) pre s) /\ ShInv c (fold_left (read_attr c) pre s)).
  { induction pre as [|n pre IH]; intros s HI HS Hf; cbn [fold_left]; [now split|].
    inversion Hf; subst. apply IH; auto.
    - now apply read_attr_inv.
    - now apply (read_attr_shinv E). }
  intros Hf. apply G; auto.
  - apply inv_empty.
  - apply shinv_empty.
Qed.

Lemma law_after_reads E c pre ops i :
  class_ok E c = true -> post_safe c = true -> keys_unique c -> Forall (read_ok E c) pre -> Forall (op_ok c) ops ->
  law_hist E c i (pre_state c pre) (model_hist E c (pre_state c pre) ops) = [].
Proof.
  intros Hc Hp Hk Hr Hok. destruct (pre_state_invs E c pre Hc Hr) as [HI HS].
  now apply law_on_every_history.
Qed.

(* an example: on this class and these reads the initial dictionary the model predicts passes clause 8 of the law,
   the empty one and one with an extra entry do not *)
Lemma law_pre_model_example :
  let c := [(0, (DInstance 100 false false, PNone)); (1, (DInt, PInt 0)); (2, (DString 2 4 None, PStr []))] in
  law_pre c [2; 0] (pre_state c [2; 0]) = [] /\ law_pre c [2; 0] [] <> [] /\ law_pre c [] [(1, PInt 0)] <> [].
Proof. vm_compute. repeat split; discriminate. Qed.
