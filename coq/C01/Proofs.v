(* C01/Proofs.v — lemmas behind C01/Props.v.
   [res_ok] says what a validator may answer; [validators_ok] proves it of the compiled and of the Python validator
   together, by one induction over descriptions (a Property runs the Python validate, a Python Tuple / Union runs
   CTrait.validate of its members).  The assignment lemmas trace every exception of [setattr] back to the validator. *)
From Coq Require Import ZArith List Bool Lia.
From TV Require Import Common.PyVal Common.Harness C03.Model C03.Law C03.Proofs C01.Model C01.Law.
Import ListNotations.
Open Scope Z_scope.

(* F18: Instance(C, allow_none=False) / This(allow_none=False) with None an instance of C *)
Fixpoint none_sound (E : env) (d : desc) : bool :=
  match d with
  | DInstance cls false _ => negb (issub E cNONE cls)
  | DSelf false => negb (issub E cNONE (e_self E))
  | DTuple ds | DCompound ds | DUnion ds | DVTuple ds _ => forallb (none_sound E) ds
  | DDict kd vd => none_sound E kd && none_sound E vd
  | DProperty d' | DList d' _ _ => none_sound E d'
  | _ => true
  end.
(* adaptation results are whatever the adapter returns: outside the declared-domain statement *)
Fixpoint no_adapt (d : desc) : bool :=
  match d with
  | DAdapt _ _ _ _ => false
  | DTuple ds | DCompound ds | DUnion ds | DVTuple ds _ => forallb no_adapt ds
  | DDict kd vd => no_adapt kd && no_adapt vd
  | DProperty d' | DList d' _ _ => no_adapt d'
  | _ => true
  end.
Definition sound_hyp (E : env) (d : desc) : bool :=
  wf_desc d && none_sound E d && no_adapt d && bool_final E.

Lemma as_integer_index v w : as_integer v = Returns w -> exists z, as_index v = Returns z /\ w = PInt z.
Proof.
  unfold as_integer. destruct v; cbn; try discriminate;
    try (intros H; inversion H; subst; eauto; fail);
    try (destruct c; cbn; intros H; inversion H; subst; eauto).
Qed.
Lemma as_float_double v w : as_float v = Returns w -> exists f, float_as_double v = Returns f /\ w = PFloat f.
Proof.
  unfold as_float, conv_map. destruct v; try discriminate;
    try (intros H; inversion H; subst; cbn; eauto; fail);
    match goal with |- context [float_as_double ?x] => destruct (float_as_double x) eqn:Hf end;
    try discriminate; intros H; inversion H; subst; eauto.
Qed.

Lemma cast_fn_class E t v w : cast_fn E t v = Returns w -> class_of w = cast_cls t.
Proof.
  destruct t; cbn.
  - unfold cast_int, conv_map. destruct v; try discriminate; try (intros H; inversion H; reflexivity);
      try (match goal with |- context [match ?c with _ => _ end] => destruct c end; intros H; inversion H; reflexivity).
  - unfold cast_float, conv_map. destruct v; try discriminate;
      repeat (match goal with |- context [match ?c with _ => _ end] => destruct c end);
      try discriminate; intros H; inversion H; reflexivity.
  - unfold cast_complex, conv_map. destruct v; try discriminate;
      repeat (match goal with |- context [match ?c with _ => _ end] => destruct c end);
      try discriminate; intros H; inversion H; reflexivity.
  - destruct v; try (intros H; inversion H; reflexivity);
      repeat (match goal with |- context [match ?c with _ => _ end] => destruct c end);
      try discriminate; intros H; inversion H; reflexivity.
  - destruct v; try (intros H; inversion H; reflexivity);
      repeat (match goal with |- context [match ?c with _ => _ end] => destruct c end);
      try discriminate; intros H; inversion H; reflexivity.
  - intros H; inversion H; reflexivity.
Qed.

Lemma int_to_fl_raises z e : int_to_fl z = Raises e -> e = EOverflowError /\ (MAXF <=? Z.abs z) = true.
Proof.
  unfold int_to_fl. destruct (Z.abs z <? MAXF) eqn:H; [discriminate|]. intros Hx; inversion Hx; subst.
  split; [reflexivity|]. apply Z.ltb_ge in H. now apply Z.leb_le.
Qed.

Lemma float_as_double_raises v e :
  float_as_double v = Raises e -> e <> ETypeError -> raises_own v e = true.
Proof.
  destruct v; cbn -[MAXF int_to_fl]; try discriminate; try (intros H; inversion H; congruence).
  - intros H _. apply int_to_fl_raises in H as [-> H]. now rewrite H.
  - intros H _. apply int_to_fl_raises in H as [-> H]. now rewrite H.
  - intros H _. apply int_to_fl_raises in H as [-> H]. now rewrite H.
  - destruct c as [z|x]; cbn -[MAXF int_to_fl].
    + intros H _. apply int_to_fl_raises in H as [-> H]. now rewrite H.
    + intros H _. inversion H; subst. apply exn_eqb_refl.
  - destruct c as [f|x]; [discriminate|]. intros H _. inversion H; subst. apply exn_eqb_refl.
Qed.

Lemma as_float_raises v e : as_float v = Raises e -> e <> ETypeError -> raises_own v e = true.
Proof.
  unfold as_float, conv_map. destruct v; try discriminate;
    match goal with |- context [float_as_double ?x] => destruct (float_as_double x) eqn:H end;
    try discriminate; intros Hx; inversion Hx; subst; now apply float_as_double_raises.
Qed.

Lemma as_integer_raises v e : as_integer v = Raises e -> e <> ETypeError -> raises_own v e = true.
Proof.
  unfold as_integer, conv_map. destruct v; cbn -[MAXF]; try discriminate;
    try (intros H; inversion H; congruence).
  destruct c as [z|x]; [discriminate|]. intros H _; inversion H; subst. apply exn_eqb_refl.
Qed.

Lemma as_complex_raises v e : as_complex v = Raises e -> e <> ETypeError -> raises_own v e = true.
Proof.
  unfold as_complex, conv_map. destruct v; try discriminate;
    try (match goal with |- context [float_as_double ?x] => destruct (float_as_double x) eqn:H end;
         try discriminate; intros Hx; inversion Hx; subst; now apply float_as_double_raises).
  destruct c as [p|x]; [discriminate|]. intros H _. inversion H; subst. apply exn_eqb_refl.
Qed.

Lemma cast_fn_raises_own E t v e :
  cast_fn E t v = Raises e -> e <> ETypeError -> e <> EValueError -> e <> EOverflowError ->
  match t with CTInt | CTFloat | CTComplex => raises_own v e = true | _ => True end.
Proof.
  destruct t; try exact (fun _ _ _ _ => I); cbn [cast_fn]; intros H H1 H2 H3.
  - unfold cast_int, conv_map, fl_trunc in H.
    destruct v; try (inversion H; congruence);
      try (destruct f; inversion H; congruence);
      try (destruct (parse_int s); inversion H; congruence).
    destruct c as [z|x]; inversion H; subst. apply exn_eqb_refl.
  - unfold cast_float, conv_map in H.
    destruct v; try (destruct (parse_int s) as [z|]; [destruct (int_to_fl z) eqn:Hz; inversion H; subst;
                     apply int_to_fl_raises in Hz as [-> _]; congruence | inversion H; congruence]);
      (destruct (float_as_double _) eqn:Hf in H; inversion H; subst; now apply float_as_double_raises).
  - unfold cast_complex, conv_map in H.
    destruct v; try (inversion H; congruence);
      try (destruct (parse_int s) as [z|]; [destruct (int_to_fl z) eqn:Hz; inversion H; subst;
           apply int_to_fl_raises in Hz as [-> _]; congruence | inversion H; congruence]);
      try (destruct c as [q|x]; inversion H; subst; apply exn_eqb_refl);
      (destruct (float_as_double _) eqn:Hf in H; inversion H; subst; now apply float_as_double_raises).
Qed.


Fixpoint forall2b {A B} (f : A -> B -> bool) (l : list A) (m : list B) : bool :=
  match l, m with
  | [], [] => true
  | a :: l', b :: m' => f a b && forall2b f l' m'
  | _, _ => false
  end.

Lemma dom_go_forall2b E l ws :
  (fix go (ds : list desc) (ws : list pv) : bool :=
     match ds, ws with
     | [], [] => true
     | a :: ds', x :: ws' => dom E a x && go ds' ws'
     | _, _ => false
     end) l ws = forall2b (dom E) l ws.
Proof.
  revert ws. induction l as [|x l IH]; intros [|y ws]; try reflexivity.
  cbn [forall2b]. now rewrite <- IH.
Qed.

Lemma dom_tuple E a ds w :
  dom E (DTuple (a :: ds)) w =
  match tuple_items w with Some ws => forall2b (dom E) (a :: ds) ws | None => false end.
Proof.
  change (dom E (DTuple (a :: ds)) w) with
    (match tuple_items w with
     | Some ws =>
         (fix go (ds : list desc) (ws : list pv) : bool :=
            match ds, ws with
            | [], [] => true
            | a :: ds', x :: ws' => dom E a x && go ds' ws'
            | _, _ => false
            end) (a :: ds) ws
     | None => false
     end).
  destruct (tuple_items w) as [ws|]; [|reflexivity].
  destruct ws as [|x ws']; [reflexivity|]. cbn [forall2b]. f_equal. apply dom_go_forall2b.
Qed.

Lemma dom_vtuple E ds fv ws :
  dom E (DVTuple ds fv) (PTuple ws) = forall2b (dom E) ds ws && fv_ok E fv (PTuple ws).
Proof.
  change (dom E (DVTuple ds fv) (PTuple ws)) with
    ((fix go (ds : list desc) (ws : list pv) : bool :=
        match ds, ws with
        | [], [] => true
        | a :: ds', x :: ws' => dom E a x && go ds' ws'
        | _, _ => false
        end) ds ws && fv_ok E fv (PTuple ws)).
  now rewrite dom_go_forall2b.
Qed.

Fixpoint forall3b {A B C} (f : A -> B -> C -> bool) (l : list A) (m : list B) (n : list C) : bool :=
  match l, m, n with
  | [], [], [] => true
  | a :: l', b :: m', c :: n' => f a b c && forall3b f l' m' n'
  | _, _, _ => false
  end.

Lemma conv_go_forall3b E l vs ws :
  (fix go (ds : list desc) (vs ws : list pv) : bool :=
     match ds, vs, ws with
     | [], [], [] => true
     | a :: ds', x :: vs', y :: ws' => conv_ok E a x y && go ds' vs' ws'
     | _, _, _ => false
     end) l vs ws = forall3b (conv_ok E) l vs ws.
Proof.
  revert vs ws. induction l as [|x l IH]; intros [|y vs] [|z ws]; try reflexivity.
  cbn [forall3b]. now rewrite <- IH.
Qed.

Lemma conv_tuple E a ds v w :
  conv_ok E (DTuple (a :: ds)) v w =
  match tuple_items v, tuple_items w with
  | Some vs, Some ws => (pv_eqb w v || is_exact_tuple w) && forall3b (conv_ok E) (a :: ds) vs ws
  | _, _ => false
  end.
Proof.
  change (conv_ok E (DTuple (a :: ds)) v w) with
    (match tuple_items v, tuple_items w with
     | Some vs, Some ws =>
         (pv_eqb w v || is_exact_tuple w) &&
         (fix go (ds : list desc) (vs ws : list pv) : bool :=
            match ds, vs, ws with
            | [], [], [] => true
            | a :: ds', x :: vs', y :: ws' => conv_ok E a x y && go ds' vs' ws'
            | _, _, _ => false
            end) (a :: ds) vs ws
     | _, _ => false
     end).
  destruct (tuple_items v) as [vs|]; [|reflexivity]. destruct (tuple_items w) as [ws|]; [|reflexivity].
  f_equal. destruct vs as [|x vs]; [reflexivity|]. destruct ws as [|y ws]; [reflexivity|].
  cbn [forall3b]. f_equal. apply conv_go_forall3b.
Qed.

Lemma conv_vtuple E ds fv v ws :
  conv_ok E (DVTuple ds fv) v (PTuple ws) =
  match seq_items v with Some vs => forall3b (conv_ok E) ds vs ws | None => false end.
Proof.
  change (conv_ok E (DVTuple ds fv) v (PTuple ws)) with
    (match seq_items v with
     | Some vs =>
         (fix go (ds : list desc) (vs ws : list pv) : bool :=
            match ds, vs, ws with
            | [], [], [] => true
            | a :: ds', x :: vs', y :: ws' => conv_ok E a x y && go ds' vs' ws'
            | _, _, _ => false
            end) ds vs ws
     | None => false
     end).
  destruct (seq_items v) as [vs|]; [|reflexivity]. apply conv_go_forall3b.
Qed.

Lemma conv_list E d mn mx vs ws :
  conv_ok E (DList d mn mx) (PList vs) (PList ws) = forall2b (conv_ok E d) vs ws.
Proof.
  change (conv_ok E (DList d mn mx) (PList vs) (PList ws)) with
    ((fix go (vs ws : list pv) : bool :=
        match vs, ws with
        | [], [] => true
        | x :: vs', y :: ws' => conv_ok E d x y && go vs' ws'
        | _, _ => false
        end) vs ws).
  revert ws. induction vs as [|x vs IH]; intros [|y ws]; try reflexivity. cbn [forall2b]. now rewrite <- IH.
Qed.

Lemma in_effective_order a ds : In a (effective_order ds) -> In a ds.
Proof.
  unfold effective_order. rewrite in_app_iff, !filter_In. tauto.
Qed.

Lemma forallb_in {A} (p : A -> bool) l a : forallb p l = true -> In a l -> p a = true.
Proof. rewrite forallb_forall. auto. Qed.

Lemma complete_value_in keys v s w :
  str_of v = Some s -> complete_value keys v s = Some w -> str_in keys w = true.
Proof.
  unfold complete_value, str_in. intros Hs.
  destruct (existsb (zlist_eqb s) keys) eqn:He.
  - intros H; inversion H; subst. now rewrite Hs.
  - destruct (filter (fun k => is_prefix s k) keys) as [|k [|k' r]] eqn:Hf; try discriminate.
    intros H; inversion H; subst. cbn.
    assert (Hin : In k (filter (fun k => is_prefix s k) keys)) by (rewrite Hf; left; reflexivity).
    apply filter_In in Hin as [Hin _]. apply existsb_exists. exists k. split; [assumption | apply zlist_eqb_refl].
Qed.

Lemma filter_true {A} (l : list A) : filter (fun _ => true) l = l.
Proof. induction l; cbn; congruence. Qed.

Lemma dict_put_in l k x : forall k' x',
  (In k' (map fst (dict_put l k x)) -> In k' (map fst l) \/ k' = k) /\
  (In x' (map snd (dict_put l k x)) -> In x' (map snd l) \/ x' = x).
Proof.
  induction l as [|[k0 x0] l IH]; cbn; intros k' x'.
  - split; intros [H|[]]; auto.
  - destruct (py_eq k k0); cbn.
    + split; intros [H|H]; auto.
    + destruct (IH k' x') as [I1 I2]. split; intros [H|H]; auto.
      * destruct (I1 H); auto.
      * destruct (I2 H); auto.
Qed.

Lemma dict_build_in l : forall k' x',
  (In k' (map fst (dict_build l)) -> In k' (map fst l)) /\ (In x' (map snd (dict_build l)) -> In x' (map snd l)).
Proof.
  unfold dict_build.
  assert (G : forall l acc k' x',
             (In k' (map fst (fold_left (fun a kv => dict_put a (fst kv) (snd kv)) l acc)) ->
              In k' (map fst acc) \/ In k' (map fst l)) /\
             (In x' (map snd (fold_left (fun a kv => dict_put a (fst kv) (snd kv)) l acc)) ->
              In x' (map snd acc) \/ In x' (map snd l))).
  { clear l. induction l as [|[k x] l IH]; cbn; intros acc k' x'; [split; auto|].
    destruct (IH (dict_put acc k x) k' x') as [I1 I2]. destruct (dict_put_in acc k x k' x') as [P1 P2].
    split; intros H.
    - destruct (I1 H) as [H'|H']; auto. destruct (P1 H'); auto.
    - destruct (I2 H) as [H'|H']; auto. destruct (P2 H'); auto. }
  intros k' x'. destruct (G l [] k' x') as [G1 G2]. split; intros H; [destruct (G1 H) | destruct (G2 H)]; auto; contradiction.
Qed.

Lemma all_pairs_rel (fk fv : pv -> vres) kvs l : all_pairs fk fv kvs = DOk l ->
  (forall k', In k' (map fst l) -> exists k, In k (map fst kvs) /\ fk k = Accept k') /\
  (forall x', In x' (map snd l) -> exists x, In x (map snd kvs) /\ fv x = Accept x').
Proof.
  revert l. induction kvs as [|[k x] kvs IH]; cbn; intros l.
  - intros H; inversion H; subst. split; intros ? [].
  - destruct (fk k) as [k1| |e] eqn:Hk; try discriminate.
    destruct (fv x) as [x1| |e] eqn:Hx; try discriminate.
    destruct (all_pairs fk fv kvs) as [l'| |e] eqn:Hm; try discriminate.
    intros H; inversion H; subst. destruct (IH l' eq_refl) as [I1 I2]. cbn. split.
    + intros k' [<-|Hin]; [exists k; auto|]. destruct (I1 k' Hin) as (k0 & H0 & H1). exists k0; auto.
    + intros x' [<-|Hin]; [exists x; auto|]. destruct (I2 x' Hin) as (x0 & H0 & H1). exists x0; auto.
Qed.

Lemma orc_find_in t f v w : orc_find t f v = Some w -> existsb (fun e => pv_eqb (snd e) w) t = true.
Proof.
  induction t as [|[[g x] y] t IH]; cbn; [discriminate|].
  destruct ((g =? f) && pv_eqb x v).
  - intros H; inversion H; subst. now rewrite pv_eqb_refl.
  - intros H. rewrite (IH H). apply orb_true_r.
Qed.

Lemma as_array_in E f v a : as_array (oracle E f v) = Some a -> existsb (fun e => pv_eqb (snd e) a) (e_orc E) = true.
Proof.
  unfold oracle. destruct (orc_find (e_orc E) f v) as [x|] eqn:H; [|discriminate].
  destruct x; try discriminate. cbn. intros Hx; inversion Hx; subst. eapply orc_find_in; eauto.
Qed.


(* an accepted value is the documented conversion of the assigned one and lies in the declared domain; the only
   exceptions let through are those of the value's own protocol.  Every statement about the validators below is a
   projection of this one. *)
Definition res_ok (E : env) (d : desc) (v : pv) (r : vres) : Prop :=
  match r with
  | Accept w => bool_final E = true ->
                conv_ok E d v w = true /\ (none_sound E d = true -> no_adapt d = true -> dom E d w = true)
  | Reject => True
  | Propagate e => raises_own v e = true
  end.

Lemma accept_ok E d v w : conv_ok E d v w = true -> dom E d w = true -> res_ok E d v (Accept w).
Proof. intros Hc Hd _. auto. Qed.

Lemma test_ok E d v (b : bool) :
  conv_ok E d v v = true -> (b = true -> none_sound E d = true -> dom E d v = true) ->
  res_ok E d v (if b then Accept v else Reject).
Proof. intros Hc Hd. destruct b; [|exact I]. intros _. auto. Qed.

(* a conversion of the value comes first: TypeError becomes TraitError, other exceptions pass *)
Lemma conv_res_ok E d v (c : conv pv) (f : pv -> vres) :
  (forall e, c = Raises e -> e <> ETypeError -> raises_own v e = true) ->
  (forall w, c = Returns w -> res_ok E d v (f w)) ->
  res_ok E d v (match c with Returns w => f w | Raises ETypeError => Reject | Raises e => Propagate e end).
Proof.
  intros He Hw. destruct c as [w|e]; [now apply Hw|]. destruct e; try exact I; apply He; auto; discriminate.
Qed.

Lemma int_ok E v : res_ok E DInt v (of_conv (as_integer v)).
Proof.
  unfold of_conv. apply conv_res_ok; [apply as_integer_raises|]. intros w H.
  destruct (as_integer_index _ _ H) as (z & Hz & ->).
  apply accept_ok; cbn [conv_ok dom]; [rewrite Hz; apply pv_eqb_refl | reflexivity].
Qed.

Lemma float_ok E v : res_ok E DFloat v (of_conv (as_float v)).
Proof.
  unfold of_conv. apply conv_res_ok; [apply as_float_raises|]. intros w H.
  destruct (as_float_double _ _ H) as (f & Hf & ->).
  apply accept_ok; cbn [conv_ok dom]; [rewrite Hf; apply pv_eqb_refl | reflexivity].
Qed.

Lemma complex_ok E v : res_ok E DComplex v (of_conv (as_complex v)).
Proof.
  unfold of_conv. apply conv_res_ok; [apply as_complex_raises|]. intros w H.
  assert (G : conv_ok E DComplex v w = true /\ dom E DComplex w = true); [|now apply accept_ok].
  unfold as_complex, conv_map in H. cbn [conv_ok dom].
  destruct v; try (injection H as <-; split; [apply pv_eqb_refl | reflexivity]);
    try (destruct (float_as_double _); [|discriminate]; injection H as <-; split; [apply pv_eqb_refl | reflexivity]).
  destruct c; [|discriminate]. injection H as <-. split; [apply pv_eqb_refl | reflexivity].
Qed.

(* Range with float bounds: the compiled and the Python twin differ in the comparison only *)
Lemma rangef_ok E lo hi mask v (test : fl -> bool) :
  (forall f, test f = in_range_spec f lo hi mask) ->
  res_ok E (DRangeF lo hi mask) v
    (match as_float v with
     | Returns (PFloat f) => if test f then Accept (PFloat f) else Reject
     | Returns _ => Reject
     | Raises ETypeError => Reject
     | Raises e => Propagate e
     end).
Proof.
  intros Ht. apply conv_res_ok; [apply as_float_raises|]. intros w H.
  destruct (as_float_double _ _ H) as (f & Hf & ->). destruct (test f) eqn:Hr; [|exact I].
  apply accept_ok; cbn [conv_ok dom]; [rewrite Hf; apply pv_eqb_refl | now rewrite <- Ht].
Qed.

Lemma rangei_ok E lo hi mask v : res_ok E (DRangeI lo hi mask) v (py_rangei lo hi mask v).
Proof.
  unfold py_rangei. apply conv_res_ok; [apply as_integer_raises|]. intros w H.
  destruct (as_integer_index _ _ H) as (z & Hz & ->). destruct (py_int_in_range z lo hi mask) eqn:Hr; [|exact I].
  apply accept_ok; cbn [conv_ok dom]; [rewrite Hz; apply pv_eqb_refl | now rewrite <- py_int_in_range_spec].
Qed.

Lemma tuple0_ok E v : res_ok E (DTuple []) v (py_tuple0 v).
Proof. destruct v; try exact I; apply accept_ok; try reflexivity; apply pv_eqb_refl. Qed.

Lemma callable_ok E an v :
  res_ok E (DCallable an) v
    (match v with PNone => if an then Accept v else Reject | _ => if is_callable v then Accept v else Reject end).
Proof. destruct v; try exact I; try (now destruct an); apply accept_ok; (exact (pv_eqb_refl _) || reflexivity). Qed.

Lemma type_ok E cls an v : res_ok E (DType cls an) v (py_type E cls an v).
Proof.
  unfold py_type. destruct v; try exact I; apply test_ok; try exact (pv_eqb_refl _); cbn [dom]; auto.
Qed.

Lemma string_ok E mn mx re v : res_ok E (DString mn mx re) v (py_string E mn mx re v).
Proof.
  unfold py_string. destruct (strx E v) as [s|] eqn:Hs; [|exact I].
  match goal with |- context [if ?b then _ else _] => destruct b eqn:Hb end; [|exact I].
  apply accept_ok; cbn [conv_ok dom]; [rewrite Hs; apply pv_eqb_refl | exact Hb].
Qed.

(* PrefixList / PrefixMap: a member, or the one key the string is a prefix of *)
Lemma prefix_ok E d keys v :
  (forall w, conv_ok E d v w = prefix_conv keys v w) -> (forall w, dom E d w = str_in keys w) ->
  res_ok E d v (py_prefix keys v).
Proof.
  intros Hc Hd. unfold py_prefix. destruct (str_of v) as [s|] eqn:Hs; [|exact I].
  destruct (complete_value keys v s) as [w|] eqn:Hw; [|exact I].
  apply accept_ok; [|rewrite Hd; eapply complete_value_in; eauto].
  rewrite Hc. unfold prefix_conv, unique_completion. rewrite Hs. unfold complete_value in Hw.
  destruct (existsb (zlist_eqb s) keys).
  - injection Hw as <-. apply pv_eqb_refl.
  - destruct (filter (fun k => is_prefix s k) keys) as [|k [|k' r]]; try discriminate.
    injection Hw as <-. apply pv_eqb_refl.
Qed.

Lemma array_ok E dt shape casting v : res_ok E (DArray dt shape casting) v (py_array E dt shape casting v).
Proof.
  unfold py_array.
  match goal with |- res_ok _ _ _ (match ?x with _ => _ end) => destruct x as [a0|] eqn:H0 end; [|exact I].
  match goal with |- res_ok _ _ _ (match ?x with _ => _ end) => destruct x as [a1|] eqn:H1 end; [|exact I].
  destruct (arr_dtype_ok dt a1) eqn:D1; [|exact I]. destruct (arr_shape_ok shape a1) eqn:S1; [|exact I].
  assert (Ha1 : if arr_dtype_ok dt a0 then a1 = a0 else existsb (fun t => pv_eqb (snd t) a1) (e_orc E) = true).
  { destruct (arr_dtype_ok dt a0); [congruence|]. destruct dt; [eapply as_array_in; eauto | discriminate]. }
  apply accept_ok; [|destruct a1; try discriminate; cbn in *; now rewrite D1, S1].
  (* the stored array is the value itself, or an answer of numpy's asarray / astype *)
  cbn [conv_ok]. destruct v; try discriminate H0.
  4:{ injection H0 as <-. cbn [arr_dtype_ok] in Ha1.
      destruct (match dt with Some t => dt0 =? t | None => true end); [subst; apply pv_eqb_refl | exact Ha1]. }
  all: destruct (arr_dtype_ok dt a0); [subst a1; eapply as_array_in; eauto | exact Ha1].
Qed.

(* validate_trait_coerce_type without coercible types (Str, Bytes, Module): the exact type check *)
Lemma coerce_ok E d v ty :
  coerce_info d = (ty, []) -> conv_ok E d v v = true -> (typecheck E v ty = true -> dom E d v = true) ->
  res_ok E d v (c_coerce E d v).
Proof. intros Hi Hc Hd. unfold c_coerce. rewrite Hi. cbn [existsb]. apply test_ok; auto. Qed.

Lemma cast_accept_ok E t v w : cast_fn E t v = Returns w -> res_ok E (DCast t) v (Accept w).
Proof.
  intros Hf. apply accept_ok; cbn [conv_ok dom]; [rewrite Hf; apply pv_eqb_refl|].
  apply Z.eqb_eq. eapply cast_fn_class; eauto.
Qed.

(* Instance / This: None passes only with allow_none, unless None is an instance of the class (excluded by none_sound) *)
Lemma none_dom E (an : bool) cls v :
  (an = false -> issub E cNONE cls = false) ->
  an && pv_eqb v PNone = true \/ isinstance E v cls = true ->
  (if is_none v then an else isinstance E v cls) = true.
Proof.
  intros Hn [H|Hi].
  - apply andb_prop in H as [-> H]. apply pv_eqb_none in H. now subst.
  - destruct v; try exact Hi. destruct an; [reflexivity|].
    unfold isinstance in Hi. cbn in Hi. rewrite orb_false_r in Hi. fold cNONE in Hi. rewrite Hn in Hi; auto.
Qed.

Lemma adapt_never_raises E cls mode (an : bool) x v e :
  match v with
  | PNone => if an then Accept v else Reject
  | _ => if mode =? 0 then (if isinstance E v cls then Accept v else Reject)
         else match oracle E (100 + cls) v with
              | Some w => Accept w
              | None => if isinstance E v cls then Accept v else if mode =? 1 then Reject else Accept x
              end
  end <> Propagate e.
Proof.
  destruct v; [destruct an; discriminate|..];
    (destruct (mode =? 0); [destruct (isinstance E _ cls); discriminate|]; destruct (oracle E _ _); [discriminate|];
     destruct (isinstance E _ cls); [discriminate|]; destruct (mode =? 1); discriminate).
Qed.

(* the adapter's answer is not constrained: conv_ok asks nothing, and no_adapt keeps it out of the domain statement *)
Lemma adapt_res E cls mode an dflt v r :
  (forall e, r <> Propagate e) -> res_ok E (DAdapt cls mode an dflt) v r.
Proof. destruct r; [intros _ _; split; [reflexivity | discriminate] | exact (fun _ => I) | intros H; now elim (H e)]. Qed.

Definition valid_at (E : env) (d : desc) : Prop :=
  forall v, res_ok E d v (c_validate E d v) /\ res_ok E d v (py_validate E d v).

Lemma valid_same E d :
  (forall v, py_validate E d v = c_validate E d v) -> (forall v, res_ok E d v (c_validate E d v)) -> valid_at E d.
Proof. intros He H v. rewrite He. auto. Qed.

Lemma members_res E ds : Forall (valid_at E) ds -> forall vs,
  match members (c_validate E) ds vs with
  | TOk ws => bool_final E = true ->
              forall3b (conv_ok E) ds vs ws = true /\
              (forallb (none_sound E) ds = true -> forallb no_adapt ds = true -> forall2b (dom E) ds ws = true)
  | TRej => True
  | TExn e => existsb (fun x => raises_own x e) vs = true
  end.
Proof.
  induction 1 as [|d ds Hd _ IH]; intros [|v vs]; cbn [members]; try exact I.
  - intros _. split; reflexivity.
  - destruct (Hd v) as [Hv _]. specialize (IH vs). destruct (c_validate E d v) as [w| |e]; [|exact I|].
    + destruct (members (c_validate E) ds vs) as [ws| |e]; [|exact I|].
      * intros HB. destruct (Hv HB) as [Hc Hdm], (IH HB) as [IHc IHd]. cbn. rewrite Hc, IHc. split; [reflexivity|].
        intros Hn Ha. apply andb_prop in Hn as [], Ha as []. rewrite Hdm, IHd; auto.
      * cbn [existsb]. rewrite IH. apply orb_true_r.
    + cbn [existsb]. cbn [res_ok] in Hv. now rewrite Hv.
Qed.

Lemma raises_own_items v vs e : seq_items v = Some vs -> raises_own v e = existsb (fun x => raises_own x e) vs.
Proof. destruct v; try discriminate; intros [= <-]; reflexivity. Qed.

Lemma tuple_seq_items v vs : tuple_items v = Some vs -> seq_items v = Some vs.
Proof. destruct v; try discriminate; auto. Qed.

Lemma tuple_accept_ok E a ds v vs ws w :
  tuple_items v = Some vs -> tuple_items w = Some ws -> pv_eqb w v || is_exact_tuple w = true ->
  (bool_final E = true ->
   forall3b (conv_ok E) (a :: ds) vs ws = true /\
   (forallb (none_sound E) (a :: ds) = true -> forallb no_adapt (a :: ds) = true -> forall2b (dom E) (a :: ds) ws = true)) ->
  res_ok E (DTuple (a :: ds)) v (Accept w).
Proof.
  intros Hv Hw Hx Hm HB. destruct (Hm HB) as [Hc Hd]. rewrite conv_tuple, dom_tuple, Hv, Hw, Hx, Hc.
  split; [reflexivity | exact Hd].
Qed.

Lemma tuple_ok E a ds : Forall (valid_at E) (a :: ds) -> valid_at E (DTuple (a :: ds)).
Proof.
  intros HF v. pose proof (members_res E _ HF) as Hm. split.
  - cbn [c_validate]. unfold tuple_check. destruct (tuple_items v) as [vs|] eqn:Hv; [|exact I].
    destruct (Nat.eqb _ _); [|exact I]. specialize (Hm vs).
    destruct (members (c_validate E) (a :: ds) vs) as [ws| |e]; [|exact I|].
    + destruct (pvs_eqb ws vs) eqn:He.
      * apply pvs_eqb_true in He. subst ws.
        apply (tuple_accept_ok E a ds v vs vs v Hv Hv); [now rewrite pv_eqb_refl | exact Hm].
      * apply (tuple_accept_ok E a ds v vs ws (PTuple ws) Hv eq_refl); [apply orb_true_r | exact Hm].
    + cbn [res_ok]. now rewrite (raises_own_items v vs e (tuple_seq_items _ _ Hv)).
  - cbn [py_validate]. destruct (tuple_items v) as [vs|] eqn:Hv; [|exact I].
    destruct (Nat.eqb _ _); [|exact I]. specialize (Hm vs).
    destruct (members (c_validate E) (a :: ds) vs) as [ws| |e]; [|exact I|].
    + apply (tuple_accept_ok E a ds v vs ws (PTuple ws) Hv eq_refl); [apply orb_true_r | exact Hm].
    + cbn [res_ok]. now rewrite (raises_own_items v vs e (tuple_seq_items _ _ Hv)).
Qed.

Lemma vtuple_ok E ds fv : Forall (valid_at E) ds ->
  forall v, res_ok E (DVTuple ds fv) v (vtuple_check (c_validate E) E ds fv v).
Proof.
  intros HF v. unfold vtuple_check. destruct (seq_items v) as [vs|] eqn:Hv; [|exact I].
  destruct (Nat.eqb _ _); [|exact I]. pose proof (members_res E ds HF vs) as Hm.
  destruct (members (c_validate E) ds vs) as [ws| |e]; try exact I.
  destruct (fv_ok E fv (PTuple ws)) eqn:Hf; [|exact I].
  intros HB. destruct (Hm HB) as [Hc Hd]. rewrite conv_vtuple, dom_vtuple, Hv, Hf, andb_true_r. split; [exact Hc | exact Hd].
Qed.

Lemma all_items_res E d : valid_at E d -> forall vs,
  match all_items (c_validate E d) vs with
  | TOk ws => length ws = length vs /\
              (bool_final E = true -> forall2b (conv_ok E d) vs ws = true /\
               (none_sound E d = true -> no_adapt d = true -> forallb (dom E d) ws = true))
  | TRej => True
  | TExn e => existsb (fun x => raises_own x e) vs = true
  end.
Proof.
  intros Hd. induction vs as [|v vs IH]; cbn [all_items]; [now split|].
  destruct (Hd v) as [Hv _]. destruct (c_validate E d v) as [w| |e]; [|exact I|].
  - destruct (all_items (c_validate E d) vs) as [ws| |e]; [|exact I|].
    + destruct IH as [Hl IH]. split; [cbn; now rewrite Hl|].
      intros HB. destruct (Hv HB) as [Hc Hdm], (IH HB) as [IHc IHd]. cbn. rewrite Hc, IHc. split; [reflexivity|].
      intros Hn Ha. rewrite Hdm, IHd; auto.
    + cbn [existsb]. rewrite IH. apply orb_true_r.
  - cbn [existsb]. cbn [res_ok] in Hv. now rewrite Hv.
Qed.

Lemma list_ok E d mn mx : valid_at E d -> forall v, res_ok E (DList d mn mx) v (list_check (c_validate E d) mn mx v).
Proof.
  intros Hd v. unfold list_check. destruct v; try exact I.
  destruct ((mn <=? Z.of_nat (length l)) && (Z.of_nat (length l) <=? mx)) eqn:Hb; [|exact I].
  pose proof (all_items_res E d Hd l) as Hm. destruct (all_items (c_validate E d) l) as [ws| |e]; [|exact I|exact Hm].
  destruct Hm as [Hl Hm]. intros HB. destruct (Hm HB) as [Hc Hdm]. rewrite conv_list. split; [exact Hc|].
  intros Hn Ha. cbn [dom]. now rewrite Hl, Hb, (Hdm Hn Ha).
Qed.

Lemma dict_ok E kd vd : valid_at E kd -> valid_at E vd ->
  forall v, res_ok E (DDict kd vd) v (dict_check (c_validate E kd) (c_validate E vd) v).
Proof.
  intros Hk Hv v. unfold dict_check. destruct v; try exact I.
  destruct (all_pairs (c_validate E kd) (c_validate E vd) l) as [l'| |e] eqn:Hm; [|exact I|].
  - destruct (all_pairs_rel _ _ _ _ Hm) as [R1 R2].
    (* every stored key / value is the accepted form of a given one *)
    assert (K : forall y, In y (map fst (dict_build l')) -> exists k, In k (map fst l) /\ res_ok E kd k (Accept y)).
    { intros y Hy. apply (proj1 (dict_build_in l' y y)) in Hy. destruct (R1 y Hy) as (k & Hin & Hk').
      exists k. split; [assumption|]. rewrite <- Hk'. apply Hk. }
    assert (V : forall y, In y (map snd (dict_build l')) -> exists x, In x (map snd l) /\ res_ok E vd x (Accept y)).
    { intros y Hy. apply (proj2 (dict_build_in l' y y)) in Hy. destruct (R2 y Hy) as (x & Hin & Hx').
      exists x. split; [assumption|]. rewrite <- Hx'. apply Hv. }
    intros HB. cbn [conv_ok dom none_sound no_adapt]. split.
    + apply andb_true_intro; split; apply forallb_forall; intros y Hy; apply existsb_exists.
      * destruct (K y Hy) as (k & Hin & H). exists k. split; [assumption | apply H, HB].
      * destruct (V y Hy) as (x & Hin & H). exists x. split; [assumption | apply H, HB].
    + intros Hn Ha. apply andb_prop in Hn as [Hnk Hnv], Ha as [Hak Hav].
      apply andb_true_intro; split; apply forallb_forall; intros y Hy.
      * destruct (K y Hy) as (k & _ & H). now apply H.
      * destruct (V y Hy) as (x & _ & H). now apply H.
  - cbn -[MAXF]. revert Hm. induction l as [|[k x] l IH]; cbn -[MAXF]; [discriminate|].
    destruct (Hk k) as [Hck _], (Hv x) as [Hcx _].
    destruct (c_validate E kd k) as [k1| |e1]; try discriminate.
    + destruct (c_validate E vd x) as [x1| |e1]; try discriminate.
      * destruct (all_pairs (c_validate E kd) (c_validate E vd) l) as [l'| |e1]; try discriminate.
        intros [= <-]. rewrite IH by reflexivity. apply orb_true_r.
      * intros [= <-]. cbn [res_ok] in Hcx. rewrite Hcx, orb_true_r. reflexivity.
    + intros [= <-]. cbn [res_ok] in Hck. now rewrite Hck.
Qed.

(* Either / Union: the answer is a rejection or the answer of one alternative *)
Lemma first_outcome_in {A} (f : A -> vres) l :
  first_outcome (map f l) = Reject \/ exists a, In a l /\ first_outcome (map f l) = f a.
Proof.
  induction l as [|a l IH]; cbn; [now left|]. destruct (f a) eqn:Hf.
  - right. exists a. split; [now left | now rewrite Hf].
  - destruct IH as [IH|(b & Hb & IH)]; [now left | right; exists b; split; [now right | exact IH]].
  - right. exists a. split; [now left | now rewrite Hf].
Qed.

Lemma alt_res_ok E ds a v r :
  In a ds -> res_ok E a v r -> res_ok E (DCompound ds) v r /\ res_ok E (DUnion ds) v r.
Proof.
  intros Hin. destruct r as [w| |e]; cbn [res_ok]; auto. intros H.
  split; intros HB; destruct (H HB) as [Hc Hd]; cbn [conv_ok dom none_sound no_adapt];
    (split; [apply existsb_exists; eauto|]); intros Hn Ha; apply existsb_exists; exists a;
    (split; [assumption | apply Hd; eapply forallb_in; eauto]).
Qed.

Lemma py_compound_effective E ds v :
  py_validate E (DCompound ds) v = first_outcome (map (fun a => py_validate E a v) (effective_order ds)).
Proof. cbn [py_validate]. unfold effective_order. now rewrite map_app, first_outcome_app, !first_sel_filter. Qed.

Lemma compound_ok E ds : wf_desc (DCompound ds) = true -> Forall (valid_at E) ds -> valid_at E (DCompound ds).
Proof.
  intros Hwf HF v. rewrite Forall_forall in HF.
  rewrite (compound_first_outcome E ds v (wf_compound_alts ds Hwf)), py_compound_effective. split.
  - destruct (first_outcome_in (fun d => c_validate E d v) (effective_order ds)) as [->|(a & Hin & ->)]; [exact I|].
    apply in_effective_order in Hin. apply (alt_res_ok E ds a v _ Hin), HF, Hin.
  - destruct (first_outcome_in (fun d => py_validate E d v) (effective_order ds)) as [->|(a & Hin & ->)]; [exact I|].
    apply in_effective_order in Hin. apply (alt_res_ok E ds a v _ Hin), HF, Hin.
Qed.

Lemma union_ok E ds : Forall (valid_at E) ds ->
  forall v, res_ok E (DUnion ds) v (first_sel (fun _ => true) (fun a => c_validate E a v) ds).
Proof.
  intros HF v. rewrite Forall_forall in HF. rewrite first_sel_filter, filter_true.
  destruct (first_outcome_in (fun d => c_validate E d v) ds) as [->|(a & Hin & ->)]; [exact I|].
  apply (alt_res_ok E ds a v _ Hin), HF, Hin.
Qed.

Lemma wf_children d : wf_desc d = true -> forallb wf_desc (children d) = true.
Proof.
  destruct d; cbn; try reflexivity; intros H; rewrite ?andb_true_r; try exact H.
  - apply andb_prop in H as [H _]. now apply andb_prop in H as [H _].
  - now apply andb_prop in H as [H _].
Qed.

Theorem validators_ok E d : wf_desc d = true -> valid_at E d.
Proof.
  induction d as [d IH] using desc_nested_ind. intros Hwf.
  assert (HF : Forall (valid_at E) (children d)).
  { apply Forall_forall. intros a Hin. apply (proj1 (Forall_forall _ _) IH a Hin).
    exact (forallb_in _ _ _ (wf_children d Hwf) Hin). }
  clear IH. destruct d; cbn [children] in HF.
  - (* DAny *) apply valid_same; [reflexivity|]. intros v. apply accept_ok; [exact (pv_eqb_refl v) | reflexivity].
  - (* DInt *) apply valid_same; [reflexivity|]. intros v. apply int_ok.
  - (* DFloat *) apply valid_same; [reflexivity|]. intros v. apply float_ok.
  - (* DComplex *) apply valid_same; [reflexivity|]. intros v. apply complex_ok.
  - (* DStr: exact type check against isinstance *) intros v. split.
    + apply (coerce_ok E DStr v cSTR eq_refl (pv_eqb_refl v)), typecheck_isinstance.
    + apply test_ok; [exact (pv_eqb_refl v) | auto].
  - (* DBytes *) intros v. split.
    + apply (coerce_ok E DBytes v cBYTES eq_refl (pv_eqb_refl v)), typecheck_isinstance.
    + apply test_ok; [exact (pv_eqb_refl v) | auto].
  - (* DBool: a bool, or bool(v) of a numpy bool *) intros v. split.
    + cbn [c_validate]. unfold c_coerce. cbn [coerce_info]. cbv iota beta. destruct (typecheck E v cBOOL) eqn:H.
      * intros HB. destruct (typecheck_bool E v HB H) as [b ->]. split; [exact (pv_eqb_refl _) | reflexivity].
      * destruct (existsb (typecheck E v) [cNPBOOL]); [|exact I]. apply accept_ok; [exact (pv_eqb_refl _) | reflexivity].
    + cbn [py_validate]. destruct (isinstance E v cBOOL || isinstance E v cNPBOOL); [|exact I].
      apply accept_ok; [exact (pv_eqb_refl _) | reflexivity].
  - (* DModule *) intros v. split; [|exact I].
    apply (coerce_ok E DModule v cMODULE eq_refl (pv_eqb_refl v)), typecheck_isinstance.
  - (* DCast *) intros v. split.
    + cbn [c_validate]. destruct (class_of v =? cast_cls t) eqn:Hc.
      * apply cast_accept_ok, exact_class_cast. now apply Z.eqb_eq.
      * destruct (cast_fn E t v) eqn:Hf; [now apply cast_accept_ok | exact I].
    + cbn [py_validate]. destruct (cast_fn E t v) as [x|e] eqn:Hf; [now apply cast_accept_ok|].
      destruct t, e; try exact I;
        exact (cast_fn_raises_own E _ v _ Hf ltac:(discriminate) ltac:(discriminate) ltac:(discriminate)).
  - (* DRangeF *) intros v. split.
    + apply (rangef_ok E lo hi mask v (fun f => in_float_range f lo hi mask =? 1)). intros f. apply in_float_range_spec.
    + apply (rangef_ok E lo hi mask v (fun f => py_float_in_range f lo hi mask)). intros f. apply py_float_in_range_spec.
  - (* DRangeI *) apply valid_same; [reflexivity|]. intros v. apply rangei_ok.
  - (* DEnum *) apply valid_same; [reflexivity|]. intros v. apply test_ok; [exact (pv_eqb_refl v) | auto].
  - (* DMap *) intros v. split.
    + cbn [c_validate]. destruct (hashable v) eqn:Hh; [|exact I]. destruct (dict_get m v) eqn:Hg; [|exact I].
      apply accept_ok; [exact (pv_eqb_refl v)|]. cbn [dom]. now rewrite Hh, <- dict_get_existsb, Hg.
    + cbn [py_validate]. destruct (hashable v) eqn:Hh; [|exact I].
      apply test_ok; [exact (pv_eqb_refl v)|]. intros H _. cbn [dom]. now rewrite Hh, H.
  - (* DTuple *) destruct ds as [|a ds]; [|now apply tuple_ok].
    apply valid_same; [reflexivity|]. intros v. apply tuple0_ok.
  - (* DInstance *) assert (Hn : none_sound E (DInstance cls allow_none tc) = true -> allow_none = false -> issub E cNONE cls = false)
      by (intros H ->; now apply negb_true_iff in H).
    intros v. split.
    + cbn [c_validate]. apply test_ok; [exact (pv_eqb_refl v)|]. intros H Hs. apply none_dom; [now apply Hn|].
      apply orb_true_iff in H as [H|H]; [now left | right]. destruct tc; [now apply typecheck_isinstance | exact H].
    + cbn [py_validate]. destruct v; (apply test_ok; [exact (pv_eqb_refl _) | auto]).
  - (* DAdapt *) intros v. split; apply adapt_res; intros e; apply adapt_never_raises.
  - (* DSelf *) assert (Hn : none_sound E (DSelf allow_none) = true -> allow_none = false -> issub E cNONE (e_self E) = false)
      by (intros H ->; now apply negb_true_iff in H).
    intros v. split.
    + cbn [c_validate]. apply test_ok; [exact (pv_eqb_refl v)|]. intros H Hs. apply none_dom; [now apply Hn|].
      apply orb_true_iff in H as [H|H]; [now left | right; now apply typecheck_isinstance].
    + cbn [py_validate]. destruct allow_none; (apply test_ok; [exact (pv_eqb_refl v)|]); intros H Hs; apply none_dom;
        try (now apply Hn); [|now right].
      apply orb_true_iff in H as [H|H]; [now right | now left].
  - (* DCallable *) apply valid_same; [reflexivity|]. intros v. apply callable_ok.
  - (* DType *) apply valid_same; [reflexivity|]. intros v. apply type_ok.
  - (* DString *) apply valid_same; [reflexivity|]. intros v. apply string_ok.
  - (* DPrefixList *) apply valid_same; [reflexivity|]. intros v. now apply prefix_ok.
  - (* DPrefixMap *) apply valid_same; [reflexivity|]. intros v. now apply prefix_ok.
  - (* DCompound *) now apply compound_ok.
  - (* DUnion: Union.validate runs CTrait.validate of each alternative on both paths *)
    apply valid_same; [reflexivity|]. now apply union_ok.
  - (* DArray *) apply valid_same; [reflexivity|]. intros v. apply array_ok.
  - (* DProperty: validated with the trait's Python validate *)
    apply Forall_inv in HF. intros v. split; exact (proj2 (HF v)).
  - (* DVTuple *) apply valid_same; [reflexivity|]. now apply vtuple_ok.
  - (* DList *) apply Forall_inv in HF. apply valid_same; [reflexivity|]. now apply list_ok.
  - (* DRangeDyn: decided against the instance, see validate_s *) intros v. split; exact I.
  - (* DDict *) apply valid_same; [reflexivity|]. apply dict_ok; [now apply Forall_inv in HF|].
    now apply Forall_inv_tail, Forall_inv in HF.
  - (* DEnumDyn *) intros v. split; exact I.
Qed.

Lemma c_validate_ok E d v : wf_desc d = true -> res_ok E d v (c_validate E d v).
Proof. intros Hwf. apply validators_ok, Hwf. Qed.
Lemma py_validate_ok E d v : wf_desc d = true -> res_ok E d v (py_validate E d v).
Proof. intros Hwf. apply validators_ok, Hwf. Qed.

Lemma sound_hyp_parts E d :
  sound_hyp E d = true -> wf_desc d = true /\ none_sound E d = true /\ no_adapt d = true /\ bool_final E = true.
Proof.
  unfold sound_hyp. intros H. apply andb_prop in H as [H HB]. apply andb_prop in H as [H Ha].
  apply andb_prop in H as [Hwf Hn]. auto.
Qed.
Lemma res_ok_dom E d v r w : sound_hyp E d = true -> res_ok E d v r -> r = Accept w -> dom E d w = true.
Proof. intros Hs H ->. destruct (sound_hyp_parts E d Hs) as (_ & Hn & Ha & HB). now apply H. Qed.
Lemma res_ok_conv E d v r w : bool_final E = true -> res_ok E d v r -> r = Accept w -> conv_ok E d v w = true.
Proof. intros HB H ->. now apply H. Qed.
Lemma res_ok_own E d v r e : res_ok E d v r -> r = Propagate e -> raises_own v e = true.
Proof. now intros H ->. Qed.

Lemma validate_s_static E c s d v :
  (forall lo hi m, d <> DRangeDyn lo hi m) -> (forall src, d <> DEnumDyn src) -> validate_s E c s d v = validate E d v.
Proof. intros H H'. destruct d; try reflexivity; exfalso; [now apply (H lo hi mask) | now apply (H' src)]. Qed.

Lemma dyn_enum_accepts coll v w :
  dyn_enum coll v = Accept w -> w = v /\ exists items, coll = Some (PList items) /\ py_in v items = true.
Proof.
  unfold dyn_enum. destruct coll as [[]|]; try discriminate. destruct (py_in v l) eqn:H; [|discriminate].
  intros Hx; inversion Hx; subst. split; [reflexivity|]. eauto.
Qed.

(* a str is rejected before its bounds are looked at *)
Lemma dyn_range_not_str (X r : vres) v :
  r <> Reject -> match v with PStr _ | PStrSub _ => Reject | _ => X end = r -> X = r.
Proof. destruct v; auto; congruence. Qed.

Lemma dyn_range_accepts low high mask v w :
  dyn_range low high mask v = Accept w ->
  exists l h z, low = Some (PInt l) /\ high = Some (PInt h) /\ w = PInt z /\ cast_int v = Returns (PInt z)
                /\ int_range_spec z (Some l) (Some h) mask = true.
Proof.
  unfold dyn_range. intros H. apply dyn_range_not_str in H; [|discriminate].
  destruct low as [[]|]; try discriminate. destruct high as [[]|]; try discriminate.
  destruct (cast_int v) as [[]|] eqn:Hc; try discriminate.
  destruct (py_int_in_range z1 (Some z) (Some z0) mask) eqn:Hr; [|discriminate].
  injection H as <-. exists z, z0, z1. rewrite <- py_int_in_range_spec. auto.
Qed.

Lemma dyn_range_never_raises low high mask v e : dyn_range low high mask v <> Propagate e.
Proof.
  unfold dyn_range. intros H. apply dyn_range_not_str in H; [|discriminate].
  destruct low as [[]|]; try discriminate. destruct high as [[]|]; try discriminate.
  destruct (cast_int v) as [[]|]; try discriminate. destruct (py_int_in_range _ _ _ _); discriminate.
Qed.
Lemma dyn_enum_never_raises coll v e : dyn_enum coll v <> Propagate e.
Proof. unfold dyn_enum. destruct coll as [[]|]; try discriminate. destruct (py_in v l); discriminate. Qed.

Lemma validate_s_ok E c s d v : wf_desc d = true -> res_ok E d v (validate_s E c s d v).
Proof.
  intros Hwf. destruct d; try exact (c_validate_ok E _ v Hwf); cbn [validate_s].
  - pose proof (dyn_range_accepts (read c s lo) (read c s hi) mask v) as Ha.
    destruct (dyn_range _ _ mask v) as [w| |e] eqn:H; [|exact I|now elim (dyn_range_never_raises _ _ _ _ _ H)].
    destruct (Ha w eq_refl) as (l & h & z & _ & _ & -> & Hc & _).
    apply accept_ok; cbn [conv_ok dom]; [rewrite Hc; apply pv_eqb_refl | reflexivity].
  - pose proof (dyn_enum_accepts (read c s src) v) as Ha.
    destruct (dyn_enum _ v) as [w| |e] eqn:H; [|exact I|now elim (dyn_enum_never_raises _ _ _ H)].
    destruct (Ha w eq_refl) as [-> _]. apply accept_ok; [exact (pv_eqb_refl v) | reflexivity].
Qed.

(* F18 as a witness: without none_sound the statement is false *)
Lemma none_instance_out_of_dom :
  let E := mkEnv [(1, 0); (0, 0)] 110 [] [] in let d := DInstance 0 false false in
  wf_desc d = true /\ validate E d PNone = Accept PNone /\ dom E d PNone = false.
Proof. vm_compute. repeat split. Qed.

Lemma post_nopost d w : has_post d = false -> post_setattr d w = NoPost.
Proof.
  destruct d; cbn; try discriminate; try reflexivity.
  intros ->. reflexivity.
Qed.

Lemma post_compound_never_raises ds w e : post_setattr (DCompound ds) w <> PostRaise e.
Proof. cbn. destruct (existsb has_post ds); discriminate. Qed.

Lemma post_raise_only_mapped d w e : post_setattr d w = PostRaise e -> is_mapped d = true.
Proof.
  destruct d; try discriminate; try reflexivity. intros H. now elim (post_compound_never_raises ds w e).
Qed.


(* what setattr_trait validates with: nothing for the Undefined sentinel, unless the trait is property-like.  This is the
   scrutinee of Model.setattr, given a name: the lemmas below unfold setattr and fold it back *)
Definition checked (E : env) (c : cls) (s : inst) (d : desc) (v : pv) : vres :=
  if is_undefined v then (if always_validated d then validate_s E c s d v else Accept v) else validate_s E c s d v.

Lemma get_set_same s n w : get (set s n w) n = Some w.
Proof. unfold set. cbn. now rewrite Z.eqb_refl. Qed.
Lemma get_set_other s n w m : m <> n -> get (set s n w) m = get s m.
Proof. intros H. unfold set. cbn. destruct (n =? m) eqn:E; [apply Z.eqb_eq in E; congruence | reflexivity]. Qed.

(* what an assignment to n may write: entries under n, entries under shadow n *)
Inductive writes (n : Z) (ok : pv -> Prop) (s : inst) : inst -> Prop :=
| w_none : writes n ok s s
| w_val s' x : writes n ok s s' -> ok x -> writes n ok s (set s' n x)
| w_shadow s' x : writes n ok s s' -> writes n ok s (set s' (shadow n) x).

Lemma writes_frame n ok s s' m : writes n ok s s' -> m <> n -> m <> shadow n -> get s' m = get s m.
Proof. induction 1; intros; [reflexivity | rewrite get_set_other; auto..]. Qed.

(* under n: the accepted value, and before it the default of a trait with a post_setattr (materialised first) *)
Lemma setattr_writes E c s n v :
  writes n (fun x => exists d dflt, trait_of c n = Some (d, dflt) /\
                     (checked E c s d v = Accept x \/ x = dflt /\ has_post d = true)) s (fst (setattr E c s n v)).
Proof.
  unfold setattr. destruct (trait_of c n) as [[d dflt]|]; [|constructor]. fold (checked E c s d v).
  destruct (checked E c s d v) as [w| |e] eqn:Hc; [|constructor..].
  destruct (has_post d) eqn:Hh; [|rewrite (post_nopost d w Hh)].
  1: destruct (post_setattr d w); [|destruct (get s n); [|destruct (post_setattr d dflt)]..]; cbn;
       try destruct (pv_eqb _ w); cbn.
  (* every leaf of setattr is s under a few [set]s: peel them off one by one *)
  all: repeat first [apply w_none | apply w_shadow | apply w_val; [|exists d, dflt; auto]].
Qed.

(* the outcome of an accepted assignment: an exception is a post_setattr's; after success the entry is the accepted value,
   and the shadow is the one post_setattr computed for it — or was left alone, the entry being unchanged *)
Lemma setattr_accept E c s n v d dflt w s' out :
  trait_of c n = Some (d, dflt) -> checked E c s d v = Accept w -> setattr E c s n v = (s', out) ->
  match out with
  | Raise e => post_setattr d w = PostRaise e \/ post_setattr d dflt = PostRaise e
  | Ok => get s' n = Some w /\
          (post_setattr d w = NoPost \/ (exists x, post_setattr d w = PostSet x /\ get s' (shadow n) = Some x) \/
           (get s n = Some w /\ get s' (shadow n) = get s (shadow n)))
  end.
Proof.
  intros Ht Hc. unfold setattr. rewrite Ht. fold (checked E c s d v). rewrite Hc.
  assert (H1 : shadow n =? n = false) by (unfold shadow; lia).
  assert (H2 : n =? shadow n = false) by (unfold shadow; lia).
  destruct (post_setattr d w) as [|x|e] eqn:Hp; [intros [= <- <-]; cbn; rewrite Z.eqb_refl; auto|..].
  all: destruct (get s n) as [o|] eqn:Hg; [|destruct (post_setattr d dflt) as [|y|e'] eqn:Hd]; cbn.
  all: try (destruct (pv_eqb _ w) eqn:He; [apply pv_eqb_true in He; subst|]); intros [= <- <-]; try congruence;
    try (rewrite Hp in Hd; injection Hd as <-); cbn; rewrite ?Z.eqb_refl, ?H1, ?H2; rewrite ?Z.eqb_refl; eauto 7.
  (* each leaf: the lookups are computed through the [set]s (n and shadow n differ), [eauto] picks the disjunct *)
Qed.

Lemma setattr_unaccepted E c s n v d dflt :
  trait_of c n = Some (d, dflt) ->
  match checked E c s d v with
  | Accept _ => True
  | Reject => setattr E c s n v = (s, Raise ETraitError)
  | Propagate e => setattr E c s n v = (s, Raise e)
  end.
Proof. intros Ht. unfold setattr. rewrite Ht. fold (checked E c s d v). now destruct (checked E c s d v). Qed.

(* when the post_setattr of the trait cannot raise (on the accepted value, on the default), an exception of the
   assignment is the validator's, and nothing was stored *)
Lemma setattr_raise E c s n v s' e d dflt :
  trait_of c n = Some (d, dflt) ->
  (forall w, checked E c s d v = Accept w -> forall x e', x = w \/ x = dflt -> post_setattr d x <> PostRaise e') ->
  setattr E c s n v = (s', Raise e) ->
  s' = s /\ match checked E c s d v with Reject => e = ETraitError | Propagate e' => e = e' | Accept _ => False end.
Proof.
  intros Ht Hp H. pose proof (setattr_unaccepted E c s n v d dflt Ht) as Hu.
  destruct (checked E c s d v) as [w| |e'] eqn:Hc; [|rewrite Hu in H; now injection H as <- <-..].
  destruct (setattr_accept E c s n v d dflt w s' _ Ht Hc H) as [He|He]; [elim (Hp w eq_refl w e) | elim (Hp w eq_refl dflt e)]; auto.
Qed.

Lemma setattr_untyped E c s n v s' e : trait_of c n = None -> setattr E c s n v = (s', Raise e) -> s' = s.
Proof. unfold setattr. intros ->. now intros [= <- _]. Qed.

(* TraitError => no effect, for every attribute whose trait is not a stand-alone Map / PrefixMap: those raise
   TraitError("Unmappable") from post_setattr AFTER the value was stored, which an unvalidated value reaches *)
Lemma setattr_traiterror_no_effect E c s n v s' :
  (forall d dflt, trait_of c n = Some (d, dflt) -> is_mapped d = false) ->
  setattr E c s n v = (s', Raise ETraitError) -> s' = s.
Proof.
  intros Hm H. destruct (trait_of c n) as [[d dflt]|] eqn:Ht; [|now apply setattr_untyped in H].
  refine (proj1 (setattr_raise E c s n v s' ETraitError d dflt Ht _ H)).
  intros w _ x e' _ He. apply post_raise_only_mapped in He. now rewrite (Hm d dflt eq_refl) in He.
Qed.

(* the witness: `a.m = Undefined` on m = Map({'a': 1}) skips validation (F22), stores Undefined, and Map.post_setattr then
   raises TraitError — a TraitError that did have an effect *)
Lemma setattr_traiterror_effect_on_map :
  let c := [(0, (DMap [(PStr [97], PInt 1)], PStr [97]))] in
  let s := [(0, PStr [97]); (shadow 0, PInt 1)] in
  exists s', setattr E0 c s 0 PUndefined = (s', Raise ETraitError) /\ s' <> s.
Proof. eexists. split; [vm_compute; reflexivity | discriminate]. Qed.

Definition Inv (E : env) (c : cls) (s : inst) : Prop :=
  forall n d dflt w, trait_of c n = Some (d, dflt) -> get s n = Some w -> dom E d w = true.

(* per attribute: soundness hypotheses of its trait, a name below the shadow range, and — for traits with a
   post_setattr, whose default is materialised by the first assignment — a default inside the domain *)
Definition class_ok (E : env) (c : cls) : bool :=
  forallb (fun e => let '(n, (d, dflt)) := e in
                    sound_hyp E d && (0 <=? n) && (n <? 1000) && (if has_post d then dom E d dflt else true)) c.

Lemma trait_of_in c n d dflt : trait_of c n = Some (d, dflt) -> In (n, (d, dflt)) c.
Proof.
  induction c as [|[m e] c IH]; cbn; [discriminate|]. destruct (m =? n) eqn:H.
  - apply Z.eqb_eq in H. intros Hx; inversion Hx; subst. now left.
  - intros Hx. right. now apply IH.
Qed.

Lemma class_ok_at E c n d dflt :
  class_ok E c = true -> trait_of c n = Some (d, dflt) ->
  sound_hyp E d = true /\ 0 <= n < 1000 /\ (has_post d = true -> dom E d dflt = true).
Proof.
  unfold class_ok. rewrite forallb_forall. intros H Ht. specialize (H _ (trait_of_in _ _ _ _ Ht)). cbn in H.
  apply andb_prop in H as [H H4]. apply andb_prop in H as [H H3]. apply andb_prop in H as [H1 H2].
  split; [assumption|]. split; [lia|]. intros Hp. now rewrite Hp in H4.
Qed.

Lemma trait_of_shadow E c n d dflt m :
  class_ok E c = true -> trait_of c n = Some (d, dflt) -> trait_of c (shadow m) = Some (d, dflt) -> 0 <= m -> False.
Proof.
  intros Hc _ Hs Hm. destruct (class_ok_at E c _ _ _ Hc Hs) as (_ & Hr & _). unfold shadow in Hr. lia.
Qed.

Lemma inv_set E c s m x :
  Inv E c s -> (forall d dflt, trait_of c m = Some (d, dflt) -> dom E d x = true) -> Inv E c (set s m x).
Proof.
  intros HI Hx n d dflt w Ht. unfold set. cbn. destruct (m =? n) eqn:Hmn.
  - apply Z.eqb_eq in Hmn. subst. intros H; inversion H; subst. eapply Hx; eauto.
  - intros Hg. eapply HI; eauto.
Qed.

Lemma inv_set_shadow E c s m x :
  class_ok E c = true -> 0 <= m -> Inv E c s -> Inv E c (set s (shadow m) x).
Proof.
  intros Hc Hm HI. apply inv_set; [assumption|]. intros d dflt Ht. exfalso.
  destruct (class_ok_at E c _ _ _ Hc Ht) as (_ & Hr & _). unfold shadow in Hr. lia.
Qed.

Lemma setattr_inv E c s n v :
  is_undefined v = false -> class_ok E c = true -> Inv E c s -> Inv E c (fst (setattr E c s n v)).
Proof.
  intros Hu Hc HI. destruct (trait_of c n) as [[d dflt]|] eqn:Ht; [|unfold setattr; now rewrite Ht].
  destruct (class_ok_at E c _ _ _ Hc Ht) as (Hs & Hr & Hd).
  induction (setattr_writes E c s n v) as [|s' x _ IH (d' & dflt' & Ht' & Hx)|s' x _ IH];
    [exact HI | | apply inv_set_shadow; auto; lia].
  apply inv_set; [exact IH|]. rewrite Ht. intros ? ? [= <- <-]. rewrite Ht in Ht'. injection Ht' as <- <-.
  destruct Hx as [Hx|[-> Hh]]; [|now apply Hd]. unfold checked in Hx. rewrite Hu in Hx.
  exact (res_ok_dom E d v _ x Hs (validate_s_ok E c s d v (proj1 (sound_hyp_parts E d Hs))) Hx).
Qed.

(* the values assigned are ordinary values, not the Undefined sentinel (which bypasses validation: F22) *)
Definition kw_defined (kw : list (Z * pv)) : bool := forallb (fun p => negb (is_undefined (snd p))) kw.
Definition ops_defined (ops : list op) : bool := forallb (fun o => kw_defined (snd o)) ops.

Lemma assign_all_inv E c kw : forall s,
  kw_defined kw = true -> class_ok E c = true -> Inv E c s -> Inv E c (fst (assign_all E c s kw)).
Proof.
  induction kw as [|[n v] kw IH]; intros s Hd Hc HI; cbn; [exact HI|].
  cbn in Hd. apply andb_prop in Hd as [Hv Hd]. apply negb_true_iff in Hv.
  pose proof (setattr_inv E c s n v Hv Hc HI) as H1.
  destruct (setattr E c s n v) as [s1 [|e]]; cbn in *; [now apply IH | exact H1].
Qed.

Lemma inv_empty E c : Inv E c [].
Proof. intros n d dflt w _ H. discriminate. Qed.

Lemma step_inv E c s o :
  kw_defined (snd o) = true -> class_ok E c = true -> Inv E c s -> Inv E c (fst (step E c s o)).
Proof.
  intros Hd Hc HI. destruct o as [[| | |] kw]; cbn in *.
  - now apply assign_all_inv.
  - now apply assign_all_inv.
  - pose proof (assign_all_inv E c kw [] Hd Hc (inv_empty E c)) as H1.
    destruct (assign_all E c [] kw) as [s1 [|e]]; cbn in *; assumption.
  - now apply assign_all_inv.
Qed.

Lemma run_inv E c ops : forall s,
  ops_defined ops = true -> class_ok E c = true -> Inv E c s -> Forall (fun r => Inv E c (fst r)) (run E c s ops).
Proof.
  induction ops as [|o ops IH]; intros s Hd Hc HI; cbn; [constructor|].
  cbn in Hd. apply andb_prop in Hd as [Ho Hd].
  pose proof (step_inv E c s o Ho Hc HI) as H1. destruct (step E c s o) as [s1 out]; cbn in *.
  constructor; [exact H1 | now apply IH].
Qed.

Definition post_safe (c : cls) : bool :=
  forallb (fun e => let '(_, (d, dflt)) := e in
                    match d with
                    | DMap _ | DPrefixMap _ => match post_setattr d dflt with PostSet _ => true | _ => false end
                    | _ => true
                    end) c.

Lemma str_get_in m k : In k (map fst m) -> exists x, str_get m k = Some x.
Proof.
  induction m as [|[k0 x0] m IH]; cbn; [tauto|]. intros [H|H].
  - subst. rewrite zlist_eqb_refl. eauto.
  - destruct (zlist_eqb k0 k); eauto.
Qed.

Lemma existsb_zlist_in s keys : existsb (zlist_eqb s) keys = true -> In s keys.
Proof.
  rewrite existsb_exists. intros (k & Hin & He). apply zlist_eqb_true in He. now subst.
Qed.

Lemma accepted_is_mapped E d v w :
  is_mapped d = true -> validate E d v = Accept w -> exists x, post_setattr d w = PostSet x.
Proof.
  unfold validate. destruct d; cbn; try discriminate; intros _.
  - destruct (hashable v) eqn:Hh; [|discriminate]. destruct (dict_get m v) eqn:Hg; [|discriminate].
    intros H; inversion H; subst. rewrite Hh, Hg. eauto.
  - unfold py_prefix. destruct (str_of v) as [s|] eqn:Hs; [|discriminate].
    unfold complete_value. destruct (existsb (zlist_eqb s) (map fst m)) eqn:He.
    + intros H; inversion H; subst. rewrite Hs.
      destruct (str_get_in m s (existsb_zlist_in _ _ He)) as [x ->]. eauto.
    + destruct (filter (fun k => is_prefix s k) (map fst m)) as [|k [|k' r]] eqn:Hf; try discriminate.
      intros H; inversion H; subst. cbn.
      assert (Hin : In k (filter (fun k => is_prefix s k) (map fst m))) by (rewrite Hf; now left).
      apply filter_In in Hin as [Hin _]. destruct (str_get_in m k Hin) as [x ->]. eauto.
Qed.

(* validated values and safe defaults are keys: under post_safe no post_setattr raises *)
Lemma post_safe_no_raise E c n d dflt v w x e :
  post_safe c = true -> trait_of c n = Some (d, dflt) -> validate E d v = Accept w -> x = w \/ x = dflt ->
  post_setattr d x <> PostRaise e.
Proof.
  intros Hp Ht Hv Hx He. pose proof (post_raise_only_mapped _ _ _ He) as Hm.
  unfold post_safe in Hp. rewrite forallb_forall in Hp. specialize (Hp _ (trait_of_in _ _ _ _ Ht)). cbn in Hp.
  destruct (accepted_is_mapped E d v w Hm Hv) as [y Hy].
  destruct Hx as [->| ->]; [congruence|]. destruct d; try discriminate; now rewrite He in Hp.
Qed.

Lemma setattr_raise_safe E c s n v s' e d dflt :
  is_undefined v = false -> post_safe c = true -> trait_of c n = Some (d, dflt) ->
  setattr E c s n v = (s', Raise e) ->
  s' = s /\ match validate_s E c s d v with Reject => e = ETraitError | Propagate e' => e = e' | Accept _ => False end.
Proof.
  intros Hu Hp Ht H.
  assert (Hc : checked E c s d v = validate_s E c s d v) by (unfold checked; now rewrite Hu).
  rewrite <- Hc. apply (setattr_raise E c s n v s' e d dflt Ht); [|exact H].
  intros w Hw x e' Hx He. pose proof (post_raise_only_mapped _ _ _ He) as Hm.
  rewrite Hc in Hw. eapply (post_safe_no_raise E c n d dflt v w); eauto.
  destruct d; try discriminate; exact Hw.
Qed.

Lemma setattr_exception_no_effect E c s n v s' e :
  is_undefined v = false -> post_safe c = true -> setattr E c s n v = (s', Raise e) -> s' = s.
Proof.
  intros Hu Hp H. destruct (trait_of c n) as [[d dflt]|] eqn:Ht; [|now apply setattr_untyped in H].
  now apply (setattr_raise_safe E c s n v s' e d dflt).
Qed.

Lemma setattr_exception_class E c s n v s' e d dflt :
  is_undefined v = false -> post_safe c = true -> trait_of c n = Some (d, dflt) -> wf_desc d = true ->
  setattr E c s n v = (s', Raise e) -> e = ETraitError \/ raises_own v e = true.
Proof.
  intros Hu Hp Ht Hwf H. destruct (setattr_raise_safe E c s n v s' e d dflt Hu Hp Ht H) as [_ Hc].
  pose proof (validate_s_ok E c s d v Hwf) as Hr.
  destruct (validate_s E c s d v); [contradiction | now left | subst; now right].
Qed.

Lemma step_failure_no_effect E c s h n v s' e :
  is_undefined v = false -> post_safe c = true -> step E c s (h, [(n, v)]) = (s', Raise e) -> s' = s.
Proof.
  intros Hu Hp. destruct h; cbn.
  1,2,4: destruct (setattr E c s n v) as [s1 [|e1]] eqn:Hs; intros H; inversion H; subst;
       eapply setattr_exception_no_effect; eauto.
  destruct (setattr E c [] n v) as [s1 [|e1]]; intros H; inversion H; reflexivity.
Qed.

Lemma ctor_failure_no_effect E c s kw s' e : step E c s (Ctor, kw) = (s', Raise e) -> s' = s.
Proof. cbn. destruct (assign_all E c [] kw) as [s1 [|e1]]; intros H; inversion H; reflexivity. Qed.

(* F22: the Undefined sentinel is stored without validation *)
Lemma undefined_bypass_example :
  let c := [(0, (DInt, PInt 0))] in
  class_ok E0 c = true /\ setattr E0 c [] 0 PUndefined = ([(0, PUndefined)], Ok) /\ dom E0 DInt PUndefined = false.
Proof. vm_compute. repeat split. Qed.

Lemma class_ok_example :
  let E := E0 in
  let c := [(0, (DTuple [DInt; DRangeF (Some (FFin false 0)) None 1], PTuple [PInt 0; PFloat (FFin false 0)]));
            (1, (DMap [(PStr [97], PInt 1); (PInt 1, PInt 2)], PStr [97]));
            (2, (DUnion [DString 0 5 None; DCast CTInt], PStr []))] in
  class_ok E c = true /\ post_safe c = true /\
  map snd (run E c [] [(Attr, [(0, PTuple [PBool true; PInt 2])]); (TraitSet, [(1, PFloat (FFin false 1000)); (0, PNone)]);
                        (Ctor, [(2, PStr [49; 50])]); (Attr, [(2, PInt 7)])])
  = [Ok; Raise ETraitError; Ok; Ok].
Proof. vm_compute. repeat split. Qed.

Lemma all_items_forall2 f vs ws : all_items f vs = TOk ws <-> Forall2 (fun x y => f x = Accept y) vs ws.
Proof.
  revert ws. induction vs as [|x vs IH]; cbn; intros ws.
  - split; [intros H; inversion H; constructor | intros H; inversion H; reflexivity].
  - split.
    + destruct (f x) as [y| |e] eqn:Hf; try discriminate.
      destruct (all_items f vs) as [ws'| |e] eqn:Hm; try discriminate.
      intros H; inversion H; subst. constructor; [assumption | now apply IH].
    + intros H; inversion H as [|? y ? ws' Hy Hr]; subst. rewrite Hy.
      apply IH in Hr. now rewrite Hr.
Qed.

Lemma list_accept_items E d mn mx v w :
  validate E (DList d mn mx) v = Accept w <->
  exists vs ws, v = PList vs /\ w = PList ws /\ mn <= Z.of_nat (length vs) <= mx /\
                Forall2 (fun x y => validate E d x = Accept y) vs ws.
Proof.
  unfold validate. cbn [c_validate]. unfold list_check. split.
  - destruct v; try discriminate.
    destruct ((mn <=? Z.of_nat (length l)) && (Z.of_nat (length l) <=? mx)) eqn:Hb; [|discriminate].
    destruct (all_items (c_validate E d) l) as [ws| |e] eqn:Hm; try discriminate.
    intros Hx; inversion Hx; subst. exists l, ws. apply andb_prop in Hb as [H1 H2].
    apply Z.leb_le in H1, H2. repeat split; auto. now apply all_items_forall2.
  - intros (vs & ws & -> & -> & [H1 H2] & HF).
    apply Z.leb_le in H1, H2. rewrite H1, H2. cbn [andb].
    apply all_items_forall2 in HF. now rewrite HF.
Qed.

(* Union: the stored value is the conversion by an alternative that no certainly-accepting alternative precedes *)
Lemma accepts_exact_accepts E a v : accepts_exact E a v = true -> exists w, c_validate E a v = Accept w.
Proof.
  destruct a; cbn [accepts_exact]; try discriminate; try (destruct v; try discriminate; intros _; cbn; eauto; fail).
  - destruct v; try discriminate. intros H. cbn. unfold c_coerce. cbn [coerce_info]. rewrite H. eauto.
  - destruct v; try discriminate. intros H. cbn. unfold c_coerce. cbn [coerce_info]. rewrite H. eauto.
  - destruct v; try discriminate. intros H. cbn. unfold c_coerce. cbn [coerce_info]. rewrite H. eauto.
  - destruct v; try discriminate. cbn. unfold py_prefix. cbn [str_of]. unfold complete_value.
    destruct (existsb (zlist_eqb s) vals); [eauto|]. cbn [orb].
    destruct (filter (fun k => is_prefix s k) vals) as [|k [|k' r]]; try discriminate; eauto.
Qed.

Lemma union_first_holds E ds v w :
  forallb wf_desc ds = true -> bool_final E = true ->
  first_sel (fun _ => true) (fun a => c_validate E a v) ds = Accept w -> union_first E ds v w = true.
Proof.
  intros Hwf HB. unfold union_first. induction ds as [|a r IH]; cbn [first_sel]; [discriminate|].
  cbn in Hwf. apply andb_prop in Hwf as [Ha Hr].
  destruct (c_validate E a v) as [x| |e] eqn:Hv.
  - intros H; inversion H; subst. rewrite (res_ok_conv E a v _ w HB (c_validate_ok E a v Ha) Hv). reflexivity.
  - intros H. rewrite (IH Hr H). destruct (accepts_exact E a v) eqn:Hx.
    + destruct (accepts_exact_accepts E a v Hx) as [y Hy]. congruence.
    + cbn. apply orb_true_r.
  - discriminate.
Qed.

Lemma vs_conv1 E c s d v w :
  wf_desc d = true -> bool_final E = true -> validate_s E c s d v = Accept w -> conv_ok1 E d v w = true.
Proof.
  intros Hwf HB Hv. unfold conv_ok1. rewrite (res_ok_conv E d v _ w HB (validate_s_ok E c s d v Hwf) Hv). cbn [andb].
  destruct d; try reflexivity. cbn [validate_s] in Hv. unfold validate in Hv. cbn [c_validate] in Hv.
  cbn [wf_desc] in Hwf. apply andb_prop in Hwf as [Hwf _]. now apply (union_first_holds E ds v w).
Qed.

(* reading a name-based Range: within the INCLUSIVE bounds whenever low <= high ... *)
Lemma dyn_readable_inclusive c s n lo hi w :
  dyn_readable c s n lo hi = Some w ->
  exists l h z, read c s lo = Some (PInt l) /\ read c s hi = Some (PInt h) /\ w = PInt z /\ (l <= h -> l <= z <= h).
Proof.
  unfold dyn_readable. destruct (read c s lo) as [[]|]; try discriminate. destruct (read c s hi) as [[]|]; try discriminate.
  set (zz := match get s n with Some (PInt z1) => z1 | _ => z end).
  intros H; inversion H; subst. exists z, z0. eexists. split; [reflexivity|]. split; [reflexivity|]. split; [reflexivity|].
  intros Hle. destruct (zz <? z) eqn:H1.
  - split; [apply Z.le_refl | exact Hle].
  - apply Z.ltb_ge in H1. destruct (zz >? z0) eqn:H2.
    + split; [exact Hle | apply Z.le_refl].
    + rewrite Z.gtb_ltb in H2. apply Z.ltb_ge in H2. split; assumption.
Qed.

(* ... but NOT within the declared exclusive range: F23 — after the low bound moved past the stored value (or on a fresh
   instance, whose default is the low bound) the getter returns the excluded endpoint itself *)
Lemma dyn_readable_refuted_lemma :
  let c := [(0, (DRangeDyn 2 3 1, PInt 0)); (2, (DInt, PInt 0)); (3, (DInt, PInt 10))] in
  let s := fst (setattr E0 c (fst (setattr E0 c [] 0 (PInt 3))) 2 (PInt 5)) in
  dyn_readable c s 0 2 3 = Some (PInt 5) /\ int_range_spec 5 (Some 5) (Some 10) 1 = false
  /\ validate_s E0 c s (DRangeDyn 2 3 1) (PInt 5) = Reject.
Proof. vm_compute. repeat split. Qed.

Lemma all_pairs_forall2 fk fv kvs l :
  all_pairs fk fv kvs = DOk l <->
  Forall2 (fun kx ky => fk (fst kx) = Accept (fst ky) /\ fv (snd kx) = Accept (snd ky)) kvs l.
Proof.
  revert l. induction kvs as [|[k x] kvs IH]; cbn; intros l.
  - split; [intros H; inversion H; constructor | intros H; inversion H; reflexivity].
  - split.
    + destruct (fk k) as [k1| |e] eqn:Hk; try discriminate.
      destruct (fv x) as [x1| |e] eqn:Hx; try discriminate.
      destruct (all_pairs fk fv kvs) as [l'| |e] eqn:Hm; try discriminate.
      intros H; inversion H; subst. constructor; [split; assumption | now apply IH].
    + intros H; inversion H as [|? [k1 x1] ? l' [Hk Hx] Hr]; subst. cbn in Hk, Hx. rewrite Hk, Hx.
      apply IH in Hr. now rewrite Hr.
Qed.

Lemma dict_accept_items E kd vd v w :
  validate E (DDict kd vd) v = Accept w <->
  exists kvs l, v = PDict kvs /\ w = PDict (dict_build l) /\
    Forall2 (fun kx ky => validate E kd (fst kx) = Accept (fst ky) /\ validate E vd (snd kx) = Accept (snd ky)) kvs l.
Proof.
  unfold validate. cbn [c_validate]. unfold dict_check. split.
  - destruct v; try discriminate.
    destruct (all_pairs (c_validate E kd) (c_validate E vd) l) as [l'| |e] eqn:Hm; try discriminate.
    intros Hx; inversion Hx; subst. exists l, l'. repeat split. now apply all_pairs_forall2.
  - intros (kvs & l & -> & -> & HF). apply all_pairs_forall2 in HF. now rewrite HF.
Qed.

Lemma dyn_enum_readable_in c s n src x :
  dyn_enum_readable c s n src = Some x ->
  exists items, read c s src = Some (PList items) /\
                match items with
                | [] => x = PNone
                | y :: _ => py_eq y y = true -> py_in x items = true      (* every value but NaN equals itself *)
                end.
Proof.
  unfold dyn_enum_readable. destruct (read c s src) as [[]|]; try discriminate.
  set (v0 := match get s n with Some w => w | None => PUndefined end).
  intros H; inversion H; subst. exists l. split; [reflexivity|].
  destruct l as [|y l]; [reflexivity|]. intros Hy. destruct (py_in v0 (y :: l)) eqn:Hin; [exact Hin|].
  unfold py_in. cbn [existsb]. now rewrite Hy.
Qed.
