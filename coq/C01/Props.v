(* C01 — the property theorems, each followed by Print Assumptions, then the Examples that show their hypotheses
   can be met.  E ranges over every environment (class table and the
   str()/bytes()/re answers: the oracles of the statement), d over every trait description,
   v over every value, histories over every list of operations. *)
From Coq Require Import ZArith List Bool.
From TV Require Import Common.PyVal Common.Harness C03.Model C03.Law C03.Proofs C01.Model C01.Law C01.Proofs C01.LawProofs.
Import ListNotations.
Open Scope Z_scope.

(* an accepted value satisfies the independently written declared-domain predicate of the trait
   (type, bounds and exclusivity, membership, tuple shape member by member, class, allow_none,
   length/regex, prefix completion), for every nesting of Tuple / Either / Union *)
Theorem validate_sound :
  forall E d v w, sound_hyp E d = true -> validate E d v = Accept w -> dom E d w = true.
Proof. intros E d v w Hs. apply (res_ok_dom E d v _ w Hs), c_validate_ok, (sound_hyp_parts E d Hs). Qed.
Print Assumptions validate_sound.

(* the Python-level validate of EVERY description, too, accepts only values of the declared domain, yields the
   documented conversion and lets only the value's own protocol exceptions through (proved together with the compiled
   path by one induction: Proofs.validators_ok); this is what a settable validated Property(<trait>) runs *)
Theorem py_validate_sound :
  forall E d v w, sound_hyp E d = true -> py_validate E d v = Accept w -> dom E d w = true.
Proof. intros E d v w Hs. apply (res_ok_dom E d v _ w Hs), py_validate_ok, (sound_hyp_parts E d Hs). Qed.
Print Assumptions py_validate_sound.

Theorem py_validate_documented_conversion :
  forall E d v w, wf_desc d = true -> bool_final E = true -> py_validate E d v = Accept w -> conv_ok E d v w = true.
Proof. intros E d v w Hwf HB. now apply (res_ok_conv E d v _ w HB), py_validate_ok. Qed.
Print Assumptions py_validate_documented_conversion.

Theorem py_only_own_protocol_exceptions :
  forall E d v e, wf_desc d = true -> py_validate E d v = Propagate e -> raises_own v e = true.
Proof. intros E d v e Hwf. now apply (res_ok_own E d v), py_validate_ok. Qed.
Print Assumptions py_only_own_protocol_exceptions.

(* List(<trait>) as a member description (alone, in Tuple / Either / Union): accepted iff a list within the length
   bounds whose items are accepted one by one by the item trait; validate_sound / documented conversion / own-protocol
   exceptions cover it through the same inductions *)
Theorem list_items_validated :
  forall E d mn mx v w,
    validate E (DList d mn mx) v = Accept w <->
    exists vs ws, v = PList vs /\ w = PList ws /\ mn <= Z.of_nat (length vs) <= mx /\
                  Forall2 (fun x y => validate E d x = Accept y) vs ws.
Proof. exact list_accept_items. Qed.
Print Assumptions list_items_validated.

(* Range whose bounds are given BY TRAIT NAME (BaseRange._validate): validation reads the instance; an accepted value is
   int(value), an int within the bounds the two bound attributes hold at that moment, exclusivity honoured at both ends.
   (validate_s is what setattr runs; for every other description it is validate.) *)
Theorem dyn_range_in_bounds :
  forall E c s lo hi mask v w,
    validate_s E c s (DRangeDyn lo hi mask) v = Accept w ->
    exists l h z, read c s lo = Some (PInt l) /\ read c s hi = Some (PInt h) /\ w = PInt z
                  /\ cast_int v = Returns (PInt z) /\ int_range_spec z (Some l) (Some h) mask = true.
Proof. intros E c s lo hi mask v w. apply dyn_range_accepts. Qed.
Print Assumptions dyn_range_in_bounds.

(* READING a name-based Range (BaseRange._get: cached value, else the low bound, clamped): the result lies within the
   INCLUSIVE bounds of that moment whenever low <= high ... *)
Theorem dyn_readable_within_inclusive_bounds :
  forall c s n lo hi w, dyn_readable c s n lo hi = Some w ->
    exists l h z, read c s lo = Some (PInt l) /\ read c s hi = Some (PInt h) /\ w = PInt z /\ (l <= h -> l <= z <= h).
Proof. exact dyn_readable_inclusive. Qed.
Print Assumptions dyn_readable_within_inclusive_bounds.

(* ... but not within the declared EXCLUSIVE range (F23): with exclude_low, after the low bound moved to 5 past the stored
   3, reading yields 5 — the excluded endpoint, a value whose assignment is rejected *)
Theorem dyn_readable_exclusive_refuted :
  exists c s n lo hi mask z l h,
    dyn_readable c s n lo hi = Some (PInt z) /\ read c s lo = Some (PInt l) /\ read c s hi = Some (PInt h) /\
    dyn_nonempty l h mask = true /\ int_range_spec z (Some l) (Some h) mask = false /\
    validate_s E0 c s (DRangeDyn lo hi mask) (PInt z) = Reject.
Proof.
  exists [(0, (DRangeDyn 2 3 1, PInt 0)); (2, (DInt, PInt 0)); (3, (DInt, PInt 10))],
         (fst (setattr E0 [(0, (DRangeDyn 2 3 1, PInt 0)); (2, (DInt, PInt 0)); (3, (DInt, PInt 10))]
                 (fst (setattr E0 [(0, (DRangeDyn 2 3 1, PInt 0)); (2, (DInt, PInt 0)); (3, (DInt, PInt 10))] [] 0 (PInt 3))) 2 (PInt 5))),
         0, 2, 3, 1, 5, 5, 10.
  vm_compute. repeat split.
Qed.
Print Assumptions dyn_readable_exclusive_refuted.

(* Enum(values='<name>') (dynamic Enum): an accepted value is stored unchanged and is a member of the collection the named
   attribute holds at that moment; READING yields a member of the collection as it is THEN — the cached value if it still
   is one, else the first member; None for an empty collection *)
Theorem dyn_enum_member :
  forall E c s src v w, validate_s E c s (DEnumDyn src) v = Accept w ->
    w = v /\ exists items, read c s src = Some (PList items) /\ py_in v items = true.
Proof. intros E c s src v w. apply dyn_enum_accepts. Qed.
Print Assumptions dyn_enum_member.

Theorem dyn_enum_readable_member :
  forall c s n src x, dyn_enum_readable c s n src = Some x ->
    exists items, read c s src = Some (PList items) /\
                  match items with
                  | [] => x = PNone
                  | y :: _ => py_eq y y = true -> py_in x items = true
                  end.
Proof. exact dyn_enum_readable_in. Qed.
Print Assumptions dyn_enum_readable_member.

Theorem validate_s_is_validate_elsewhere :
  forall E c s d v, (forall lo hi m, d <> DRangeDyn lo hi m) -> (forall src, d <> DEnumDyn src) ->
    validate_s E c s d v = validate E d v.
Proof. exact validate_s_static. Qed.
Print Assumptions validate_s_is_validate_elsewhere.

(* Dict(<key trait>, <value trait>) as a member description: accepted iff a dict whose keys and values are accepted one
   by one by the key / value trait; the stored dict is built from the converted items (equal converted keys collapse) *)
Theorem dict_items_validated :
  forall E kd vd v w,
    validate E (DDict kd vd) v = Accept w <->
    exists kvs l, v = PDict kvs /\ w = PDict (dict_build l) /\
      Forall2 (fun kx ky => validate E kd (fst kx) = Accept (fst ky) /\ validate E vd (snd kx) = Accept (snd ky)) kvs l.
Proof. exact dict_accept_items. Qed.
Print Assumptions dict_items_validated.

(* setattr_validate_property (ctraits.c:2767): Property(<trait>) validates with the trait's Python validate, then the
   setter stores the VALIDATED value; validate_sound, validate_documented_conversion, reject_no_effect,
   no_out_of_domain_readable and law_holds_on_every_history therefore speak about DProperty as about any description *)
Theorem property_runs_the_python_validate :
  forall E d v, validate E (DProperty d) v = py_validate E d v.
Proof. reflexivity. Qed.
Print Assumptions property_runs_the_python_validate.

(* the quiet routes trait_set(trait_change_notify=False, ..) / trait_setq(..) are trait_set: validation, storing and the
   post_setattr of mapped traits (the shadow) do not depend on the notification flag *)
Theorem quiet_route_is_trait_set :
  forall E c s kw, step E c s (TraitSetQ, kw) = step E c s (TraitSet, kw).
Proof. reflexivity. Qed.
Print Assumptions quiet_route_is_trait_set.

(* F18: without the hypothesis on Instance(C, allow_none=False) the statement is false *)
Theorem validate_sound_refuted_none_instance :
  exists E d v w, wf_desc d = true /\ validate E d v = Accept w /\ dom E d w = false.
Proof.
  exists (mkEnv [(1, 0); (0, 0)] 110 [] []), (DInstance 0 false false), PNone, PNone.
  exact none_instance_out_of_dom.
Qed.
Print Assumptions validate_sound_refuted_none_instance.

(* the accepted value is the documented conversion of the assigned one: int(operator.index(v)),
   the exact float / complex of v's own conversion, bool(v), the built-in constructor for the cast
   types, str(v) for String, the member or the unique completion for PrefixList / PrefixMap, the
   value itself otherwise; tuples member by member (the value itself, or an exact tuple) *)
Theorem validate_documented_conversion :
  forall E d v w, wf_desc d = true -> bool_final E = true -> validate E d v = Accept w -> conv_ok E d v w = true.
Proof. intros E d v w Hwf HB. now apply (res_ok_conv E d v _ w HB), c_validate_ok. Qed.
Print Assumptions validate_documented_conversion.

(* TraitError leaves every attribute as it was — for every trait that is not a stand-alone Map / PrefixMap. Those
   raise TraitError("Unmappable") from post_setattr, i.e. AFTER the value was stored; validated values never
   get there (exception_no_effect below), the Undefined sentinel does (F22): reject_no_effect_refuted_undefined_on_map *)
Theorem reject_no_effect :
  forall E c s n v s', (forall d dflt, trait_of c n = Some (d, dflt) -> is_mapped d = false) ->
    setattr E c s n v = (s', Raise ETraitError) -> s' = s.
Proof. exact setattr_traiterror_no_effect. Qed.
Print Assumptions reject_no_effect.

Theorem reject_no_effect_refuted_undefined_on_map :
  let c := [(0, (DMap [(PStr [97], PInt 1)], PStr [97]))] in
  let s := [(0, PStr [97]); (shadow 0, PInt 1)] in
  exists s', setattr E0 c s 0 PUndefined = (s', Raise ETraitError) /\ s' <> s.
Proof. exact setattr_traiterror_effect_on_map. Qed.
Print Assumptions reject_no_effect_refuted_undefined_on_map.

(* any exception (TraitError or one of the value's own protocol) leaves every attribute as it
   was, provided the default of a stand-alone Map / PrefixMap is one of its keys (post_safe; a Map inside an Either,
   at any nesting depth, needs nothing: a compound's _post_setattr never raises, post_compound_never_raises), and the value
   is not the Undefined sentinel (which bypasses validation: F22) *)
Theorem exception_no_effect :
  forall E c s n v s' e, is_undefined v = false -> post_safe c = true -> setattr E c s n v = (s', Raise e) -> s' = s.
Proof. exact setattr_exception_no_effect. Qed.
Print Assumptions exception_no_effect.

Theorem failed_operation_no_effect :
  forall E c s h n v s' e, is_undefined v = false -> post_safe c = true ->
    step E c s (h, [(n, v)]) = (s', Raise e) -> s' = s.
Proof. exact step_failure_no_effect. Qed.
Print Assumptions failed_operation_no_effect.

Theorem failed_constructor_no_effect :
  forall E c s kw s' e, step E c s (Ctor, kw) = (s', Raise e) -> s' = s.
Proof. exact ctor_failure_no_effect. Qed.
Print Assumptions failed_constructor_no_effect.

(* the only exceptions other than TraitError that surface are those raised by the value's own
   __index__/__float__/__complex__ or an overflowing numeric conversion (of the value or of an item
   of a tuple value), for every nesting of Tuple / Either / Union *)
Theorem only_own_protocol_exceptions :
  forall E d v e, wf_desc d = true -> validate E d v = Propagate e -> raises_own v e = true.
Proof. intros E d v e Hwf. now apply (res_ok_own E d v), c_validate_ok. Qed.
Print Assumptions only_own_protocol_exceptions.

Theorem assignment_exception_is_traiterror_or_own :
  forall E c s n v s' e d dflt,
    is_undefined v = false -> post_safe c = true -> trait_of c n = Some (d, dflt) -> wf_desc d = true ->
    setattr E c s n v = (s', Raise e) -> e = ETraitError \/ raises_own v e = true.
Proof. exact setattr_exception_class. Qed.
Print Assumptions assignment_exception_is_traiterror_or_own.

(* invariant over every history of attribute assignments, trait_set calls and constructor keywords:
   whatever is readable under a trait name lies in that trait's declared domain *)
Theorem no_out_of_domain_readable :
  forall E c ops s, ops_defined ops = true -> class_ok E c = true -> Inv E c s ->
    Forall (fun r => Inv E c (fst r)) (run E c s ops).
Proof. intros E c ops s. exact (run_inv E c ops s). Qed.
Print Assumptions no_out_of_domain_readable.

(* F22: without ops_defined the invariant is false — setattr_trait skips validation for the Undefined
   sentinel (ctraits.c:2446-2448), which is then stored and readable under any trait *)
Theorem no_out_of_domain_readable_refuted_undefined :
  exists E c n v s', class_ok E c = true /\ setattr E c [] n v = (s', Ok) /\
    exists d dflt, trait_of c n = Some (d, dflt) /\ get s' n = Some v /\ dom E d v = false.
Proof.
  destruct undefined_bypass_example as (H1 & H2 & H3).
  exists E0, [(0, (DInt, PInt 0))], 0, PUndefined, [(0, PUndefined)]. repeat split; auto.
  exists DInt, (PInt 0). repeat split; auto.
Qed.
Print Assumptions no_out_of_domain_readable_refuted_undefined.

Theorem fresh_instance_in_domain : forall E c, Inv E c [].
Proof. exact inv_empty. Qed.
Print Assumptions fresh_instance_in_domain.

(* The law itself — the six clauses of law_step that are evaluated on the implementation's observations — is []
   at every step of every history of the model: attribute assignments, trait_set calls with any
   number of distinct keywords, constructor calls with keywords ([op_ok]: distinct trait names, values other
   than the Undefined sentinel); started in any dictionary that satisfies the two invariants (in particular
   a fresh instance). *)
Theorem law_holds_on_every_history :
  forall E c, class_ok E c = true -> post_safe c = true -> keys_unique c ->
  forall ops s i, Inv E c s -> ShInv c s -> Forall (op_ok c) ops ->
    law_hist E c i s (model_hist E c s ops) = [].
Proof. exact law_on_every_history. Qed.
Print Assumptions law_holds_on_every_history.

(* Union stores the conversion by the FIRST alternative in declaration order that accepts: the stored value is the
   documented conversion by an alternative that no certainly-accepting alternative (accepts_exact: a value of exactly that
   alternative's type; for PrefixList a member or a uniquely completable string) precedes. This is part of clause 4 of the
   law (conv_ok1), proved of every model history by law_holds_on_every_history. (The seeded change C01-w3, which starts the search at
   the alternative that accepted the previous value, violates it.) *)
Theorem union_stores_first_accepting :
  forall E c s ds v w, wf_desc (DUnion ds) = true -> bool_final E = true ->
    validate_s E c s (DUnion ds) v = Accept w -> conv_ok1 E (DUnion ds) v w = true.
Proof. intros E c s ds v w. exact (vs_conv1 E c s (DUnion ds) v w). Qed.
Print Assumptions union_stores_first_accepting.

(* READ FIRST, THEN ASSIGN. A read stores the default value unvalidated (Model.read_attr); what is stored is therefore
   no licence: an assignment the validator rejects is rejected in EVERY dictionary — in particular one that already holds
   that very value — and changes nothing. (The seeded change C01-v2, which skips validation when
   the assigned object is the stored one, violates it.) *)
Theorem stored_value_is_validated_again :
  forall E c s n d dflt v, trait_of c n = Some (d, dflt) -> is_undefined v = false -> validate_s E c s d v = Reject ->
    setattr E c s n v = (s, Raise ETraitError).
Proof. exact setattr_rejects_whatever_is_stored. Qed.
Print Assumptions stored_value_is_validated_again.

Theorem read_then_assign_default_is_rejected :
  forall E c s n d dflt, trait_of c n = Some (d, dflt) -> is_undefined dflt = false ->
    validate_s E c (read_attr c s n) d dflt = Reject ->
    get (read_attr c s n) n <> None /\ setattr E c (read_attr c s n) n dflt = (read_attr c s n, Raise ETraitError).
Proof. exact read_then_assign_default_rejected. Qed.
Print Assumptions read_then_assign_default_is_rejected.

(* the law holds on every history that starts after reads of attributes without post_setattr whose default lies in
   the domain (read_ok); for a default OUTSIDE the domain the two theorems above are the statement *)
Theorem law_holds_after_reads :
  forall E c pre ops i, class_ok E c = true -> post_safe c = true -> keys_unique c ->
    Forall (read_ok E c) pre -> Forall (op_ok c) ops ->
    law_hist E c i (pre_state c pre) (model_hist E c (pre_state c pre) ops) = [].
Proof. exact law_after_reads. Qed.
Print Assumptions law_holds_after_reads.

Theorem fresh_instance_shadows_consistent : forall c, ShInv c [].
Proof. exact shinv_empty. Qed.
Print Assumptions fresh_instance_shadows_consistent.

(* Non-vacuity: a class with a Tuple(Int, exclusive float Range), a Map (with shadow) and a
   Union(String(maxlen=5), CInt) meets class_ok / post_safe; a history that converts, rejects,
   constructs and stores. *)
Example hypotheses_nonvacuous :
  let E := E0 in
  let c := [(0, (DTuple [DInt; DRangeF (Some (FFin false 0)) None 1], PTuple [PInt 0; PFloat (FFin false 0)]));
            (1, (DMap [(PStr [97], PInt 1); (PInt 1, PInt 2)], PStr [97]));
            (2, (DUnion [DString 0 5 None; DCast CTInt], PStr []))] in
  class_ok E c = true /\ post_safe c = true /\
  map snd (run E c [] [(Attr, [(0, PTuple [PBool true; PInt 2])]); (TraitSet, [(1, PFloat (FFin false 1000)); (0, PNone)]);
                        (Ctor, [(2, PStr [49; 50])]); (Attr, [(2, PInt 7)])])
  = [Ok; Raise ETraitError; Ok; Ok].
Proof. exact class_ok_example. Qed.

Example law_hypotheses_nonvacuous :
  let c := [(0, (DTuple [DInt; DRangeF (Some (FFin false 0)) None 1], PTuple [PInt 0; PFloat (FFin false 0)]));
            (1, (DMap [(PStr [97], PInt 1); (PInt 1, PInt 2)], PStr [97]));
            (2, (DUnion [DString 0 5 None; DCast CTInt], PStr []))] in
  let ops := [(Attr, [(1, PFloat (FFin false 1000))]); (TraitSet, [(0, PNone); (2, PInt 7)]);
              (Ctor, [(2, PStr [49; 50]); (1, PStr [97])])] in
  keys_unique c /\ Forall (op_ok c) ops /\
  map (fun p => o_out (snd p)) (model_hist E0 c [] ops) = [Ok; Raise ETraitError; Ok] /\
  get (o_after (snd (hd (((Attr, []) : op), mkObs Ok true []) (model_hist E0 c [] ops)))) (shadow 1) = Some (PInt 2).
Proof.
  cbv zeta. split; [|split; [|split]].
  - intros n e [H|[H|[H|[]]]]; inversion H; reflexivity.
  - repeat constructor; cbn; try (intros [H|H]; [discriminate | tauto]); try tauto;
      try (intros p [H|[H|[]]]; subst; cbn; eauto); try (intros p [H|[]]; subst; cbn; eauto); try reflexivity.
  - vm_compute. reflexivity.
  - vm_compute. reflexivity.
Qed.

Example new_shapes_nonvacuous :
  let c := [(0, (DProperty (DTuple [DFloat; DFloat]), PNone));
            (1, (DMap [(PStr [97], PInt 1); (PInt 1, PInt 2)], PStr [97]));
            (2, (DVTuple [DFloat; DInt] None, PTuple [PFloat (FFin false 0); PInt 0]));
            (3, (DCompound [DInt; DList (DTuple [DInt; DCast CTFloat]) 1 3], PInt 0))] in
  let ops := [(Attr, [(0, PTupleSub [PInt 1; PInt 2])]); (TraitSetQ, [(1, PFloat (FFin false 1000))]);
              (TraitSetQ, [(2, PList [PBool true; PIntSub 3])]); (TraitSetQ, [(2, PTuple [PInt (10 ^ 400); PInt 1]); (1, PStr [97])])] in
  class_ok E0 c = true /\ post_safe c = true /\ ops_defined ops = true /\
  validate E0 (DCompound [DInt; DList (DTuple [DInt; DCast CTFloat]) 1 3]) (PList [PTuple [PBool true; PInt 2]])
  = Accept (PList [PTuple [PInt 1; PFloat (FFin false 2000)]]) /\
  validate E0 (DCompound [DInt; DList (DTuple [DInt; DCast CTFloat]) 1 3]) (PList []) = Reject /\
  map (fun p => o_out (snd p)) (model_hist E0 c [] ops) = [Ok; Ok; Ok; Raise ETraitError] /\
  o_after (snd (nth 2 (model_hist E0 c [] ops) (((Attr, []) : op), mkObs Ok true [])))
  = [(2, PTuple [PFloat (FFin false 1000); PInt 3]); (1000 + 1, PInt 2); (1, PFloat (FFin false 1000));
     (1000 + 1, PInt 1); (1, PStr [97]); (0, PTuple [PFloat (FFin false 1000); PFloat (FFin false 2000)])].
Proof. vm_compute. repeat split. Qed.

Example dynamic_range_nonvacuous :
  let c := [(0, (DRangeDyn 2 3 1, PInt 0)); (2, (DInt, PInt 0)); (3, (DInt, PInt 0))] in
  let ops := [(Attr, [(3, PInt 5)]); (Attr, [(0, PInt 5)]); (Attr, [(0, PInt 0)]); (TraitSetQ, [(2, PInt (-3))]);
              (Attr, [(0, PFloat (FFin false 2500))]); (Attr, [(0, PStr [51])]); (Ctor, [(3, PInt 1); (0, PInt 1)])] in
  class_ok E0 c = true /\ post_safe c = true /\ ops_defined ops = true /\
  map (fun p => o_out (snd p)) (model_hist E0 c [] ops) = [Ok; Ok; Raise ETraitError; Ok; Ok; Raise ETraitError; Ok] /\
  get (o_after (snd (nth 4 (model_hist E0 c [] ops) (((Attr, []) : op), mkObs Ok true [])))) 0 = Some (PInt 2).
Proof. vm_compute. repeat split. Qed.

(* Dict(<key trait>, <value trait>) members: keys and values are validated one by one (key first), converted keys that are
   equal collapse; the stored dict satisfies dom, the conversion clause and the own-protocol clause by the same inductions *)
Example dict_members_nonvacuous :
  let d := DCompound [DInt; DDict (DCast CTInt) (DList DFloat 0 2)] in
  sound_hyp E0 d = true /\
  validate E0 d (PDict [(PStr [49], PList [PInt 5]); (PInt 1, PList [PBool true; PFloat (FFin false 500)]); (PBool false, PList [])])
  = Accept (PDict [(PInt 1, PList [PFloat (FFin false 1000); PFloat (FFin false 500)]); (PInt 0, PList [])]) /\
  validate E0 d (PDict [(PInt 1, PList [PInt 1; PInt 2; PInt 5])]) = Reject /\
  validate E0 d (PDict [(PInt 1, PList [PIndexObj (Raises EValueError)])]) = Propagate EValueError /\
  dom E0 d (PDict [(PInt 1, PList [PFloat (FFin false 1000)])]) = true /\
  dom E0 d (PDict [(PStr [49], PList [])]) = false.
Proof. vm_compute. repeat split. Qed.

Example dynamic_enum_nonvacuous :
  let c := [(0, (DEnumDyn 2, PNone)); (2, (DList DStr 0 100, PList []))] in
  let ops := [(Attr, [(2, PList [PStr [114]; PStr [98]])]); (Attr, [(0, PStr [98])]); (Attr, [(0, PStr [120])]);
              (TraitSetQ, [(2, PList [PStr [99]; PStr [109]])])] in
  class_ok E0 c = true /\ post_safe c = true /\ ops_defined ops = true /\
  map (fun p => o_out (snd p)) (model_hist E0 c [] ops) = [Ok; Ok; Raise ETraitError; Ok] /\
  dyn_enum_readable c (o_after (snd (nth 1 (model_hist E0 c [] ops) (((Attr, []) : op), mkObs Ok true [])))) 0 2 = Some (PStr [98]) /\
  dyn_enum_readable c (o_after (snd (nth 3 (model_hist E0 c [] ops) (((Attr, []) : op), mkObs Ok true [])))) 0 2 = Some (PStr [99]).
Proof. vm_compute. repeat split. Qed.

(* Either(Either(Map({'a': 1}), Str), Int, default=0): the class meets the hypotheses of law_holds_on_every_history; the
   nested compound contributes its _post_setattr: x_ is the mapped value for a key, the value itself otherwise *)
Example mapped_compound_nonvacuous :
  let c := [(0, (DCompound [DCompound [DMap [(PStr [97], PInt 1)]; DStr]; DInt], PInt 0))] in
  let ops := [(Attr, [(0, PStr [97])]); (TraitSet, [(0, PInt 5)]); (Attr, [(0, PFloat (FFin false 500))]); (TraitSetQ, [(0, PStr [98])])] in
  class_ok E0 c = true /\ post_safe c = true /\ ops_defined ops = true /\
  map (fun p => (o_out (snd p), get (o_after (snd p)) 0, get (o_after (snd p)) (shadow 0))) (model_hist E0 c [] ops)
  = [(Ok, Some (PStr [97]), Some (PInt 1)); (Ok, Some (PInt 5), Some (PInt 5));
     (Raise ETraitError, Some (PInt 5), Some (PInt 5)); (Ok, Some (PStr [98]), Some (PStr [98]))].
Proof. vm_compute. repeat split. Qed.

(* car.engine (read: stores None) ; car.engine = None -> TraitError, nothing changes ; car.engine = Engine() -> stored *)
Example read_first_nonvacuous :
  let c := [(0, (DInstance 100 false false, PNone)); (1, (DInt, PInt 0)); (2, (DString 2 4 None, PStr []))] in
  let s := pre_state c [2; 0] in
  get s 0 = Some PNone /\ get s 2 = Some (PStr []) /\ get s 1 = None /\
  law_pre c [2; 0] s = [] /\ law_pre c [2; 0] [] <> [] /\
  setattr E0 c s 0 PNone = (s, Raise ETraitError) /\ setattr E0 c s 2 (PStr []) = (s, Raise ETraitError) /\
  snd (setattr E0 c s 0 (PObj 100 1)) = Ok /\
  Forall (read_ok E0 c) [1] /\ ~ read_ok E0 c 0.
Proof.
  cbv zeta. repeat split.      (* the closed equations hold by computation *)
  (* the last two goals quantify over descriptions: evaluating them whole would normalise [dom] on a variable *)
  - vm_compute; discriminate.
  - constructor; [|constructor]. intros d dflt H. vm_compute in H. inversion H; subst. split; reflexivity.
  - intros H. destruct (H _ _ eq_refl) as [_ Hd]. vm_compute in Hd. discriminate.
Qed.

(* Union(Int, Float) <- 2 stores the int 2 whatever was assigned before; 2.0 is a documented conversion of SOME
   alternative (conv_ok) but not of the first accepting one (conv_ok1) *)
Example union_first_nonvacuous :
  let d := DUnion [DInt; DFloat] in
  let c := [(0, (d, PInt 0))] in
  map (fun p => (snd p, get (fst p) 0)) (run E0 c [] [(Attr, [(0, PFloat (FFin false 500))]); (Attr, [(0, PInt 2)])])
  = [(Ok, Some (PFloat (FFin false 500))); (Ok, Some (PInt 2))] /\
  conv_ok E0 d (PInt 2) (PFloat (FFin false 2000)) = true /\ conv_ok1 E0 d (PInt 2) (PFloat (FFin false 2000)) = false /\
  conv_ok1 E0 d (PInt 2) (PInt 2) = true /\
  conv_ok1 E0 (DUnion [DBool; DInt]) (PBool true) (PInt 1) = false /\
  conv_ok1 E0 (DUnion [DPrefixList [[121; 101; 115]; [110; 111]]; DStr]) (PStr [121]) (PStr [121]) = false /\
  conv_ok1 E0 (DUnion [DPrefixList [[121; 101; 115]; [110; 111]]; DStr]) (PStr [121]) (PStr [121; 101; 115]) = true /\
  conv_ok1 E0 (DUnion [DPrefixList [[121; 101; 115]; [110; 111]]; DStr]) (PStr [122]) (PStr [122]) = true.
Proof. vm_compute. repeat split. Qed.
