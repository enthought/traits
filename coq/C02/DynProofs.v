(* C02 — lemmas for handlers that come and go (Dyn.v), derived from the static development. *)
From Coq Require Import List Arith Bool PeanoNat ZArith Lia Permutation.
From TV Require Import Common.Harness C02.Model C02.Law C02.Proofs C02.Dyn.
Import ListNotations.
Local Open Scope nat_scope.

Definition wfl (l : list handler) : Prop := NoDup (map h_id l).
Definition wfd (st : dstate) : Prop := wfl (live st).

Lemma wfl_filter (P : handler -> bool) l : wfl l -> wfl (filter P l).
Proof.
  unfold wfl. induction l as [|x l IH]; cbn; intros H; [exact H|]. inversion H as [|? ? Hn Hd]; subst.
  destruct (P x); cbn; [|apply IH; exact Hd]. constructor; [|apply IH; exact Hd].
  intros Hin. apply Hn. apply in_map_iff in Hin. destruct Hin as (y & Ey & Hy). apply filter_In in Hy.
  apply in_map_iff. exists y. tauto.
Qed.
Lemma drop_ids_app ids l1 l2 : drop_ids ids (l1 ++ l2) = drop_ids ids l1 ++ drop_ids ids l2.
Proof. apply filter_app. Qed.

Section DynProofs.
  Variable E : env.
  Variable reacts : list (nat * reaction).
  Notation dstep := (dstep E reacts).
  Notation drun := (drun E reacts).
  Notation dnext := (dnext E reacts).
  Notation settle := (settle reacts).

  Lemma has_id_iff id l : has_id id l = true <-> In id (map h_id l).
  Proof.
    unfold has_id. rewrite existsb_exists, in_map_iff.
    split; intros (h & H1 & H2); exists h; [apply Nat.eqb_eq in H2|apply Nat.eqb_eq in H1]; tauto.
  Qed.
  Lemma has_id_false id l : has_id id l = false <-> ~ In id (map h_id l).
  Proof. rewrite <- has_id_iff. symmetry. apply not_true_iff_false. Qed.

  Lemma wfd_register st h : wfd st -> wfd (register st h).
  Proof.
    unfold wfd, register. intros H. destruct (has_id (h_id h) (live st)) eqn:Hi; [exact H|].
    apply has_id_false in Hi. unfold live, wfl in *.
    destruct (is_obj h); cbn [d_tl d_ol].
    - rewrite app_assoc. rewrite map_app. cbn. apply (Permutation_NoDup (l := h_id h :: map h_id (d_tl st ++ d_ol st))).
      + apply Permutation_cons_append.
      + constructor; assumption.
    - rewrite <- app_assoc. cbn. rewrite map_app. cbn.
      apply (Permutation_NoDup (l := h_id h :: map h_id (d_tl st ++ d_ol st))).
      + rewrite map_app. apply Permutation_middle.
      + constructor; assumption.
  Qed.
  Lemma wfd_unregister st id : wfd st -> wfd (unregister st id).
  Proof. unfold wfd, unregister, live. cbn [d_tl d_ol]. rewrite <- drop_ids_app. apply wfl_filter. Qed.
  Lemma wfd_react st r : wfd st -> wfd (react st r).
  Proof. destruct r; [apply wfd_unregister|apply wfd_register]. Qed.
  Lemma wfd_fold rs : forall st, wfd st -> wfd (fold_left react rs st).
  Proof. induction rs as [|r rs IH]; intros st H; [exact H|]. cbn. apply IH. apply wfd_react. exact H. Qed.
  Lemma wfd_settle st s' calls : wfd st -> wfd (settle st s' calls).
  Proof. intros H. unfold Dyn.settle. apply wfd_fold. exact H. Qed.

  Lemma wf_with st : wfd st -> wf (env_at E st) = true.
  Proof. intros H. unfold wf. cbn [e_handlers env_at]. apply nodupb_iff. exact H. Qed.

  Lemma live_after_quiet o st : live (after_quiet_assign E o st) = live st.
  Proof. destruct o; reflexivity. Qed.

  (* what one operation on the object does and shows; [dstep] then settles the live lists on the calls *)
  Definition served (st : dstate) (o : op) : option val * obs :=
    if d_quiet st then quiet_op E st o
    else if empty_lists_delete st o then (Some (e_default (env_at E st)), silent (Some (e_default (env_at E st))))
    else step (env_at E st) (d_slot st) o.
  Lemma dstep_op st o :
    dstep st (DOp o)
    = (after_quiet_assign E o (settle st (fst (served st o)) (o_calls (snd (served st o)))), snd (served st o)).
  Proof. cbn [Dyn.dstep]. fold (served st o). destruct (served st o). reflexivity. Qed.

  Lemma quiet_op_obs st o : snd (quiet_op E st o) = mkObs (o_out (snd (quiet_op E st o))) (fst (quiet_op E st o)) [] [].
  Proof.
    unfold quiet_op. destruct o; try (rewrite step_eq; reflexivity). destruct (d_slot st); [destruct (d_kind st)|]; reflexivity.
  Qed.
  Lemma served_quiet st o : d_quiet st = true -> o_calls (snd (served st o)) = [] /\ o_sink (snd (served st o)) = [].
  Proof. intros Q. unfold served. rewrite Q, quiet_op_obs. split; reflexivity. Qed.
  Lemma served_slot st o : o_slot (snd (served st o)) = fst (served st o).
  Proof.
    unfold served. destruct (d_quiet st); [rewrite quiet_op_obs; reflexivity|].
    destruct (empty_lists_delete st o); [reflexivity|apply step_slot].
  Qed.

  Lemma dstep_wfd st o : wfd st -> wfd (fst (dstep st o)).
  Proof.
    intros H. destruct o as [op|h|id|on|m]; [rewrite dstep_op|..]; cbn [Dyn.dstep fst].
    - unfold wfd. rewrite live_after_quiet. apply wfd_settle. exact H.
    - apply wfd_register. exact H.
    - apply wfd_unregister. exact H.
    - exact H.
    - exact H.
  Qed.

  (* one operation satisfies the law of the handlers live at that moment, and the law's own threading of the live
     lists (from the observed calls) agrees with the model *)
  Lemma dstep_law st o : wfd st ->
    dlaw_step E reacts st o (snd (dstep st o)) = [] /\ dnext st o (snd (dstep st o)) = fst (dstep st o).
  Proof.
    intros H. destruct o as [op|h|id|on|m]; [rewrite dstep_op|split; reflexivity..].
    cbn [Dyn.dnext dlaw_step fst snd]. rewrite served_slot. destruct (d_quiet st) eqn:Q.
    { rewrite (proj1 (served_quiet st op Q)). split; reflexivity. }
    split; [|reflexivity]. pose proof (served_slot st op) as S. unfold served in *. rewrite Q in *.
    destruct (empty_lists_delete st op) eqn:Sp.
    - unfold empty_lists_delete in Sp. destruct op; try discriminate. reflexivity.
    - rewrite (step_law (env_at E st) (wf_with st H)). destruct op; try reflexivity. cbn [app].
      rewrite (proj2 (forallb_forall _ _)); [reflexivity|]. intros c Hc.
      cbv beta. rewrite <- S, (step_delete_stored (env_at E st) _ c Hc). apply Nat.eqb_refl.
  Qed.

  Theorem drun_law ops : forall st i, wfd st -> dlaw_hist E reacts i st (drun st ops) = [].
  Proof.
    induction ops as [|o r IH]; intros st i H; [reflexivity|]. cbn [Dyn.drun].
    destruct (dstep_law st o H) as [L N]. pose proof (dstep_wfd st o H) as W.
    destruct (dstep st o) as [st' ob]. cbn [fst snd dlaw_hist] in *. rewrite L, N. cbn. apply IH. exact W.
  Qed.

  (* what handler `id` must receive for one operation in state st: nothing if it is not registered at that moment,
     otherwise what the static specification (Proofs.spec_calls, which never mentions notifiers) says for this one
     operation; (un)registration itself calls nobody *)
  Definition dspec_step (id : nat) (st : dstate) (o : dop) : list call :=
    match o with
    | DOp op => if d_quiet st then []            (* notification switched off *)
                else match find_id id (live st) with
                     | Some h => spec_calls (env_at E st) h (d_slot st) [op]
                     | None => []
                     end
    | _ => []
    end.
  Fixpoint dspec (id : nat) (st : dstate) (ops : list dop) : list call :=
    match ops with
    | [] => []
    | o :: r => dspec_step id st o ++ dspec id (fst (dstep st o)) r
    end.
  Definition dall_calls (h : list (dop * obs)) : list call := flat_map (fun p => o_calls (snd p)) h.

  Lemma find_id_some id l h : find_id id l = Some h -> In h l /\ h_id h = id.
  Proof. intros H. apply find_some in H. destruct H as [Hin He]. apply Nat.eqb_eq in He. tauto. Qed.

  Lemma dstep_calls id st o : wfd st -> calls_of id (o_calls (snd (dstep st o))) = dspec_step id st o.
  Proof.
    intros H. destruct o as [op|h|k|on|m]; [rewrite dstep_op|reflexivity..]. cbn [snd dspec_step].
    destruct (d_quiet st) eqn:Q; [rewrite (proj1 (served_quiet st op Q)); reflexivity|]. unfold served. rewrite Q.
    destruct (empty_lists_delete st op) eqn:Sp.
    - unfold empty_lists_delete in Sp. destruct op; try discriminate.
      destruct (d_slot st); [|discriminate]. destruct (d_kind st); [|discriminate].
      apply andb_true_iff in Sp. destruct Sp as [Hnil _]. destruct (live st); [reflexivity|discriminate].
    - destruct (find_id id (live st)) as [h|] eqn:F.
      + destruct (find_id_some _ _ _ F) as [Hin <-]. rewrite spec_calls_cons. cbn [spec_calls]. rewrite app_nil_r.
        apply (step_calls_of (env_at E st) (wf_with st H)). exact Hin.
      + rewrite step_eq. apply told_calls_absent. intros Hi. apply in_map_iff in Hi. destruct Hi as (h & Eh & Hh).
        apply Nat.eqb_eq in Eh. rewrite (find_none _ _ F h Hh) in Eh. discriminate.
  Qed.

  Theorem dcalls_exact id ops : forall st, wfd st -> calls_of id (dall_calls (drun st ops)) = dspec id st ops.
  Proof.
    induction ops as [|o r IH]; intros st H; [reflexivity|]. cbn [Dyn.drun dspec].
    pose proof (dstep_calls id st o H) as C. pose proof (dstep_wfd st o H) as W.
    destruct (dstep st o) as [st' ob]. cbn [dall_calls flat_map fst snd] in *.
    fold (dall_calls (drun st' r)). rewrite calls_of_app, C. f_equal. apply IH. exact W.
  Qed.

  Lemma in_live_unregister st v x : In x (live (unregister st v)) <-> In x (live st) /\ h_id x <> v.
  Proof.
    unfold unregister, live. cbn [d_tl d_ol]. rewrite <- drop_ids_app. unfold drop_ids. rewrite filter_In. cbn [existsb].
    rewrite orb_false_r, negb_true_iff, Nat.eqb_neq. reflexivity.
  Qed.
  Lemma in_live_register st h x :
    In x (live (register st h)) <-> In x (live st) \/ (has_id (h_id h) (live st) = false /\ h = x).
  Proof.
    unfold register. destruct (has_id (h_id h) (live st)); [split; [auto|intros [H|[H _]]; [exact H|discriminate]]|].
    unfold live. destruct (is_obj h); cbn [d_tl d_ol]; rewrite !in_app_iff; cbn [In]; intuition auto.
  Qed.

  Lemma fold_keeps rs : forall st x, In x (live st) -> (forall v, In (RKill v) rs -> v <> h_id x) ->
    In x (live (fold_left react rs st)).
  Proof.
    induction rs as [|r rs IH]; intros st x Hx Hk; [exact Hx|]. cbn. apply IH; [|intros v Hv; apply Hk; right; exact Hv].
    destruct r as [v|h]; cbn [react]; [|apply in_live_register; left; exact Hx].
    apply in_live_unregister. split; [exact Hx|]. intros Ev. apply (Hk v); [left; reflexivity|symmetry; exact Ev].
  Qed.

  Lemma absent_react st r v : ~ In v (map h_id (live st)) -> (forall h, r = RSpawn h -> h_id h <> v) ->
    ~ In v (map h_id (live (react st r))).
  Proof.
    intros Ha Hs Hin. apply in_map_iff in Hin. destruct Hin as (x & Ex & Hx). destruct r as [w|h]; cbn [react] in Hx.
    - apply in_live_unregister in Hx. apply Ha. rewrite <- Ex. apply in_map. apply Hx.
    - apply in_live_register in Hx. destruct Hx as [Hx|[_ <-]]; [|exact (Hs h eq_refl Ex)].
      apply Ha. rewrite <- Ex. apply in_map. exact Hx.
  Qed.
  Lemma fold_gone rs v : In (RKill v) rs -> (forall h, In (RSpawn h) rs -> h_id h <> v) ->
    forall st, has_id v (live (fold_left react rs st)) = false.
  Proof.
    intros Hk Hs st. apply has_id_false. revert st.
    assert (forall rs', (forall h, In (RSpawn h) rs' -> h_id h <> v) -> forall st, ~ In v (map h_id (live st)) ->
              ~ In v (map h_id (live (fold_left react rs' st)))) as Habs.
    { induction rs' as [|r rs' IH]; intros Hs' st Ha; [exact Ha|]. cbn. apply IH; [intros h Hh; apply Hs'; right; exact Hh|].
      apply absent_react; [exact Ha|]. intros h ->. apply Hs'. left. reflexivity. }
    induction rs as [|r rs IH]; intros st; [destruct Hk|]. cbn. destruct Hk as [->|Hk].
    - apply Habs; [intros h Hh; apply Hs; right; exact Hh|]. cbn [react]. intros Hin. apply in_map_iff in Hin.
      destruct Hin as (x & Ex & Hx). apply in_live_unregister in Hx. tauto.
    - apply IH; [exact Hk|intros h Hh; apply Hs; right; exact Hh].
  Qed.

  Lemma triggered_in calls k r : In (k, r) reacts -> calls_of k calls <> [] -> In r (triggered reacts calls).
  Proof.
    intros Hr Hc. destruct (calls_of k calls) as [|c l] eqn:Ec; [congruence|].
    assert (In c (calls_of k calls)) as Hi by (rewrite Ec; left; reflexivity).
    apply filter_In in Hi. destruct Hi as [Hi Ei]. apply Nat.eqb_eq in Ei.
    unfold triggered. apply in_flat_map. exists c. split; [exact Hi|]. apply in_map_iff. exists (k, r). split; [reflexivity|].
    apply filter_In. split; [exact Hr|]. cbn. apply Nat.eqb_eq. symmetry. exact Ei.
  Qed.
  Lemma triggered_from calls r : In r (triggered reacts calls) -> exists k, In (k, r) reacts /\ calls_of k calls <> [].
  Proof.
    unfold triggered. intros H. apply in_flat_map in H. destruct H as (c & Hc & Hr). apply in_map_iff in Hr.
    destruct Hr as ([k r'] & Er & Hf). cbn in Er. subst r'. apply filter_In in Hf. destruct Hf as [Hin Ek]. cbn in Ek.
    apply Nat.eqb_eq in Ek. exists k. split; [exact Hin|]. intros Hn.
    assert (In c (calls_of k calls)) as Hi by (apply filter_In; split; [exact Hc|apply Nat.eqb_eq; congruence]).
    rewrite Hn in Hi. destruct Hi.
  Qed.

  (* snapshot semantics, stated on one operation: (a) a handler removed by a handler that was called (itself or another
     one) is gone AFTER the operation — and was still served during it, by calls_are_exactly_changes_while_registered;
     (b) every handler that no called handler removes stays registered *)
  Lemma reactions_local st op :
    (forall k v, In (k, RKill v) reacts -> calls_of k (o_calls (snd (dstep st (DOp op)))) <> [] ->
                 (forall k' h, In (k', RSpawn h) reacts -> h_id h <> v) ->
                 has_id v (live (fst (dstep st (DOp op)))) = false)
    /\ (forall x, In x (live st) ->
                  (forall k, In (k, RKill (h_id x)) reacts -> calls_of k (o_calls (snd (dstep st (DOp op)))) = []) ->
                  In x (live (fst (dstep st (DOp op))))).
  Proof.
    rewrite dstep_op. cbn [fst snd]. rewrite live_after_quiet. split.
    - intros k v Hr Hc Hs. unfold Dyn.settle. apply fold_gone.
      + apply (triggered_in _ k); assumption.
      + intros h Hh. apply triggered_from in Hh. destruct Hh as (k' & Hk' & _). apply (Hs k' h Hk').
    - intros x Hx Hk. unfold Dyn.settle. apply fold_keeps; [exact Hx|].
      intros v Hv Ev. subst v. apply triggered_from in Hv. destruct Hv as (k & Hk1 & Hk2). apply Hk2. apply Hk. exact Hk1.
  Qed.
  (* while notification is switched off nobody is called and nothing reaches the exception sink; afterwards
     (DNotify true, or the end of a quiet trait_set) the theorems above apply again to the handlers then live *)
  Lemma quiet_silent st op : d_quiet st = true ->
    o_calls (snd (dstep st (DOp op))) = [] /\ o_sink (snd (dstep st (DOp op))) = []
    /\ live (fst (dstep st (DOp op))) = live st.
  Proof.
    intros Q. rewrite dstep_op. cbn [fst snd]. destruct (served_quiet st op Q) as [-> ->]. rewrite live_after_quiet.
    repeat split.
  Qed.
  Fixpoint same_presence (id1 id2 : nat) (st : dstate) (ops : list dop) : Prop :=
    match ops with
    | [] => True
    | o :: r => (find_id id1 (live st) = None <-> find_id id2 (live st) = None)
                /\ same_presence id1 id2 (fst (dstep st o)) r
    end.

  Lemma dspec_agree id1 id2 : coherent_eq E -> forall ops st, same_presence id1 id2 st ops ->
    map strip (dspec id1 st ops) = map strip (dspec id2 st ops).
  Proof.
    intros Hc. induction ops as [|o r IH]; intros st Hp; [reflexivity|]. destruct Hp as [Hp Hr].
    cbn [dspec]. rewrite !map_app, (IH _ Hr). f_equal.
    destruct o as [op|h|k|on|m]; try reflexivity. cbn [dspec_step]. destruct (d_quiet st); [reflexivity|].
    destruct (find_id id1 (live st)) as [h1|] eqn:F1, (find_id id2 (live st)) as [h2|] eqn:F2.
    - apply (spec_calls_agree (env_at E st) h1 h2 Hc [op] (d_slot st)).
    - destruct Hp as [_ Hp]. specialize (Hp eq_refl). discriminate.
    - destruct Hp as [Hp _]. specialize (Hp eq_refl). discriminate.
    - reflexivity.
  Qed.

  Theorem dmechanisms_agree id1 id2 ops st : wfd st -> coherent_eq E -> same_presence id1 id2 st ops ->
    map strip (calls_of id1 (dall_calls (drun st ops))) = map strip (calls_of id2 (dall_calls (drun st ops))).
  Proof. intros Hw Hc Hp. rewrite !dcalls_exact by exact Hw. apply dspec_agree; assumption. Qed.
End DynProofs.

Definition setr (f : nat -> bool) (h : handler) : handler := mkHandler (h_id h) (h_mech h) (f (h_id h)).
Definition setr_state (f : nat -> bool) (st : dstate) : dstate :=
  mkD (d_slot st) (map (setr f) (d_tl st)) (map (setr f) (d_ol st)) (d_alloc st) (d_quiet st) (d_kind st) (d_fresh st).
Definition setr_reaction (f : nat -> bool) (r : reaction) : reaction :=
  match r with RKill v => RKill v | RSpawn h => RSpawn (setr f h) end.
Definition setr_reacts (f : nat -> bool) (rs : list (nat * reaction)) : list (nat * reaction) :=
  map (fun p => (fst p, setr_reaction f (snd p))) rs.
Definition setr_op (f : nat -> bool) (o : dop) : dop :=
  match o with DRegister h => DRegister (setr f h) | _ => o end.

Section DynTransparent.
  Variable E : env.
  Variable reacts : list (nat * reaction).
  Variable f : nat -> bool.
  Notation Ef := (set_raises f E).
  Notation Rf := (setr_reacts f reacts).

  Lemma live_setr st : live (setr_state f st) = map (setr f) (live st).
  Proof. unfold live. cbn. rewrite map_app. reflexivity. Qed.
  Lemma has_id_setr id l : has_id id (map (setr f) l) = has_id id l.
  Proof. unfold has_id. induction l as [|x l IH]; cbn; [reflexivity|]. rewrite IH. reflexivity. Qed.
  Lemma drop_ids_setr ids l : drop_ids ids (map (setr f) l) = map (setr f) (drop_ids ids l).
  Proof.
    unfold drop_ids. induction l as [|x l IH]; cbn; [reflexivity|].
    destruct (existsb (Nat.eqb (h_id x)) ids); cbn; rewrite IH; reflexivity.
  Qed.
  Lemma register_setr st h : register (setr_state f st) (setr f h) = setr_state f (register st h).
  Proof.
    unfold register. rewrite live_setr, has_id_setr. cbn [h_id setr]. destruct (has_id (h_id h) (live st)); [reflexivity|].
    unfold is_obj. cbn [h_mech setr]. destruct (h_mech h); unfold setr_state; cbn; rewrite ?map_app; reflexivity.
  Qed.
  Lemma unregister_setr st v : unregister (setr_state f st) v = setr_state f (unregister st v).
  Proof. unfold unregister, setr_state. cbn [d_slot d_tl d_ol d_alloc d_quiet]. rewrite !drop_ids_setr. reflexivity. Qed.
  Lemma react_setr st r : react (setr_state f st) (setr_reaction f r) = setr_state f (react st r).
  Proof. destruct r; [apply unregister_setr|apply register_setr]. Qed.
  Lemma fold_setr rs : forall st, fold_left react (map (setr_reaction f) rs) (setr_state f st) = setr_state f (fold_left react rs st).
  Proof. induction rs as [|r rs IH]; intros st; [reflexivity|]. cbn. rewrite react_setr. apply IH. Qed.
  Lemma filter_setr (k : nat) (rs : list (nat * reaction)) :
    map snd (filter (fun p : nat * reaction => fst p =? k) (setr_reacts f rs))
    = map (setr_reaction f) (map snd (filter (fun p : nat * reaction => fst p =? k) rs)).
  Proof.
    unfold setr_reacts. induction rs as [|p rs IHr]; [reflexivity|]. cbn. destruct (fst p =? k); cbn; rewrite IHr; reflexivity.
  Qed.
  Lemma triggered_setr calls : triggered Rf calls = map (setr_reaction f) (triggered reacts calls).
  Proof.
    unfold triggered. induction calls as [|c l IH]; [reflexivity|]. cbn [flat_map]. rewrite map_app, IH, filter_setr. reflexivity.
  Qed.
  Lemma settle_setr st s' calls : settle Rf (setr_state f st) s' calls = setr_state f (settle reacts st s' calls).
  Proof. unfold settle. rewrite triggered_setr. apply (fold_setr _ (mkD s' (d_tl st) (d_ol st) (d_alloc st) (d_quiet st) (d_kind st) (next_fresh st s' calls))). Qed.

  Lemma env_at_setr st : env_at Ef (setr_state f st) = set_raises f (env_at E st).
  Proof. unfold env_at, set_raises. cbn [e_eq e_ne e_validate e_default e_kind e_handlers e_store_original d_kind setr_state].
         rewrite live_setr. reflexivity. Qed.
  Lemma after_quiet_setr o st : after_quiet_assign Ef o (setr_state f st) = setr_state f (after_quiet_assign E o st).
  Proof. destruct o; reflexivity. Qed.

  Lemma quiet_op_setr st o : quiet_op Ef (setr_state f st) o = quiet_op E st o.
  Proof.
    destruct o; try reflexivity; unfold quiet_op; rewrite env_at_setr, !step_eq, next_set_raises; reflexivity.
  Qed.

  Lemma served_setr st o :
    fst (served Ef (setr_state f st) o) = fst (served E st o)
    /\ visible (snd (served Ef (setr_state f st) o)) = visible (snd (served E st o)).
  Proof.
    unfold served. change (d_quiet (setr_state f st)) with (d_quiet st). rewrite quiet_op_setr.
    destruct (d_quiet st); [split; reflexivity|].
    assert (empty_lists_delete (setr_state f st) o = empty_lists_delete st o) as ->.
    { unfold empty_lists_delete. rewrite live_setr. destruct (live st); reflexivity. }
    destruct (empty_lists_delete st o); [split; reflexivity|]. rewrite env_at_setr. apply step_visible_set_raises.
  Qed.

  Lemma dstep_setr st o :
    fst (dstep Ef Rf (setr_state f st) (setr_op f o)) = setr_state f (fst (dstep E reacts st o))
    /\ visible (snd (dstep Ef Rf (setr_state f st) (setr_op f o))) = visible (snd (dstep E reacts st o)).
  Proof.
    destruct o as [op|h|id|on|m]; cbn [setr_op]; [rewrite !dstep_op|cbn [dstep fst snd]..].
    - destruct (served_setr st op) as [F V]. cbn [fst snd]. split; [|exact V].
      injection V as _ _ V. rewrite F, V, settle_setr, after_quiet_setr. reflexivity.
    - rewrite register_setr. split; reflexivity.
    - rewrite unregister_setr. split; reflexivity.
    - split; reflexivity.
    - split; reflexivity.
  Qed.

  Lemma drun_setr ops : forall st,
    map (fun p => visible (snd p)) (drun Ef Rf (setr_state f st) (map (setr_op f) ops))
    = map (fun p => visible (snd p)) (drun E reacts st ops).
  Proof.
    induction ops as [|o r IH]; intros st; [reflexivity|]. cbn [map drun].
    destruct (dstep_setr st o) as [F V].
    destruct (dstep Ef Rf (setr_state f st) (setr_op f o)) as [s1 ob1], (dstep E reacts st o) as [s2 ob2].
    cbn [fst snd map] in *. subst s1. rewrite V. f_equal. apply IH.
  Qed.
End DynTransparent.
