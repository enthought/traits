(* C02 — a trait that is PROTOTYPED from another object's trait under a different name
   (`x = PrototypedFrom("style", prefix="caption")`): the handlers of x are told
     - every assignment of a local value that is a change (setattr_delegate -> setattr_trait with traitd != traito,
       ctraits.c l.2640-2690: old = the delegated value, identity test, notifiers of x), after which x is UNLINKED
       (HasTraits._remove_trait_delegate_listener(name, True), has_traits.py l.3396-3417);
     - `del obj.x` (back to the prototype's value, linked again);
     - every change of the prototype's attribute WHILE x is linked (the listener set up by
       _init_trait_delegate_listener forwards it with trait_property_changed), and never while it is unlinked.
   Wrappers apply no comparison of their own to a delegate trait (trait.type is "delegate"), so the values of this
   scenario are pairwise unequal objects and only identity matters.  Small self-contained model, law and proof. *)
From Coq Require Import List Arith Bool PeanoNat ZArith Lia.
From TV Require Import Common.Harness C02.Model C02.Law C02.Proofs.
Import ListNotations.
Local Open Scope nat_scope.

Record pstate := mkP { p_local : option val; p_proto : val }.
Inductive pop := PAssign (v : val) | PDelete | PProto (v : val) | PRead.
Record pobs := mkPObs { po_local : option val; po_read : val; po_calls : list call }.

Definition preadable (st : pstate) : val := match p_local st with Some v => v | None => p_proto st end.
Definition tell_all (hs : list handler) (old new : val) : list call := map (fun h => (h_id h, OVal old, new)) hs.

Section Proto.
  Variable hs : list handler.      (* the handlers of x, in notifier-list order *)

  Definition pstep (st : pstate) (o : pop) : pstate * pobs :=
    match o with
    | PAssign v =>
        let old := preadable st in
        let st' := mkP (Some v) (p_proto st) in
        (st', mkPObs (Some v) v (if old =? v then [] else tell_all hs old v))
    | PDelete =>
        match p_local st with
        | None => (st, mkPObs None (p_proto st) [])
        | Some old =>
            let st' := mkP None (p_proto st) in
            (st', mkPObs None (p_proto st) (if old =? p_proto st then [] else tell_all hs old (p_proto st)))
        end
    | PProto v =>
        let st' := mkP (p_local st) v in
        (st', mkPObs (p_local st) (preadable st')
                     (match p_local st with
                      | None => if p_proto st =? v then [] else tell_all hs (p_proto st) v      (* linked: forwarded *)
                      | Some _ => []                                                            (* unlinked: silent *)
                      end))
    | PRead => (st, mkPObs (p_local st) (preadable st) [])
    end.

  Fixpoint prun (st : pstate) (ops : list pop) : list (pop * pobs) :=
    match ops with
    | [] => []
    | o :: r => let '(st', ob) := pstep st o in (o, ob) :: prun st' r
    end.

  (* the law on one observed step: what is readable before / after decides; it never mentions pstep.
     2 called although x did not change (or more than once); 3 called for a read / for a prototype change while x has a
     local value; 4 not called for a change; 5 the value readable afterwards is wrong; 6 old / new untruthful *)
  Definition expect (changed : bool) (old new : val) (calls : list call) : list Z :=
    chk 2 (forallb (fun h => length (calls_of (h_id h) calls) <=? (if changed then 1 else 0)) hs)
    ++ chk 4 (forallb (fun h => (if changed then 1 else 0) <=? length (calls_of (h_id h) calls)) hs)
    ++ chk 6 (forallb (fun c : call => oldv_eqb (snd (fst c)) (OVal old) && (snd c =? new)) calls).

  Definition plaw_step (st : pstate) (o : pop) (ob : pobs) : list Z :=
    let before := preadable st in
    match o with
    | PAssign v => chk 5 (po_read ob =? v) ++ expect (negb (before =? v)) before v (po_calls ob)
    | PDelete => chk 5 (po_read ob =? p_proto st) ++ expect (negb (before =? p_proto st)) before (p_proto st) (po_calls ob)
    | PProto v =>
        match p_local st with
        | None => chk 5 (po_read ob =? v) ++ expect (negb (before =? v)) before v (po_calls ob)
        | Some l => chk 5 (po_read ob =? l) ++ chk 3 (is_nil (po_calls ob))
        end
    | PRead => chk 5 (po_read ob =? before) ++ chk 3 (is_nil (po_calls ob))
    end.

  Definition pnext (st : pstate) (o : pop) (ob : pobs) : pstate :=
    mkP (po_local ob) (match o with PProto v => v | _ => p_proto st end).

  Fixpoint plaw (i : Z) (st : pstate) (h : list (pop * pobs)) : list Z :=
    match h with
    | [] => []
    | (o, ob) :: r => map (fun c => (100 * i + c)%Z) (plaw_step st o ob) ++ plaw (i + 1)%Z (pnext st o ob) r
    end.

  Hypothesis Hnd : nodupb (map h_id hs) = true.

  Lemma tell_all_calls_of old new h : In h hs -> calls_of (h_id h) (tell_all hs old new) = [(h_id h, OVal old, new)].
  Proof.
    intros Hin. pose proof (calls_of_map (OVal old) new hs (fun _ => true) h Hnd Hin) as C.
    assert (filter (fun _ : handler => true) hs = hs) as F by (clear; induction hs as [|x l IH]; cbn; [reflexivity|rewrite IH; reflexivity]).
    rewrite F in C. exact C.
  Qed.

  Lemma expect_told old new : expect true old new (tell_all hs old new) = [].
  Proof.
    unfold expect.
    rewrite !(proj2 (forallb_forall _ hs)) by (intros h Hh; rewrite (tell_all_calls_of old new h Hh); reflexivity).
    rewrite (proj2 (forallb_forall _ (tell_all hs old new))); [reflexivity|].
    intros c Hc. apply in_map_iff in Hc. destruct Hc as (h & <- & _). cbn. rewrite !Nat.eqb_refl. reflexivity.
  Qed.
  Lemma expect_silent old new : expect false old new [] = [].
  Proof. unfold expect. rewrite !(proj2 (forallb_forall _ hs)) by reflexivity. reflexivity. Qed.

  Lemma pstep_law st o : plaw_step st o (snd (pstep st o)) = [] /\ pnext st o (snd (pstep st o)) = fst (pstep st o).
  Proof.
    destruct st as [loc p]. destruct o as [v| |v|]; cbn [pstep plaw_step pnext fst snd po_read po_calls po_local p_local p_proto].
    - rewrite Nat.eqb_refl. split; [|reflexivity].
      destruct (preadable (mkP loc p) =? v); [apply expect_silent|apply expect_told].
    - destruct loc as [old|]; cbn [fst snd po_read po_calls po_local preadable p_local p_proto]; rewrite !Nat.eqb_refl;
        (split; [|reflexivity]); [|apply expect_silent].
      destruct (old =? p); [apply expect_silent|apply expect_told].
    - destruct loc as [l|]; cbn [preadable p_local p_proto]; rewrite Nat.eqb_refl; (split; [|reflexivity]); [reflexivity|].
      destruct (p =? v); [apply expect_silent|apply expect_told].
    - rewrite Nat.eqb_refl. split; reflexivity.
  Qed.

  Theorem prun_law ops : forall st i, plaw i st (prun st ops) = [].
  Proof.
    induction ops as [|o r IH]; intros st i; [reflexivity|]. cbn [prun].
    destruct (pstep_law st o) as [L N]. destruct (pstep st o) as [st' ob]. cbn [fst snd plaw] in *.
    rewrite L, N. cbn. apply IH.
  Qed.
End Proto.

Definition pcase := (list handler * val * list (pop * pobs))%type.      (* handlers, initial prototype value, history *)

Definition pobs_diff (m i : pobs) : list Z :=
  chk 2 (opt_val_eqb (po_local m) (po_local i))
  ++ chk 5 (po_read m =? po_read i)
  ++ chk 3 (list_eqb call_eqb (po_calls m) (po_calls i)).
Fixpoint pcorr (hs : list handler) (i : Z) (st : pstate) (h : list (pop * pobs)) : list Z :=
  match h with
  | [] => []
  | (o, ob) :: r => map (fun c => (100 * i + c)%Z) (pobs_diff (snd (pstep hs st o)) ob) ++ pcorr hs (i + 1)%Z (pnext st o ob) r
  end.
Definition pcorr_codes (c : pcase) : list Z := let '(hs, p0, h) := c in pcorr hs 0%Z (mkP None p0) h.
Definition plaw_codes (c : pcase) : list Z := let '(hs, p0, h) := c in plaw hs 0%Z (mkP None p0) h.
