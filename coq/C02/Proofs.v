(* C02 — lemmas.  [step_eq] is the normal form of [Model.step]: new stored value, outcome class, and the one
   raw notification (old, new) an operation sends to the wrappers, if any.  Everything else is derived from it
   and from what [Model.notify] does with one raw notification. *)
From Coq Require Import List Arith Bool PeanoNat ZArith Lia.
From TV Require Import Common.Harness C02.Model C02.Law.
Import ListNotations.
Local Open Scope nat_scope.

Lemma oldv_eqb_refl o : oldv_eqb o o = true.
Proof. destruct o; cbn; auto using Nat.eqb_refl. Qed.
Lemma call_eqb_refl c : call_eqb c c = true.
Proof. destruct c as [[i o] n]. cbn. rewrite !Nat.eqb_refl, oldv_eqb_refl. reflexivity. Qed.
Lemma list_eqb_refl {A} (eqb : A -> A -> bool) (l : list A) : (forall x, eqb x x = true) -> list_eqb eqb l l = true.
Proof. intros H. induction l as [|x l IH]; cbn; [reflexivity|]. rewrite H, IH. reflexivity. Qed.
Lemma opt_val_eqb_refl o : opt_val_eqb o o = true.
Proof. destruct o; cbn; auto using Nat.eqb_refl. Qed.

Fixpoint nodupb (l : list nat) : bool :=
  match l with [] => true | x :: r => negb (existsb (Nat.eqb x) r) && nodupb r end.
(* well-formed configuration: handler ids are pairwise distinct *)
Definition wf (E : env) : bool := nodupb (map h_id (e_handlers E)).

Lemma nodupb_iff l : nodupb l = true <-> NoDup l.
Proof.
  induction l as [|x l IH]; cbn; [split; [constructor|reflexivity]|].
  rewrite andb_true_iff, negb_true_iff, IH. split.
  - intros [H1 H2]. constructor; [|exact H2]. intros Hin.
    assert (existsb (Nat.eqb x) l = true) by (apply existsb_exists; exists x; split; [exact Hin|apply Nat.eqb_refl]). congruence.
  - intros H. inversion H as [|? ? Hn Hd]; subst. split; [|exact Hd].
    apply not_true_is_false. intros T. apply existsb_exists in T. destruct T as (y & Hy & Ey). apply Nat.eqb_eq in Ey. subst. contradiction.
Qed.

Lemma forallb_map {A B} (f : A -> B) (P : B -> bool) l : forallb P (map f l) = forallb (fun x => P (f x)) l.
Proof. induction l as [|x l IH]; cbn; [reflexivity|]. rewrite IH. reflexivity. Qed.

Lemma all_same_length_const (ls : list (list call)) n : (forall l, In l ls -> length l = n) -> all_same_length ls = true.
Proof.
  destruct ls as [|l r]; [reflexivity|]. intros H. cbn. apply forallb_forall. intros m Hm.
  rewrite (H l (or_introl eq_refl)), (H m (or_intror Hm)). apply Nat.eqb_refl.
Qed.

Section Told.
  Variables (old : oldv) (new : val).
  Notation told_to := (map (fun h' : handler => (h_id h', old, new))).

  Lemma calls_of_cons id h l :
    calls_of id (told_to (h :: l)) = if h_id h =? id then (h_id h, old, new) :: calls_of id (told_to l) else calls_of id (told_to l).
  Proof. reflexivity. Qed.

  Lemma calls_of_others id l : ~ In id (map h_id l) -> calls_of id (told_to l) = [].
  Proof.
    induction l as [|x l IH]; [reflexivity|]. intros H. rewrite calls_of_cons. cbn [map In] in H.
    destruct (Nat.eqb_spec (h_id x) id) as [Ex|_]; [tauto|]. apply IH. tauto.
  Qed.

  Lemma calls_of_map (l : list handler) (P : handler -> bool) h :
    nodupb (map h_id l) = true -> In h l ->
    calls_of (h_id h) (told_to (filter P l)) = if P h then [(h_id h, old, new)] else [].
  Proof.
    rewrite nodupb_iff. induction l as [|x l IH]; intros Hnd Hin; [destruct Hin|].
    inversion Hnd as [|? ? Hx Hnd']; subst. cbn [filter]. destruct Hin as [->|Hin].
    - assert (calls_of (h_id h) (told_to (filter P l)) = []) as Hrest.
      { apply calls_of_others. intros Hi. apply Hx. apply in_map_iff in Hi. destruct Hi as (y & Ey & Hy).
        apply filter_In in Hy. rewrite <- Ey. apply in_map. apply Hy. }
      destruct (P h); [rewrite calls_of_cons, Nat.eqb_refl, Hrest; reflexivity|exact Hrest].
    - assert ((h_id x =? h_id h) = false) as Hne.
      { apply Nat.eqb_neq. intros Ex. apply Hx. rewrite Ex. apply in_map. exact Hin. }
      destruct (P x); [rewrite calls_of_cons, Hne|]; apply IH; assumption.
  Qed.

  (* among handlers with distinct ids, "some handler with the id of x raises" is "x raises" *)
  Lemma raises_lookup l x : nodupb (map h_id l) = true -> In x l ->
    existsb (fun h => (h_id h =? h_id x) && h_raises h) l = h_raises x.
  Proof.
    rewrite nodupb_iff. induction l as [|y l IH]; intros Hnd Hin; [destruct Hin|].
    inversion Hnd as [|? ? Hy Hnd']; subst. cbn [existsb]. destruct Hin as [->|Hin].
    - rewrite Nat.eqb_refl. destruct (h_raises x); [reflexivity|]. cbn. apply not_true_is_false. intros T.
      apply existsb_exists in T. destruct T as (z & Hz & Tz). apply andb_true_iff in Tz. destruct Tz as [Tz _].
      apply Nat.eqb_eq in Tz. apply Hy. rewrite <- Tz. apply in_map. exact Hz.
    - assert ((h_id y =? h_id x) = false) as ->; [|apply IH; assumption].
      apply Nat.eqb_neq. intros Ey. apply Hy. rewrite Ey. apply in_map. exact Hin.
  Qed.

  Lemma raising_filter l cs : nodupb (map h_id l) = true -> incl cs l ->
    filter (fun c : call => existsb (fun h => (h_id h =? fst (fst c)) && h_raises h) l) (told_to cs)
    = told_to (filter h_raises cs).
  Proof.
    intros Hnd. induction cs as [|x cs IH]; intros Hsub; [reflexivity|]. apply incl_cons_inv in Hsub. destruct Hsub as [Hx Hsub].
    cbn [map filter fst]. rewrite (raises_lookup l x Hnd Hx), (IH Hsub). destruct (h_raises x); reflexivity.
  Qed.
End Told.

Section Step.
  Variable E : env.
  Notation hs := (e_handlers E).

  Lemma notify_calls_of old new h : wf E = true -> In h hs ->
    calls_of (h_id h) (fst (notify E old new)) = if accepted E h old new then [(h_id h, old, new)] else [].
  Proof. intros Hw Hin. apply calls_of_map; assumption. Qed.

  Lemma notify_truthful old new c : In c (fst (notify E old new)) -> snd (fst c) = old /\ snd c = new.
  Proof. intros H. apply in_map_iff in H. destruct H as (h & <- & _). split; reflexivity. Qed.

  Lemma notify_sink old new : wf E = true ->
    snd (notify E old new)
    = filter (fun c : call => existsb (fun h => (h_id h =? fst (fst c)) && h_raises h) hs) (fst (notify E old new)).
  Proof. intros Hw. symmetry. apply raising_filter; [exact Hw|]. intros x Hx. apply filter_In in Hx. apply Hx. Qed.

  (* every wrapper drops the notification a first read sends *)
  Lemma notify_uninitialized w : notify E OUninitialized w = ([], []).
  Proof.
    unfold notify. cbn [accepted]. assert (filter (fun _ : handler => false) hs = []) as ->; [|reflexivity].
    induction hs as [|x l IH]; [reflexivity|exact IH].
  Qed.
  Lemma notify_nil old new : is_nil hs = true -> notify E old new = ([], []).
  Proof. unfold notify. destruct hs; [reflexivity|discriminate]. Qed.

  (* the identity pre-filter of the C layer *)
  Definition differs (m : mode) (a b : val) : bool := match m with MNone => true | _ => negb (a =? b) end.

  (* the raw notification an operation sends, apart from (Uninitialized, default), which nobody hears *)
  Definition raw (s : option val) (o : op) : option (oldv * val) :=
    match o with
    | Assign v =>
        match e_validate E v, e_kind E with
        | None, _ => None
        | Some w, TEvent => Some (OUndefined, w)
        | Some w, TNormal m =>
            if differs m (readable E s) (new_value E v w) then Some (OVal (readable E s), new_value E v w) else None
        end
    | Delete =>
        match e_kind E, s with
        | TNormal m, Some old => if differs m old (e_default E) then Some (OVal old, e_default E) else None
        | _, _ => None
        end
    | _ => None
    end.
  Definition told (s : option val) (o : op) : list call * list call :=
    match raw s o with Some (old, new) => notify E old new | None => ([], []) end.

  Definition after_read (s : option val) : option val :=
    match e_kind E with TEvent => s | TNormal _ => Some (readable E s) end.
  (* `del`: the entry is removed; when notifiers exist the default is read back (and stored) at once *)
  Definition after_delete (s : option val) : option val :=
    match e_kind E, s with
    | TNormal _, Some _ => if is_nil hs then None else Some (e_default E)
    | _, _ => s
    end.
  Definition next (s : option val) (o : op) : option val :=
    match o with
    | Assign v | QuietAssign v =>
        match e_validate E v, e_kind E with Some w, TNormal _ => Some (new_value E v w) | _, _ => s end
    | Read => after_read s
    | Delete => after_delete s
    | Retrait | Other => s
    end.
  Definition out (o : op) : outcome :=
    match o with
    | Assign v | QuietAssign v => match e_validate E v with Some _ => Ok | None => TraitError end
    | Read => match e_kind E with TEvent => AttributeError | TNormal _ => Ok end
    | _ => Ok
    end.

  Lemma step_eq s o : step E s o = (next s o, mkObs (out o) (next s o) (fst (told s o)) (snd (told s o))).
  Proof.
    unfold step, told, raw, next, out, after_read, after_delete. destruct o as [v| | |v| |]; try reflexivity.
    - destruct (e_validate E v) as [w|]; [|reflexivity]. destruct (e_kind E) as [m|]; cbv zeta.
      + fold (differs m (readable E s) (new_value E v w)). destruct (is_nil hs) eqn:N.
        * destruct (differs m _ _); rewrite ?(notify_nil _ _ N); reflexivity.
        * destruct (differs m _ _); [destruct (notify E _ _)|]; reflexivity.
      + destruct (notify E OUndefined w). reflexivity.
    - destruct (e_kind E); [|reflexivity]. destruct s; [reflexivity|]. rewrite notify_uninitialized. reflexivity.
    - destruct (e_kind E) as [m|]; [|reflexivity]. destruct s as [old|]; [|reflexivity]. cbv zeta.
      fold (differs m old (e_default E)). destruct (is_nil hs) eqn:N.
      + destruct (differs m _ _); rewrite ?(notify_nil _ _ N); reflexivity.
      + rewrite notify_uninitialized. destruct (differs m _ _); [destruct (notify E _ _)|]; reflexivity.
    - destruct (e_validate E v); [destruct (e_kind E)|]; reflexivity.
  Qed.

  Lemma step_slot s o : o_slot (snd (step E s o)) = fst (step E s o).
  Proof. rewrite step_eq. reflexivity. Qed.
  Lemma step_rejected s v : e_validate E v = None -> step E s (Assign v) = (s, mkObs TraitError s [] []).
  Proof. intros H. rewrite step_eq. unfold told, raw, next, out. rewrite H. reflexivity. Qed.

  Lemma told_truthful s o c : In c (fst (told s o)) -> raw s o = Some (snd (fst c), snd c).
  Proof.
    unfold told. destruct (raw s o) as [[old new]|]; [|intros []]. intros H.
    destruct (notify_truthful old new c H) as [-> ->]. reflexivity.
  Qed.

  Definition heard (h : handler) (s : option val) (o : op) : list call :=
    match raw s o with Some (old, new) => if accepted E h old new then [(h_id h, old, new)] else [] | None => [] end.

  (* does handler h regard old -> w as a change?  (the property's criterion; for equality mode the
     comparison h's mechanism evaluates: legacy wrappers `old != new`, observe `old == new`; an
     exception counts as a change) *)
  Definition unequal (h : handler) (o w : val) : bool :=
    match h_mech h with
    | Observe => negb (cmp_eqb (e_eq E o w) CTrue)
    | _ => negb (cmp_eqb (e_ne E o w) CFalse)
    end.
  Definition counts_as_change (h : handler) (o w : val) : bool :=
    match e_kind E with
    | TEvent => true
    | TNormal MNone => true
    | TNormal MIdentity => negb (o =? w)
    | TNormal MEquality => negb (o =? w) && unequal h o w
    end.

  (* the calls handler h must receive over a history, defined without the notification machinery *)
  Fixpoint spec_calls (h : handler) (s : option val) (ops : list op) : list call :=
    match ops with
    | [] => []
    | Read :: r => spec_calls h (after_read s) r
    | Delete :: r =>                      (* like assigning the default, without validation, when a value is stored *)
        match e_kind E, s with
        | TNormal _, Some old =>
            (if counts_as_change h old (e_default E) then [(h_id h, OVal old, e_default E)] else [])
            ++ spec_calls h (after_delete s) r
        | _, _ => spec_calls h s r
        end
    | Retrait :: r => spec_calls h s r
    | Other :: r => spec_calls h s r
    | QuietAssign v :: r =>               (* no call; the value is stored like an ordinary assignment *)
        spec_calls h (match e_validate E v, e_kind E with Some w, TNormal _ => Some (new_value E v w) | _, _ => s end) r
    | Assign v :: r =>
        match e_validate E v with
        | None => spec_calls h s r
        | Some w =>
            match e_kind E with
            | TEvent => (h_id h, OUndefined, w) :: spec_calls h s r
            | TNormal _ =>
                let nv := new_value E v w in        (* the object the trait stores *)
                (if counts_as_change h (readable E s) nv then [(h_id h, OVal (readable E s), nv)] else [])
                ++ spec_calls h (Some nv) r
            end
        end
    end.

  Definition all_calls (hist : list (op * obs)) : list call := flat_map (fun p => o_calls (snd p)) hist.
  Definition all_sink (hist : list (op * obs)) : list call := flat_map (fun p => o_sink (snd p)) hist.

  Lemma calls_of_app id a b : calls_of id (a ++ b) = calls_of id a ++ calls_of id b.
  Proof. apply filter_app. Qed.

  (* the pre-filter of the C layer and the filter of h's wrapper together are the property's criterion *)
  Lemma accepted_counts h old w m : e_kind E = TNormal m ->
    differs m old w && accepted E h (OVal old) w = counts_as_change h old w.
  Proof.
    intros K. unfold accepted, counts_as_change, unequal. rewrite K. destruct m; cbn [differs andb]; [reflexivity|apply andb_true_r|].
    destruct (negb (old =? w)); [|reflexivity]. destruct (h_mech h), (e_ne E old w), (e_eq E old w); reflexivity.
  Qed.

  (* [spec_calls] is [heard], operation by operation, along the stored values *)
  Lemma spec_calls_cons h s o r : spec_calls h s (o :: r) = heard h s o ++ spec_calls h (next s o) r.
  Proof.
    unfold heard, raw, next. destruct o as [v| | |v| |]; cbn [spec_calls app]; try reflexivity.
    - destruct (e_validate E v) as [w|]; [|reflexivity]. destruct (e_kind E) as [m|] eqn:K; [|reflexivity].
      cbv zeta. rewrite <- (accepted_counts h _ _ m K). destruct (differs m _ _); reflexivity.
    - unfold after_delete. destruct (e_kind E) as [m|] eqn:K; [|reflexivity]. destruct s as [old|]; [|reflexivity].
      rewrite <- (accepted_counts h _ _ m K). destruct (differs m _ _); reflexivity.
  Qed.

  Lemma heard_assign h s v w : e_validate E v = Some w ->
    heard h s (Assign v)
    = if counts_as_change h (readable E s) (match e_kind E with TEvent => w | TNormal _ => new_value E v w end)
      then [(h_id h, match e_kind E with TEvent => OUndefined | TNormal _ => OVal (readable E s) end,
             match e_kind E with TEvent => w | TNormal _ => new_value E v w end)]
      else [].
  Proof.
    intros Hv. unfold heard, raw. rewrite Hv. destruct (e_kind E) as [m|] eqn:K.
    - rewrite <- (accepted_counts h _ _ m K). destruct (differs m _ _); reflexivity.
    - unfold counts_as_change. rewrite K. reflexivity.
  Qed.

  Lemma counts_within_expected h o w :
    fst (expected E o w) <= (if counts_as_change h o w then 1 else 0) <= snd (expected E o w).
  Proof.
    unfold expected, counts_as_change, unequal. destruct (e_kind E) as [[| |]|]; try (cbn; lia).
    - destruct (o =? w); cbn; lia.
    - destruct (o =? w); [cbn; lia|]. destruct (h_mech h), (e_eq E o w), (e_ne E o w); cbn; lia.
  Qed.
  Lemma unequal_coherent h o w : coherent_pair E o w = true -> unequal h o w = negb (cmp_eqb (e_ne E o w) CFalse).
  Proof. unfold coherent_pair, unequal. destruct (h_mech h), (e_eq E o w), (e_ne E o w); (reflexivity || discriminate). Qed.
  Lemma counts_agree h1 h2 o w : agreement_demanded E o w = true -> counts_as_change h1 o w = counts_as_change h2 o w.
  Proof.
    unfold agreement_demanded, counts_as_change. destruct (e_kind E) as [[| |]|]; try reflexivity.
    destruct (o =? w); [reflexivity|]. cbn [orb negb andb]. intros Hc. rewrite !unequal_coherent by exact Hc. reflexivity.
  Qed.

  Hypothesis Hwf : wf E = true.

  Lemma chk_true k : chk k true = []. Proof. reflexivity. Qed.

  (* calls and sink of one raw notification, or nothing when the C layer suppresses it *)
  Definition emitted (changed : bool) (old : oldv) (w : val) : list call * list call :=
    if changed then notify E old w else ([], []).

  Lemma emitted_sink changed old w :
    list_eqb call_eqb (snd (emitted changed old w))
      (filter (fun c : call => existsb (fun h => (h_id h =? fst (fst c)) && h_raises h) hs) (fst (emitted changed old w))) = true.
  Proof.
    unfold emitted. destruct changed; [|reflexivity]. rewrite (notify_sink old w Hwf).
    apply list_eqb_refl. apply call_eqb_refl.
  Qed.

  Lemma accepted_not_equality h old w : (forall m, e_kind E = TNormal m -> m <> MEquality) -> old <> OUninitialized ->
    accepted E h old w = true.
  Proof.
    intros Hk Ho. unfold accepted. destruct old; try reflexivity; [|congruence].
    destruct (e_kind E) as [m|] eqn:K; [|reflexivity]. destruct m; try reflexivity. exfalso. apply (Hk _ eq_refl). reflexivity.
  Qed.

  Lemma is_nil_map {A B} (f : A -> B) l : is_nil l = true -> map f l = [].
  Proof. destruct l; [reflexivity|discriminate]. Qed.

  Lemma told_calls_of h s o : In h hs -> calls_of (h_id h) (fst (told s o)) = heard h s o.
  Proof.
    intros Hin. unfold told, heard. destruct (raw s o) as [[old new]|]; [|reflexivity]. apply notify_calls_of; assumption.
  Qed.
  Lemma told_calls_absent id s o : ~ In id (map h_id hs) -> calls_of id (fst (told s o)) = [].
  Proof.
    intros Hno. unfold told. destruct (raw s o) as [[old new]|]; [|reflexivity]. apply calls_of_others.
    intros Hi. apply Hno. apply in_map_iff in Hi. destruct Hi as (h & Eh & Hh). apply filter_In in Hh.
    rewrite <- Eh. apply in_map. apply Hh.
  Qed.

  Lemma step_sink s o :
    o_sink (snd (step E s o))
    = filter (fun c : call => existsb (fun h => (h_id h =? fst (fst c)) && h_raises h) hs) (o_calls (snd (step E s o))).
  Proof.
    rewrite step_eq. cbn [snd o_sink o_calls]. unfold told. destruct (raw s o) as [[old new]|]; [|reflexivity].
    apply notify_sink. exact Hwf.
  Qed.

  Lemma step_calls_of h s o : In h hs -> calls_of (h_id h) (o_calls (snd (step E s o))) = heard h s o.
  Proof. rewrite step_eq. apply told_calls_of. Qed.

  Lemma step_law s o : law_step E s o (snd (step E s o)) = [].
  Proof.
    rewrite step_eq. cbn [snd]. destruct o as [v| | |v| |]; try reflexivity; unfold law_step; cbv zeta; cbn [o_calls o_slot].
    - (* Assign: clauses 2, 4 and 7 from what each handler hears; 5 and 6 from the raw notification *)
      destruct (e_validate E v) as [w0|] eqn:Hv; [|unfold told, raw; rewrite Hv; reflexivity].
      set (w := match e_kind E with TEvent => w0 | TNormal _ => new_value E v w0 end).
      set (old := match e_kind E with TEvent => OUndefined | TNormal _ => OVal (readable E s) end).
      assert (forall h, In h hs -> length (calls_of (h_id h) (fst (told s (Assign v))))
                                   = if counts_as_change h (readable E s) w then 1 else 0) as Hn.
      { intros h Hh. rewrite (told_calls_of h s _ Hh), (heard_assign h s v w0 Hv). fold w.
        destruct (counts_as_change h (readable E s) w); reflexivity. }
      destruct (expected E (readable E s) w) as [lo hi] eqn:Ex.
      assert (forall h, lo <= (if counts_as_change h (readable E s) w then 1 else 0) <= hi) as Hb
        by (intros h; pose proof (counts_within_expected h (readable E s) w) as B; rewrite Ex in B; exact B).
      rewrite !forallb_map.
      rewrite !(proj2 (forallb_forall _ hs)) by (intros h Hh; rewrite (Hn h Hh); apply Nat.leb_le; apply Hb).
      assert (opt_val_eqb (next s (Assign v)) (match e_kind E with TEvent => s | TNormal _ => Some w end) = true) as ->.
      { unfold next. rewrite Hv. subst w. destruct (e_kind E); apply opt_val_eqb_refl. }
      rewrite (proj2 (forallb_forall _ (fst (told s (Assign v))))).
      2:{ intros [[i co] cn] Hc. apply told_truthful in Hc. unfold raw in Hc. rewrite Hv in Hc. subst old w. cbn [fst snd] in *.
          destruct (e_kind E) as [m|]; [destruct (differs m _ _); [|discriminate]|]; injection Hc as <- <-;
            rewrite oldv_eqb_refl, Nat.eqb_refl; reflexivity. }
      cbn [chk app]. destruct (agreement_demanded E (readable E s) w) eqn:Ag; [|reflexivity]. cbn [negb orb].
      destruct hs as [|h0 l] eqn:Hl; [reflexivity|]. rewrite <- Hl in *.
      rewrite (all_same_length_const _ (if counts_as_change h0 (readable E s) w then 1 else 0)); [reflexivity|].
      intros c Hc. apply in_map_iff in Hc. destruct Hc as (h & <- & Hh). rewrite (Hn h Hh), (counts_agree h h0 _ _ Ag). reflexivity.
    - (* Delete: what the handlers are told is truthful *)
      rewrite (proj2 (forallb_forall _ (fst (told s Delete)))); [reflexivity|].
      intros [[i co] cn] Hc. apply told_truthful in Hc. unfold raw in Hc. unfold next, after_delete. cbn [fst snd] in *.
      destruct (e_kind E) as [m|]; [|discriminate]. destruct s as [old|]; [|discriminate].
      destruct (differs m _ _); [|discriminate]. injection Hc as <- <-. cbn. rewrite Nat.eqb_refl.
      destruct (is_nil hs); [reflexivity|apply Nat.eqb_refl].
  Qed.

  Lemma step_delete_stored s c : In c (o_calls (snd (step E s Delete))) -> o_slot (snd (step E s Delete)) = Some (snd c).
  Proof.
    rewrite step_eq. cbn [snd o_calls o_slot]. intros Hc.
    assert (is_nil hs = false) as N.
    { destruct (is_nil hs) eqn:N; [|reflexivity]. unfold told in Hc. destruct (raw s Delete) as [[old new]|]; [|destruct Hc].
      rewrite (notify_nil _ _ N) in Hc. destruct Hc. }
    apply told_truthful in Hc. unfold raw in Hc. unfold next, after_delete. rewrite N.
    destruct (e_kind E) as [m|]; [|discriminate]. destruct s as [old|]; [|discriminate].
    destruct (differs m _ _); [|discriminate]. injection Hc as _ <-. reflexivity.
  Qed.

  Theorem run_law ops : forall s i, law_hist E i s (run E s ops) = [].
  Proof.
    induction ops as [|o r IH]; intros s i; [reflexivity|]. cbn [run].
    pose proof (step_law s o) as L. pose proof (step_slot s o) as S.
    destruct (step E s o) as [s' ob]. cbn [law_hist fst snd] in *. rewrite L, S. cbn. apply IH.
  Qed.

  Theorem calls_exact h : In h hs -> forall ops s,
    calls_of (h_id h) (all_calls (run E s ops)) = spec_calls h s ops.
  Proof.
    intros Hin. induction ops as [|o r IH]; intros s; [reflexivity|]. cbn [run]. rewrite spec_calls_cons, step_eq.
    cbn [all_calls flat_map snd o_calls]. rewrite calls_of_app, told_calls_of by exact Hin. f_equal. apply IH.
  Qed.

  Lemma calls_truthful s o c : In c (o_calls (snd (step E s o))) ->
    (exists v w, o = Assign v /\ e_validate E v = Some w /\
       match e_kind E with
       | TEvent => snd (fst c) = OUndefined /\ snd c = w
       | TNormal _ => snd (fst c) = OVal (readable E s) /\ readable E (fst (step E s o)) = snd c
                      /\ snd c = new_value E v w
       end)
    \/ (o = Delete /\ snd (fst c) = OVal (readable E s) /\ snd c = e_default E
        /\ readable E (fst (step E s o)) = e_default E).
  Proof.
    rewrite step_eq. cbn [fst snd o_calls]. intros Hc.
    assert (is_nil hs = false) as N.
    { destruct (is_nil hs) eqn:N; [|reflexivity]. unfold told in Hc. destruct (raw s o) as [[old new]|]; [|destruct Hc].
      rewrite (notify_nil _ _ N) in Hc. destruct Hc. }
    apply told_truthful in Hc. unfold raw in Hc. destruct o as [v| | |v| |]; try discriminate.
    - left. exists v. unfold next. destruct (e_validate E v) as [w|]; [|discriminate]. exists w.
      split; [reflexivity|split; [reflexivity|]].
      destruct (e_kind E) as [m|]; [destruct (differs m _ _); [|discriminate]|]; injection Hc as <- <-; repeat split.
    - right. unfold next, after_delete. rewrite N. destruct (e_kind E) as [m|]; [|discriminate]. destruct s as [old|]; [|discriminate].
      destruct (differs m _ _); [|discriminate]. injection Hc as <- <-. repeat split.
  Qed.

  (* == and != are coherent: != answers False exactly when == answers True (what Python guarantees
     for every class that does not override __ne__; NaN, raising __eq__ included) *)
  Definition coherent_eq : Prop := forall a b, e_ne E a b = CFalse <-> e_eq E a b = CTrue.

  Definition strip (c : call) : oldv * val := (snd (fst c), snd c).

  Lemma coherent_agreement : coherent_eq -> forall o w, agreement_demanded E o w = true.
  Proof.
    intros Hc o w. unfold agreement_demanded, coherent_pair. destruct (e_kind E) as [[| |]|]; try reflexivity.
    apply orb_true_iff. right. pose proof (Hc o w) as [H1 H2].
    destruct (e_eq E o w), (e_ne E o w); try reflexivity; (discriminate (H1 eq_refl) || discriminate (H2 eq_refl)).
  Qed.

  Lemma raw_stored s o old new : raw s o = Some (OVal old, new) -> exists m, e_kind E = TNormal m /\ differs m old new = true.
  Proof.
    unfold raw. destruct o as [v| | |v| |]; try discriminate.
    - destruct (e_validate E v) as [w|]; [|discriminate]. destruct (e_kind E) as [m|]; [|discriminate].
      destruct (differs m _ _) eqn:D; [|discriminate]. intros [= <- <-]. exists m. split; [reflexivity|exact D].
    - destruct (e_kind E) as [m|]; [|discriminate]. destruct s as [x|]; [|discriminate].
      destruct (differs m _ _) eqn:D; [|discriminate]. intros [= <- <-]. exists m. split; [reflexivity|exact D].
  Qed.

  Lemma heard_agree h1 h2 s o : coherent_eq -> map strip (heard h1 s o) = map strip (heard h2 s o).
  Proof.
    intros Hc. unfold heard. destruct (raw s o) as [[[old| |] new]|] eqn:R; try reflexivity.
    destruct (raw_stored s o old new R) as (m & K & D).
    pose proof (accepted_counts h1 old new m K) as A1. pose proof (accepted_counts h2 old new m K) as A2.
    rewrite D in A1, A2. cbn [andb] in A1, A2.
    rewrite A1, A2, (counts_agree h1 h2 _ _ (coherent_agreement Hc _ _)). destruct (counts_as_change h2 old new); reflexivity.
  Qed.

  Lemma spec_calls_agree h1 h2 : coherent_eq -> forall ops s,
    map strip (spec_calls h1 s ops) = map strip (spec_calls h2 s ops).
  Proof.
    intros Hc. induction ops as [|o r IH]; intros s; [reflexivity|].
    rewrite !spec_calls_cons, !map_app, IH, (heard_agree h1 h2 s o Hc). reflexivity.
  Qed.

  Theorem mechanisms_agree h1 h2 : coherent_eq -> In h1 hs -> In h2 hs -> forall ops s,
    map strip (calls_of (h_id h1) (all_calls (run E s ops))) = map strip (calls_of (h_id h2) (all_calls (run E s ops))).
  Proof. intros Hc H1 H2 ops s. rewrite !calls_exact by assumption. apply spec_calls_agree. exact Hc. Qed.
End Step.

Definition set_raises (f : nat -> bool) (E : env) : env :=
  {| e_eq := e_eq E; e_ne := e_ne E; e_validate := e_validate E; e_default := e_default E; e_kind := e_kind E;
     e_handlers := map (fun h => mkHandler (h_id h) (h_mech h) (f (h_id h))) (e_handlers E);
     e_store_original := e_store_original E |}.

Definition visible (ob : obs) : outcome * option val * list call := (o_out ob, o_slot ob, o_calls ob).

Section Transparent.
  Variable E : env.
  Variables f g : nat -> bool.

  Lemma notify_calls_set_raises fr old new : fst (notify (set_raises fr E) old new) = fst (notify E old new).
  Proof.
    unfold notify. cbn [fst e_handlers set_raises]. induction (e_handlers E) as [|h l IH]; [reflexivity|].
    cbn [map filter]. change (accepted (set_raises fr E) (mkHandler (h_id h) (h_mech h) (fr (h_id h))) old new) with (accepted E h old new).
    destruct (accepted E h old new); cbn [map h_id]; [f_equal|]; exact IH.
  Qed.

  (* [raw] and [out] do not look at the handlers; [next] only asks whether there are any *)
  Lemma next_set_raises fr s o : next (set_raises fr E) s o = next E s o.
  Proof. destruct o; try reflexivity. unfold next, after_delete. cbn. destruct (e_handlers E); reflexivity. Qed.

  Lemma step_visible_set_raises fr s o :
    fst (step (set_raises fr E) s o) = fst (step E s o)
    /\ visible (snd (step (set_raises fr E) s o)) = visible (snd (step E s o)).
  Proof.
    rewrite !step_eq. unfold visible. cbn [fst snd o_out o_slot o_calls]. rewrite next_set_raises.
    split; [reflexivity|]. f_equal. unfold told. change (raw (set_raises fr E) s o) with (raw E s o).
    destruct (raw E s o) as [[old new]|]; [apply notify_calls_set_raises|reflexivity].
  Qed.

  Theorem raising_transparent ops : forall s,
    final (set_raises f E) s ops = final (set_raises g E) s ops
    /\ map (fun p => (fst p, visible (snd p))) (run (set_raises f E) s ops)
       = map (fun p => (fst p, visible (snd p))) (run (set_raises g E) s ops).
  Proof.
    induction ops as [|o r IH]; intros s; [split; reflexivity|]. cbn [final run].
    destruct (step_visible_set_raises f s o) as [F1 F2]. destruct (step_visible_set_raises g s o) as [G1 G2].
    destruct (step (set_raises f E) s o) as [sf obf], (step (set_raises g E) s o) as [sg obg].
    cbn [fst snd] in *. rewrite F1, G1. destruct (IH (fst (step E s o))) as [I1 I2]. split; [exact I1|].
    cbn [map fst snd]. rewrite F2, G2, I2. reflexivity.
  Qed.
End Transparent.

(* without coherence of == and != the mechanisms do disagree (by design of the two filters):
   a value whose == and != both answer True *)
Definition incoherent_env : env :=
  {| e_eq := fun _ _ => CTrue; e_ne := fun _ _ => CTrue; e_validate := fun v => Some v; e_default := 0;
     e_kind := TNormal MEquality;
     e_handlers := [mkHandler 0 Otc false; mkHandler 1 Observe false]; e_store_original := false |}.
