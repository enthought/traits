(* C02 — the property theorems, each followed by Print Assumptions, then Examples showing that their hypotheses
   are met.  [E : env] is an arbitrary configuration: arbitrary three-valued
   == and != on values (NaN, equal-not-identical, raising, incoherent), arbitrary validation function
   (rejecting, converting), any default, any trait kind / comparison mode, traits that store the validated value or (Expression, AdaptsTo) the
   assigned object itself, any list of handlers of the
   six mechanisms ([Model.mech]) each possibly raising; [wf E] only says that handler ids are distinct.
   Histories are arbitrary lists of operations ([Model.op]: assignments, quiet assignments, reads, `del`, add_trait over
   the trait, assignments to other traits of the object) from any start state. *)
From Coq Require Import List Arith Bool PeanoNat ZArith.
From TV Require Import Common.Harness C02.Model C02.Law C02.Proofs C02.Dyn C02.DynProofs C02.Proto.
Import ListNotations.
Local Open Scope nat_scope.

(* the whole law (Law.v, clauses 2-7) holds at every step of every history *)
Theorem law_holds_on_every_history :
  forall E, wf E = true -> forall ops s i, law_hist E i s (run E s ops) = [].
Proof. exact run_law. Qed.
Print Assumptions law_holds_on_every_history.

(* every handler is called exactly for the assignments that count as a change under the trait's mode
   (Event: every accepted assignment, old = Undefined), with old = readable before and new = validated value,
   in order, and for nothing else: the call list equals a specification that never mentions notifiers *)
Theorem calls_are_exactly_changes :
  forall E, wf E = true -> forall h, In h (e_handlers E) -> forall ops s,
    calls_of (h_id h) (all_calls (run E s ops)) = spec_calls E h s ops.
Proof. exact calls_exact. Qed.
Print Assumptions calls_are_exactly_changes.

(* every call of a step reports truthful values: for an assignment, old = the value readable before and new = the
   value readable afterwards, which is the value the trait stores (Event: old = Undefined, new = the validated
   value); `del` (outside the statement, modelled for faithfulness) reports (stored value, default) *)
Theorem old_new_truthful :
  forall E s o c, In c (o_calls (snd (step E s o))) ->
    (exists v w, o = Assign v /\ e_validate E v = Some w /\
       match e_kind E with
       | TEvent => snd (fst c) = OUndefined /\ snd c = w
       | TNormal _ => snd (fst c) = OVal (readable E s) /\ readable E (fst (step E s o)) = snd c
                      /\ snd c = new_value E v w
       end)
    \/ (o = Delete /\ snd (fst c) = OVal (readable E s) /\ snd c = e_default E
        /\ readable E (fst (step E s o)) = e_default E).
Proof. exact calls_truthful. Qed.
Print Assumptions old_new_truthful.

(* all mechanisms see the same (old, new) sequence when != is false exactly when == is true *)
Theorem three_mechanisms_agree :
  forall E, wf E = true -> forall h1 h2, coherent_eq E -> In h1 (e_handlers E) -> In h2 (e_handlers E) ->
    forall ops s,
      map strip (calls_of (h_id h1) (all_calls (run E s ops))) = map strip (calls_of (h_id h2) (all_calls (run E s ops))).
Proof. exact mechanisms_agree. Qed.
Print Assumptions three_mechanisms_agree.

(* ... and only then: with == and != both answering True, on_trait_change is called and observe is not *)
Theorem three_mechanisms_disagree_without_coherence :
  wf incoherent_env = true /\
  map strip (calls_of 0 (all_calls (run incoherent_env None [Assign 1]))) = [(OVal 0, 1)] /\
  map strip (calls_of 1 (all_calls (run incoherent_env None [Assign 1]))) = [].
Proof. vm_compute. repeat split. Qed.
Print Assumptions three_mechanisms_disagree_without_coherence.

Theorem rejected_and_default_read_silent :
  forall E, wf E = true -> forall s,
    (forall v, e_validate E v = None -> step E s (Assign v) = (s, mkObs TraitError s [] []))
    /\ o_calls (snd (step E s Read)) = [] /\ o_sink (snd (step E s Read)) = []
    /\ fst (step E s Read) = after_read E s.
Proof. intros E _ s. split; [apply step_rejected|]. rewrite step_eq. repeat split. Qed.
Print Assumptions rejected_and_default_read_silent.

(* which handlers raise influences neither the final value nor outcome / stored value / call list of any step;
   the exception sink receives exactly the calls of the raising handlers *)
Theorem handler_exception_transparent :
  forall E, wf E = true ->
    (forall f g ops s,
       final (set_raises f E) s ops = final (set_raises g E) s ops
       /\ map (fun p => (fst p, visible (snd p))) (run (set_raises f E) s ops)
          = map (fun p => (fst p, visible (snd p))) (run (set_raises g E) s ops))
    /\ (forall s o, o_sink (snd (step E s o))
                    = filter (fun c : call => existsb (fun h => (h_id h =? fst (fst c)) && h_raises h) (e_handlers E))
                             (o_calls (snd (step E s o)))).
Proof. intros E Hw. split; [intros f g; apply raising_transparent|intros s o; apply step_sink; exact Hw]. Qed.
Print Assumptions handler_exception_transparent.

(* ---------- handlers that come and go (Dyn.v): registered or removed in the middle of a history, or by a handler
   WHILE it is being notified (it removes itself, removes another handler, registers a new one).  [wfd st]: the ids of
   the live handlers are distinct (kept by every operation); [reacts]: handler id -> what it does when called. ---------- *)

(* the law of Law.v holds at every operation for the handlers LIVE at that moment (snapshot semantics of
   call_notifiers), the live lists being threaded from the operations and the observed calls *)
Theorem law_holds_with_handlers_coming_and_going :
  forall E reacts ops st i, wfd st -> dlaw_hist E reacts i st (drun E reacts st ops) = [].
Proof. exact drun_law. Qed.
Print Assumptions law_holds_with_handlers_coming_and_going.

(* a handler receives exactly the changes of the sub-history during which it is registered: per operation, nothing if
   it is not registered at that moment, otherwise what the notifier-free specification says — also for the operation
   during which another handler removes it (it is still served) or registers it (it is not served yet) *)
Theorem calls_are_exactly_changes_while_registered :
  forall E reacts id ops st, wfd st ->
    calls_of id (dall_calls (drun E reacts st ops)) = dspec E reacts id st ops.
Proof. exact dcalls_exact. Qed.
Print Assumptions calls_are_exactly_changes_while_registered.

(* (un)registration during dispatch takes effect for the next operation and touches nobody else: a handler removed by a
   called handler (itself included) is gone afterwards; every handler that no called handler removes stays *)
Theorem registration_during_dispatch_is_local :
  forall E reacts st op,
    (forall k v, In (k, RKill v) reacts -> calls_of k (o_calls (snd (dstep E reacts st (DOp op)))) <> [] ->
                 (forall k' h, In (k', RSpawn h) reacts -> h_id h <> v) ->
                 has_id v (live (fst (dstep E reacts st (DOp op)))) = false)
    /\ (forall x, In x (live st) ->
                  (forall k, In (k, RKill (h_id x)) reacts -> calls_of k (o_calls (snd (dstep E reacts st (DOp op)))) = []) ->
                  In x (live (fst (dstep E reacts st (DOp op))))).
Proof. exact reactions_local. Qed.
Print Assumptions registration_during_dispatch_is_local.

(* all mechanisms agree in the dynamic setting too: two handlers that are registered over the same stretches of the history
   ([same_presence]: at every operation both or neither are live) see the same (old, new) sequence, when != is false
   exactly when == is true *)
Theorem three_mechanisms_agree_while_registered :
  forall E reacts id1 id2 ops st, wfd st -> coherent_eq E -> same_presence E reacts id1 id2 st ops ->
    map strip (calls_of id1 (dall_calls (drun E reacts st ops))) = map strip (calls_of id2 (dall_calls (drun E reacts st ops))).
Proof. exact dmechanisms_agree. Qed.
Print Assumptions three_mechanisms_agree_while_registered.

(* which handlers raise (those present from the start, those registered later by an operation or by another handler)
   changes neither outcome, stored value nor call list of any step — with handlers coming and going *)
Theorem handler_exception_transparent_with_handlers_coming_and_going :
  forall E reacts f g ops st,
    map (fun p => visible (snd p))
        (drun (set_raises f E) (setr_reacts f reacts) (setr_state f st) (map (setr_op f) ops))
    = map (fun p => visible (snd p))
        (drun (set_raises g E) (setr_reacts g reacts) (setr_state g st) (map (setr_op g) ops)).
Proof. intros. rewrite !drun_setr. reflexivity. Qed.
Print Assumptions handler_exception_transparent_with_handlers_coming_and_going.

(* obj._trait_change_notify(False) (HASTRAITS_NO_NOTIFY) as operations of the history: while it is in force nobody is
   called and the notifier lists do not change; the two theorems above cover whole histories containing such phases *)
Theorem switched_off_is_silent :
  forall E reacts st op, d_quiet st = true ->
    o_calls (snd (dstep E reacts st (DOp op))) = [] /\ o_sink (snd (dstep E reacts st (DOp op))) = []
    /\ live (fst (dstep E reacts st (DOp op))) = live st.
Proof. exact quiet_silent. Qed.
Print Assumptions switched_off_is_silent.

Example switched_off_and_on_again :
  let E := {| e_eq := fun a b => if a =? b then CTrue else CFalse; e_ne := fun a b => if a =? b then CFalse else CTrue;
              e_validate := fun v => if v =? 7 then None else Some v; e_default := 9; e_kind := TNormal MEquality;
              e_handlers := [mkHandler 1 StaticChanged false; mkHandler 10 Observe false]; e_store_original := false |} in
  let ops := [DOp (Assign 1); DNotify false; DOp (Assign 2); DOp Delete; DOp (Assign 3); DNotify true; DOp (Assign 4);
              DNotify false; DOp (QuietAssign 7); DOp (Assign 5)] in
  map (fun p => (o_slot (snd p), length (o_calls (snd p)))) (drun E [] (init E) ops)
  = [(Some 1, 2); (Some 1, 0); (Some 2, 0); (None, 0); (Some 3, 0); (Some 3, 0); (Some 4, 2); (Some 4, 0); (Some 4, 0); (Some 5, 2)].
Proof. vm_compute. reflexivity. Qed.

(* the comparison mode itself can be changed in the middle of a history (ctrait.comparison_mode = ...): all the theorems
   above are about [env_at E st], the environment with the handlers AND the mode current at each operation *)
Example mode_changed_at_run_time :
  let E := {| e_eq := fun a b => if (a =? b) || ((a =? 1) && (b =? 2)) || ((a =? 2) && (b =? 1)) then CTrue else CFalse;
              e_ne := fun a b => if (a =? b) || ((a =? 1) && (b =? 2)) || ((a =? 2) && (b =? 1)) then CFalse else CTrue;
              e_validate := fun v => Some v; e_default := 9; e_kind := TNormal MIdentity;
              e_handlers := [mkHandler 1 StaticChanged false; mkHandler 10 Observe false]; e_store_original := false |} in
  let ops := [DOp (Assign 1); DOp (Assign 1); DOp (Assign 2); DSetMode MEquality; DOp (Assign 1); DSetMode MNone;
              DOp (Assign 1); DOp (Assign 1)] in
  map (fun p => length (o_calls (snd p))) (drun E [] (init E) ops) = [2; 0; 2; 0; 0; 0; 2; 2]
  /\ dlaw_hist E [] 0%Z (init E) (drun E [] (init E) ops) = [].
Proof. vm_compute. split; reflexivity. Qed.

(* a default that is produced AFRESH each time it is needed (List / Dict / Instance(X, ()) defaults, a non-constant
   _x_default): identities 1000, 1001, ... in order of appearance.  `del` reads the default back and stores it, so the new
   value the handlers are told IS what a read returns right afterwards (law clause 6 on Delete, part of
   law_holds_with_handlers_coming_and_going); the first assignment reports the default materialised as old *)
Example default_produced_afresh :
  let E := {| e_eq := fun a b => if a =? b then CTrue else CFalse; e_ne := fun a b => if a =? b then CFalse else CTrue;
              e_validate := fun v => Some v; e_default := 0; e_kind := TNormal MEquality;
              e_handlers := [mkHandler 1 StaticChanged false; mkHandler 10 Observe false]; e_store_original := false |} in
  let ops := [DOp (Assign 1); DOp Delete; DOp Read; DOp (Assign 2); DOp Delete; DOp Delete] in
  let st := with_fresh (init E) (Some 1000) in
  map (fun p => (o_slot (snd p), map (fun c : call => (snd (fst c), snd c)) (o_calls (snd p)))) (drun E [] st ops)
  = [(Some 1, [(OVal 1000, 1); (OVal 1000, 1)]); (Some 1001, [(OVal 1, 1001); (OVal 1, 1001)]); (Some 1001, []);
     (Some 2, [(OVal 1001, 2); (OVal 1001, 2)]); (Some 1002, [(OVal 2, 1002); (OVal 2, 1002)]);
     (Some 1003, [(OVal 1002, 1003); (OVal 1002, 1003)])]
  /\ dlaw_hist E [] 0%Z st (drun E [] st ops) = [].
Proof. vm_compute. split; reflexivity. Qed.

(* Non-vacuity: on_trait_change handler 10 from the start; observe handler 30 registered after the first change; 31
   (object level) unregisters itself when called; 32 removes 30 when called (30 is still served for that change) and
   registers 33 (not served yet); then 10 is removed explicitly *)
Example handlers_come_and_go :
  let E := {| e_eq := fun a b => if a =? b then CTrue else CFalse; e_ne := fun a b => if a =? b then CFalse else CTrue;
              e_validate := fun v => Some v; e_default := 9; e_kind := TNormal MEquality;
              e_handlers := [mkHandler 10 Otc false]; e_store_original := false |} in
  let reacts := [(31, RKill 31); (32, RKill 30); (32, RSpawn (mkHandler 33 Otc false))] in
  let ops := [DOp (Assign 1); DRegister (mkHandler 30 Observe false); DRegister (mkHandler 31 OtcAny true);
              DOp (Assign 2); DRegister (mkHandler 32 Otc false); DOp (Assign 3); DUnregister 10; DOp (Assign 4)] in
  wfd (init E)
  /\ map (fun p => map (fun c : call => fst (fst c)) (o_calls (snd p))) (drun E reacts (init E) ops)
     = [[10]; []; []; [10; 30; 31]; []; [10; 30; 32]; []; [32; 33]].
Proof. split; [repeat constructor; cbn; tauto|vm_compute; reflexivity]. Qed.

(* ---------- a trait PROTOTYPED from another object's trait under a different name (Proto.v): its handlers are told the local
   assignments that are changes, `del` (back to the prototype), and the prototype's changes exactly while no local value
   is set — for every handler list with distinct ids, every history, every start state ---------- *)
Theorem prototyped_trait_law_holds :
  forall hs, nodupb (map h_id hs) = true -> forall ops st i, plaw hs i st (prun hs st ops) = [].
Proof. exact prun_law. Qed.
Print Assumptions prototyped_trait_law_holds.

Example prototyped_trait_nontrivial :
  let hs := [mkHandler 1 StaticChanged false; mkHandler 10 Otc false; mkHandler 11 Observe false] in
  let ops := [PProto 2; PAssign 3; PAssign 3; PProto 4; PDelete; PProto 5; PRead; PAssign 5; PDelete] in
  map (fun p => (po_read (snd p), length (po_calls (snd p)))) (prun hs (mkP None 1) ops)
  = [(2, 3); (3, 3); (3, 0); (3, 0); (4, 3); (5, 3); (5, 0); (5, 0); (5, 0)].
Proof. vm_compute. reflexivity. Qed.

(* Non-vacuity: equality mode, five mechanisms, two raising handlers; values 0 and 1 equal but not identical,
   2 is NaN-like (unequal to itself), 3 is rejected.  Calls happen for None->0, 1->2, 2->(another NaN 4) only. *)
Example history_nontrivial :
  let eqf := fun a b => if (a =? b) && negb (a =? 2) && negb (a =? 4) then CTrue
                        else if ((a =? 0) && (b =? 1)) || ((a =? 1) && (b =? 0)) then CTrue else CFalse in
  let nef := fun a b => match eqf a b with CTrue => CFalse | _ => CTrue end in
  let E := {| e_eq := eqf; e_ne := nef; e_validate := fun v => if v =? 3 then None else Some v; e_default := 9;
              e_kind := TNormal MEquality;
              e_handlers := [mkHandler 0 StaticAny false; mkHandler 1 StaticChanged true; mkHandler 2 StaticFired false;
                             mkHandler 10 Otc false; mkHandler 11 Observe true]; e_store_original := false |} in
  wf E = true
  /\ map (fun p => length (o_calls (snd p))) (run E None [Read; Assign 0; Assign 1; Assign 3; Assign 2; Assign 2; Assign 4])
     = [0; 5; 0; 0; 5; 0; 5]
  /\ map (fun p => length (o_sink (snd p))) (run E None [Read; Assign 0; Assign 1; Assign 3; Assign 2; Assign 2; Assign 4])
     = [0; 2; 0; 0; 2; 0; 2].
Proof. vm_compute. repeat split. Qed.
