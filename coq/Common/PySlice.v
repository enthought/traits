(* Python slice semantics over Z (models CPython, not traits):
   [indices] = PySlice_Unpack + PySlice_AdjustIndices (what slice.indices(len)
   returns; the step = 0 -> ValueError case is decided by the callers),
   [slicelen] = the number of selected positions, [positions] the index list.
   Lemmas: bounds / NoDup of every selected position, reversal of a position
   list, the division facts used by the normalisation proof (C05/NormProof.v).
   Style: stdlib + lia. *)
From Coq Require Import ZArith List Lia Bool.
Import ListNotations.
Local Open Scope Z_scope.

Definition slice := (option Z * option Z * option Z)%type.

(* an integer index, or a slice given by three integers (start, stop, step): the index of a C05 list event *)
Inductive ios := I (i : Z) | S3 (a b c : Z).

Definition adjust (len step x : Z) : Z :=
  if x <? 0 then (let y := x + len in if y <? 0 then (if step <? 0 then -1 else 0) else y)
  else if x >=? len then (if step <? 0 then len - 1 else len) else x.

Definition slice_step (sl : slice) : Z :=
  match snd sl with None => 1 | Some s => s end.

Definition indices (len : Z) (sl : slice) : Z * Z * Z :=
  let '(a, b, c) := sl in
  let step := match c with None => 1 | Some s => s end in
  let start := match a with
               | None => if step <? 0 then len - 1 else 0
               | Some s => adjust len step s end in
  let stop := match b with
              | None => if step <? 0 then -1 else len
              | Some s => adjust len step s end in
  (start, stop, step).

Definition slicelen (start stop step : Z) : Z :=
  if step <? 0 then (if stop <? start then (start - stop - 1) / (- step) + 1 else 0)
  else (if start <? stop then (stop - start - 1) / step + 1 else 0).

Fixpoint positions (start step : Z) (n : nat) : list Z :=
  match n with O => [] | S n' => start :: positions (start + step) step n' end.

Definition slice_positions (len : Z) (sl : slice) : list Z :=
  let '(a, b, c) := indices len sl in positions a c (Z.to_nat (slicelen a b c)).

Lemma positions_length a c n : length (positions a c n) = n.
Proof. revert a; induction n; simpl; intros; auto. Qed.

Lemma positions_snoc a c n :
  positions a c (S n) = positions a c n ++ [a + Z.of_nat n * c].
Proof.
  revert a; induction n as [|n IH]; intros a.
  - simpl. f_equal. lia.
  - change (positions a c (S (S n))) with (a :: positions (a + c) c (S n)).
    rewrite IH. cbn [positions app]. do 3 f_equal. rewrite Nat2Z.inj_succ. lia.
Qed.

Lemma positions_rev a c n :
  rev (positions a c (S n)) = positions (a + Z.of_nat n * c) (- c) (S n).
Proof.
  revert a; induction n as [|n IH]; intros a.
  - simpl. f_equal. lia.
  - rewrite positions_snoc. rewrite rev_app_distr. cbn [rev app].
    rewrite IH.
    change (positions (a + Z.of_nat (S n) * c) (- c) (S (S n)))
      with ((a + Z.of_nat (S n) * c) :: positions (a + Z.of_nat (S n) * c + - c) (- c) (S n)).
    f_equal. f_equal. rewrite Nat2Z.inj_succ. lia.
Qed.

Lemma positions_In a c n p :
  In p (positions a c n) <-> exists j, (0 <= j < Z.of_nat n) /\ p = a + j * c.
Proof.
  revert a; induction n as [|n IH]; intros a; cbn [positions In].
  - split; [tauto|]. intros (j & H & _). lia.
  - rewrite IH. split.
    + intros [E|(j & Hj & E)].
      * exists 0. split; lia.
      * exists (j + 1). split; lia.
    + intros (j & Hj & E). destruct (Z.eq_dec j 0) as [->|Hn].
      * left. lia.
      * right. exists (j - 1). split; lia.
Qed.

Lemma positions_NoDup a c n : c <> 0 -> NoDup (positions a c n).
Proof.
  intros Hc. revert a; induction n as [|n IH]; intros a; cbn [positions]; constructor.
  - rewrite positions_In. intros (j & Hj & E). nia.
  - apply IH.
Qed.

Lemma adjust_pos len c x : 0 <= len -> 0 < c -> 0 <= adjust len c x <= len.
Proof.
  intros Hl Hc. unfold adjust.
  destruct (x <? 0) eqn:E1; [destruct (x + len <? 0) eqn:E2|destruct (x >=? len) eqn:E3];
  destruct (c <? 0) eqn:E4; lia.
Qed.
Lemma adjust_neg len c x : 0 <= len -> c < 0 -> -1 <= adjust len c x <= len - 1.
Proof.
  intros Hl Hc. unfold adjust.
  destruct (x <? 0) eqn:E1; [destruct (x + len <? 0) eqn:E2|destruct (x >=? len) eqn:E3];
  destruct (c <? 0) eqn:E4; lia.
Qed.

Lemma indices_step len sl : snd (indices len sl) = slice_step sl.
Proof. destruct sl as [[a b] c]. reflexivity. Qed.

Lemma indices_pos len a b c s e k :
  0 <= len -> indices len (a,b,c) = (s,e,k) -> 0 < k -> 0 <= s <= len /\ 0 <= e <= len.
Proof.
  intros Hl H Hk. unfold indices in H.
  set (step := match c with None => 1 | Some s0 => s0 end) in *.
  inversion H; subst k. clear H.
  assert (step <? 0 = false) as E by lia. rewrite E in *.
  split; [destruct a|destruct b]; subst; try (apply adjust_pos; lia); lia.
Qed.
Lemma indices_neg len a b c s e k :
  0 <= len -> indices len (a,b,c) = (s,e,k) -> k < 0 -> -1 <= s <= len - 1 /\ -1 <= e <= len - 1.
Proof.
  intros Hl H Hk. unfold indices in H.
  set (step := match c with None => 1 | Some s0 => s0 end) in *.
  inversion H; subst k. clear H.
  assert (step <? 0 = true) as E by lia. rewrite E in *.
  split; [destruct a|destruct b]; subst; try (apply adjust_neg; lia); lia.
Qed.

(* a slice already in range is its own [indices] *)
Lemma indices_normal len s e k :
  0 <= s -> s <= e -> e <= len -> 0 < k -> indices len (Some s, Some e, Some k) = (s, e, k).
Proof.
  intros. unfold indices, adjust.
  replace (s <? 0) with false by lia. replace (e <? 0) with false by lia.
  replace (k <? 0) with false by lia.
  destruct (s >=? len) eqn:E1; destruct (e >=? len) eqn:E2; repeat f_equal; lia.
Qed.

Lemma len_pos_spec d k : 0 <= d -> 0 < k ->
  let n := d / k + 1 in d = k * (n - 1) + d mod k /\ 0 <= d mod k < k /\ 1 <= n.
Proof.
  intros Hd Hk n. subst n.
  pose proof (Z.div_mod d k ltac:(lia)). pose proof (Z.mod_pos_bound d k Hk).
  pose proof (Z.div_pos d k Hd Hk). lia.
Qed.

Lemma mod_mul_add_l k q r : 0 < k -> 0 <= r < k -> (k * q + r) mod k = r.
Proof. intros. rewrite Z.add_comm, Z.mul_comm, Z.mod_add by lia. apply Z.mod_small; lia. Qed.
Lemma div_mul_add_l k q r : 0 < k -> 0 <= r < k -> (k * q + r) / k = q.
Proof. intros. rewrite Z.add_comm, Z.mul_comm, Z.div_add by lia. rewrite Z.div_small; lia. Qed.

(* (a-b) mod c for c<0, a>b:  with s=-c, n = (a-b-1)/s+1 :  (a-b) mod c = (a-b) - s*n  *)
Lemma neg_mod_spec d s : 0 < d -> 0 < s ->
  let n := (d - 1) / s + 1 in d mod (- s) = d - s * n.
Proof.
  intros Hd Hs n.
  destruct (len_pos_spec (d-1) s ltac:(lia) Hs) as (E & B & N). fold n in E, N.
  symmetry. apply Z.mod_unique_neg with (q := - n); lia.
Qed.

Lemma slicelen_nonneg a b c : c <> 0 -> 0 <= slicelen a b c.
Proof.
  intros Hc. unfold slicelen.
  destruct (c <? 0) eqn:E.
  - destruct (b <? a) eqn:E2; [|lia].
    pose proof (Z.div_pos (a - b - 1) (- c) ltac:(lia) ltac:(lia)). lia.
  - destruct (a <? b) eqn:E2; [|lia].
    pose proof (Z.div_pos (b - a - 1) c ltac:(lia) ltac:(lia)). lia.
Qed.

Lemma slice_positions_bounds len sl p :
  0 <= len -> slice_step sl <> 0 -> In p (slice_positions len sl) -> 0 <= p < len.
Proof.
  intros Hl Hs Hin. unfold slice_positions in Hin.
  destruct sl as [[oa ob] oc].
  destruct (indices len (oa, ob, oc)) as [[a b] c] eqn:Hidx.
  assert (c = slice_step (oa, ob, oc)) as Hc by (rewrite <- (indices_step len), Hidx; reflexivity).
  rewrite <- Hc in Hs. clear Hc.
  apply positions_In in Hin. destruct Hin as (j & Hj & ->).
  unfold slicelen in Hj.
  destruct (Z.ltb_spec c 0) as [Hc|Hc].
  - destruct (indices_neg _ _ _ _ _ _ _ Hl Hidx Hc) as [Ha Hb].
    destruct (Z.ltb_spec b a) as [Hba|Hba]; [|cbn in Hj; lia].
    destruct (len_pos_spec (a - b - 1) (- c) ltac:(lia) ltac:(lia)) as (E & B & N).
    rewrite Z2Nat.id in Hj by lia. nia.
  - assert (0 < c) as Hc' by lia.
    destruct (indices_pos _ _ _ _ _ _ _ Hl Hidx Hc') as [Ha Hb].
    destruct (Z.ltb_spec a b) as [Hab|Hab]; [|cbn in Hj; lia].
    destruct (len_pos_spec (b - a - 1) c ltac:(lia) Hc') as (E & B & N).
    rewrite Z2Nat.id in Hj by lia. nia.
Qed.

Lemma slice_positions_NoDup len sl : slice_step sl <> 0 -> NoDup (slice_positions len sl).
Proof.
  intros Hs. unfold slice_positions. destruct sl as [[oa ob] oc].
  destruct (indices len (oa, ob, oc)) as [[a b] c] eqn:Hidx.
  assert (c = slice_step (oa, ob, oc)) as Hc by (rewrite <- (indices_step len), Hidx; reflexivity).
  apply positions_NoDup. congruence.
Qed.

Lemma slice_positions_length len sl :
  length (slice_positions len sl) =
  let '(a, b, c) := indices len sl in Z.to_nat (slicelen a b c).
Proof.
  unfold slice_positions. destruct (indices len sl) as [[a b] c]. apply positions_length.
Qed.
