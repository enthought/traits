(* Common/CTables.v — translator T3 (DESIGN section 4): the dispatch tables of ctraits.c as data,
   and the general lemmas that turn ONE boolean check on that data into the obligations
   assigned_in_table / guards_in_bounds / getstate_setstate_roundtrip / ctrait_roundtrip.

   tools/vlib/tr_ctables.py regenerates, on every run, a value [gen : ctables] from the text of
   ctraits.c under VERIF_REPO; the generated obligation file proves [tables_ok gen = true] by
   [vm_compute] and instantiates the lemmas below.  Function pointers are integers (0 = NULL).

   Code modelled (ctraits.c): func_index (linear search WITHOUT an end test: running off the table
   is the out-of-bounds read, modelled as [None]); _trait_getstate; _trait_setstate (the table
   lookups and the tuple layout; the reference counting of the object slots is C18's ledger, not
   here); the assignment sites trait_new, _trait_set_validate, _trait_delegate, _trait_set_property,
   set_trait_post_setattr; trait_clone (copies field to same field: closed). *)
From Coq Require Import ZArith List Bool Lia Arith.
Import ListNotations.

Inductive field := Fd_getattr | Fd_setattr | Fd_post_setattr | Fd_validate | Fd_delegate_attr_name.
Definition all_fields : list field := [Fd_getattr; Fd_setattr; Fd_post_setattr; Fd_validate; Fd_delegate_attr_name].
Definition field_code (f : field) : Z :=
  match f with Fd_getattr => 0 | Fd_setattr => 1 | Fd_post_setattr => 2 | Fd_validate => 3 | Fd_delegate_attr_name => 4 end%Z.
Definition field_eqb (a b : field) : bool := Z.eqb (field_code a) (field_code b).

(* a right-hand side assigned to a dispatch field *)
Inductive site :=
| Direct (f : Z)                              (* trait->setattr = setattr_validate_property; *)
| Indexed (t : list Z) (lo hi : nat)          (* table[idx] under the guard lo <= idx <= hi *)
| Picked (t : list Z) (idx : list nat).       (* table[kind], kind one of the switch labels reaching done: *)

(* the 15-slot state tuple: which field's index / which object slot sits at each position *)
Inductive entry := LIdx (f : field) | LObj (slot : nat) | LNone.

Record ctables := {
  ct_search : field -> list Z;     (* table __getstate__ searches for the field's function *)
  ct_restore : field -> list Z;    (* table __setstate__ indexes for the field *)
  ct_sites : list (field * site);
  ct_get_layout : list entry;
  ct_set_layout : list entry }.

(* func_index: for (i = 0; function != function_table[i]; i++);  — no bound. *)
Fixpoint func_index (f : Z) (t : list Z) : option nat :=
  match t with
  | [] => None                       (* ran off the table: out-of-bounds read *)
  | x :: r => if Z.eqb f x then Some O else option_map S (func_index f r)
  end.

Definition memz (f : Z) (t : list Z) : bool := existsb (Z.eqb f) t.

Definition site_values (s : site) : list Z :=
  match s with
  | Direct f => [f]
  | Indexed t lo hi => firstn (hi - lo + 1) (skipn lo t)
  | Picked t idx => map (fun i => nth i t 0%Z) idx
  end.

Definition site_in_bounds (s : site) : bool :=
  match s with
  | Direct _ => true
  | Indexed t lo hi => (lo <=? hi) && (hi <? length t)
  | Picked t idx => forallb (fun i => i <? length t) idx
  end.

(* what a field of a CTrait can ever contain.  CH_restored admits EVERY index inside the restore table, a superset of the
   indices __getstate__ produces; an index outside the table is not modelled as a pointer: [apply_entry] reads NULL there. *)
Inductive can_hold (T : ctables) (fld : field) : Z -> Prop :=
| CH_null : can_hold T fld 0%Z                      (* PyType_GenericNew zero-initialises *)
| CH_site : forall s f, In (fld, s) (ct_sites T) -> In f (site_values s) -> can_hold T fld f
| CH_restored : forall i, i < length (ct_restore T fld) ->
    can_hold T fld (nth i (ct_restore T fld) 0%Z).  (* __setstate__ with an index __getstate__ produced *)

Fixpoint zlist_eqb (a b : list Z) : bool :=
  match a, b with
  | [], [] => true
  | x :: a', y :: b' => Z.eqb x y && zlist_eqb a' b'
  | _, _ => false
  end.

Definition entry_eqb (a b : entry) : bool :=
  match a, b with
  | LIdx f, LIdx g => field_eqb f g
  | LObj s, LObj t => Nat.eqb s t
  | LNone, LNone => true
  | _, _ => false
  end.

Fixpoint elist_eqb (a b : list entry) : bool :=
  match a, b with
  | [], [] => true
  | x :: a', y :: b' => entry_eqb x y && elist_eqb a' b'
  | _, _ => false
  end.

(* NULL must be in the searched table because a zero-initialised field holds it (CH_null) *)
Definition field_ok (T : ctables) (fld : field) : bool :=
  zlist_eqb (ct_restore T fld) (ct_search T fld) && memz 0%Z (ct_search T fld)
  && existsb (entry_eqb (LIdx fld)) (ct_get_layout T).

Definition site_ok (T : ctables) (p : field * site) : bool :=
  site_in_bounds (snd p) && forallb (fun f => memz f (ct_search T (fst p))) (site_values (snd p)).

Definition tables_ok (T : ctables) : bool :=
  forallb (field_ok T) all_fields && forallb (site_ok T) (ct_sites T)
  && elist_eqb (ct_get_layout T) (ct_set_layout T).

(* counter-example search when tables_ok is false: (field, function) pairs a site can assign that
   the searched table does not contain; (field, -1) out-of-bounds guard; (field, -2) restore table
   differs / NULL missing / field not in the layout; (9, -3) the two tuple layouts differ *)
Definition offenders (T : ctables) : list (Z * Z) :=
  flat_map (fun p => (if site_in_bounds (snd p) then [] else [(field_code (fst p), (-1)%Z)])
                     ++ map (fun f => (field_code (fst p), f))
                            (filter (fun f => negb (memz f (ct_search T (fst p)))) (site_values (snd p))))
           (ct_sites T)
  ++ flat_map (fun fld => if field_ok T fld then [] else [(field_code fld, (-2)%Z)]) all_fields
  ++ (if elist_eqb (ct_get_layout T) (ct_set_layout T) then [] else [(9, (-3))%Z]).

(* ----- the trait definition object, as far as pickling is concerned ----- *)
Record ctrait := { c_fn : field -> Z; c_slot : nat -> Z }.
Definition wf_ctrait (T : ctables) (tr : ctrait) : Prop := forall fld, can_hold T fld (c_fn tr fld).

Definition entry_value (T : ctables) (tr : ctrait) (e : entry) : option Z :=
  match e with
  | LIdx f => option_map Z.of_nat (func_index (c_fn tr f) (ct_search T f))
  | LObj s => Some (c_slot tr s)
  | LNone => Some 0%Z
  end.

Fixpoint getstate_go (T : ctables) (L : list entry) (tr : ctrait) : option (list Z) :=
  match L with
  | [] => Some []
  | e :: L' => match entry_value T tr e, getstate_go T L' tr with
               | Some v, Some r => Some (v :: r)
               | _, _ => None
               end
  end.
Definition getstate (T : ctables) (tr : ctrait) : option (list Z) := getstate_go T (ct_get_layout T) tr.

Definition upd_fn (tr : ctrait) (f : field) (v : Z) : ctrait :=
  {| c_fn := fun g => if field_eqb g f then v else c_fn tr g; c_slot := c_slot tr |}.
Definition upd_slot (tr : ctrait) (s : nat) (v : Z) : ctrait :=
  {| c_fn := c_fn tr; c_slot := fun t => if Nat.eqb t s then v else c_slot tr t |}.

Definition apply_entry (T : ctables) (tr : ctrait) (e : entry) (v : Z) : ctrait :=
  match e with
  | LIdx f => upd_fn tr f (nth (Z.to_nat v) (ct_restore T f) 0%Z)
  | LObj s => upd_slot tr s v
  | LNone => tr
  end.

Fixpoint setstate_go (T : ctables) (L : list entry) (st : list Z) (tr : ctrait) : ctrait :=
  match L, st with
  | e :: L', v :: st' => setstate_go T L' st' (apply_entry T tr e v)
  | _, _ => tr
  end.
Definition setstate (T : ctables) (st : list Z) (tr0 : ctrait) : ctrait := setstate_go T (ct_set_layout T) st tr0.

Definition ctrait_agree (T : ctables) (a b : ctrait) : Prop :=
  (forall fld, c_fn a fld = c_fn b fld) /\
  (forall s, In (LObj s) (ct_get_layout T) -> c_slot a s = c_slot b s).

Definition restored_fn (T : ctables) (fld : field) (f : Z) : option Z :=
  match func_index f (ct_search T fld) with
  | Some i => Some (nth i (ct_restore T fld) 0%Z)
  | None => None
  end.

Lemma field_eqb_eq : forall a b, field_eqb a b = true <-> a = b.
Proof. intros a b; split; [destruct a, b; simpl; intro H; try reflexivity; discriminate | intros ->; destruct b; reflexivity]. Qed.

Lemma zlist_eqb_eq : forall a b, zlist_eqb a b = true -> a = b.
Proof.
  induction a as [|x a IH]; destruct b as [|y b]; simpl; intro H; try reflexivity; try discriminate.
  apply andb_true_iff in H. destruct H as [H1 H2]. apply Z.eqb_eq in H1. f_equal; auto.
Qed.

Lemma entry_eqb_eq : forall a b, entry_eqb a b = true -> a = b.
Proof.
  destruct a, b; simpl; intro H; try reflexivity; try discriminate.
  - apply field_eqb_eq in H. congruence.
  - apply Nat.eqb_eq in H. congruence.
Qed.

Lemma entry_eq_dec : forall a b : entry, {a = b} + {a <> b}.
Proof. decide equality; [decide equality | apply Nat.eq_dec]. Qed.

Lemma elist_eqb_eq : forall a b, elist_eqb a b = true -> a = b.
Proof.
  induction a as [|x a IH]; destruct b as [|y b]; simpl; intro H; try reflexivity; try discriminate.
  apply andb_true_iff in H. destruct H as [H1 H2]. apply entry_eqb_eq in H1. f_equal; auto.
Qed.

Lemma memz_in : forall f t, memz f t = true <-> In f t.
Proof.
  intros f t. unfold memz. rewrite existsb_exists. split.
  - intros [x [Hin He]]. apply Z.eqb_eq in He. subst. exact Hin.
  - intro Hin. exists f. split; [exact Hin | apply Z.eqb_refl].
Qed.

(* the search of a function that IS in the table stops inside the table, at an entry equal to it *)
Lemma func_index_in : forall f t, In f t ->
  exists i, func_index f t = Some i /\ i < length t /\ nth i t 0%Z = f.
Proof.
  intros f t. induction t as [|x r IH]; simpl; intro Hin; [contradiction|].
  destruct (Z.eqb f x) eqn:E.
  - apply Z.eqb_eq in E. exists 0. repeat split; [lia | congruence].
  - destruct Hin as [Hx | Hr]; [subst; rewrite Z.eqb_refl in E; discriminate|].
    destruct (IH Hr) as [i [H1 [H2 H3]]]. exists (S i). rewrite H1. simpl. repeat split; [lia | exact H3].
Qed.

(* and conversely: a search that stops found the function (so None = ran off the end iff absent) *)
Lemma func_index_none : forall f t, func_index f t = None <-> ~ In f t.
Proof.
  intros f t. induction t as [|x r IH]; simpl; [tauto|].
  destruct (Z.eqb_spec f x) as [->|N]; [split; [discriminate | tauto]|].
  destruct (func_index f r); simpl.
  - split; [discriminate|]. intro H. assert (Some n = None) by (apply IH; tauto). discriminate.
  - split; [|reflexivity]. intros _ [E|I]; [congruence | exact (proj1 IH eq_refl I)].
Qed.

(* what the boolean checks say, read back *)
Lemma field_ok_parts : forall T fld, field_ok T fld = true ->
  ct_restore T fld = ct_search T fld /\ In 0%Z (ct_search T fld) /\ In (LIdx fld) (ct_get_layout T).
Proof.
  intros T fld H. unfold field_ok in H. rewrite !andb_true_iff, existsb_exists in H.
  destruct H as [[R N] [e [Hin He]]]. apply entry_eqb_eq in He. subst e.
  split; [exact (zlist_eqb_eq _ _ R)|]. split; [apply memz_in, N | exact Hin].
Qed.

Lemma site_ok_parts : forall T fld s, site_ok T (fld, s) = true ->
  site_in_bounds s = true /\ forall f, In f (site_values s) -> In f (ct_search T fld).
Proof.
  intros T fld s H. unfold site_ok in H. cbn [fst snd] in H. rewrite andb_true_iff, forallb_forall in H.
  destruct H as [B V]. split; [exact B|]. intros f Hf. apply memz_in, V, Hf.
Qed.

Section General.
Variable T : ctables.
Hypothesis OK : tables_ok T = true.

Lemma ok_parts :
  (forall fld, field_ok T fld = true) /\ (forall p, In p (ct_sites T) -> site_ok T p = true)
  /\ ct_get_layout T = ct_set_layout T.
Proof.
  unfold tables_ok in OK. apply andb_true_iff in OK. destruct OK as [H12 H3].
  apply andb_true_iff in H12. destruct H12 as [H1 H2].
  split; [|split].
  - intro fld. rewrite forallb_forall in H1. apply H1. destruct fld; simpl; tauto.
  - intros p Hp. rewrite forallb_forall in H2. apply H2. exact Hp.
  - apply elist_eqb_eq. exact H3.
Qed.

Lemma restore_is_search : forall fld, ct_restore T fld = ct_search T fld.
Proof. intro fld. apply field_ok_parts, ok_parts. Qed.

Lemma can_hold_in_search : forall fld f, can_hold T fld f -> In f (ct_search T fld).
Proof.
  intros fld f [| s f' Hin Hv | i Hi].
  - apply (field_ok_parts T fld), ok_parts.
  - apply (site_ok_parts T fld s); [apply ok_parts, Hin | exact Hv].
  - rewrite restore_is_search in *. apply nth_In. exact Hi.
Qed.

Lemma assigned_in_table : forall fld f, can_hold T fld f ->
  exists i, func_index f (ct_search T fld) = Some i /\ i < length (ct_search T fld).
Proof.
  intros fld f H. destruct (func_index_in f _ (can_hold_in_search _ _ H)) as [i [H1 [H2 _]]].
  exists i. split; assumption.
Qed.

Lemma guards_in_bounds : forall fld s, In (fld, s) (ct_sites T) -> site_in_bounds s = true.
Proof. intros fld s Hin. apply (site_ok_parts T fld s), ok_parts, Hin. Qed.

Lemma getstate_setstate_roundtrip : forall fld f, can_hold T fld f -> restored_fn T fld f = Some f.
Proof.
  intros fld f H. unfold restored_fn.
  destruct (func_index_in f _ (can_hold_in_search _ _ H)) as [i [H1 [_ H3]]].
  rewrite H1, restore_is_search, H3. reflexivity.
Qed.

Lemma getstate_total : forall tr, wf_ctrait T tr -> forall L, exists st, getstate_go T L tr = Some st.
Proof.
  intros tr WF L. induction L as [|e L IH]; simpl; [eexists; reflexivity|].
  destruct IH as [r Hr]. rewrite Hr.
  destruct e as [f| s |]; simpl.
  - destruct (assigned_in_table f _ (WF f)) as [i [Hi _]]. rewrite Hi. simpl. eexists; reflexivity.
  - eexists; reflexivity.
  - eexists; reflexivity.
Qed.

(* Restoring along a layout: the slot e0 of the layout restores its own part q of the trait, the other slots leave q
   alone; so q is restored if e0 occurs in the layout (or q was right to begin with). *)
Lemma setstate_go_restores : forall tr (q : ctrait -> Z) e0,
  (forall tr1 e v, e <> e0 -> q (apply_entry T tr1 e v) = q tr1) ->
  (forall tr1 v, entry_value T tr e0 = Some v -> q (apply_entry T tr1 e0 v) = q tr) ->
  forall L st tr0, getstate_go T L tr = Some st -> In e0 L \/ q tr0 = q tr -> q (setstate_go T L st tr0) = q tr.
Proof.
  intros tr q e0 Frame Restore L. induction L as [|e L IH]; intros st tr0 Hg Hor; simpl in *.
  - destruct Hor as [[] | H]. destruct st; exact H.
  - destruct (entry_value T tr e) as [v|] eqn:Ev; [|discriminate].
    destruct (getstate_go T L tr) as [r|]; [|discriminate]. injection Hg as <-. apply IH; [reflexivity|].
    destruct (entry_eq_dec e e0) as [->|N]; [right; apply Restore, Ev|].
    destruct Hor as [[E | I] | H]; [congruence | left; exact I | right; rewrite Frame; assumption].
Qed.

Lemma setstate_go_fn : forall tr, wf_ctrait T tr -> forall L st tr0 fld,
  getstate_go T L tr = Some st ->
  (In (LIdx fld) L \/ c_fn tr0 fld = c_fn tr fld) ->
  c_fn (setstate_go T L st tr0) fld = c_fn tr fld.
Proof.
  intros tr WF L st tr0 fld. apply (setstate_go_restores tr (fun t => c_fn t fld) (LIdx fld)).
  - intros tr1 [f | s |] v N; try reflexivity. simpl.
    destruct (field_eqb fld f) eqn:E; [apply field_eqb_eq in E; congruence | reflexivity].
  - intros tr1 v Ev. simpl in *. rewrite (proj2 (field_eqb_eq fld fld) eq_refl).
    pose proof (getstate_setstate_roundtrip _ _ (WF fld)) as R. unfold restored_fn in R.
    destruct (func_index (c_fn tr fld) (ct_search T fld)) as [i|]; [|discriminate].
    injection Ev as <-. rewrite Nat2Z.id. injection R as R. exact R.
Qed.

Lemma setstate_go_slot : forall tr L st tr0 s,
  getstate_go T L tr = Some st ->
  (In (LObj s) L \/ c_slot tr0 s = c_slot tr s) ->
  c_slot (setstate_go T L st tr0) s = c_slot tr s.
Proof.
  intros tr L st tr0 s. apply (setstate_go_restores tr (fun t => c_slot t s) (LObj s)).
  - intros tr1 [f | s' |] v N; try reflexivity. simpl.
    destruct (Nat.eqb s s') eqn:E; [apply Nat.eqb_eq in E; congruence | reflexivity].
  - intros tr1 v Ev. simpl in *. rewrite Nat.eqb_refl. congruence.
Qed.

Lemma layout_has_field : forall fld, In (LIdx fld) (ct_get_layout T).
Proof. intro fld. apply field_ok_parts, ok_parts. Qed.

(* A trait definition object whose fields hold only what the code can put there pickles
   (no out-of-bounds search) and is restored, from ANY previous content tr0, to the same five
   functions and the same object slots. *)
Lemma ctrait_roundtrip : forall tr tr0, wf_ctrait T tr ->
  exists st, getstate T tr = Some st /\ ctrait_agree T (setstate T st tr0) tr.
Proof.
  intros tr tr0 WF. unfold getstate, setstate.
  destruct (getstate_total tr WF (ct_get_layout T)) as [st Hst]. exists st. split; [exact Hst|].
  destruct ok_parts as [_ [_ HL]]. rewrite <- HL. split.
  - intro fld. apply setstate_go_fn; [exact WF | exact Hst | left; apply layout_has_field].
  - intros s Hs. apply setstate_go_slot with (tr := tr); [exact Hst | left; exact Hs].
Qed.

End General.

(* ----- evaluation of observed trait-definition round trips (C14 / C18 run-time stream) -----
   one case = (function indices __getstate__ returned, in [all_fields] order;
               indices __getstate__ returned on the restored/copied trait;
               restored trait behaved identically on the probe lattice; the subprocess crashed;
               the reference counts of the state's objects are what the traits holding them explain) *)
Definition ctrait_case := (list Z * list Z * bool * bool * bool)%type.

Fixpoint forallb2 {A B} (f : A -> B -> bool) (a : list A) (b : list B) : bool :=
  match a, b with
  | [], [] => true
  | x :: a', y :: b' => f x y && forallb2 f a' b'
  | _, _ => false
  end.

Definition idx_in_bounds (T : ctables) (fld : field) (i : Z) : bool :=
  (0 <=? i)%Z && (Z.to_nat i <? length (ct_search T fld)).

(* consistency with the model of func_index: a linear search returns the FIRST occurrence *)
Definition idx_first (T : ctables) (fld : field) (i : Z) : bool :=
  match func_index (nth (Z.to_nat i) (ct_search T fld) 0%Z) (ct_search T fld) with
  | Some j => Nat.eqb j (Z.to_nat i)
  | None => false
  end.

(* law: 1 crash, 2 an index outside its table, 3 the copy pickles to different functions, 4 behaviour differs,
   6 reference counts of the state's objects not neutral *)
Definition ctrait_law_codes (T : ctables) (c : ctrait_case) : list Z :=
  let '(idx, idx2, same, crashed, rc_ok) := c in
  if crashed then [1%Z] else
  (if forallb2 (idx_in_bounds T) all_fields idx && forallb2 (idx_in_bounds T) all_fields idx2 then [] else [2%Z])
  ++ (if zlist_eqb idx idx2 then [] else [3%Z])
  ++ (if same then [] else [4%Z])
  ++ (if rc_ok then [] else [6%Z]).

Definition ctrait_corr_codes (T : ctables) (c : ctrait_case) : list Z :=
  let '(idx, idx2, same, crashed, rc_ok) := c in
  if crashed then [] else
  if forallb2 (idx_in_bounds T) all_fields idx then
    (if forallb2 (idx_first T) all_fields idx then [] else [5%Z])
  else [].
