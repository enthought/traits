(* For every list operation of Common/PyList.v: where the items of its result come from
   ([incl l' (new ++ l)]: old items and the given new ones, so that [Forall P] is kept by
   [incl_Forall]) and the exact length of the result.  Used by C04 (containers never hold
   an invalid element / illegal length). *)
From Coq Require Import ZArith List Arith Lia Bool PeanoNat Permutation.
From TV Require Import Common.PySlice Common.PyList.
Import ListNotations.

(* [[f x for x in xs]], the first rejection aborts.  C05.Model.vld_all, C04.SetModel.vld_all and
   C04.Model.ivld_all are this fixpoint at their validators, so the three facts below apply to them
   as they stand; C04.Deep.mapM takes the function as an argument of the fixpoint and is equal to it
   by induction (C04/DeepProofs.mapM_all_valid). *)
Section AllValid.
  Context {A B : Type}.
  Variable f : A -> option B.

  Fixpoint all_valid (xs : list A) : option (list B) :=
    match xs with
    | [] => Some []
    | x :: r => match f x with
                | None => None
                | Some y => match all_valid r with None => None | Some ys => Some (y :: ys) end
                end
    end.

  Lemma all_valid_cons x r ys : all_valid (x :: r) = Some ys ->
    exists y t, f x = Some y /\ all_valid r = Some t /\ ys = y :: t.
  Proof.
    cbn. destruct (f x) as [y|]; [|discriminate]. destruct (all_valid r) as [t|]; [|discriminate].
    intros [= <-]. eauto.
  Qed.

  Lemma all_valid_length xs : forall ys, all_valid xs = Some ys -> length ys = length xs.
  Proof.
    induction xs as [|x r IH]; intros ys H; [injection H as <-; reflexivity|].
    destruct (all_valid_cons _ _ _ H) as (y & t & _ & Ht & ->). cbn. f_equal. exact (IH t Ht).
  Qed.

  Lemma all_valid_range (Q : B -> Prop) : (forall x y, f x = Some y -> Q y) ->
    forall xs ys, all_valid xs = Some ys -> Forall Q ys.
  Proof.
    intros HQ. induction xs as [|x r IH]; intros ys H; [injection H as <-; constructor|].
    destruct (all_valid_cons _ _ _ H) as (y & t & Hy & Ht & ->). constructor; [exact (HQ x y Hy)|exact (IH t Ht)].
  Qed.

  Lemma all_valid_accepted (acc : A -> bool) : (forall x y, f x = Some y -> acc x = true) ->
    forall xs ys, all_valid xs = Some ys -> forallb acc xs = true.
  Proof.
    intros Hacc. induction xs as [|x r IH]; intros ys H; [reflexivity|].
    destruct (all_valid_cons _ _ _ H) as (y & t & Hy & Ht & _). cbn. rewrite (Hacc x y Hy), (IH t Ht). reflexivity.
  Qed.
End AllValid.

Section Items.
Context {A : Type}.
Implicit Types l V : list A.

Lemma incl_firstn n l : incl (firstn n l) l.
Proof. rewrite <- (firstn_skipn n l) at 2. apply incl_appl, incl_refl. Qed.
Lemma incl_skipn n l : incl (skipn n l) l.
Proof. rewrite <- (firstn_skipn n l) at 2. apply incl_appr, incl_refl. Qed.

(* set_nth, del_nth, ins_nth and slice assignment with step 1 are splices: a prefix and a suffix of l around V *)
Lemma splice_incl n m V l : incl (firstn n l ++ V ++ skipn m l) (V ++ l).
Proof.
  apply incl_app; [apply incl_appr, incl_firstn|].
  apply incl_app; [apply incl_appl, incl_refl|apply incl_appr, incl_skipn].
Qed.
Lemma splice_length n m V l : n <= length l ->
  length (firstn n l ++ V ++ skipn m l) = n + length V + (length l - m).
Proof. intros H. rewrite !app_length, firstn_length, skipn_length. lia. Qed.

Lemma set_nth_incl n v l : incl (set_nth n v l) (v :: l).
Proof. exact (splice_incl n (S n) [v] l). Qed.
Lemma del_nth_incl n l : incl (del_nth n l) l.
Proof. exact (splice_incl n (S n) [] l). Qed.
Lemma ins_nth_incl n v l : incl (ins_nth n v l) (v :: l).
Proof. exact (splice_incl n n [v] l). Qed.

Lemma set_nth_length n v l : n < length l -> length (set_nth n v l) = length l.
Proof. intros H. change (set_nth n v l) with (firstn n l ++ [v] ++ skipn (S n) l). rewrite splice_length; cbn; lia. Qed.
Lemma del_nth_length n l : n < length l -> S (length (del_nth n l)) = length l.
Proof. intros H. change (del_nth n l) with (firstn n l ++ [] ++ skipn (S n) l). rewrite splice_length; cbn; lia. Qed.
Lemma ins_nth_length n v l : length (ins_nth n v l) = S (length l).
Proof.
  unfold ins_nth. rewrite app_length, firstn_length. cbn [length]. rewrite skipn_length. lia.
Qed.

Lemma set_nth_same l j x : nth_error l j = Some x -> set_nth j x l = l.
Proof.
  revert l. induction j as [|j IH]; intros [|a l] H; cbn in H; try discriminate.
  - injection H as ->. reflexivity.
  - unfold set_nth in *. cbn. f_equal. exact (IH l H).
Qed.

Lemma assoc_In Ps V i v : assoc Ps V i = Some v -> In v V.
Proof.
  revert V. induction Ps as [|p Ps IH]; intros [|w V] H; cbn in H; try discriminate.
  destruct (Nat.eqb p i); [injection H as ->; left; reflexivity|right; exact (IH V H)].
Qed.

Lemma assign_at_incl l Ps V : incl (assign_at l Ps V) (V ++ l).
Proof.
  unfold assign_at. generalize 0. induction l as [|a l IH]; intros k x Hx; [destruct Hx|].
  apply in_app_iff. destruct Hx as [<-|Hx].
  - destruct (assoc Ps V k) as [v|] eqn:E; [left; exact (assoc_In _ _ _ _ E)|right; left; reflexivity].
  - apply IH, in_app_iff in Hx. destruct Hx; [left|right; right]; assumption.
Qed.

Lemma delete_at_incl l Ps : incl (delete_at l Ps) l.
Proof.
  unfold delete_at. generalize 0. induction l as [|a l IH]; intros k x Hx; [destruct Hx|].
  cbn in Hx. destruct (negb _); [destruct Hx as [<-|Hx]; [left; reflexivity|]|]; right; exact (IH _ _ Hx).
Qed.

Lemma filteri_from_filter_seq k f l :
  length (filteri_from k f l) = length (filter f (seq k (length l))).
Proof.
  revert k. induction l as [|a l IH]; intros k; cbn; [reflexivity|].
  destruct (f k); cbn; rewrite IH; reflexivity.
Qed.

Lemma filter_split_length {B} (f : B -> bool) (s : list B) :
  length (filter f s) + length (filter (fun x => negb (f x)) s) = length s.
Proof. induction s as [|x s IH]; cbn; [reflexivity|]. destruct (f x); cbn; lia. Qed.

(* deleting a duplicate-free set of valid positions removes exactly that many items *)
Lemma delete_at_length l Ps :
  NoDup Ps -> (forall p, In p Ps -> p < length l) ->
  length (delete_at l Ps) + length Ps = length l.
Proof.
  intros ND HB. unfold delete_at. rewrite filteri_from_filter_seq.
  set (g := fun i => existsb (Nat.eqb i) Ps).
  pose proof (filter_split_length g (seq 0 (length l))) as S. rewrite seq_length in S.
  assert (length (filter g (seq 0 (length l))) = length Ps) as E.
  { apply Permutation_length. apply NoDup_Permutation.
    - apply NoDup_filter, seq_NoDup.
    - exact ND.
    - intros x. rewrite filter_In, in_seq. subst g. cbn beta. rewrite existsb_exists. split.
      + intros [_ (y & Hy & E)]. apply Nat.eqb_eq in E. subst. exact Hy.
      + intros Hx. split; [specialize (HB x Hx); lia|]. exists x. split; [exact Hx|apply Nat.eqb_refl]. }
  change (fun i => negb (existsb (Nat.eqb i) Ps)) with (fun i => negb (g i)). lia.
Qed.

Lemma rep_incl l n : incl (rep l n) l.
Proof. induction n; cbn; [intros x []|apply incl_app; [apply incl_refl|assumption]]. Qed.
Lemma rep_length l n : length (rep l n) = n * length l.
Proof. induction n; cbn; [reflexivity|]. rewrite app_length, IHn. reflexivity. Qed.

Lemma ins_sorted_perm leb x l : Permutation (ins_sorted leb x l) (x :: l).
Proof.
  induction l as [|y l IH]; cbn; [reflexivity|]. destruct (leb x y); [reflexivity|].
  rewrite IH. apply perm_swap.
Qed.
Lemma sort_perm leb r l : Permutation (sort leb r l) l.
Proof.
  assert (forall m, Permutation (isort leb m) m) as I.
  { induction m as [|x m IH]; cbn; [reflexivity|]. rewrite ins_sorted_perm, IH. reflexivity. }
  unfold sort. destruct r; [|apply I]. rewrite <- Permutation_rev, I. symmetry. apply Permutation_rev.
Qed.
End Items.

Local Open Scope Z_scope.
Section Methods.
Context {A : Type}.
Implicit Types l r vs : list A.

Lemma zmax_zlen l : Z.max (zlen l) 0 = zlen l.
Proof. unfold zlen. lia. Qed.

(* a length is not negative: the form in which the shrinking overrides announce theirs *)
Lemma res_max l l' new n : incl l' (new ++ l) /\ zlen l' = n -> incl l' (new ++ l) /\ zlen l' = Z.max n 0.
Proof. intros [S <-]. split; [exact S|]. symmetry. apply zmax_zlen. Qed.

(* reverse and sort *)
Lemma perm_res l l' : Permutation l' l -> incl l' l /\ zlen l' = zlen l.
Proof.
  intros H. split; [intros x; apply Permutation_in; exact H|].
  unfold zlen. rewrite (Permutation_length H). reflexivity.
Qed.

(* append, extend, += *)
Lemma extend_res l vs : incl (l ++ vs) (vs ++ l) /\ zlen (l ++ vs) = zlen l + zlen vs.
Proof.
  split; [apply incl_app; [apply incl_appr|apply incl_appl]; apply incl_refl|].
  unfold zlen. rewrite app_length. lia.
Qed.

Lemma append_res l v : incl (l ++ [v]) (v :: l) /\ zlen (l ++ [v]) = zlen l + 1.
Proof. exact (extend_res l [v]). Qed.

Lemma setitem_int_res l l' i v : setitem_int l i v = Ok l' -> incl l' (v :: l) /\ zlen l' = zlen l.
Proof.
  unfold setitem_int. destruct (in_range (zlen l) i) eqn:R; [|discriminate]. intros [= <-].
  split; [apply set_nth_incl|]. unfold zlen. rewrite set_nth_length; [reflexivity|apply in_range_lt, R].
Qed.

(* del l[i], pop and remove delete one item *)
Lemma del_nth_res n l : (n < length l)%nat -> incl (del_nth n l) l /\ zlen (del_nth n l) = zlen l - 1.
Proof. intros H. split; [apply del_nth_incl|]. pose proof (del_nth_length n l H). unfold zlen. lia. Qed.

Lemma delitem_int_res l l' i : delitem_int l i = Ok l' -> incl l' l /\ zlen l' = zlen l - 1.
Proof.
  unfold delitem_int. destruct (in_range (zlen l) i) eqn:R; [|discriminate]. intros [= <-].
  apply del_nth_res, in_range_lt, R.
Qed.

Lemma pop_res l l' i x : pop l i = Ok (x, l') -> incl l' l /\ zlen l' = zlen l - 1.
Proof.
  unfold pop, getitem_int. destruct (in_range (zlen l) i) eqn:R; [|discriminate].
  destruct (nth_error l (nat_index (zlen l) i)); [|discriminate]. intros [= _ <-].
  apply del_nth_res, in_range_lt, R.
Qed.

Lemma index_of_lt eqb (x : A) l n : index_of eqb x l = Some n -> (n < length l)%nat.
Proof.
  revert n. induction l as [|a l IH]; intros n H; cbn in H; [discriminate|].
  destruct (eqb a x); [injection H as <-; cbn; lia|].
  destruct (index_of eqb x l) as [m|]; [|discriminate]. injection H as <-. specialize (IH m eq_refl). cbn. lia.
Qed.
Lemma remove_res eqb l l' x : remove eqb l x = Ok l' -> incl l' l /\ zlen l' = zlen l - 1.
Proof.
  unfold remove. destruct (index_of eqb x l) as [n|] eqn:E; [|discriminate]. intros [= <-].
  exact (del_nth_res n l (index_of_lt eqb x l n E)).
Qed.

Lemma insert_res l i v : incl (insert l i v) (v :: l) /\ zlen (insert l i v) = zlen l + 1.
Proof. split; [apply ins_nth_incl|]. unfold insert, zlen. rewrite ins_nth_length. lia. Qed.

Lemma imul_res l n : incl (imul l n) l /\ zlen (imul l n) = Z.max 0 (zlen l * n).
Proof.
  unfold imul, zlen. destruct (n <? 1) eqn:E.
  - split; [intros x []|]. cbn. nia.
  - split; [apply rep_incl|]. rewrite rep_length. nia.
Qed.

Lemma select_npos_length l sl : slice_step sl <> 0 ->
  length (select l (npos (zlen l) sl)) = length (npos (zlen l) sl).
Proof. intros Hs. apply select_length. intros p. apply npos_bounds. exact Hs. Qed.

(* the positions a slice selects are distinct valid indices: deleting them removes that many items *)
Lemma delete_at_npos_length l sl : slice_step sl <> 0 ->
  (length (delete_at l (npos (zlen l) sl)) + length (npos (zlen l) sl) = length l)%nat.
Proof. intros Hs. exact (delete_at_length l _ (npos_NoDup l sl Hs) (fun p => npos_bounds l sl p Hs)). Qed.

Lemma delitem_slice_res l l' r sl :
  delitem_slice l sl = Ok l' -> getitem_slice l sl = Ok r -> incl l' l /\ zlen l' = zlen l - zlen r.
Proof.
  unfold delitem_slice, getitem_slice. destruct (Z.eqb_spec (slice_step sl) 0) as [|Hs]; [discriminate|].
  intros [= <-] [= <-]. split; [apply delete_at_incl|].
  pose proof (delete_at_npos_length l sl Hs). pose proof (select_npos_length l sl Hs). unfold zlen in *. lia.
Qed.

Lemma setitem_slice_res l l' r vs sl :
  setitem_slice l sl vs = Ok l' -> getitem_slice l sl = Ok r ->
  incl l' (vs ++ l) /\ zlen l' = (if slice_step sl =? 1 then zlen l - zlen r + zlen vs else zlen l).
Proof.
  unfold setitem_slice, getitem_slice. destruct (Z.eqb_spec (slice_step sl) 0) as [|Hs]; [discriminate|].
  pose proof (indices_step (zlen l) sl) as HS.
  destruct (indices (zlen l) sl) as [[a b] c] eqn:Hidx. cbn [snd] in HS. subst c.
  pose proof (select_npos_length l sl Hs) as E2. intros H1 [= <-].
  destruct (Z.eqb_spec (slice_step sl) 1) as [H1'|H1'].
  - injection H1 as <-. rewrite H1' in Hidx. split; [apply splice_incl|].
    destruct (step1_positions l sl a b Hidx) as (Ha & n & HP & Hn & Hle).
    rewrite HP, upto_length in E2. rewrite HP. unfold zlen. rewrite splice_length, E2; lia.
  - destruct (Nat.eqb (length vs) (length (npos (zlen l) sl))); [|discriminate].
    injection H1 as <-. split; [apply assign_at_incl|]. unfold zlen. rewrite assign_at_length. reflexivity.
Qed.
End Methods.
