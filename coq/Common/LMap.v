(* Finite maps from integer key atoms to integer value atoms as association
   lists in insertion order, read through [lookup] (first binding wins) and
   compared extensionally.  Companion of Common/LSet.v (keys are LSet sets).
   [mset] follows the built-in dict: an existing key keeps its position, a new
   key is appended, so the last element is the one popitem() returns. *)
From Coq Require Import ZArith List Bool.
From TV Require Import Common.LSet.
Import ListNotations.
Open Scope Z_scope.

Definition amap := list (Z * Z).

Fixpoint lookup (k : Z) (m : amap) : option Z :=
  match m with
  | [] => None
  | (k', v) :: r => if k =? k' then Some v else lookup k r
  end.
Definition has (k : Z) (m : amap) : bool := match lookup k m with Some _ => true | None => false end.
Definition keys (m : amap) : list Z := map fst m.
Definition mremove (k : Z) (m : amap) : amap := filter (fun p => negb (k =? fst p)) m.
Fixpoint mset (k v : Z) (m : amap) : amap :=
  match m with
  | [] => [(k, v)]
  | (k', v') :: r => if k =? k' then (k, v) :: r else (k', v') :: mset k v r
  end.
(* dict.update(pairs): later pairs win, new keys appended in order *)
Definition update_all (ps m : amap) : amap := fold_left (fun acc p => mset (fst p) (snd p) acc) ps m.
(* drop all keys of [ks] *)
Definition minus (m : amap) (ks : list Z) : amap := filter (fun p => negb (mem (fst p) ks)) m.
Definition oz_eqb (a b : option Z) : bool :=
  match a, b with Some x, Some y => x =? y | None, None => true | _, _ => false end.
Definition mapeq (a b : amap) : bool :=
  forallb (fun k => oz_eqb (lookup k a) (lookup k b)) (keys a ++ keys b).
Definition mempty (m : amap) : bool := match m with [] => true | _ => false end.
(* last binding in insertion order *)
Definition last_item (m : amap) : option (Z * Z) :=
  match rev m with [] => None | p :: _ => Some p end.

Lemma oz_eqb_eq a b : oz_eqb a b = true <-> a = b.
Proof.
  destruct a as [x|], b as [y|]; cbn; split; intros H; try congruence; try discriminate.
  - apply Z.eqb_eq in H. congruence.
  - injection H as ->. apply Z.eqb_refl.
Qed.

Lemma lookup_keys k m : mem k (keys m) = has k m.
Proof.
  unfold has. induction m as [|[k' v] r IH]; [reflexivity|]. cbn [keys map fst lookup].
  rewrite mem_cons. destruct (k =? k'); [reflexivity|]. exact IH.
Qed.

Lemma lookup_none_keys k m : lookup k m = None <-> mem k (keys m) = false.
Proof. rewrite lookup_keys. unfold has. destruct (lookup k m); split; congruence. Qed.

Lemma lookup_app k a b :
  lookup k (a ++ b) = match lookup k a with Some v => Some v | None => lookup k b end.
Proof.
  induction a as [|[k' v] r IH]; [reflexivity|]. cbn [app lookup]. destruct (k =? k'); [reflexivity | exact IH].
Qed.

Lemma lookup_filter_key k (f : Z -> bool) m :
  lookup k (filter (fun p => f (fst p)) m) = if f k then lookup k m else None.
Proof.
  induction m as [|[k' v] r IH]; [destruct (f k); reflexivity|]. cbn [filter fst].
  destruct (f k') eqn:Fk'; cbn [lookup]; destruct (Z.eqb_spec k k') as [->|Hne].
  - rewrite Fk'. reflexivity.
  - exact IH.
  - rewrite IH, Fk'. reflexivity.
  - exact IH.
Qed.

Lemma lookup_mremove k k' m : lookup k (mremove k' m) = if k =? k' then None else lookup k m.
Proof.
  unfold mremove. rewrite (lookup_filter_key k (fun x => negb (k' =? x)) m).
  rewrite (Z.eqb_sym k' k). destruct (k =? k'); reflexivity.
Qed.

Lemma lookup_minus k m ks : lookup k (minus m ks) = if mem k ks then None else lookup k m.
Proof.
  unfold minus. rewrite (lookup_filter_key k (fun x => negb (mem x ks)) m). destruct (mem k ks); reflexivity.
Qed.

Lemma lookup_mset k k' v m : lookup k (mset k' v m) = if k =? k' then Some v else lookup k m.
Proof.
  induction m as [|[k2 v2] r IH]; cbn [mset lookup].
  - destruct (k =? k'); reflexivity.
  - destruct (Z.eqb_spec k' k2) as [->|Hne]; cbn [lookup].
    + destruct (k =? k2); reflexivity.
    + destruct (Z.eqb_spec k k2) as [->|Hne2].
      * destruct (Z.eqb_spec k2 k') as [E|_]; [congruence | reflexivity].
      * exact IH.
Qed.

Lemma has_true k m : has k m = true <-> exists v, lookup k m = Some v.
Proof. unfold has. destruct (lookup k m) as [v|]; split; intros H; try discriminate; eauto. destruct H; discriminate. Qed.
Lemma has_false k m : has k m = false <-> lookup k m = None.
Proof. unfold has. destruct (lookup k m); split; congruence. Qed.
Lemma has_cons k k' v' m : has k ((k', v') :: m) = (k =? k') || has k m.
Proof. unfold has. cbn [lookup]. destruct (k =? k'); reflexivity. Qed.
Lemma has_single k x v : has k [(x, v)] = (k =? x).
Proof. rewrite has_cons. apply orb_false_r. Qed.
Lemma has_mset k k' v m : has k (mset k' v m) = (k =? k') || has k m.
Proof. unfold has. rewrite lookup_mset. destruct (k =? k'); reflexivity. Qed.

Lemma forallb_keys (f : Z -> bool) m :
  forallb f (keys m) = true <-> (forall k, has k m = true -> f k = true).
Proof.
  rewrite forallb_forall. split; intros H k Hk.
  - apply H, mem_In. rewrite lookup_keys. exact Hk.
  - apply H. rewrite <- lookup_keys. apply mem_In, Hk.
Qed.

Lemma mapeq_spec a b : mapeq a b = true <-> (forall k, lookup k a = lookup k b).
Proof.
  unfold mapeq. rewrite forallb_forall. split.
  - intros H k. destruct (mem k (keys a ++ keys b)) eqn:E.
    + apply oz_eqb_eq, H, mem_In, E.
    + rewrite mem_app in E. apply orb_false_iff in E. destruct E as [Ea Eb].
      apply lookup_none_keys in Ea. apply lookup_none_keys in Eb. congruence.
  - intros H k _. apply oz_eqb_eq, H.
Qed.

Lemma mapeq_refl a : mapeq a a = true.
Proof. apply mapeq_spec. reflexivity. Qed.
Lemma mapeq_sym a b : mapeq a b = mapeq b a.
Proof. apply eq_true_iff_eq. rewrite !mapeq_spec. split; intros H k; symmetry; apply H. Qed.
Lemma mapeq_false a b : mapeq a b = false -> exists k, lookup k a <> lookup k b.
Proof.
  unfold mapeq. intros H.
  assert (E : existsb (fun k => negb (oz_eqb (lookup k a) (lookup k b))) (keys a ++ keys b) = true).
  { revert H. generalize (keys a ++ keys b). induction l as [|x l IH]; cbn; [discriminate|].
    destruct (oz_eqb (lookup x a) (lookup x b)); cbn; [exact IH | reflexivity]. }
  apply existsb_exists in E. destruct E as [k [_ Hk]]. exists k. intros Heq.
  apply oz_eqb_eq in Heq. rewrite Heq in Hk. discriminate.
Qed.

Lemma mempty_spec m : mempty m = true <-> m = [].
Proof. destruct m; cbn; split; congruence. Qed.
Lemma mempty_lookup m : mempty m = true -> forall k, lookup k m = None.
Proof. intros H k. apply mempty_spec in H. subst. reflexivity. Qed.
Lemma mempty_has m : mempty m = true -> forall k, has k m = false.
Proof. intros H k. apply has_false, mempty_lookup, H. Qed.
Lemma mempty_false m : mempty m = false -> exists k v, lookup k m = Some v.
Proof.
  destruct m as [|[k v] r]; [discriminate|]. intros _. exists k, v. cbn. rewrite Z.eqb_refl. reflexivity.
Qed.

Lemma keys_mset_in k v m x : In x (keys (mset k v m)) <-> x = k \/ In x (keys m).
Proof.
  induction m as [|[k2 v2] r IH]; cbn [mset keys map fst In].
  - intuition.
  - destruct (Z.eqb_spec k k2) as [->|Hne]; cbn [keys map fst In].
    + intuition.
    + unfold keys in IH. rewrite IH. intuition.
Qed.

Lemma nodup_mset k v m : NoDup (keys m) -> NoDup (keys (mset k v m)).
Proof.
  induction m as [|[k2 v2] r IH]; cbn [mset keys map fst]; intros H.
  - constructor; [intros [] | constructor].
  - inversion H as [|? ? Hnin Hr]; subst. destruct (Z.eqb_spec k k2) as [->|Hne]; cbn [keys map fst].
    + constructor; assumption.
    + constructor; [|apply IH; exact Hr]. intros Hin. apply keys_mset_in in Hin.
      destruct Hin as [->|Hin]; [congruence | exact (Hnin Hin)].
Qed.

Lemma nodup_update_all ps : forall m, NoDup (keys m) -> NoDup (keys (update_all ps m)).
Proof.
  induction ps as [|p ps IH]; intros m H; [exact H|]. cbn. apply IH, nodup_mset, H.
Qed.

Lemma lookup_update_all k ps : forall m,
  lookup k (update_all ps m)
  = match lookup k (update_all ps []) with Some v => Some v | None => lookup k m end.
Proof.
  induction ps as [|[k' v'] ps IH]; intros m; [reflexivity|]. cbn [update_all fold_left fst snd].
  change (fold_left (fun acc p => mset (fst p) (snd p) acc) ps ?x) with (update_all ps x).
  rewrite (IH (mset k' v' m)), (IH (mset k' v' [])). rewrite !lookup_mset. cbn [lookup].
  destruct (lookup k (update_all ps [])); [reflexivity|]. destruct (k =? k'); reflexivity.
Qed.

Lemma lookup_update_all_nodup k ps : NoDup (keys ps) -> forall m,
  lookup k (update_all ps m) = match lookup k ps with Some v => Some v | None => lookup k m end.
Proof.
  induction ps as [|[k' v'] ps IH]; intros Hnd m; [reflexivity|]. cbn [update_all fold_left fst snd].
  change (fold_left (fun acc p => mset (fst p) (snd p) acc) ps ?x) with (update_all ps x).
  inversion Hnd as [|? ? Hnin Hr]; subst. rewrite (IH Hr). cbn [lookup]. rewrite lookup_mset.
  destruct (Z.eqb_spec k k') as [->|Hne]; [|reflexivity].
  assert (E : lookup k' ps = None).
  { apply lookup_none_keys. destruct (mem k' (keys ps)) eqn:Em; [|reflexivity].
    apply mem_In in Em. contradiction. }
  rewrite E. reflexivity.
Qed.

Lemma has_update_all k ps : forall m, has k (update_all ps m) = has k ps || has k m.
Proof.
  induction ps as [|[k' v'] ps IH]; intros m; [reflexivity|]. cbn [update_all fold_left fst snd].
  change (fold_left (fun acc p => mset (fst p) (snd p) acc) ps ?x) with (update_all ps x).
  rewrite IH, has_mset, has_cons. destruct (k =? k'), (has k ps); reflexivity.
Qed.

Lemma update_all_app a b m : update_all (a ++ b) m = update_all b (update_all a m).
Proof. unfold update_all. apply fold_left_app. Qed.

Lemma last_item_lookup m k v :
  last_item m = Some (k, v) -> NoDup (keys m) -> lookup k m = Some v.
Proof.
  unfold last_item. intros H Hnd. destruct (rev m) as [|p r] eqn:E; [discriminate|]. injection H as ->.
  assert (Hm : m = rev r ++ [(k, v)]).
  { rewrite <- (rev_involutive m), E. reflexivity. }
  subst m. rewrite lookup_app. destruct (lookup k (rev r)) eqn:El.
  - exfalso. unfold keys in Hnd. rewrite map_app in Hnd. cbn in Hnd.
    apply NoDup_remove_2 in Hnd. rewrite app_nil_r in Hnd. apply Hnd.
    assert (Hh : has k (rev r) = true) by (unfold has; rewrite El; reflexivity).
    rewrite <- lookup_keys in Hh. apply mem_In in Hh. exact Hh.
  - cbn. rewrite Z.eqb_refl. reflexivity.
Qed.

Lemma last_item_has m k v : last_item m = Some (k, v) -> has k m = true.
Proof.
  unfold last_item. destruct (rev m) as [|p r] eqn:E; [discriminate|]. intros H. injection H as ->.
  rewrite <- lookup_keys. apply mem_In, (in_map fst _ (k, v)), in_rev. rewrite E. left. reflexivity.
Qed.
