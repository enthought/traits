(* Built-in Python [list] semantics over an arbitrary item type (models CPython,
   not traits; tied to the interpreter by the C05 correspondence, where every TraitList
   method delegates to the real list).  Index arithmetic is Common/PySlice.v.
   Part 1: position-list level (nat positions): assign_at / delete_at / select,
           order independence and the contiguous (splice) forms.
   Part 2: the list methods with their CPython exception class.
   Style: stdlib + lia. *)
From Coq Require Import ZArith List Arith Lia Bool PeanoNat.
From TV Require Import Common.PySlice.
Import ListNotations.

(* the exception classes of the list methods, and the two more that the trait layers built on this file
   raise themselves (TraitError) or that stand for any other class (OtherError) *)
Inductive exn := IndexError | ValueError | TraitError | TypeError | OtherError | OverflowError.

(* integers that fit Py_ssize_t: list.insert / list.pop / list *= convert their argument to a machine word and raise
   OverflowError otherwise (item access and slices clamp or raise IndexError instead) *)
Definition fits (i : BinNums.Z) : bool := BinInt.Z.leb (BinInt.Z.opp 9223372036854775808) i && BinInt.Z.ltb i 9223372036854775808.
Inductive res (A : Type) := Ok (a : A) | Raise (e : exn).
Arguments Ok {A} a.
Arguments Raise {A} e.

(* a subscript: integer or slice *)
Inductive key := KInt (i : Z) | KSlice (sl : slice).

Section L.
Context {A : Type}.

(* value assigned to index i by "for j: l[P_j] = V_j" *)
Fixpoint assoc (P : list nat) (V : list A) (i : nat) : option A :=
  match P, V with
  | p :: P', v :: V' => if Nat.eqb p i then Some v else assoc P' V' i
  | _, _ => None
  end.

Fixpoint mapi_from (k : nat) (f : nat -> A -> A) (l : list A) : list A :=
  match l with [] => [] | x :: l' => f k x :: mapi_from (S k) f l' end.
Definition assign_at (l : list A) (P : list nat) (V : list A) : list A :=
  mapi_from 0 (fun i x => match assoc P V i with Some v => v | None => x end) l.

Fixpoint filteri_from (k : nat) (keep : nat -> bool) (l : list A) : list A :=
  match l with [] => [] | x :: l' => if keep k then x :: filteri_from (S k) keep l' else filteri_from (S k) keep l' end.
Definition delete_at (l : list A) (P : list nat) : list A :=
  filteri_from 0 (fun i => negb (existsb (Nat.eqb i) P)) l.

Definition pick (l : list A) (p : nat) : list A :=
  match nth_error l p with Some x => [x] | None => [] end.
Definition select (l : list A) (P : list nat) : list A := flat_map (pick l) P.

Fixpoint upto (s n : nat) : list nat := match n with O => [] | S n' => s :: upto (S s) n' end.

(* order independence: assigning, deleting or selecting at a list of positions does not depend on their order
   (C05 reports a reversed slice forwards) *)
Lemma assoc_app P1 V1 P2 V2 i : length P1 = length V1 ->
  assoc (P1 ++ P2) (V1 ++ V2) i = match assoc P1 V1 i with Some v => Some v | None => assoc P2 V2 i end.
Proof.
  revert V1. induction P1 as [|p P1 IH]; intros [|v V1] H; try discriminate; cbn; [reflexivity|].
  destruct (Nat.eqb p i); [reflexivity|]. apply IH. cbn in H. lia.
Qed.

Lemma assoc_none_notin P V i : ~ In i P -> assoc P V i = None.
Proof.
  revert V. induction P as [|p P IH]; intros [|v V] H; cbn; try reflexivity.
  destruct (Nat.eqb_spec p i); [subst; exfalso; apply H; left; reflexivity|].
  apply IH. intros Hin. apply H. right. exact Hin.
Qed.

Lemma assoc_rev P V i : NoDup P -> length P = length V ->
  assoc (rev P) (rev V) i = assoc P V i.
Proof.
  revert V. induction P as [|p P IH]; intros [|v V] ND HL; try discriminate; [reflexivity|].
  cbn [rev]. inversion ND as [|? ? Hnotin ND']; subst. cbn in HL.
  rewrite assoc_app by (rewrite !rev_length; lia).
  rewrite IH by (auto; lia). cbn [assoc].
  destruct (Nat.eqb_spec p i) as [->|Hne].
  - rewrite (assoc_none_notin P V i Hnotin). reflexivity.
  - destruct (assoc P V i); reflexivity.
Qed.

Lemma mapi_from_ext k f g l : (forall i x, f i x = g i x) -> mapi_from k f l = mapi_from k g l.
Proof. intros H. revert k. induction l; intros k; cbn; [reflexivity|]. rewrite H, IHl. reflexivity. Qed.

Lemma mapi_from_length k f l : length (mapi_from k f l) = length l.
Proof. revert k. induction l; intros k; cbn; [reflexivity|]. rewrite IHl. reflexivity. Qed.

Lemma assign_at_length l P V : length (assign_at l P V) = length l.
Proof. apply mapi_from_length. Qed.

Theorem assign_at_rev l P V : NoDup P -> length P = length V ->
  assign_at l (rev P) (rev V) = assign_at l P V.
Proof.
  intros ND HL. unfold assign_at. apply mapi_from_ext. intros i x.
  rewrite assoc_rev by assumption. reflexivity.
Qed.

Lemma existsb_rev (f : nat -> bool) P : existsb f (rev P) = existsb f P.
Proof.
  induction P; cbn; [reflexivity|]. rewrite existsb_app, IHP. cbn. rewrite orb_false_r. apply orb_comm.
Qed.
Lemma filteri_from_ext k f g l : (forall i, f i = g i) -> filteri_from k f l = filteri_from k g l.
Proof. intros H. revert k. induction l; intros k; cbn; [reflexivity|]. rewrite H, IHl. reflexivity. Qed.
Theorem delete_at_rev l P : delete_at l (rev P) = delete_at l P.
Proof. unfold delete_at. apply filteri_from_ext. intros i. rewrite existsb_rev. reflexivity. Qed.

Lemma select_app l P Q : select l (P ++ Q) = select l P ++ select l Q.
Proof. unfold select. apply flat_map_app. Qed.

Lemma pick_rev l p : rev (pick l p) = pick l p.
Proof. unfold pick. destruct (nth_error l p); reflexivity. Qed.

Theorem select_rev l P : select l (rev P) = rev (select l P).
Proof.
  induction P as [|p P IH]; [reflexivity|].
  cbn [rev]. rewrite select_app, IH. cbn [select flat_map]. rewrite app_nil_r.
  rewrite rev_app_distr, pick_rev. reflexivity.
Qed.

Lemma select_length l P : (forall p, In p P -> p < length l) -> length (select l P) = length P.
Proof.
  induction P as [|p P IH]; intros H; [reflexivity|].
  cbn [select flat_map]. rewrite app_length. fold (select l P). rewrite IH by (intros; apply H; right; assumption).
  unfold pick. destruct (nth_error l p) eqn:E; [reflexivity|].
  apply nth_error_None in E. specialize (H p (or_introl eq_refl)). lia.
Qed.

(* contiguous positions are a splice (slices of step 1 or -1, single elements) *)
Lemma upto_length s n : length (upto s n) = n.
Proof. revert s; induction n; intros; cbn; auto. Qed.

Lemma upto_In s n p : In p (upto s n) <-> s <= p < s + n.
Proof.
  revert s; induction n as [|n IH]; intros s; cbn [upto In]; [lia|]. rewrite IH. lia.
Qed.

Lemma assoc_upto_lt s n V i : i < s -> assoc (upto s n) V i = None.
Proof.
  revert s V. induction n as [|n IH]; intros s [|v V] H; cbn; try reflexivity.
  destruct (Nat.eqb_spec s i); [lia|]. apply IH. lia.
Qed.

Lemma mapi_from_id k (f : nat -> A -> A) l : (forall i x, k <= i -> f i x = x) -> mapi_from k f l = l.
Proof.
  revert k. induction l as [|a l IH]; intros k H; cbn; [reflexivity|].
  rewrite H by lia. rewrite IH; [reflexivity|]. intros; apply H; lia.
Qed.

Lemma mapi_from_ext_ge k f g l : (forall i x, k <= i -> f i x = g i x) -> mapi_from k f l = mapi_from k g l.
Proof.
  revert k. induction l as [|a l IH]; intros k H; cbn; [reflexivity|].
  rewrite H by lia. rewrite IH; [reflexivity|]. intros; apply H; lia.
Qed.

Definition Fset (p : nat) (V : list A) (i : nat) (x : A) : A :=
  match assoc (upto p (length V)) V i with Some v => v | None => x end.

Lemma splice_gen V : forall s k l, s + length V <= length l ->
  mapi_from k (Fset (k + s) V) l = firstn s l ++ V ++ skipn (s + length V) l.
Proof.
  induction s as [|s IH]; intros k l H.
  - rewrite Nat.add_0_r. cbn [firstn app Nat.add]. revert k l H.
    induction V as [|v V IHV]; intros k l H.
    + cbn. apply mapi_from_id. reflexivity.
    + destruct l as [|a l]; [cbn in H; lia|]. cbn [length skipn app mapi_from].
      unfold Fset at 1. cbn [length upto assoc]. rewrite Nat.eqb_refl. f_equal.
      rewrite <- (IHV (S k) l) by (cbn in H; lia).
      apply mapi_from_ext_ge. intros i x Hi. unfold Fset. cbn [length upto assoc].
      destruct (Nat.eqb_spec k i); [lia|reflexivity].
  - destruct l as [|a l]; [cbn in H; lia|]. cbn [firstn app mapi_from Nat.add skipn].
    unfold Fset at 1. rewrite assoc_upto_lt by lia. f_equal.
    replace (k + S s) with (S k + s) by lia. apply IH. cbn in H. lia.
Qed.

Theorem assign_at_upto l s V : s + length V <= length l ->
  assign_at l (upto s (length V)) V = firstn s l ++ V ++ skipn (s + length V) l.
Proof. intros H. unfold assign_at. exact (splice_gen V s 0 l H). Qed.

Lemma filteri_from_ext_ge k f g l : (forall i, k <= i -> f i = g i) -> filteri_from k f l = filteri_from k g l.
Proof.
  revert k. induction l as [|a l IH]; intros k H; cbn; [reflexivity|].
  rewrite H by lia. rewrite (IH (S k)); [reflexivity|]. intros; apply H; lia.
Qed.

Lemma filteri_from_all k (f : nat -> bool) l : (forall i, k <= i -> f i = true) -> filteri_from k f l = l.
Proof.
  revert k. induction l as [|a l IH]; intros k H; cbn; [reflexivity|].
  rewrite H by lia. rewrite IH; [reflexivity|]. intros; apply H; lia.
Qed.

Lemma filteri_from_upto n : forall s k l,
  filteri_from k (fun i => negb (existsb (Nat.eqb i) (upto (k + s) n))) l
  = firstn s l ++ skipn (s + n) l.
Proof.
  induction s as [|s IH]; intros k l.
  - rewrite Nat.add_0_r. cbn [firstn app Nat.add]. revert k l.
    induction n as [|n IHn]; intros k l.
    + cbn [upto existsb negb skipn]. apply filteri_from_all. reflexivity.
    + destruct l as [|a l]; [reflexivity|]. cbn [filteri_from upto existsb skipn].
      rewrite Nat.eqb_refl. cbn [orb negb]. rewrite <- (IHn (S k) l).
      apply filteri_from_ext_ge. intros i Hi.
      destruct (Nat.eqb_spec i k); [lia|]. reflexivity.
  - destruct l as [|a l]; [reflexivity|]. cbn [filteri_from firstn app Nat.add skipn].
    replace (existsb (Nat.eqb k) (upto (k + S s) n)) with false.
    + cbn [negb]. f_equal. replace (k + S s) with (S k + s) by lia. apply IH.
    + symmetry. apply not_true_is_false. intros E. apply existsb_exists in E.
      destruct E as (x & Hx & E). apply upto_In in Hx. apply Nat.eqb_eq in E. lia.
Qed.

Theorem delete_at_upto l s n : delete_at l (upto s n) = firstn s l ++ skipn (s + n) l.
Proof. unfold delete_at. exact (filteri_from_upto n s 0 l). Qed.

Theorem select_upto l s n : s + n <= length l -> select l (upto s n) = firstn n (skipn s l).
Proof.
  revert s l. induction n as [|n IH]; intros s l H; [reflexivity|].
  cbn [upto select flat_map]. fold (select l (upto (S s) n)). rewrite IH by lia.
  unfold pick. destruct (nth_error l s) as [x|] eqn:E.
  - apply nth_error_split in E. destruct E as (l1 & l2 & -> & <-).
    assert (forall (m : list A) r, skipn (length m) (m ++ r) = r) as K.
    { intros m r. rewrite skipn_app, skipn_all, Nat.sub_diag. reflexivity. }
    rewrite K. replace (S (length l1)) with (length (l1 ++ [x])) by (rewrite app_length; cbn; lia).
    replace (l1 ++ x :: l2) with ((l1 ++ [x]) ++ l2) by (rewrite <- app_assoc; reflexivity).
    rewrite K. reflexivity.
  - apply nth_error_None in E. lia.
Qed.

Lemma delete_at_length_le l P : length (delete_at l P) <= length l.
Proof.
  unfold delete_at. generalize 0 as k. generalize (fun i => negb (existsb (Nat.eqb i) P)) as f.
  intros f. induction l as [|a l IH]; intros k; cbn; [lia|]. destruct (f k); cbn; specialize (IH (S k)); lia.
Qed.
End L.

(* Part 2: the list methods (CPython Objects/listobject.c), Z indices. *)
Local Open Scope Z_scope.

Definition bind {A B} (r : res A) (f : A -> res B) : res B :=
  match r with Ok a => f a | Raise e => Raise e end.

Section M.
Context {A : Type}.

Definition zlen (l : list A) : Z := Z.of_nat (length l).

(* valid integer subscripts are -len <= i < len; negative ones count from the end *)
Definition in_range (len i : Z) : bool := (- len <=? i) && (i <? len).
Definition norm_index (len i : Z) : Z := if i <? 0 then i + len else i.
Definition nat_index (len i : Z) : nat := Z.to_nat (norm_index len i).

Definition set_nth (n : nat) (v : A) (l : list A) : list A := firstn n l ++ v :: skipn (S n) l.
Definition del_nth (n : nat) (l : list A) : list A := firstn n l ++ skipn (S n) l.
Definition ins_nth (n : nat) (v : A) (l : list A) : list A := firstn n l ++ v :: skipn n l.

(* the nat positions a slice selects in a list of length len *)
Definition npos (len : Z) (sl : slice) : list nat := map Z.to_nat (slice_positions len sl).

Definition getitem_int (l : list A) (i : Z) : res A :=
  if in_range (zlen l) i then
    match nth_error l (nat_index (zlen l) i) with Some x => Ok x | None => Raise IndexError end
  else Raise IndexError.

Definition getitem_slice (l : list A) (sl : slice) : res (list A) :=
  if slice_step sl =? 0 then Raise ValueError else Ok (select l (npos (zlen l) sl)).

Definition setitem_int (l : list A) (i : Z) (v : A) : res (list A) :=
  if in_range (zlen l) i then Ok (set_nth (nat_index (zlen l) i) v l) else Raise IndexError.

Definition delitem_int (l : list A) (i : Z) : res (list A) :=
  if in_range (zlen l) i then Ok (del_nth (nat_index (zlen l) i) l) else Raise IndexError.

(* list_ass_subscript: step 1 -> list_ass_slice (any length, stop clamped up to start);
   otherwise the sizes must agree (ValueError) and the items are assigned one by one *)
Definition setitem_slice (l : list A) (sl : slice) (vs : list A) : res (list A) :=
  if slice_step sl =? 0 then Raise ValueError else
  let '(a, b, c) := indices (zlen l) sl in
  if c =? 1 then Ok (firstn (Z.to_nat a) l ++ vs ++ skipn (Z.to_nat (Z.max a b)) l)
  else
    let P := npos (zlen l) sl in
    if Nat.eqb (length vs) (length P) then Ok (assign_at l P vs) else Raise ValueError.

Definition delitem_slice (l : list A) (sl : slice) : res (list A) :=
  if slice_step sl =? 0 then Raise ValueError else Ok (delete_at l (npos (zlen l) sl)).

(* list.insert: the index is clamped, never an error *)
Definition insert_index (len i : Z) : Z := if i <? 0 then Z.max (i + len) 0 else Z.min i len.
Definition insert (l : list A) (i : Z) (v : A) : list A := ins_nth (Z.to_nat (insert_index (zlen l) i)) v l.

(* list.pop(i): IndexError on an empty list or an index out of range *)
Definition pop (l : list A) (i : Z) : res (A * list A) :=
  bind (getitem_int l i) (fun x => Ok (x, del_nth (nat_index (zlen l) i) l)).

Fixpoint rep (l : list A) (n : nat) : list A := match n with O => [] | S n' => l ++ rep l n' end.
Definition imul (l : list A) (n : Z) : list A := if n <? 1 then [] else rep l (Z.to_nat n).

Section Eq.
  Variable eqb : A -> A -> bool.
  Fixpoint index_of (x : A) (l : list A) : option nat :=
    match l with
    | [] => None
    | y :: r => if eqb y x then Some O else match index_of x r with Some n => Some (S n) | None => None end
    end.
  (* list.remove(x): first item equal to x, ValueError if there is none *)
  Definition remove (l : list A) (x : A) : res (list A) :=
    match index_of x l with Some n => Ok (del_nth n l) | None => Raise ValueError end.
End Eq.

Section Ord.
  Variable leb : A -> A -> bool.
  Fixpoint ins_sorted (x : A) (l : list A) : list A :=
    match l with
    | [] => [x]
    | y :: r => if leb x y then x :: l else y :: ins_sorted x r
    end.
  (* stable: scanning from the right, an item is inserted before the first one that is not smaller, so before the
     equal items that stood behind it *)
  Definition isort (l : list A) : list A := fold_right ins_sorted [] l.
  (* sort(reverse=True) is reverse; sort; reverse (keeps the order of equal items) *)
  Definition sort (reverse : bool) (l : list A) : list A :=
    if reverse then rev (isort (rev l)) else isort l.
End Ord.

Lemma zlen_nonneg (l : list A) : 0 <= zlen l.
Proof. unfold zlen. lia. Qed.

Lemma rep_skip (l : list A) n : skipn (length l) (rep l (S n)) = rep l n.
Proof. cbn [rep]. rewrite skipn_app, skipn_all, Nat.sub_diag. reflexivity. Qed.

Lemma rep_first (l : list A) n : firstn (length l) (rep l (S n)) = l.
Proof. cbn [rep]. rewrite firstn_app, firstn_all, Nat.sub_diag. cbn. apply app_nil_r. Qed.

Lemma npos_bounds (l : list A) sl p : slice_step sl <> 0 -> In p (npos (zlen l) sl) -> (p < length l)%nat.
Proof.
  intros Hs Hin. unfold npos in Hin. apply in_map_iff in Hin. destruct Hin as (z & <- & Hz).
  apply slice_positions_bounds in Hz; [|apply zlen_nonneg|assumption]. unfold zlen in Hz. lia.
Qed.

Lemma map_to_nat_NoDup (P : list Z) : (forall p, In p P -> 0 <= p) -> NoDup P -> NoDup (map Z.to_nat P).
Proof.
  induction P as [|p P IH]; intros Hp ND; cbn; constructor.
  - inversion ND as [|? ? Hn ND']; subst. intros Hin. apply in_map_iff in Hin.
    destruct Hin as (q & E & Hq). apply Hn.
    assert (q = p) as -> by (pose proof (Hp q (or_intror Hq)); pose proof (Hp p (or_introl eq_refl)); lia).
    exact Hq.
  - inversion ND; subst. apply IH; [intros; apply Hp; right; assumption|assumption].
Qed.

Lemma npos_NoDup (l : list A) sl : slice_step sl <> 0 -> NoDup (npos (zlen l) sl).
Proof.
  intros Hs. unfold npos. apply map_to_nat_NoDup.
  - intros p Hp. apply slice_positions_bounds in Hp; [lia|apply zlen_nonneg|assumption].
  - apply slice_positions_NoDup. assumption.
Qed.

Lemma positions_upto s n : 0 <= s -> map Z.to_nat (positions s 1 n) = upto (Z.to_nat s) n.
Proof.
  revert s. induction n as [|n IH]; intros s Hs; [reflexivity|].
  cbn [positions map upto]. f_equal. rewrite IH by lia. f_equal. lia.
Qed.

Lemma in_range_lt (l : list A) i : in_range (zlen l) i = true ->
  0 <= norm_index (zlen l) i /\ (nat_index (zlen l) i < length l)%nat.
Proof. unfold in_range, nat_index, norm_index, zlen. destruct (i <? 0) eqn:E; lia. Qed.

(* the slice operations: a zero step is refused, any other step works on the selected positions *)
Lemma getitem_slice_0 (l : list A) sl : slice_step sl = 0 -> getitem_slice l sl = Raise ValueError.
Proof. intros H. unfold getitem_slice. rewrite H. reflexivity. Qed.
Lemma delitem_slice_0 (l : list A) sl : slice_step sl = 0 -> delitem_slice l sl = Raise ValueError.
Proof. intros H. unfold delitem_slice. rewrite H. reflexivity. Qed.
Lemma setitem_slice_0 (l vs : list A) sl : slice_step sl = 0 -> setitem_slice l sl vs = Raise ValueError.
Proof. intros H. unfold setitem_slice. rewrite H. reflexivity. Qed.

Lemma getitem_slice_ok (l : list A) sl : slice_step sl <> 0 -> getitem_slice l sl = Ok (select l (npos (zlen l) sl)).
Proof. intros H. unfold getitem_slice. apply Z.eqb_neq in H. rewrite H. reflexivity. Qed.

Lemma delitem_slice_ok (l : list A) sl : slice_step sl <> 0 -> delitem_slice l sl = Ok (delete_at l (npos (zlen l) sl)).
Proof. intros H. unfold delitem_slice. apply Z.eqb_neq in H. rewrite H. reflexivity. Qed.

Lemma setitem_slice_ok (l vs : list A) sl a b c : slice_step sl <> 0 -> indices (zlen l) sl = (a, b, c) ->
  setitem_slice l sl vs =
  if c =? 1 then Ok (firstn (Z.to_nat a) l ++ vs ++ skipn (Z.to_nat (Z.max a b)) l)
  else if Nat.eqb (length vs) (length (npos (zlen l) sl)) then Ok (assign_at l (npos (zlen l) sl) vs)
       else Raise ValueError.
Proof. intros H E. unfold setitem_slice. apply Z.eqb_neq in H. rewrite H, E. reflexivity. Qed.

(* a slice of step 1 selects the block [a, max a b) *)
Lemma step1_positions (l : list A) sl a b :
  indices (zlen l) sl = (a, b, 1) ->
  0 <= a /\ exists n, npos (zlen l) sl = upto (Z.to_nat a) n /\
                      (Z.to_nat a + n = Z.to_nat (Z.max a b))%nat /\ (Z.to_nat (Z.max a b) <= length l)%nat.
Proof.
  intros H. destruct sl as [[oa ob] oc].
  destruct (indices_pos _ _ _ _ _ _ _ (zlen_nonneg l) H ltac:(lia)) as [Ha Hb].
  split; [lia|]. unfold npos, slice_positions. rewrite H.
  exists (Z.to_nat (slicelen a b 1)). split; [apply positions_upto; lia|].
  unfold slicelen. cbn [Z.ltb Z.compare]. unfold zlen in *.
  destruct (Z.ltb_spec a b); [rewrite Z.div_1_r|cbn]; lia.
Qed.
End M.
