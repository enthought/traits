(* Common/ObsCore.v — the observer-graph core shared by C08 / C16.

   Objects are [oid]s; a slot [(x, f)] of the heap holds the LIST of next objects:
   0/1 object for an Instance trait, the container object for a List/Dict/Set trait,
   and the items for the pseudo-field of a container object.  [traits] says which traits an
   object has (instance traits can be added with add_trait).

   An observer graph node is given, exactly as the IObserver interface, by the observables
   and next objects it yields on an object x:
       G fs notify extra optional children
   observes the slots (x, f) for f in fs such that x has trait f (iter_observables), and yields
   their content as next objects (iter_objects).  A NamedTraitObserver is fs = [name]
   (optional=True: skipped on objects without the trait), a List/Dict/SetItemObserver is
   fs = [items pseudo-field], a FilteredTraitObserver (match / metadata / anytrait) is fs = the
   trait names matching the filter.  [extra] = the node contributes the trait_added extra graph
   (iter_extra_graphs of named and filtered observers): a TraitAddedObserver maintainer
   [KAdded key g] on (x, trait_added), present whether or not x has the trait yet.  [optional] is the
   observer's optional flag: on an object without the trait an optional node is skipped, a non-optional
   one makes the walk fail (C08/Model.walkable, the only reader of the flag); [expected] describes the hooks of
   walks that do not fail.  [TA] = 10 is the field number C08/Model.v gives the trait_added event trait.

   A notifier is identified by the key (handler, target) — TraitEventNotifier.equals /
   ObserverChangeNotifier.equals.  The hook state is a flat list of [(x, f, kind)]: the notifier
   list of observable (x, f) is the sub-list of entries with that slot (same relative order); the
   reference count of a user notifier is the number of its [KUser] entries.

   Contents: expected / visits / occ / matched, frame and substitution theorems for a heap
   change, the trait-addition theorem, the maintainers found on a slot, invariant preservation
   for one change ([inv_preserved_all]), the executable hook list ([remove1], [remove_all]) with
   soundness and completeness. *)
From Coq Require Import List Arith Lia Bool PeanoNat Permutation.
Import ListNotations.

Definition oid := nat.
Definition fname := nat.
Definition hkey := (nat * oid)%type.          (* (handler id, target object) *)
Inductive graph := G (fs : list fname) (notify extra optional : bool) (children : list graph).
Definition heap := oid -> fname -> list oid.
Definition traits := oid -> fname -> bool.
Definition TA : fname := 10.                   (* the trait_added event trait *)
Definition slot_eqb (x : oid) (f : fname) (o : oid) (fo : fname) := (Nat.eqb x o && Nat.eqb f fo)%bool.
Definition upd (h : heap) (o : oid) (f : fname) (v : list oid) : heap :=
  fun o' f' => if slot_eqb o' f' o f then v else h o' f'.
Definition add_trait (t : traits) (o : oid) (f : fname) : traits :=
  fun o' f' => if slot_eqb o' f' o f then true else t o' f'.
Inductive kind := KUser (k : hkey) | KMaint (k : hkey) (c : graph) | KAdded (k : hkey) (g : graph).
Notation hook := (oid * fname * kind)%type (only parsing).
Definition reg := (hkey * graph)%type.        (* observe(handler, graph) on root = target = snd key *)

Lemma slot_eqb_true x f o fo : slot_eqb x f o fo = true <-> x = o /\ f = fo.
Proof. unfold slot_eqb. rewrite andb_true_iff, !Nat.eqb_eq. tauto. Qed.
Lemma slot_eqb_refl o fo : slot_eqb o fo o fo = true.
Proof. apply slot_eqb_true. split; reflexivity. Qed.
Lemma upd_same h o f v : upd h o f v o f = v.
Proof. unfold upd. rewrite slot_eqb_refl. reflexivity. Qed.
Lemma upd_other h o f v x g : slot_eqb x g o f = false -> upd h o f v x g = h x g.
Proof. intros E. unfold upd. rewrite E. reflexivity. Qed.

(* the hooks of one observable of a node, and what hangs below it *)
Definition own (k : hkey) (n : bool) (cs : list graph) (x : oid) (f : fname) : list hook :=
  (if n then [(x, f, KUser k)] else []) ++ map (fun c => (x, f, KMaint k c)) cs.

(* The hooks that must be present for (key k, graph g) applied to object x. *)
Fixpoint expected (t : traits) (h : heap) (k : hkey) (g : graph) (x : oid) {struct g} : list hook :=
  match g with
  | G fs n e p cs =>
      (if e then [(x, TA, KAdded k g)] else []) ++
      flat_map (fun f =>
        if t x f then
          own k n cs x f ++ flat_map (fun y => flat_map (fun c => expected t h k c y) cs) (h x f)
        else []) fs
  end.

(* does the walk of g from x pass through slot (o, fo)? *)
Fixpoint visits (t : traits) (h : heap) (g : graph) (x o : oid) (fo : fname) {struct g} : bool :=
  match g with
  | G fs _ _ _ cs =>
      existsb (fun f => t x f &&
        (slot_eqb x f o fo || existsb (fun y => existsb (fun c => visits t h c y o fo) cs) (h x f))) fs
  end.

(* the child graphs hanging below each visit of slot (o, fo) *)
Fixpoint occ (t : traits) (h : heap) (g : graph) (x o : oid) (fo : fname) {struct g} : list graph :=
  match g with
  | G fs _ _ _ cs =>
      flat_map (fun f =>
        if t x f then
          (if slot_eqb x f o fo then cs else []) ++
          flat_map (fun y => flat_map (fun c => occ t h c y o fo) cs) (h x f)
        else []) fs
  end.

(* is slot (o, fo) matched by a NOTIFYING node of g from x?  (the from-scratch
   reachability semantics of an expression; what the law recomputes) *)
Fixpoint matched (t : traits) (h : heap) (g : graph) (x o : oid) (fo : fname) {struct g} : bool :=
  match g with
  | G fs n _ _ cs =>
      existsb (fun f => t x f &&
        ((n && slot_eqb x f o fo) || existsb (fun y => existsb (fun c => matched t h c y o fo) cs) (h x f))) fs
  end.

Lemma graph_ind' (P : graph -> Prop) :
  (forall fs n e p cs, Forall P cs -> P (G fs n e p cs)) -> forall g, P g.
Proof.
  intros H. fix IH 1. intros [fs n e p cs]. apply H.
  induction cs as [|c cs IHcs]; constructor; [apply IH|apply IHcs].
Qed.

Lemma flat_map_ext_In {A B} (f g : A -> list B) l :
  (forall a, In a l -> f a = g a) -> flat_map f l = flat_map g l.
Proof. induction l; simpl; intros H; [reflexivity|]. rewrite H, IHl; auto. Qed.
Lemma flat_map_nil_In {A B} (f : A -> list B) l : (forall a, In a l -> f a = []) -> flat_map f l = [].
Proof. induction l; simpl; intros H; [reflexivity|]. rewrite H, IHl; auto. Qed.
Lemma existsb_false_In {A} (p : A -> bool) l : existsb p l = false -> forall a, In a l -> p a = false.
Proof.
  intros H a Ha. destruct (p a) eqn:E; [|reflexivity].
  assert (existsb p l = true) by (apply existsb_exists; eauto). congruence.
Qed.
Lemma existsb_ext_In {A} (p q : A -> bool) l : (forall a, In a l -> p a = q a) -> existsb p l = existsb q l.
Proof. induction l; cbn; intros H; [reflexivity|]. rewrite H, IHl; auto. Qed.
(* Σ_c P c ++ Σ_c Σ_{z ∈ O c} F z, regrouped per c *)
Lemma interleave {A B C} (P : A -> list B) (O : A -> list C) (F : C -> list B) cs :
  Permutation (flat_map P cs ++ flat_map F (flat_map O cs))
              (flat_map (fun c => P c ++ flat_map F (O c)) cs).
Proof.
  induction cs as [|c cs IH]; [reflexivity|]. cbn [flat_map].
  rewrite flat_map_app. rewrite <- !app_assoc. apply Permutation_app_head.
  rewrite app_assoc. rewrite (Permutation_app_comm (flat_map P cs)).
  rewrite <- app_assoc. apply Permutation_app_head. exact IH.
Qed.
Lemma flat_map_plus {A B} (P Q : A -> list B) l :
  Permutation (flat_map P l ++ flat_map Q l) (flat_map (fun a => P a ++ Q a) l).
Proof.
  induction l; cbn [flat_map]; [reflexivity|]. rewrite <- IHl. rewrite <- !app_assoc. apply Permutation_app_head.
  rewrite !app_assoc. apply Permutation_app_tail. apply Permutation_app_comm.
Qed.
Lemma Permutation_flat_map_In {A B} (P Q : A -> list B) cs :
  (forall c, In c cs -> Permutation (P c) (Q c)) -> Permutation (flat_map P cs) (flat_map Q cs).
Proof.
  induction cs as [|c cs IH]; intros H; [reflexivity|]. cbn [flat_map].
  apply Permutation_app; [apply H; left; reflexivity|apply IH; intros; apply H; right; assumption].
Qed.
Lemma flat_map_swap {A B C} (e : A -> B -> list C) (xs : list A) (ys : list B) :
  Permutation (flat_map (fun x => flat_map (fun y => e x y) ys) xs)
              (flat_map (fun y => flat_map (fun x => e x y) xs) ys).
Proof.
  induction xs as [|x xs IH]; cbn [flat_map].
  - symmetry. rewrite flat_map_nil_In; auto.
  - rewrite IH. clear IH. induction ys as [|y ys IHy]; cbn [flat_map]; [reflexivity|].
    rewrite <- !app_assoc. apply Permutation_app_head.
    rewrite <- IHy. rewrite !app_assoc. apply Permutation_app_tail. apply Permutation_app_comm.
Qed.
(* flat_map of a flat_map *)
Lemma ffm {A B C} (f : B -> list C) (g : A -> list B) l :
  flat_map f (flat_map g l) = flat_map (fun x => flat_map f (g x)) l.
Proof. induction l; cbn [flat_map]; [reflexivity|]. rewrite flat_map_app, IHl. reflexivity. Qed.
Lemma flat_map_map {A B C} (f : B -> list C) (g : A -> B) l :
  flat_map f (map g l) = flat_map (fun x => f (g x)) l.
Proof. induction l; cbn; [reflexivity|]. rewrite IHl. reflexivity. Qed.
Lemma map_flat_map {A B C} (f : B -> C) (g : A -> list B) l :
  map f (flat_map g l) = flat_map (fun y => map f (g y)) l.
Proof. induction l; cbn; [reflexivity|]. rewrite map_app, IHl. reflexivity. Qed.

Lemma in_expected t h k fs n e p cs x hk :
  In hk (expected t h k (G fs n e p cs) x) <->
  (e = true /\ hk = (x, TA, KAdded k (G fs n e p cs))) \/
  exists f, In f fs /\ t x f = true /\
    ((n = true /\ hk = (x, f, KUser k)) \/ (exists c, In c cs /\ hk = (x, f, KMaint k c)) \/
     exists y c, In y (h x f) /\ In c cs /\ In hk (expected t h k c y)).
Proof.
  cbn [expected]. split.
  - intros I. apply in_app_or in I. destruct I as [I|I].
    { left. destruct e; [|destruct I]. destruct I as [<-|[]]. split; reflexivity. }
    right. apply in_flat_map in I. destruct I as [f [Hf I]]. exists f. split; [exact Hf|].
    destruct (t x f); [|destruct I]. split; [reflexivity|]. apply in_app_or in I. destruct I as [I|I].
    + apply in_app_or in I. destruct I as [I|I].
      * left. destruct n; [|destruct I]. destruct I as [<-|[]]. split; reflexivity.
      * right. left. apply in_map_iff in I. destruct I as [c [E Hc]]. exists c. split; [exact Hc|symmetry; exact E].
    + right. right. apply in_flat_map in I. destruct I as [y [Hy I]]. apply in_flat_map in I.
      destruct I as [c [Hc I]]. exists y, c. repeat split; assumption.
  - intros [[-> ->]|[f [Hf [Tf I]]]]; apply in_or_app; [left; left; reflexivity|right].
    apply in_flat_map. exists f. split; [exact Hf|]. rewrite Tf. apply in_or_app.
    destruct I as [[-> ->]|[[c [Hc ->]]|[y [c [Hy [Hc I]]]]]].
    + left. apply in_or_app. left. left. reflexivity.
    + left. apply in_or_app. right. apply (in_map (fun c => (x, f, KMaint k c))). exact Hc.
    + right. apply in_flat_map. exists y. split; [exact Hy|]. apply in_flat_map. exists c. split; assumption.
Qed.

Lemma hooks_on_visited t h k g : forall x z fz kd,
  In (z, fz, kd) (expected t h k g x) -> visits t h g x z fz = true \/ fz = TA.
Proof.
  induction g as [fs n e p cs IH] using graph_ind'. intros x z fz kd I. rewrite Forall_forall in IH.
  apply in_expected in I. destruct I as [[_ [= _ -> _]]|[f [Hf [Tf I]]]]; [right; reflexivity|].
  cbn [visits]. rewrite existsb_exists.
  destruct I as [[_ [= -> -> _]]|[[c [_ [= -> -> _]]]|[y [c [Hy [Hc I]]]]]].
  - left. exists f. rewrite Tf, slot_eqb_refl. split; [exact Hf|reflexivity].
  - left. exists f. rewrite Tf, slot_eqb_refl. split; [exact Hf|reflexivity].
  - destruct (IH c Hc y z fz kd I) as [V|V]; [left|right; exact V].
    exists f. split; [exact Hf|]. rewrite Tf. cbn [andb]. apply orb_true_iff. right.
    apply existsb_exists. exists y. split; [exact Hy|]. apply existsb_exists. exists c. split; assumption.
Qed.

Lemma visits_node_false t h fs n e p cs x o fo :
  visits t h (G fs n e p cs) x o fo = false ->
  forall f, In f fs -> t x f = true ->
    slot_eqb x f o fo = false /\
    forall y, In y (h x f) -> forall c, In c cs -> visits t h c y o fo = false.
Proof.
  cbn [visits]. intros V f Hf Tf. pose proof (existsb_false_In _ _ V f Hf) as E. cbv beta in E.
  rewrite Tf in E. cbn [andb] in E. apply orb_false_iff in E. destruct E as [E1 E2]. split; [exact E1|].
  intros y Hy c Hc. pose proof (existsb_false_In _ _ E2 y Hy) as E3. cbv beta in E3.
  exact (existsb_false_In _ _ E3 c Hc).
Qed.

Lemma expected_frame t h k g : forall x o fo v,
  visits t h g x o fo = false -> expected t (upd h o fo v) k g x = expected t h k g x.
Proof.
  induction g as [fs n e p cs IH] using graph_ind'. intros x o fo v Hv.
  rewrite Forall_forall in IH. cbn [expected]. f_equal.
  apply flat_map_ext_In. intros f Hf. destruct (t x f) eqn:Tf; [|reflexivity].
  destruct (visits_node_false _ _ _ _ _ _ _ _ _ _ Hv f Hf Tf) as [Hslot Hrest]. f_equal.
  rewrite (upd_other _ _ _ _ _ _ Hslot).
  apply flat_map_ext_In. intros y Hy. apply flat_map_ext_In. intros c Hc.
  apply IH; [exact Hc|]. apply Hrest; assumption.
Qed.

Lemma visits_frame t h g o fo v : forall x,
  visits t h g x o fo = false -> visits t (upd h o fo v) g x o fo = false.
Proof.
  induction g as [fs n e p cs IH] using graph_ind'. intros x V. rewrite Forall_forall in IH.
  assert (visits t (upd h o fo v) (G fs n e p cs) x o fo = visits t h (G fs n e p cs) x o fo) as E; [|congruence].
  cbn [visits]. apply existsb_ext_In. intros f Hf. destruct (t x f) eqn:Tf; [|reflexivity]. cbn [andb].
  destruct (visits_node_false _ _ _ _ _ _ _ _ _ _ V f Hf Tf) as [Hslot Hrest]. f_equal.
  rewrite (upd_other _ _ _ _ _ _ Hslot).
  apply existsb_ext_In. intros y Hy. apply existsb_ext_In. intros c Hc.
  rewrite (IH c Hc y (Hrest y Hy c Hc)). symmetry. apply Hrest; assumption.
Qed.

Lemma occ_nil_of_not_visits t h o fo g : forall x, visits t h g x o fo = false -> occ t h g x o fo = [].
Proof.
  induction g as [fs n e p cs IH] using graph_ind'. intros x V. rewrite Forall_forall in IH. cbn [occ].
  apply flat_map_nil_In. intros f Hf. destruct (t x f) eqn:Tf; [|reflexivity].
  destruct (visits_node_false _ _ _ _ _ _ _ _ _ _ V f Hf Tf) as [Hslot Hrest]. rewrite Hslot. cbn [app].
  apply flat_map_nil_In. intros y Hy. apply flat_map_nil_In. intros c Hc.
  apply IH; [exact Hc|]. apply Hrest; assumption.
Qed.

Definition ranked (rank : oid -> nat) (h : heap) : Prop :=
  forall x f y, In y (h x f) -> rank x < rank y.

Lemma visits_rank t rank h o fo g : ranked rank h -> forall x, visits t h g x o fo = true -> rank x <= rank o.
Proof.
  intros R. induction g as [fs n e p cs IH] using graph_ind'. intros x. cbn [visits]. rewrite Forall_forall in IH.
  intros A. apply existsb_exists in A. destruct A as [f [Hf A]]. apply andb_true_iff in A. destruct A as [_ A].
  apply orb_true_iff in A. destruct A as [A|A].
  - apply slot_eqb_true in A. destruct A as [-> _]. lia.
  - apply existsb_exists in A. destruct A as [y [Hy A]]. apply existsb_exists in A. destruct A as [c [Hc A]].
    apply (IH c Hc y) in A. pose proof (R x f y Hy). lia.
Qed.

(* Σ_{y ∈ ys} Σ_{c ∈ cs} expected t h k c y *)
Definition sumexp (t : traits) (h : heap) (k : hkey) (cs : list graph) (ys : list oid) : list hook :=
  flat_map (fun y => flat_map (fun c => expected t h k c y) cs) ys.

Lemma sumexp_app t h k cs ys zs : sumexp t h k cs (ys ++ zs) = sumexp t h k cs ys ++ sumexp t h k cs zs.
Proof. unfold sumexp. apply flat_map_app. Qed.

Lemma sumexp_singletons t h k cs ys :
  Permutation (flat_map (fun c => sumexp t h k [c] ys) cs) (sumexp t h k cs ys).
Proof.
  unfold sumexp.
  rewrite (flat_map_swap (fun c y => flat_map (fun c0 => expected t h k c0 y) [c]) cs ys).
  apply Permutation_flat_map_In. intros y _.
  erewrite flat_map_ext_In; [reflexivity|]. intros c _. cbn [flat_map]. apply app_nil_r.
Qed.

Section Subst.
  Variables (t : traits) (h : heap) (k : hkey) (o : oid) (fo : fname) (news : list oid).
  Let olds := h o fo.
  Let h' := upd h o fo news.

  (* edge-acyclicity relative to the graph walked: below the old and new content of the
     slot, the residual graphs found at the slot do not come back to the slot *)
  Definition acyc_on (g : graph) (x : oid) : Prop :=
    forall c, In c (occ t h g x o fo) -> forall y, In y olds \/ In y news -> visits t h c y o fo = false.

  Theorem expected_subst g : forall x, acyc_on g x ->
    Permutation
      (expected t h' k g x ++ flat_map (fun c => sumexp t h k [c] olds) (occ t h g x o fo))
      (expected t h  k g x ++ flat_map (fun c => sumexp t h k [c] news) (occ t h g x o fo)).
  Proof.
    induction g as [fs n e p cs IH] using graph_ind'. intros x acyc.
    unfold acyc_on in acyc. cbn [expected occ] in *. rewrite Forall_forall in IH.
    rewrite <- !app_assoc. apply Permutation_app_head.
    rewrite !interleave. apply Permutation_flat_map_In. intros f Hf.
    assert (forall c, In c (if t x f then (if slot_eqb x f o fo then cs else []) ++
                              flat_map (fun y => flat_map (fun c => occ t h c y o fo) cs) (h x f) else []) ->
            forall y, In y olds \/ In y news -> visits t h c y o fo = false) as acycf.
    { intros c Hc. apply acyc. apply in_flat_map. exists f. split; assumption. }
    clear acyc. destruct (t x f) eqn:Tf; [|reflexivity].
    destruct (slot_eqb x f o fo) eqn:Hs.
    - (* at the slot: nothing below its old or new content comes back (acyc), so what hangs below the new content
         is the same in h' as in h (frame) and the two sides differ by swapping olds for news *)
      apply slot_eqb_true in Hs. destruct Hs as [-> ->].
      assert (forall c, In c cs -> forall y, In y olds \/ In y news -> visits t h c y o fo = false) as acyc'.
      { intros c Hc. apply acycf. apply in_or_app. left. exact Hc. }
      assert (h' o fo = news) as Hn by (unfold h'; apply upd_same).
      rewrite Hn. fold olds.
      assert (flat_map (fun y => flat_map (fun c => occ t h c y o fo) cs) olds = []) as Hbelow.
      { apply flat_map_nil_In. intros y Hy. apply flat_map_nil_In. intros c Hc.
        apply occ_nil_of_not_visits. apply acyc'; [exact Hc|left; exact Hy]. }
      rewrite Hbelow, app_nil_r.
      assert (flat_map (fun y => flat_map (fun c => expected t h' k c y) cs) news = sumexp t h k cs news) as Hfr.
      { unfold sumexp. apply flat_map_ext_In. intros y Hy. apply flat_map_ext_In. intros c Hc.
        apply expected_frame. apply acyc'; [exact Hc|right; exact Hy]. }
      rewrite Hfr.
      change (flat_map (fun y => flat_map (fun c => expected t h k c y) cs) olds) with (sumexp t h k cs olds).
      rewrite <- !app_assoc. apply Permutation_app_head.
      rewrite !sumexp_singletons. apply Permutation_app_comm.
    - (* elsewhere: same content; regroup per next object and child (interleave) and recurse *)
      assert (h' x f = h x f) as Hsame by (apply upd_other; exact Hs).
      rewrite Hsame. cbn [app] in *.
      rewrite <- !app_assoc. apply Permutation_app_head.
      rewrite !interleave.
      apply Permutation_flat_map_In. intros y Hy.
      rewrite !interleave.
      apply Permutation_flat_map_In. intros c Hc. apply IH; [exact Hc|].
      intros c0 Hc0. apply acycf.
      apply in_flat_map. exists y. split; [exact Hy|]. apply in_flat_map. exists c. split; assumption.
  Qed.
End Subst.

(* the graphs whose node would observe the new trait f0 of x0, one per visit of x0 *)
Fixpoint added_occ (t : traits) (h : heap) (g : graph) (x x0 : oid) (f0 : fname) {struct g} : list graph :=
  match g with
  | G fs _ _ _ cs =>
      flat_map (fun f => if slot_eqb x f x0 f0 then [g] else []) fs ++
      flat_map (fun f =>
        if t x f then flat_map (fun y => flat_map (fun c => added_occ t h c y x0 f0) cs) (h x f) else []) fs
  end.

Definition own_of (k : hkey) (x0 : oid) (f0 : fname) (g : graph) : list hook :=
  match g with G _ n _ _ cs => own k n cs x0 f0 end.

Section AddTrait.
  Variables (t : traits) (h : heap) (k : hkey) (x0 : oid) (f0 : fname).
  Hypothesis fresh_trait : t x0 f0 = false.
  Hypothesis no_value : h x0 f0 = [].
  Let t' := add_trait t x0 f0.

  Theorem expected_add_trait g : forall x,
    Permutation (expected t' h k g x)
                (expected t h k g x ++ flat_map (own_of k x0 f0) (added_occ t h g x x0 f0)).
  Proof.
    induction g as [fs n e p cs IH] using graph_ind'. intros x. rewrite Forall_forall in IH.
    cbn [expected added_occ]. rewrite <- app_assoc. apply Permutation_app_head.
    rewrite flat_map_app, !ffm. rewrite !flat_map_plus.
    apply Permutation_flat_map_In. intros f Hf.
    unfold t', add_trait. destruct (slot_eqb x f x0 f0) eqn:Hs.
    - apply slot_eqb_true in Hs. destruct Hs as [-> ->]. rewrite fresh_trait, no_value.
      cbn [flat_map app own_of]. rewrite !app_nil_r. reflexivity.
    - destruct (t x f); [|reflexivity]. cbn [flat_map app]. rewrite <- app_assoc. apply Permutation_app_head.
      rewrite interleave. apply Permutation_flat_map_In. intros y Hy.
      rewrite interleave. apply Permutation_flat_map_In. intros c Hc. apply IH. exact Hc.
  Qed.
End AddTrait.

Definition maint_of (o : oid) (fo : fname) (hk : hook) : list (hkey * graph) :=
  let '(x, f, kd) := hk in
  if slot_eqb x f o fo then match kd with KMaint k c => [(k, c)] | _ => [] end else [].
Definition maint_on (H : list hook) o fo : list (hkey * graph) := flat_map (maint_of o fo) H.
Definition user_of (o : oid) (fo : fname) (hk : hook) : list hkey :=
  let '(x, f, kd) := hk in
  if slot_eqb x f o fo then match kd with KUser k => [k] | _ => [] end else [].
Definition users_on (H : list hook) o fo : list hkey := flat_map (user_of o fo) H.
(* the trait_added maintainers of object x0 *)
Definition added_of (x0 : oid) (hk : hook) : list (hkey * graph) :=
  let '(x, f, kd) := hk in
  if slot_eqb x f x0 TA then match kd with KAdded k g => [(k, g)] | _ => [] end else [].
Definition added_on (H : list hook) x0 : list (hkey * graph) := flat_map (added_of x0) H.

Lemma maint_on_app A B o fo : maint_on (A ++ B) o fo = maint_on A o fo ++ maint_on B o fo.
Proof. apply flat_map_app. Qed.
Lemma users_on_app A B o fo : users_on (A ++ B) o fo = users_on A o fo ++ users_on B o fo.
Proof. apply flat_map_app. Qed.
Lemma added_on_app A B x0 : added_on (A ++ B) x0 = added_on A x0 ++ added_on B x0.
Proof. apply flat_map_app. Qed.

Lemma added_on_flat_map {A} (g : A -> list (oid * fname * kind)) l x0 :
  added_on (flat_map g l) x0 = flat_map (fun a => added_on (g a) x0) l.
Proof. unfold added_on. apply ffm. Qed.

Lemma flat_map_own {B} (F : oid * fname * kind -> list B) k n cs x f :
  flat_map F (own k n cs x f)
  = (if n then F (x, f, KUser k) else []) ++ flat_map (fun c => F (x, f, KMaint k c)) cs.
Proof. unfold own. rewrite flat_map_app, flat_map_map. destruct n; cbn [flat_map]; rewrite ?app_nil_r; reflexivity. Qed.

Lemma maint_on_own k n cs x f o fo :
  maint_on (own k n cs x f) o fo = map (pair k) (if slot_eqb x f o fo then cs else []).
Proof.
  unfold maint_on. rewrite flat_map_own. cbn [maint_of].
  destruct (slot_eqb x f o fo); destruct n; cbn [app]; [| |apply flat_map_nil_In; reflexivity..];
    induction cs as [|c cs IH]; cbn; congruence.
Qed.
Lemma users_on_own k n cs x f o fo :
  users_on (own k n cs x f) o fo = if n && slot_eqb x f o fo then [k] else [].
Proof.
  unfold users_on. rewrite flat_map_own. cbn [user_of].
  rewrite (flat_map_nil_In _ cs) by (intros; destruct (slot_eqb x f o fo); reflexivity).
  destruct n, (slot_eqb x f o fo); reflexivity.
Qed.
Lemma added_on_own k n cs x f x0 : added_on (own k n cs x f) x0 = [].
Proof.
  unfold added_on. rewrite flat_map_own. cbn [added_of].
  rewrite (flat_map_nil_In _ cs) by (intros; destruct (slot_eqb x f x0 TA); reflexivity).
  destruct n, (slot_eqb x f x0 TA); reflexivity.
Qed.

Lemma maint_on_expected t h k o fo g : forall x,
  Permutation (maint_on (expected t h k g x) o fo) (map (pair k) (occ t h g x o fo)).
Proof.
  induction g as [fs n e p cs IH] using graph_ind'. intros x. rewrite Forall_forall in IH.
  cbn [expected occ]. rewrite maint_on_app.
  assert (maint_on (if e then [(x, TA, KAdded k (G fs n e p cs))] else []) o fo = []) as A.
  { destruct e; cbn; [|reflexivity]. destruct (slot_eqb x TA o fo); reflexivity. }
  rewrite A. cbn [app]. unfold maint_on at 1. rewrite ffm, map_flat_map.
  apply Permutation_flat_map_In. intros f Hf. destruct (t x f); [|reflexivity].
  change (flat_map (maint_of o fo) ?l) with (maint_on l o fo). rewrite maint_on_app, maint_on_own, map_app.
  apply Permutation_app_head. unfold maint_on. rewrite ffm, map_flat_map.
  apply Permutation_flat_map_In. intros y _. rewrite ffm, map_flat_map.
  apply Permutation_flat_map_In. intros c Hc. apply IH. exact Hc.
Qed.

Lemma in_users_on H o fo u : In u (users_on H o fo) <-> In (o, fo, KUser u) H.
Proof.
  unfold users_on. rewrite in_flat_map. split.
  - intros [[[z fz] kd] [I U]]. cbn in U. destruct (slot_eqb z fz o fo) eqn:S; [|destruct U].
    apply slot_eqb_true in S. destruct S as [-> ->]. destruct kd as [k'| |]; [|destruct U|destruct U]. destruct U as [<-|[]]. exact I.
  - intros I. exists (o, fo, KUser u). split; [exact I|]. cbn. rewrite slot_eqb_refl. left. reflexivity.
Qed.

Lemma expected_user t h k g : forall x o fo u,
  In (o, fo, KUser u) (expected t h k g x) <-> u = k /\ matched t h g x o fo = true.
Proof.
  induction g as [fs n e p cs IH] using graph_ind'. intros x o fo u. rewrite Forall_forall in IH.
  cbn [matched]. split.
  - intros I. apply in_expected in I.
    destruct I as [[_ E]|[f [Hf [Tf [[Hn E]|[[c [_ E]]|[y [c [Hy [Hc I]]]]]]]]]]; try discriminate.
    + injection E as -> -> ->. split; [reflexivity|]. apply existsb_exists. exists f. split; [exact Hf|].
      rewrite Tf, Hn, slot_eqb_refl. reflexivity.
    + apply (IH c Hc) in I. destruct I as [-> M]. split; [reflexivity|]. apply existsb_exists. exists f.
      split; [exact Hf|]. rewrite Tf. cbn [andb]. apply orb_true_iff. right. apply existsb_exists. exists y.
      split; [exact Hy|]. apply existsb_exists. exists c. split; assumption.
  - intros [-> M]. apply existsb_exists in M. destruct M as [f [Hf M]]. apply in_expected. right. exists f.
    split; [exact Hf|]. destruct (t x f); [|discriminate].
    split; [reflexivity|]. cbn [andb] in M. apply orb_true_iff in M. destruct M as [M|M].
    + apply andb_true_iff in M. destruct M as [-> S]. apply slot_eqb_true in S. destruct S as [<- <-].
      left. split; reflexivity.
    + right. right. apply existsb_exists in M. destruct M as [y [Hy M]]. apply existsb_exists in M.
      destruct M as [c [Hc M]]. exists y, c. split; [exact Hy|]. split; [exact Hc|].
      apply (IH c Hc). split; [reflexivity|exact M].
Qed.

Lemma matched_frame t h g x o fo v a fa :
  visits t h g x o fo = false -> matched t (upd h o fo v) g x a fa = matched t h g x a fa.
Proof.
  (* any key will do *)
  intros V. pose proof (expected_user t (upd h o fo v) (0, 0) g x a fa (0, 0)) as A.
  rewrite (expected_frame _ _ _ _ _ _ _ _ V) in A. pose proof (expected_user t h (0, 0) g x a fa (0, 0)) as B.
  apply eq_true_iff_eq. split; intros M.
  - apply (proj1 B (proj2 A (conj eq_refl M))).
  - apply (proj1 A (proj2 B (conj eq_refl M))).
Qed.

Lemma users_on_expected t h k o fo g x :
  (exists u, In u (users_on (expected t h k g x) o fo)) <-> matched t h g x o fo = true.
Proof.
  split.
  - intros [u I]. apply in_users_on, expected_user in I. apply I.
  - intros M. exists k. apply in_users_on, expected_user. split; [reflexivity|exact M].
Qed.
Lemma expected_user_key t h k g x z fz k' : In (z, fz, KUser k') (expected t h k g x) -> k' = k.
Proof. intros I. apply expected_user in I. apply I. Qed.
Lemma users_on_expected_key t h k o fo g x u : In u (users_on (expected t h k g x) o fo) -> u = k.
Proof. intros I. apply in_users_on, expected_user_key in I. exact I. Qed.

Definition expected_reg (t : traits) (h : heap) (r : reg) : list hook := expected t h (fst r) (snd r) (snd (fst r)).
Definition expected_all (t : traits) (h : heap) (rs : list reg) : list hook := flat_map (expected_reg t h) rs.
Definition occ_reg (t : traits) (h : heap) (o : oid) (fo : fname) (r : reg) : list (hkey * graph) :=
  map (pair (fst r)) (occ t h (snd r) (snd (fst r)) o fo).
Definition occ_all (t : traits) (h : heap) (rs : list reg) (o : oid) (fo : fname) : list (hkey * graph) :=
  flat_map (occ_reg t h o fo) rs.

(* what hangs below the objects ys for the maintainers M (key, child graph): Σ_{(k, c) ∈ M} Σ_{y ∈ ys} expected t h k c y *)
Definition S_of (t : traits) (h : heap) (M : list (hkey * graph)) (ys : list oid) : list hook :=
  flat_map (fun kc => sumexp t h (fst kc) [snd kc] ys) M.

Lemma S_of_app t h M ys zs : Permutation (S_of t h M (ys ++ zs)) (S_of t h M ys ++ S_of t h M zs).
Proof.
  unfold S_of. induction M as [|c M IH]; cbn [flat_map]; [reflexivity|].
  rewrite sumexp_app, IH. rewrite <- !app_assoc. apply Permutation_app_head.
  rewrite !app_assoc. apply Permutation_app_tail. apply Permutation_app_comm.
Qed.
Lemma S_of_nil t h M : S_of t h M [] = [].
Proof. unfold S_of. apply flat_map_nil_In. reflexivity. Qed.
Lemma S_of_cons t h k c M ys : S_of t h ((k, c) :: M) ys = sumexp t h k [c] ys ++ S_of t h M ys.
Proof. reflexivity. Qed.
Lemma S_of_app_M t h M1 M2 ys : S_of t h (M1 ++ M2) ys = S_of t h M1 ys ++ S_of t h M2 ys.
Proof. unfold S_of. apply flat_map_app. Qed.
Lemma S_of_perm_ys t h M ys zs : Permutation ys zs -> Permutation (S_of t h M ys) (S_of t h M zs).
Proof.
  intros P. unfold S_of. apply Permutation_flat_map_In. intros c _.
  unfold sumexp. apply Permutation_flat_map. exact P.
Qed.
Lemma S_of_perm_M t h M M' ys : Permutation M M' -> Permutation (S_of t h M ys) (S_of t h M' ys).
Proof. intros P. unfold S_of. apply Permutation_flat_map. exact P. Qed.

Lemma maint_on_expected_all t h rs o fo :
  Permutation (maint_on (expected_all t h rs) o fo) (occ_all t h rs o fo).
Proof.
  unfold maint_on, expected_all, occ_all. rewrite ffm.
  apply Permutation_flat_map_In. intros [k g] _. apply maint_on_expected.
Qed.

Lemma maint_on_inv t h rs H o fo :
  Permutation H (expected_all t h rs) -> Permutation (maint_on H o fo) (occ_all t h rs o fo).
Proof. intros I. rewrite <- maint_on_expected_all. apply Permutation_flat_map. exact I. Qed.

Section Step.
  Variables (t : traits) (h : heap) (rs : list reg) (o : oid) (fo : fname).
  Variables (news removed added : list oid).
  Let olds := h o fo.
  Let h' := upd h o fo news.
  (* the change event is a faithful delta (C05/C06/C07 guarantee this for containers) *)
  Hypothesis delta : Permutation (news ++ removed) (olds ++ added).
  Hypothesis removed_old : incl removed olds.
  Hypothesis added_new : incl added news.
  (* edge-acyclicity: the residual graphs at the slot do not lead back to the slot from
     its old or new content *)
  Hypothesis acyc : forall kc, In kc (occ_all t h rs o fo) ->
      forall y, In y olds \/ In y news -> visits t h (snd kc) y o fo = false.

  Variables (H H' : list hook).
  Hypothesis inv : Permutation H (expected_all t h rs).
  (* what the maintainers on the slot do, reading the heap AFTER the change *)
  Hypothesis step :
    Permutation (H' ++ S_of t h' (maint_on H o fo) removed) (H ++ S_of t h' (maint_on H o fo) added).

  Lemma S_of_frame M ys :
    (forall kc, In kc M -> In kc (occ_all t h rs o fo)) ->
    (forall y, In y ys -> In y olds \/ In y news) -> S_of t h' M ys = S_of t h M ys.
  Proof.
    intros HM Hy. unfold S_of. apply flat_map_ext_In. intros kc Hkc. unfold sumexp.
    apply flat_map_ext_In. intros y Iy. cbn [flat_map]. f_equal.
    apply expected_frame. apply acyc; [apply HM; exact Hkc|apply Hy; exact Iy].
  Qed.

  Lemma subst_all :
    Permutation (expected_all t h' rs ++ S_of t h (occ_all t h rs o fo) olds)
                (expected_all t h rs ++ S_of t h (occ_all t h rs o fo) news).
  Proof.
    unfold expected_all, occ_all, S_of. rewrite !interleave.
    apply Permutation_flat_map_In. intros [k g] Hr. unfold expected_reg, occ_reg. cbn [fst snd].
    rewrite !flat_map_map. cbn [fst snd].
    apply (expected_subst t h k o fo news g (snd k)).
    intros c Hc y Hy. apply (acyc (k, c)); [|exact Hy].
    apply in_flat_map. exists (k, g). split; [exact Hr|]. unfold occ_reg. cbn [fst snd].
    apply in_map. exact Hc.
  Qed.

  Theorem inv_preserved_all : Permutation H' (expected_all t h' rs).
  Proof.
    set (M := maint_on H o fo) in *.
    set (O := occ_all t h rs o fo) in *.
    assert (Permutation M O) as MO by (apply maint_on_inv; exact inv).
    assert (forall kc, In kc M -> In kc O) as MinO by (intros kc; apply Permutation_in; exact MO).
    rewrite (S_of_frame M removed MinO) in step by (intros y Iy; left; apply removed_old; exact Iy).
    rewrite (S_of_frame M added MinO) in step by (intros y Iy; right; apply added_new; exact Iy).
    pose proof subst_all as SUB. fold O in SUB.
    assert (Permutation (expected_all t h' rs ++ S_of t h O removed) (expected_all t h rs ++ S_of t h O added)) as KEY.
    { apply (Permutation_app_inv_r (S_of t h O olds)).
      rewrite <- !app_assoc.
      rewrite (Permutation_app_comm (S_of t h O removed)), (Permutation_app_comm (S_of t h O added)).
      rewrite !app_assoc. rewrite SUB. rewrite <- !app_assoc.
      apply Permutation_app_head.
      rewrite <- !S_of_app. apply S_of_perm_ys. exact delta. }
    apply (Permutation_app_inv_r (S_of t h O removed)).
    rewrite KEY. rewrite <- inv.
    rewrite <- (S_of_perm_M t h M O removed MO), <- (S_of_perm_M t h M O added MO).
    exact step.
  Qed.
End Step.

(* what one trait_added maintainer (graph g) adds for the new trait f0 of x0: the restricted
   named observer's notifier and maintainers (_trait_added_observer.py observer_change_handler) *)
Definition own_for (k : hkey) (x0 : oid) (f0 : fname) (g : graph) : list hook :=
  match g with
  | G fs n _ _ cs => flat_map (fun f => if Nat.eqb f f0 then own k n cs x0 f0 else []) fs
  end.
(* every node that names the dynamic trait f0 carries the trait_added extra graph *)
Fixpoint wf_dyn (f0 : fname) (g : graph) {struct g} : bool :=
  match g with
  | G fs _ e _ cs => (e || negb (existsb (Nat.eqb f0) fs)) && forallb (wf_dyn f0) cs
  end.

Lemma own_for_nil k x0 f0 fs n e p cs : existsb (Nat.eqb f0) fs = false -> own_for k x0 f0 (G fs n e p cs) = [].
Proof.
  intros E. cbn [own_for]. apply flat_map_nil_In. intros f Hf.
  destruct (Nat.eqb f f0) eqn:Q; [|reflexivity]. apply Nat.eqb_eq in Q. subst f.
  pose proof (existsb_false_In _ _ E f0 Hf) as X. rewrite Nat.eqb_refl in X. discriminate.
Qed.

Lemma added_bridge t h k x0 f0 g : forall x, wf_dyn f0 g = true ->
  Permutation (flat_map (own_of k x0 f0) (added_occ t h g x x0 f0))
              (flat_map (fun kg => own_for (fst kg) x0 f0 (snd kg)) (added_on (expected t h k g x) x0)).
Proof.
  induction g as [fs n e p cs IH] using graph_ind'. intros x W. rewrite Forall_forall in IH.
  cbn [wf_dyn] in W. apply andb_true_iff in W. destruct W as [W1 W2]. rewrite forallb_forall in W2.
  cbn [expected added_occ]. rewrite added_on_app, !flat_map_app. apply Permutation_app.
  - rewrite ffm.
    assert (flat_map (fun f => flat_map (own_of k x0 f0) (if slot_eqb x f x0 f0 then [G fs n e p cs] else [])) fs
            = if Nat.eqb x x0 then own_for k x0 f0 (G fs n e p cs) else []) as L.
    { unfold slot_eqb. destruct (Nat.eqb x x0); cbn [andb own_for].
      - apply flat_map_ext_In. intros f _. destruct (Nat.eqb f f0); cbn; rewrite ?app_nil_r; reflexivity.
      - apply flat_map_nil_In. reflexivity. }
    rewrite L. clear L.
    destruct e; cbn [orb] in W1.
    + cbn. unfold slot_eqb. rewrite Nat.eqb_refl, andb_true_r. destruct (Nat.eqb x x0); cbn; rewrite ?app_nil_r; reflexivity.
    + apply negb_true_iff in W1. rewrite (own_for_nil k x0 f0 fs n false p cs W1). cbn. destruct (Nat.eqb x x0); reflexivity.
  - rewrite ffm. rewrite added_on_flat_map, ffm.
    apply Permutation_flat_map_In. intros f Hf. destruct (t x f); [|reflexivity].
    rewrite added_on_app, added_on_own. cbn [app].
    rewrite added_on_flat_map, !ffm. apply Permutation_flat_map_In. intros y _.
    rewrite added_on_flat_map, !ffm. apply Permutation_flat_map_In. intros c Hc.
    apply IH; [exact Hc|]. apply W2. exact Hc.
Qed.

Theorem inv_add_trait_all t h rs x0 f0 H :
  t x0 f0 = false -> h x0 f0 = [] -> forallb (fun r : reg => wf_dyn f0 (snd r)) rs = true ->
  Permutation H (expected_all t h rs) ->
  Permutation (H ++ flat_map (fun kg => own_for (fst kg) x0 f0 (snd kg)) (added_on H x0))
              (expected_all (add_trait t x0 f0) h rs).
Proof.
  intros Ft Nv W I. rewrite forallb_forall in W.
  assert (Permutation (added_on H x0) (added_on (expected_all t h rs) x0)) as A
    by (unfold added_on; apply Permutation_flat_map; exact I).
  rewrite A, I. clear A I.
  unfold expected_all, added_on. rewrite !ffm. rewrite flat_map_plus. symmetry.
  apply Permutation_flat_map_In. intros [k g] Hr. unfold expected_reg. cbn [fst snd].
  rewrite (expected_add_trait t h k x0 f0 Ft Nv g (snd k)). apply Permutation_app_head.
  rewrite <- ffm. apply added_bridge. apply (W (k, g) Hr).
Qed.

Fixpoint list_nat_eqb (a b : list nat) : bool :=
  match a, b with
  | [], [] => true
  | x :: a', y :: b' => Nat.eqb x y && list_nat_eqb a' b'
  | _, _ => false
  end.
Lemma list_nat_eqb_spec a : forall b, list_nat_eqb a b = true <-> a = b.
Proof.
  induction a as [|x a IH]; intros [|y b]; cbn; try (split; [discriminate|discriminate]).
  - tauto.
  - rewrite andb_true_iff, Nat.eqb_eq, IH. split; [intros [-> ->]; reflexivity|intros [= -> ->]; tauto].
Qed.

Fixpoint graph_eqb (g1 g2 : graph) {struct g1} : bool :=
  match g1, g2 with
  | G f1 n1 e1 p1 cs1, G f2 n2 e2 p2 cs2 =>
      list_nat_eqb f1 f2 && Bool.eqb n1 n2 && Bool.eqb e1 e2 && Bool.eqb p1 p2 &&
      (fix go (l1 l2 : list graph) : bool :=
         match l1, l2 with
         | [], [] => true
         | a :: l1', b :: l2' => graph_eqb a b && go l1' l2'
         | _, _ => false
         end) cs1 cs2
  end.

Lemma graph_eqb_spec g1 : forall g2, graph_eqb g1 g2 = true <-> g1 = g2.
Proof.
  induction g1 as [f1 n1 e1 p1 cs1 IH] using graph_ind'. intros [f2 n2 e2 p2 cs2]. cbn [graph_eqb].
  rewrite !andb_true_iff, list_nat_eqb_spec, !eqb_true_iff.
  assert ((fix go (l1 l2 : list graph) : bool :=
             match l1, l2 with
             | [], [] => true
             | a :: l1', b :: l2' => graph_eqb a b && go l1' l2'
             | _, _ => false
             end) cs1 cs2 = true <-> cs1 = cs2) as L.
  { revert cs2. induction cs1 as [|a cs1 IHcs]; intros [|b cs2]; try (split; [discriminate|discriminate]).
    - split; reflexivity.
    - inversion IH as [|? ? Ha Hcs]; subst. rewrite andb_true_iff, (Ha b), (IHcs Hcs cs2).
      split; [intros [-> ->]; reflexivity|intros [= -> ->]; split; reflexivity]. }
  rewrite L. split; [intros [[[[-> ->] ->] ->] ->]; reflexivity|intros [= -> -> -> -> ->]; repeat split].
Qed.

Definition hkey_eqb (a b : hkey) : bool := Nat.eqb (fst a) (fst b) && Nat.eqb (snd a) (snd b).
Lemma hkey_eqb_spec a b : hkey_eqb a b = true <-> a = b.
Proof.
  destruct a, b. unfold hkey_eqb. cbn. rewrite andb_true_iff, !Nat.eqb_eq.
  split; [intros [-> ->]; reflexivity|intros [= -> ->]; split; reflexivity].
Qed.
Definition kind_eqb (a b : kind) : bool :=
  match a, b with
  | KUser k, KUser k' => hkey_eqb k k'
  | KMaint k c, KMaint k' d => hkey_eqb k k' && graph_eqb c d
  | KAdded k c, KAdded k' d => hkey_eqb k k' && graph_eqb c d
  | _, _ => false
  end.
Definition hook_eqb (a b : hook) : bool :=
  let '(x, f, k) := a in let '(y, g, k') := b in Nat.eqb x y && Nat.eqb f g && kind_eqb k k'.
Lemma hook_eqb_spec a b : hook_eqb a b = true <-> a = b.
Proof.
  destruct a as [[x f] k], b as [[y g] k']. cbn.
  rewrite !andb_true_iff, !Nat.eqb_eq.
  assert (kind_eqb k k' = true <-> k = k') as K.
  { destruct k, k'; cbn; try (split; [discriminate|discriminate]).
    - rewrite hkey_eqb_spec. split; [intros ->; reflexivity|intros [= ->]; reflexivity].
    - rewrite andb_true_iff, hkey_eqb_spec, graph_eqb_spec.
      split; [intros [-> ->]; reflexivity|intros [= -> ->]; split; reflexivity].
    - rewrite andb_true_iff, hkey_eqb_spec, graph_eqb_spec.
      split; [intros [-> ->]; reflexivity|intros [= -> ->]; split; reflexivity]. }
  rewrite K. split; [intros [[-> ->] ->]; reflexivity|intros [= -> -> ->]; repeat split].
Qed.

(* notifier.remove_from: remove the first equal notifier, NotifierNotFound (None) if absent *)
Fixpoint remove1 (x : hook) (H : list hook) : option (list hook) :=
  match H with
  | [] => None
  | y :: H' => if hook_eqb x y then Some H' else option_map (cons y) (remove1 x H')
  end.
Fixpoint remove_all (R H : list hook) : option (list hook) :=
  match R with
  | [] => Some H
  | x :: R' => match remove1 x H with Some H' => remove_all R' H' | None => None end
  end.

Lemma remove1_perm x H H' : remove1 x H = Some H' -> Permutation (x :: H') H.
Proof.
  revert H'. induction H as [|y H IH]; intros H' E; [discriminate|]. cbn in E.
  destruct (hook_eqb x y) eqn:Q.
  - apply hook_eqb_spec in Q. subst. inversion E; subst. reflexivity.
  - destruct (remove1 x H) as [H0|]; [|discriminate]. inversion E; subst.
    rewrite perm_swap. apply perm_skip. apply IH. reflexivity.
Qed.
Lemma remove_all_perm R : forall H H', remove_all R H = Some H' -> Permutation (H' ++ R) H.
Proof.
  induction R as [|x R IH]; intros H H' E; cbn in E.
  - inversion E; subst. rewrite app_nil_r. reflexivity.
  - destruct (remove1 x H) as [H0|] eqn:E1; [|discriminate].
    rewrite <- (remove1_perm _ _ _ E1). rewrite <- Permutation_middle. apply perm_skip. apply IH. exact E.
Qed.
Lemma remove1_complete x H : In x H -> exists H', remove1 x H = Some H'.
Proof.
  induction H as [|y H IH]; intros I; [destruct I|]. cbn.
  destruct (hook_eqb x y) eqn:Q; [eexists; reflexivity|].
  destruct I as [->|I].
  - assert (hook_eqb x x = true) by (apply hook_eqb_spec; reflexivity). congruence.
  - destruct (IH I) as [H' ->]. eexists. reflexivity.
Qed.
Lemma remove_all_complete R : forall H K, Permutation H (K ++ R) ->
  exists H', remove_all R H = Some H' /\ Permutation H' K.
Proof.
  induction R as [|x R IH]; intros H K P; cbn.
  - exists H. split; [reflexivity|]. rewrite app_nil_r in P. exact P.
  - assert (In x H) as I.
    { apply (Permutation_in x (Permutation_sym P)). apply in_or_app. right. left. reflexivity. }
    destruct (remove1_complete x H I) as [H1 E1]. rewrite E1.
    apply IH. apply remove1_perm in E1.
    apply (Permutation_cons_inv (a := x)). rewrite E1, P. symmetry. apply Permutation_middle.
Qed.
