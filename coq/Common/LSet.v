(* Finite sets of integer atoms as lists, compared extensionally.
   All operations are boolean/computable so that the same definitions serve the
   executable models, the laws evaluated on implementation observations, and
   the proofs (via [mem] rewriting and the [lset_point] tactic). *)
From Coq Require Import ZArith List Bool.
Import ListNotations.
Open Scope Z_scope.

Definition mem (x : Z) (s : list Z) : bool := existsb (Z.eqb x) s.
Definition diff (a b : list Z) : list Z := filter (fun x => negb (mem x b)) a.
Definition inter (a b : list Z) : list Z := filter (fun x => mem x b) a.
Definition union (a b : list Z) : list Z := a ++ b.
Definition subset (a b : list Z) : bool := forallb (fun x => mem x b) a.
Definition seteq (a b : list Z) : bool := subset a b && subset b a.
Definition disjoint (a b : list Z) : bool := forallb (fun x => negb (mem x b)) a.
Definition is_empty (a : list Z) : bool := match a with [] => true | _ => false end.
Definition remove1 (x : Z) (s : list Z) : list Z := filter (fun y => negb (Z.eqb x y)) s.

Fixpoint dedup (l : list Z) : list Z :=
  match l with [] => [] | x :: r => if mem x r then dedup r else x :: dedup r end.

Lemma mem_In x s : mem x s = true <-> In x s.
Proof.
  unfold mem. rewrite existsb_exists. split.
  - intros [y [Hy E]]. apply Z.eqb_eq in E. subst. exact Hy.
  - intros H. exists x. split; [exact H | apply Z.eqb_refl].
Qed.

Lemma mem_nil x : mem x [] = false. Proof. reflexivity. Qed.
Lemma mem_cons x y s : mem x (y :: s) = (x =? y) || mem x s. Proof. reflexivity. Qed.
Lemma mem_app x a b : mem x (a ++ b) = mem x a || mem x b.
Proof. unfold mem. apply existsb_app. Qed.
Lemma mem_union x a b : mem x (union a b) = mem x a || mem x b.
Proof. apply mem_app. Qed.

Lemma mem_filter x f s : mem x (filter f s) = mem x s && f x.
Proof.
  induction s as [|y s IH]; [reflexivity|]. cbn [filter].
  destruct (f y) eqn:Fy; rewrite ?mem_cons, IH; destruct (Z.eqb_spec x y) as [->|E]; cbn; rewrite ?Fy;
    try reflexivity; destruct (mem y s); reflexivity.
Qed.

Lemma mem_diff x a b : mem x (diff a b) = mem x a && negb (mem x b).
Proof. apply mem_filter. Qed.
Lemma mem_inter x a b : mem x (inter a b) = mem x a && mem x b.
Proof. apply mem_filter. Qed.
Lemma mem_remove1 x y s : mem x (remove1 y s) = mem x s && negb (y =? x).
Proof. apply mem_filter. Qed.
Lemma mem_dedup x l : mem x (dedup l) = mem x l.
Proof.
  induction l as [|y l IH]; [reflexivity|]. cbn [dedup].
  destruct (mem y l) eqn:E; rewrite ?mem_cons, IH; [|reflexivity].
  destruct (Z.eqb_spec x y) as [->|]; [rewrite E|]; reflexivity.
Qed.

Lemma subset_spec a b : subset a b = true <-> (forall x, mem x a = true -> mem x b = true).
Proof. unfold subset. rewrite forallb_forall. split; intros H x Hx; apply H, mem_In, Hx. Qed.

Lemma seteq_spec a b : seteq a b = true <-> (forall x, mem x a = mem x b).
Proof.
  unfold seteq. rewrite andb_true_iff, !subset_spec. split.
  - intros [H1 H2] x. destruct (mem x a) eqn:Ea, (mem x b) eqn:Eb; try reflexivity.
    + rewrite (H1 x Ea) in Eb. discriminate.
    + rewrite (H2 x Eb) in Ea. discriminate.
  - intros H. split; intros x Hx; [rewrite <- H | rewrite H]; exact Hx.
Qed.

Lemma disjoint_spec a b : disjoint a b = true <-> (forall x, mem x a = true -> mem x b = false).
Proof.
  unfold disjoint. rewrite forallb_forall. split; intros H x Hx; apply negb_true_iff, H, mem_In, Hx.
Qed.

Lemma is_empty_spec a : is_empty a = true <-> (forall x, mem x a = false).
Proof.
  destruct a as [|y a]; split; intros H; try reflexivity; [discriminate|].
  specialize (H y). rewrite mem_cons, Z.eqb_refl in H. discriminate.
Qed.

Lemma is_empty_false a : is_empty a = false <-> exists x, mem x a = true.
Proof.
  destruct a as [|y a]; split; intros H; try reflexivity; try discriminate.
  - destruct H as [x Hx]. discriminate.
  - exists y. rewrite mem_cons, Z.eqb_refl. reflexivity.
Qed.

Lemma seteq_refl a : seteq a a = true.
Proof. apply seteq_spec. reflexivity. Qed.

Lemma seteq_sym a b : seteq a b = seteq b a.
Proof. unfold seteq. apply andb_comm. Qed.

Lemma seteq_trans a b c : seteq a b = true -> seteq b c = true -> seteq a c = true.
Proof. rewrite !seteq_spec. intros H1 H2 x. rewrite H1. apply H2. Qed.

(* Rewrite all membership facts to propositional boolean algebra. *)
Ltac mem_norm :=
  repeat (rewrite ?mem_union, ?mem_app, ?mem_diff, ?mem_inter, ?mem_remove1, ?mem_dedup,
                  ?mem_cons, ?mem_nil, ?mem_filter in *).

Lemma diff_inter_l l s : diff l (inter s l) = diff l s.
Proof.
  unfold diff. apply filter_ext_in. intros x Hx. rewrite mem_inter.
  apply mem_In in Hx. rewrite Hx, andb_true_r. reflexivity.
Qed.

(* A pointwise goal about sets built with the operations above is a boolean tautology in the atoms [mem _ _] and
   [_ =? _]: every hypothesis that mentions [mem] goes into the goal, equalities between elements are decided first,
   then each [mem _ _] is case-split. *)
Ltac lset_point :=
  mem_norm;
  repeat match goal with H : context [mem _ _] |- _ => revert H end;
  repeat match goal with
         | |- context [Z.eqb ?a ?b] => destruct (Z.eqb_spec a b); [first [subst a | subst b | idtac] | ]
         end;
  repeat match goal with |- context [mem ?y ?s] => destruct (mem y s) end;
  cbn; intros; congruence || tauto.

(* seteq / subset / disjoint goals, pointwise *)
Ltac seteq_tac :=
  match goal with
  | |- seteq _ _ = true => apply seteq_spec; intro; lset_point
  | |- subset _ _ = true => apply subset_spec; intros ? ?; lset_point
  | |- disjoint _ _ = true => apply disjoint_spec; intros ? ?; lset_point
  end.
