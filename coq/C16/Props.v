(* C16 — property theorems only (specification level: legacy_to_graph + reachability, and its
   agreement with the C08 observe model; the legacy listener algorithm itself is tied by the
   correspondence run through both APIs). *)
From Coq Require Import ZArith List Arith Bool PeanoNat Permutation.
From TV Require Import Common.Harness Common.ObsCore C08.Model C08.Law C08.Proofs C16.Model C16.Law C16.Corr C16.Proofs.
Import ListNotations.
Open Scope nat_scope.

(* On tree-shaped heaps (links go up a rank, no object is referenced twice) the graphs of a legacy
   name reach every (object, trait) along at most one path: a listener that does not count
   references and observe's reference-counted notifier report the same number of calls. *)
Theorem unshared_multiplicity_le_1 :
  forall t rank h k e gs r x f,
    ranked rank h -> unshared h -> names_nodup e -> legacy_to_graph e = Some gs ->
    path_count t h k gs r x f <= 1.
Proof. exact path_count_le_1. Qed.
Print Assumptions unshared_multiplicity_le_1.

(* stronger: on such heaps no notifier at all is expected twice *)
Theorem unshared_hooks_nodup :
  forall t rank h k e gs r,
    ranked rank h -> unshared h -> names_nodup e -> legacy_to_graph e = Some gs ->
    NoDup (flat_map (fun g => expected t h k g r) gs).
Proof.
  intros t rank h k e gs r R U ND L. destruct (legacy_distinct e gs ND L) as [DF DA].
  apply (expected_list_NoDup t rank h k R U gs r DF DA).
Qed.
Print Assumptions unshared_hooks_nodup.

(* Specification = observe model: in any state satisfying the C08 invariant whose registrations are
   the graphs of the name, for any notified change of (x, f) on a tree-shaped heap, the number of
   calls the C08 model makes for the key equals the number of paths of the legacy specification. *)
Theorem legacy_spec_eq_observe_model :
  forall rank st o x f e gs k,
    inv st -> op_hyp st o = true -> notified st o = Some (x, f) ->
    ranked rank (st_heap st) -> unshared (st_heap st) ->
    names_nodup e -> legacy_to_graph e = Some gs -> st_regs st = map (pair k) gs ->
    length (filter (hkey_eqb k) (map call_key (ob_calls (snd (step st o)))))
    = path_count (st_traits st) (st_heap st) k gs (snd k) x f.
Proof. exact calls_eq_path_count. Qed.
Print Assumptions legacy_spec_eq_observe_model.

(* ... where the acyclicity part of the C08 hypothesis holds by itself: links go up the rank, and the objects put
   into the slot are above its owner (fresh objects at every insertion).  Only a rank is needed, not that the heap
   is unshared; that the residual graphs can be hooked on the new content remains a hypothesis. *)
Theorem tree_shaped_edge_acyclic :
  forall t rank h rs o fo news,
    fo <> TA -> ranked rank h -> (forall y, In y news -> rank o < rank y) ->
    (forall kc, In kc (occ_all t h rs o fo) -> forall y, In y news -> walkable t (upd h o fo news) (snd kc) y = true) ->
    edge_acyclic t h rs o fo news.
Proof. exact ranked_edge_acyclic. Qed.
Print Assumptions tree_shaped_edge_acyclic.

(* Removing the registration stops all calls: a key without live registration is never called. *)
Theorem remove_stops_calls :
  forall st o k, inv st -> op_hyp st o = true -> (forall g, ~ In (k, g) (st_regs st)) ->
    ~ In k (map call_key (ob_calls (snd (step st o)))).
Proof. exact unregistered_not_called. Qed.
Print Assumptions remove_stops_calls.

(* Re-assigning the intermediate trait named first: reported iff the separator after it is '.'. *)
Theorem dot_reports_colon_silent :
  forall t rank h names s p rest gs r f,
    ranked rank h -> (forall f', In f' names -> t r f' = true) -> rest <> [] -> In f names ->
    legacy_to_graph ((names, s, p) :: rest) = Some gs ->
    existsb (fun g => matched t h g r r f) gs = sep_notify s.
Proof. exact first_link_matched_iff_dot. Qed.
Print Assumptions dot_reports_colon_silent.

(* Non-vacuity: 'kids.f:value' on a tree; the graphs, a history through the C08 model with its
   hypotheses, and the path counts. *)
Example name_nontrivial :
  let e := [([3], Dot, false); ([1], Colon, true); ([0], Dot, false)] in
  let gs := [G [3] true true false [G [6] true false false [G [1] false true true [G [0] true true false []]]]] in
  let ops := [SetCont 0 3 [1; 2] false; SetRef 1 1 [3]; SetRef 2 1 [4]; Observe 0 0 (hd (G [0] true true false []) gs);
              Probe 3; SetRef 1 1 [5]; Probe 3; Probe 5; Splice 6 6 0 1 []; Probe 5] in
  legacy_to_graph e = Some gs
  /\ hyps (init 6) ops = true
  /\ map (fun p => length (ob_calls (snd p))) (run (init 6) ops) = [0; 0; 0; 0; 1; 0; 0; 1; 1; 0]
  /\ path_count init_traits (st_heap (final (init 6) (firstn 4 ops))) (0, 0) gs 0 3 0 = 1.
Proof. vm_compute. repeat split; reflexivity. Qed.
