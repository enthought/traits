(* C16 — lemmas: walks go up the rank; on ranked heaps every change is edge-acyclic (the C08
   hypothesis holds trivially); on tree-shaped heaps every hook is expected at most once. *)
From Coq Require Import List Arith Bool PeanoNat Permutation Lia.
From TV Require Import Common.ObsCore C08.Model C08.Law C08.Proofs C16.Model.
Import ListNotations.

Lemma matched_visits t h o fo g : forall x, matched t h g x o fo = true -> visits t h g x o fo = true.
Proof.
  induction g as [fs n e p cs IH] using graph_ind'. intros x. cbn [matched visits]. rewrite Forall_forall in IH.
  intros A. apply existsb_exists in A. destruct A as [f [Hf A]]. apply andb_true_iff in A. destruct A as [Tf A].
  apply existsb_exists. exists f. split; [exact Hf|]. rewrite Tf. cbn [andb].
  apply orb_true_iff in A. apply orb_true_iff. destruct A as [A|A].
  - left. apply andb_true_iff in A. tauto.
  - right. apply existsb_exists in A. destruct A as [y [Hy A]]. apply existsb_exists in A.
    destruct A as [c [Hc A]]. apply existsb_exists. exists y. split; [exact Hy|].
    apply existsb_exists. exists c. split; [exact Hc|]. apply IH; assumption.
Qed.

Lemma matched_root_slot t rank h f n e p cs r f0 :
  ranked rank h -> t r f = true -> matched t h (G [f] n e p cs) r r f0 = n && Nat.eqb f f0.
Proof.
  intros R Tf. cbn [matched existsb]. rewrite Tf, orb_false_r. cbn [andb].
  assert (existsb (fun y => existsb (fun c => matched t h c y r f0) cs) (h r f) = false) as E.
  { destruct (existsb _ (h r f)) eqn:Q; [exfalso|reflexivity].
    apply existsb_exists in Q. destruct Q as [y [Hy Q]]. apply existsb_exists in Q. destruct Q as [c [Hc Q]].
    apply matched_visits in Q. apply (visits_rank t rank h r f0 c R) in Q. pose proof (R r f y Hy). lia. }
  rewrite E, orb_false_r. unfold slot_eqb. rewrite Nat.eqb_refl. reflexivity.
Qed.

Lemma link_root_slot t rank h f n p cs r f0 :
  ranked rank h -> t r f = true -> matched t h (link f n p cs) r r f0 = n && Nat.eqb f f0.
Proof.
  intros R Tf. unfold link. destruct (is_container f); apply (matched_root_slot t rank); assumption.
Qed.

Lemma first_link_matched_iff_dot t rank h names s p rest gs r f :
  ranked rank h -> (forall f', In f' names -> t r f' = true) -> rest <> [] -> In f names ->
  legacy_to_graph ((names, s, p) :: rest) = Some gs ->
  existsb (fun g => matched t h g r r f) gs = sep_notify s.
Proof.
  intros R Tn NE I L. cbn [legacy_to_graph] in L. destruct rest as [|it rest]; [congruence|].
  destruct (legacy_to_graph (it :: rest)) as [cs|]; [|discriminate]. inversion L; subst gs. clear L.
  rewrite existsb_map.
  destruct (sep_notify s) eqn:S.
    + apply existsb_exists. exists f. split; [exact I|]. rewrite (link_root_slot t rank); [|exact R|apply Tn; exact I].
      rewrite Nat.eqb_refl. reflexivity.
    + destruct (existsb _ names) eqn:Q; [|reflexivity]. apply existsb_exists in Q. destruct Q as [f' [If' Q]].
      rewrite (link_root_slot t rank) in Q; [|exact R|apply Tn; exact If']. cbn in Q. discriminate.
Qed.

Inductive reach (h : heap) : oid -> oid -> Prop :=
| reach_refl x : reach h x x
| reach_step x w f z : reach h x w -> In z (h w f) -> reach h x z.

Lemma reach_cons h y f y' : In y' (h y f) -> forall z, reach h y' z -> reach h y z.
Proof.
  intros I z R. induction R as [|a w f' z R IH I'].
  - eapply reach_step; [apply reach_refl|exact I].
  - eapply reach_step; [apply IH; exact I|exact I'].
Qed.

Lemma rank_reach rank h : ranked rank h -> forall x z, reach h x z -> rank x <= rank z.
Proof.
  intros R x z Rz. induction Rz as [|a w f z Rz IH I]; [lia|]. pose proof (R w f z I). lia.
Qed.

(* ancestors of one object form a chain *)
Lemma reach_chain h : unshared h -> forall a z, reach h a z -> forall b, reach h b z -> reach h a b \/ reach h b a.
Proof.
  intros [_ U] a z Ra. induction Ra as [a|a w f z Ra IH I]; intros b Rb.
  - right. exact Rb.
  - inversion Rb as [|b' w' f' z' Rb' I']; subst.
    + left. eapply reach_step; eassumption.
    + destruct (U w f w' f' z I I') as [-> _]. apply IH. exact Rb'.
Qed.

Lemma hooks_reach t h k g : forall x z fz kd, In (z, fz, kd) (expected t h k g x) -> reach h x z.
Proof.
  induction g as [fs n e p cs IH] using graph_ind'. intros x z fz kd I. rewrite Forall_forall in IH.
  apply in_expected in I.
  destruct I as [[_ [= -> _ _]]|[f [_ [_ [[_ [= -> _ _]]|[[c [_ [= -> _ _]]]|[y [c [Hy [Hc I]]]]]]]]]];
    try apply reach_refl.
  eapply reach_cons; [exact Hy|]. apply (IH c Hc y z fz kd I).
Qed.

(* where the hooks of a single-trait node applied to x live: on x itself (its notifier and maintainers on
   slot (x, f), its trait_added maintainer), or strictly below slot (x, f) *)
Lemma region t h k f n e p cs x z fz kd :
  In (z, fz, kd) (expected t h k (G [f] n e p cs) x) ->
  (z = x /\ ((fz = f /\ forall k' g', kd <> KAdded k' g') \/ (fz = TA /\ kd = KAdded k (G [f] n e p cs))))
  \/ (exists y, In y (h x f) /\ reach h y z).
Proof.
  intros I. apply in_expected in I.
  destruct I as [[_ [= -> -> ->]]|[f' [[<-|[]] [_ I]]]]; [left; tauto|].
  destruct I as [[_ [= -> -> ->]]|[[c [_ [= -> -> ->]]]|[y [c [Hy [_ I]]]]]].
  - left. split; [reflexivity|]. left. split; [reflexivity|discriminate].
  - left. split; [reflexivity|]. left. split; [reflexivity|discriminate].
  - right. exists y. split; [exact Hy|]. apply (hooks_reach t h k c y z fz kd I).
Qed.

Lemma NoDup_app_intro {A} (l l' : list A) :
  NoDup l -> NoDup l' -> (forall x, In x l -> In x l' -> False) -> NoDup (l ++ l').
Proof.
  induction 1 as [|a l Na ND IH]; intros N' D; cbn [app]; [exact N'|].
  constructor.
  - intros I. apply in_app_or in I. destruct I as [I|I]; [contradiction|]. apply (D a); [left; reflexivity|exact I].
  - apply IH; [exact N'|]. intros x I I'. apply (D x); [right; exact I|exact I'].
Qed.

Lemma NoDup_flat_map {A B} (F : A -> list B) l :
  NoDup l -> (forall a, In a l -> NoDup (F a)) ->
  (forall a b x, In a l -> In b l -> a <> b -> In x (F a) -> In x (F b) -> False) ->
  NoDup (flat_map F l).
Proof.
  induction 1 as [|a l Na ND IH]; intros H1 H2; cbn [flat_map]; [constructor|].
  apply NoDup_app_intro.
  - apply H1. left. reflexivity.
  - apply IH; [intros; apply H1; right; assumption|].
    intros b c x Ib Ic. apply H2; right; assumption.
  - intros x Ia Il. apply in_flat_map in Il. destruct Il as [b [Ib Ix]].
    apply (H2 a b x); [left; reflexivity|right; exact Ib| |exact Ia|exact Ix].
    intros ->. contradiction.
Qed.

Lemma NoDup_map_inj {A B} (g : A -> B) l a b :
  NoDup (map g l) -> In a l -> In b l -> g a = g b -> a = b.
Proof.
  induction l as [|c l IH]; cbn; intros ND Ia Ib E; [destruct Ia|].
  inversion ND as [|? ? Nc ND']; subst.
  destruct Ia as [->|Ia], Ib as [->|Ib]; [reflexivity| | |apply IH; assumption].
  - exfalso. apply Nc. rewrite E. apply in_map. exact Ib.
  - exfalso. apply Nc. rewrite <- E. apply in_map. exact Ia.
Qed.

(* the inner fix of Model.distinct_fields, under a name *)
Fixpoint all_distinct (cs : list graph) : Prop :=
  match cs with [] => True | c :: l => distinct_fields c /\ all_distinct l end.
Lemma distinct_fields_unfold fs n e p cs :
  distinct_fields (G fs n e p cs) <-> (exists f, fs = [f]) /\ NoDup (map gfield cs) /\ all_distinct cs.
Proof.
  cbn [distinct_fields].
  assert ((fix all (l : list graph) : Prop := match l with [] => True | c :: l' => distinct_fields c /\ all l' end) cs
          = all_distinct cs) as E by (induction cs; cbn; congruence).
  rewrite E. tauto.
Qed.
Lemma all_distinct_In cs c : all_distinct cs -> In c cs -> distinct_fields c.
Proof. induction cs; cbn; [tauto|]. intros [A B] [->|I]; auto. Qed.
Lemma distinct_single g : distinct_fields g -> exists f n e p cs, g = G [f] n e p cs.
Proof.
  destruct g as [fs n e p cs]. intros D. apply (proj1 (distinct_fields_unfold fs n e p cs)) in D.
  destruct D as [[f ->] _]. exists f, n, e, p, cs. reflexivity.
Qed.

Section Tree.
  Variables (t : traits) (rank : oid -> nat) (h : heap) (k : hkey).
  Hypothesis R : ranked rank h.
  Hypothesis U : unshared h.

  Lemma not_below x f y : In y (h x f) -> reach h y x -> False.
  Proof. intros Hy Rx. pose proof (R _ _ _ Hy). pose proof (rank_reach rank h R _ _ Rx). lia. Qed.

  (* two members of the slots of one object - of different slots, or different members - have nothing below them
     in common: the ancestors of z form a chain (reach_chain) and no object is referenced twice *)
  Lemma below_disjoint x f1 f2 y1 y2 z :
    In y1 (h x f1) -> In y2 (h x f2) -> f1 <> f2 \/ y1 <> y2 -> reach h y1 z -> reach h y2 z -> False.
  Proof.
    intros H1 H2 NE R1 R2. destruct U as [_ U2].
    destruct (reach_chain h U y1 z R1 y2 R2) as [C|C]; inversion C as [|a w f' b C' I']; subst.
    - destruct (U2 _ _ _ _ _ H1 H2) as [_ E]. destruct NE as [NE|NE]; congruence.
    - destruct (U2 _ _ _ _ _ I' H2) as [-> _]. exact (not_below _ _ _ H1 C').
    - destruct (U2 _ _ _ _ _ H1 H2) as [_ E]. destruct NE as [NE|NE]; congruence.
    - destruct (U2 _ _ _ _ _ I' H1) as [-> _]. exact (not_below _ _ _ H2 C').
  Qed.

  Lemma below_elsewhere x f cs z fz kd : In (z, fz, kd) (sumexp t h k cs (h x f)) -> z <> x.
  Proof.
    unfold sumexp. intros I ->. apply in_flat_map in I. destruct I as [y [Hy I]].
    apply in_flat_map in I. destruct I as [c [_ I]]. apply hooks_reach in I. exact (not_below x f y Hy I).
  Qed.

  (* sibling graphs with different fields, applied to the same object, share no hook *)
  Lemma siblings_disjoint c1 c2 y hk :
    distinct_fields c1 -> distinct_fields c2 -> gfield c1 <> gfield c2 ->
    In hk (expected t h k c1 y) -> In hk (expected t h k c2 y) -> False.
  Proof.
    intros D1 D2 NE I1 I2. destruct hk as [[z fz] kd].
    destruct (distinct_single c1 D1) as [f1 [n1 [e1 [p1 [cs1 ->]]]]].
    destruct (distinct_single c2 D2) as [f2 [n2 [e2 [p2 [cs2 ->]]]]]. cbn [gfield hd] in NE.
    destruct (region t h k f1 n1 e1 p1 cs1 y z fz kd I1) as [[E1 F1]|[y1 [Hy1 R1]]];
      destruct (region t h k f2 n2 e2 p2 cs2 y z fz kd I2) as [[E2 F2]|[y2 [Hy2 R2]]].
    - destruct F1 as [[F1 N1]|[F1 K1]], F2 as [[F2 N2]|[F2 K2]]; congruence.
    - subst z. exact (not_below _ _ _ Hy2 R2).
    - subst z. exact (not_below _ _ _ Hy1 R1).
    - exact (below_disjoint y f1 f2 y1 y2 z Hy1 Hy2 (or_introl NE) R1 R2).
  Qed.

  (* The hooks of a node applied to x are those on x itself - its trait_added maintainer, its notifier, one maintainer
     per child, told apart by their kind and by the children's fields - and those below the members of the slot,
     which are not on x (below_elsewhere) and are disjoint for different members (below_disjoint) and for different
     children (siblings_disjoint). *)
  Lemma expected_NoDup g : distinct_fields g -> forall x, NoDup (expected t h k g x).
  Proof.
    induction g as [fs n e p cs IH] using graph_ind'. intros D x. rewrite Forall_forall in IH.
    apply (proj1 (distinct_fields_unfold fs n e p cs)) in D. destruct D as [[f ->] [DF DA]].
    cbn [expected flat_map]. rewrite app_nil_r. fold (sumexp t h k cs (h x f)). apply NoDup_app_intro.
    - destruct e; repeat constructor. intros [].
    - destruct (t x f); [|constructor]. unfold own. rewrite <- app_assoc.
      apply NoDup_app_intro; [|apply NoDup_app_intro|].
      + destruct n; repeat constructor. intros [].
      + apply FinFun.Injective_map_NoDup; [|apply (NoDup_map_inv gfield); exact DF].
        intros c1 c2 E. inversion E. reflexivity.
      + apply NoDup_flat_map.
        * destruct U as [U1 _]. apply U1.
        * intros y Hy. apply NoDup_flat_map.
          -- apply (NoDup_map_inv gfield). exact DF.
          -- intros c Hc. apply IH; [exact Hc|]. apply (all_distinct_In cs); assumption.
          -- intros c1 c2 hk H1 H2 NE I1 I2. apply (siblings_disjoint c1 c2 y hk); try assumption.
             ++ apply (all_distinct_In cs); assumption.
             ++ apply (all_distinct_In cs); assumption.
             ++ intros E. apply NE. apply (NoDup_map_inj gfield cs); assumption.
        * intros y1 y2 [[z fz] kd] H1 H2 NE I1 I2.
          apply in_flat_map in I1. destruct I1 as [c1 [_ I1]]. apply in_flat_map in I2. destruct I2 as [c2 [_ I2]].
          apply (below_disjoint x f f y1 y2 z H1 H2 (or_intror NE)); eapply hooks_reach; eassumption.
      + intros hk I1 I2. apply in_map_iff in I1. destruct I1 as [c [<- _]]. exact (below_elsewhere x f cs _ _ _ I2 eq_refl).
      + intros hk I1 I2. destruct n; [|destruct I1]. destruct I1 as [<-|[]].
        apply in_app_or in I2. destruct I2 as [I2|I2]; [|exact (below_elsewhere x f cs _ _ _ I2 eq_refl)].
        apply in_map_iff in I2. destruct I2 as [c [[=] _]].
    - intros hk I1 I2. destruct e; [|destruct I1]. destruct I1 as [<-|[]].
      destruct (t x f); [|destruct I2]. unfold own in I2. rewrite !in_app_iff, in_map_iff in I2.
      destruct I2 as [[I2|[c [[=] _]]]|I2]; [|exact (below_elsewhere x f cs _ _ _ I2 eq_refl)].
      destruct n; [|destruct I2]. destruct I2 as [[=]|[]].
  Qed.

  Lemma expected_list_NoDup gs r :
    NoDup (map gfield gs) -> all_distinct gs -> NoDup (flat_map (fun g => expected t h k g r) gs).
  Proof.
    intros DF DA. apply NoDup_flat_map.
    - apply (NoDup_map_inv gfield). exact DF.
    - intros g Hg. apply expected_NoDup. apply (all_distinct_In gs); assumption.
    - intros g1 g2 hk H1 H2 NE I1 I2. apply (siblings_disjoint g1 g2 r hk); try assumption.
      + apply (all_distinct_In gs); assumption.
      + apply (all_distinct_In gs); assumption.
      + intros E. apply NE. apply (NoDup_map_inj gfield gs); assumption.
  Qed.
End Tree.
Definition names_nodup (e : ename) : Prop := Forall (fun it : list fname * sep * bool => NoDup (fst (fst it))) e.

Lemma gfield_link f n p cs : gfield (link f n p cs) = f.
Proof. unfold link. destruct (is_container f); reflexivity. Qed.

Lemma link_distinct f n p cs : NoDup (map gfield cs) -> all_distinct cs -> distinct_fields (link f n p cs).
Proof.
  intros DF DA. unfold link. destruct (is_container f).
  - apply distinct_fields_unfold. split; [eexists; reflexivity|]. split; [repeat constructor; intros []|].
    cbn [all_distinct]. split; [|exact I].
    apply distinct_fields_unfold. split; [eexists; reflexivity|]. tauto.
  - apply distinct_fields_unfold. split; [eexists; reflexivity|]. tauto.
Qed.

Lemma legacy_distinct : forall e gs, names_nodup e -> legacy_to_graph e = Some gs ->
  NoDup (map gfield gs) /\ all_distinct gs.
Proof.
  induction e as [|[[names s] p] rest IH]; intros gs ND L; [discriminate|].
  inversion ND as [|? ? Nn Nr]; subst. cbn [fst] in Nn.
  destruct rest as [|it rest].
  - cbn [legacy_to_graph] in L. destruct (forallb _ names); [|discriminate]. inversion L; subst gs. clear L. split.
    + rewrite map_map. cbn [gfield hd]. rewrite map_id. exact Nn.
    + clear. induction names; cbn [map all_distinct]; [exact I|]. split; [|assumption].
      apply distinct_fields_unfold. split; [eexists; reflexivity|]. split; [constructor|exact I].
  - change (legacy_to_graph ((names, s, p) :: it :: rest))
      with (match legacy_to_graph (it :: rest) with
            | Some cs => Some (map (fun f => link f (sep_notify s) p cs) names) | None => None end) in L.
    destruct (legacy_to_graph (it :: rest)) as [cs|] eqn:E; [|discriminate]. inversion L; subst gs. clear L.
    destruct (IH cs Nr eq_refl) as [DF DA]. split.
    + rewrite map_map. erewrite map_ext; [rewrite map_id; exact Nn|]. intros f. apply gfield_link.
    + clear Nn ND. induction names; cbn; [exact I|]. split; [apply link_distinct; assumption|assumption].
Qed.

Lemma all_equal_length {A} (a : A) l : NoDup l -> (forall y, In y l -> y = a) -> length l <= 1.
Proof.
  intros ND E. destruct l as [|b [|c l]]; cbn; [lia|lia|exfalso].
  inversion ND as [|? ? Nb _]; subst. apply Nb. left.
  rewrite (E b (or_introl eq_refl)). rewrite (E c (or_intror (or_introl eq_refl))). reflexivity.
Qed.

Lemma user_hook_eqb_true x f hk : user_hook_eqb x f hk = true <-> exists u, hk = (x, f, KUser u).
Proof.
  destruct hk as [[z fz] kd]. cbn. rewrite andb_true_iff, slot_eqb_true. split.
  - intros [[-> ->] Kd]. destruct kd as [u| |]; try discriminate. exists u. reflexivity.
  - intros [u [= -> -> ->]]. tauto.
Qed.

(* what path_count counts are copies of one hook, the key's user notifier on the slot, and there is one iff a
   graph of the name matches the slot *)
Lemma counted_hook t h k gs r x f hk :
  In hk (filter (user_hook_eqb x f) (flat_map (fun g => expected t h k g r) gs)) <->
  hk = (x, f, KUser k) /\ existsb (fun g => matched t h g r x f) gs = true.
Proof.
  rewrite filter_In, in_flat_map, user_hook_eqb_true, existsb_exists. split.
  - intros [[g [Hg I]] [u ->]]. apply expected_user in I. destruct I as [-> M].
    split; [reflexivity|]. exists g. split; assumption.
  - intros [-> [g [Hg M]]]. split; [|exists k; reflexivity].
    exists g. split; [exact Hg|]. apply expected_user. split; [reflexivity|exact M].
Qed.

Lemma path_count_le_1 t rank h k e gs r x f :
  ranked rank h -> unshared h -> names_nodup e -> legacy_to_graph e = Some gs ->
  path_count t h k gs r x f <= 1.
Proof.
  intros R U ND L. destruct (legacy_distinct e gs ND L) as [DF DA].
  unfold path_count. apply (all_equal_length (x, f, KUser k)).
  - apply NoDup_filter. apply (expected_list_NoDup t rank h k R U gs r DF DA).
  - intros hk I. apply counted_hook in I. apply I.
Qed.

Lemma path_count_pos t h k gs r x f :
  0 < path_count t h k gs r x f <-> existsb (fun g => matched t h g r x f) gs = true.
Proof.
  unfold path_count. split.
  - intros P. destruct (filter _ _) as [|hk l] eqn:E; [cbn in P; lia|].
    apply (counted_hook t h k gs r x f hk). rewrite E. left. reflexivity.
  - intros M. assert (In (x, f, KUser k) (filter (user_hook_eqb x f) (flat_map (fun g => expected t h k g r) gs))) as F
      by (apply counted_hook; split; [reflexivity|exact M]).
    destruct (filter _ _); [destruct F|cbn; lia].
Qed.

Lemma count_key_nodup k l : NoDup l ->
  length (filter (hkey_eqb k) l) = if mem_key k l then 1 else 0.
Proof.
  induction 1 as [|a l Na ND IH]; [reflexivity|]. cbn [filter mem_key].
  destruct (hkey_eqb k a) eqn:Q.
  - apply hkey_eqb_spec in Q. subst a. cbn [orb length]. rewrite IH.
    destruct (mem_key k l) eqn:M; [apply mem_key_In in M; contradiction|reflexivity].
  - cbn [orb]. exact IH.
Qed.

(* the model calls the key once iff a graph matches; the specification counts at most one path, and one iff a
   graph matches *)
Lemma calls_eq_path_count rank st o x f e gs k :
  inv st -> op_hyp st o = true -> notified st o = Some (x, f) ->
  ranked rank (st_heap st) -> unshared (st_heap st) ->
  names_nodup e -> legacy_to_graph e = Some gs -> st_regs st = map (pair k) gs ->
  length (filter (hkey_eqb k) (map call_key (ob_calls (snd (step st o)))))
  = path_count (st_traits st) (st_heap st) k gs (snd k) x f.
Proof.
  intros I Hy N R U ND L RG. pose proof (step_spec st o I Hy) as S. unfold step_ok in S.
  destruct (step st o) as [st' ob]. rewrite N in S. destruct S as [_ [_ [NDk [Sp _]]]]. cbn [snd].
  rewrite (count_key_nodup k _ NDk).
  pose proof (path_count_le_1 (st_traits st) rank (st_heap st) k e gs (snd k) x f R U ND L) as LE.
  assert (mem_key k (map call_key (ob_calls ob)) = true <-> 0 < path_count (st_traits st) (st_heap st) k gs (snd k) x f) as Y.
  { rewrite mem_key_In, Sp, path_count_pos, existsb_exists, RG. split; intros [g [Hg M]]; exists g; (split; [|exact M]).
    - apply in_map_iff in Hg. destruct Hg as [g' [[= <-] Hg]]. exact Hg.
    - apply in_map. exact Hg. }
  destruct (mem_key k (map call_key (ob_calls ob))).
  - pose proof (proj1 Y eq_refl). lia.
  - destruct (path_count _ _ _ _ _ _ _); [reflexivity|]. assert (false = true) by (apply Y; lia). discriminate.
Qed.

Lemma unregistered_not_called st o k :
  inv st -> op_hyp st o = true -> (forall g, ~ In (k, g) (st_regs st)) ->
  ~ In k (map call_key (ob_calls (snd (step st o)))).
Proof.
  intros I Hy NR. pose proof (step_spec st o I Hy) as S. unfold step_ok in S.
  destruct (step st o) as [st' ob]. cbn [snd]. destruct (notified st o) as [[x f]|].
  - destruct S as [_ [_ [_ [Sp _]]]]. intros IK. apply Sp in IK. destruct IK as [g [Hg _]]. apply (NR g Hg).
  - destruct S as [_ [_ ->]]. intros [].
Qed.
