(* C08 — property theorems only.  Each is a lemma of Proofs.v or follows from one in a few lines
   (or holds by evaluation, for the concrete witnesses).  Theorems are followed by Print Assumptions; the Examples
   are closed witnesses that the hypotheses can be met.

   Vocabulary: [inv st] = the hook multiset of the state equals [expected_all] of the current
   heap and live registrations; [hyps st ops] = every operation of the history is edge-acyclic
   for the live registrations in the state in which it runs (and only live registrations are
   removed); [notified st o] = the slot the operation changes with a notification that is not
   filtered before the user handler (re-assigning the same object / an equal container and a
   default that materialises are not changes). *)
From Coq Require Import ZArith List Arith Bool PeanoNat Permutation.
From TV Require Import Common.Harness Common.ObsCore C08.Model C08.Law C08.Proofs.
Import ListNotations.
Open Scope nat_scope.

(* Registration installs exactly the expected hooks (walk of _observe.py = specification). *)
Theorem registration_hooks_expected :
  forall t h k g x, Permutation (add_order t h k g x) (expected t h k g x).
Proof. exact add_order_expected. Qed.
Print Assumptions registration_hooks_expected.

(* Main invariant, by induction over histories of any length: after every edge-acyclic history
   of registrations, removals, trait assignments, container assignments, default materialisation,
   in-place list/dict/set mutations and probes, the notifier lists hold exactly the hooks the
   expressions demand in the CURRENT heap. *)
Theorem hooks_are_expected :
  forall ops st, inv st -> hyps st ops = true -> inv (final st ops).
Proof. exact inv_final. Qed.
Print Assumptions hooks_are_expected.

Theorem hooks_are_expected_from_scratch :
  forall npool ops, hyps (init npool) ops = true -> inv (final (init npool) ops).
Proof. intros npool ops. apply inv_final. apply inv_init. Qed.
Print Assumptions hooks_are_expected_from_scratch.

(* The whole property law (all 7 clauses of Law.v: no missing call, no call for an unreachable
   object, no double call, events identify the change, quiet links silent, no mutation raises, no
   call without change), recomputed from scratch from the heap, holds at every step of every
   edge-acyclic history of the model, of any length, from the empty pool state. *)
Theorem law_holds_on_every_acyclic_history :
  forall npool ops, hyps (init npool) ops = true ->
    law_hist 0%Z init_traits (fun _ _ => []) [] (run (init npool) ops) = [].
Proof. intros npool ops H. apply (law_hist_model ops (init npool) 0%Z (inv_init npool) H). Qed.
Print Assumptions law_holds_on_every_acyclic_history.

Theorem law_holds_from_any_consistent_state :
  forall ops st i, inv st -> hyps st ops = true ->
    law_hist i (st_traits st) (st_heap st) (st_regs st) (run st ops) = [].
Proof. exact law_hist_model. Qed.
Print Assumptions law_holds_from_any_consistent_state.

(* At every step of such a history: the operation does not raise, except a registration that cannot be hooked
   (ValueError, nothing changes); if it is a notified change of
   slot (x, f) every key (handler, target) is called at most once, it is called iff one of its live
   expressions matches (x, f) through a notifying node in the current heap, and every event names
   (x, f); if it is not a notified change nobody is called. *)
Theorem called_once_iff_reachable :
  forall ops st pre o post, inv st -> hyps st ops = true -> ops = pre ++ o :: post ->
    step_ok (final st pre) o.
Proof. exact every_step_ok. Qed.
Print Assumptions called_once_iff_reachable.

(* An object no live expression reaches (detached, or reached only through ':' links) is never called. *)
Theorem detached_never_called :
  forall st o x f, inv st -> op_hyp st o = true -> notified st o = Some (x, f) ->
    (forall k g, In (k, g) (st_regs st) -> matched (st_traits st) (st_heap st) g (snd k) x f = false) ->
    ob_calls (snd (step st o)) = [].
Proof.
  intros st o x f I Hy N Hno. pose proof (step_spec st o I Hy) as S. unfold step_ok in S.
  destruct (step st o) as [st' ob]. rewrite N in S. destruct S as [_ [_ [_ [Sp _]]]]. cbn [snd].
  destruct (ob_calls ob) as [|c cs] eqn:E; [reflexivity|exfalso].
  destruct (proj1 (Sp (call_key c)) (or_introl eq_refl)) as [g [Hr Hm]].
  rewrite (Hno _ _ Hr) in Hm. discriminate.
Qed.
Print Assumptions detached_never_called.

(* The event identifies what changed: every call made for a notified change of (x, f) carries (x, f). *)
Theorem event_identifies_change :
  forall st o x f, inv st -> op_hyp st o = true -> notified st o = Some (x, f) ->
    forall c, In c (ob_calls (snd (step st o))) -> call_slot c = (x, f).
Proof.
  intros st o x f I Hy N c Hc. pose proof (step_spec st o I Hy) as S. unfold step_ok in S.
  destruct (step st o) as [st' ob]. rewrite N in S. destruct S as [_ [_ [_ [_ Sl]]]]. apply Sl. exact Hc.
Qed.
Print Assumptions event_identifies_change.

(* A mutation of a container reached through a notifying items link delivers its event to the key. *)
Theorem container_event_delivered :
  forall st c f i n vs k g, inv st -> op_hyp st (Splice c f i n vs) = true ->
    spliced_out (st_heap st c f) i n ++ vs <> [] ->
    In (k, g) (st_regs st) -> matched (st_traits st) (st_heap st) g (snd k) c f = true ->
    In (k, c, f, spliced_out (st_heap st c f) i n, vs) (ob_calls (snd (step st (Splice c f i n vs)))).
Proof.
  intros st c f i n vs k g I Hy NE Hr Hm.
  pose proof (step_spec st (Splice c f i n vs) I Hy) as S. unfold step_ok in S. cbn [notified step] in *.
  destruct (spliced_out (st_heap st c f) i n ++ vs) eqn:Q; [congruence|].
  pose proof (change_calls st c f (splice (st_heap st c f) i n vs) (spliced_out (st_heap st c f) i n) vs false true) as CC.
  destruct (change st c f _ _ vs false true) as [st' ob]. destruct S as [_ [_ [_ [Sp _]]]]. cbn [snd] in *.
  assert (In k (map call_key (ob_calls ob))) as IK by (apply Sp; exists g; tauto).
  apply in_map_iff in IK. destruct IK as [cl [<- Icl]]. rewrite <- (CC cl Icl). exact Icl.
Qed.
Print Assumptions container_event_delivered.

(* In such a history only a registration that cannot be hooked raises (ValueError); no operation on a slot does. *)
Theorem no_mutation_raises :
  forall ops st, inv st -> hyps st ops = true ->
    Forall (fun p : op * obs => ob_out (snd p) = Ok \/ (op_slot (fst p) = None /\ ob_out (snd p) = Raise ValueError))
           (run st ops).
Proof. exact run_all_ok. Qed.
Print Assumptions no_mutation_raises.

(* Duplicates are counted: the number of equal notifier entries on an observable (the reference
   count of a user notifier, the number of equal maintainers) is the multiplicity of the entry in [expected_all],
   which lists it once for every path along which a live expression reaches the observable. *)
Theorem duplicates_counted :
  forall st (eq_dec : forall a b : oid * fname * kind, {a = b} + {a <> b}) hk,
    inv st -> count_occ eq_dec (st_hooks st) hk
              = count_occ eq_dec (expected_all (st_traits st) (st_heap st) (st_regs st)) hk.
Proof. intros st eq_dec hk I. apply Permutation_count_occ. exact I. Qed.
Print Assumptions duplicates_counted.

(* The hypothesis is met by every DAG: if the heap has a rank function (links go strictly up) that also
   puts the objects written into the slot above its owner - i.e. the heap is a DAG before and after the
   change -, the change is edge-acyclic for every set of registrations and expressions. *)
Theorem dag_heaps_are_edge_acyclic :
  forall t rank h rs o fo news,
    fo <> TA -> ranked rank h -> (forall y, In y news -> rank o < rank y) ->
    (forall kc, In kc (occ_all t h rs o fo) -> forall y, In y news -> walkable t (upd h o fo news) (snd kc) y = true) ->
    edge_acyclic t h rs o fo news.
Proof. exact ranked_edge_acyclic. Qed.
Print Assumptions dag_heaps_are_edge_acyclic.

(* The substitution theorem behind the step case. *)
Theorem expected_substitution :
  forall t h k o fo news g x, acyc_on t h o fo news g x ->
    Permutation
      (expected t (upd h o fo news) k g x ++ flat_map (fun c => sumexp t h k [c] (h o fo)) (occ t h g x o fo))
      (expected t h k g x ++ flat_map (fun c => sumexp t h k [c] news) (occ t h g x o fo)).
Proof. exact expected_subst. Qed.
Print Assumptions expected_substitution.

(* The trait-addition theorem behind add_trait: what the matching trait_added maintainers add is
   exactly what [expected] gains when object x0 acquires trait f0. *)
Theorem expected_trait_addition :
  forall t h rs x0 f0 H,
    t x0 f0 = false -> h x0 f0 = [] -> forallb (fun r : reg => wf_dyn f0 (snd r)) rs = true ->
    Permutation H (expected_all t h rs) ->
    Permutation (H ++ flat_map (fun kg => own_for (fst kg) x0 f0 (snd kg)) (added_on H x0))
                (expected_all (add_trait t x0 f0) h rs).
Proof. exact inv_add_trait_all. Qed.
Print Assumptions expected_trait_addition.

(* F14: without edge-acyclicity the property is false of the faithful model.  o.f = o;
   o.observe(h, "f.f.value"); o.f = p; p.f = o; p.value = 9: nothing raises, the hypothesis fails at
   the third operation, and the last probe calls the handler for (p, value), which is not matched. *)
Definition f14_history : list op :=
  [SetRef 0 1 [0]; Observe 0 0 (G [1] true true false [G [1] true true false [G [0] true true false []]]);
   SetRef 0 1 [1]; SetRef 1 1 [0]; Probe 1].
Theorem cyclic_refuted :
  exists ops, Forall (fun p : op * obs => ob_out (snd p) = Ok) (run (init 2) ops)
              /\ hyps (init 2) ops = false
              /\ law_hist 0%Z init_traits (fun _ _ => []) [] (run (init 2) ops) = [402%Z]
              /\ ~ inv (final (init 2) ops).
Proof.
  exists f14_history. split; [vm_compute; repeat constructor|]. split; [|split]; [vm_compute; reflexivity..|].
  intros I. unfold inv in I. apply Permutation_length in I. vm_compute in I. discriminate.
Qed.
Print Assumptions cyclic_refuted.

(* F14, second form: a list that comes to contain its own owner.  o.observe(h, kids.items.kids.items.value);
   o.kids.append(p); o.kids[0] = o: the mutation raises NotifierNotFound in the model as in the code. *)
Definition f14_list_history : list op :=
  [SetCont 0 3 [] true; SetCont 1 3 [] true;
   Observe 0 0 (G [3] true true false [G [6] true false false [G [3] true true false [G [6] true false false [G [0] true true false []]]]]);
   Splice 2 6 0 0 [1]; Splice 2 6 0 1 [0]].
Theorem cyclic_list_refuted :
  exists ops, hyps (init 2) ops = false
              /\ map (fun p : op * obs => ob_out (snd p)) (run (init 2) ops) = [Ok; Ok; Ok; Ok; Raise NotifierNotFound]
              /\ law_hist 0%Z init_traits (fun _ _ => []) [] (run (init 2) ops) = [406%Z].
Proof. exists f14_list_history. vm_compute. repeat split; reflexivity. Qed.
Print Assumptions cyclic_list_refuted.

(* Witness of the finding del-container: del o.kids on an observed container trait notifies twice (ctraits.c setattr_trait, value ==
   NULL: getattr_trait materialises the default with old = Uninitialized, then call_notifiers(old, new)),
   so every maintainer hooks the new container twice.  After the container is replaced, the detached one
   still calls the handler: the law fails at the last step, nothing raises, the invariant is broken. *)
Definition del_container_history : list op :=
  [SetCont 0 3 [1] false; Observe 0 0 (G [3] true true false [G [6] true false false []]); DelCont 0 3;
   SetCont 0 3 [2] false; Splice 4 6 0 0 [1]].
Theorem del_container_refuted :
  exists ops, Forall (fun p : op * obs => ob_out (snd p) = Ok) (run (init 3) ops)
              /\ hyps (init 3) ops = false
              /\ law_hist 0%Z init_traits (fun _ _ => []) [] (run (init 3) ops) = [402%Z]
              /\ ~ inv (final (init 3) (firstn 3 ops)).
Proof.
  exists del_container_history. split; [vm_compute; repeat constructor|]. split; [vm_compute; reflexivity|].
  split; [vm_compute; reflexivity|].
  intros I. unfold inv in I. apply Permutation_length in I. vm_compute in I. discriminate.
Qed.
Print Assumptions del_container_refuted.

(* The `optional` flag and the failing walk.  A registration whose walk meets a missing non-optional trait raises
   ValueError and changes NOTHING (the shared undo log of _observe.py). *)
Theorem failed_registration_is_atomic :
  forall st k r g, walkable (st_traits st) (st_heap st) g r = false ->
    step st (Observe k r g) = (st, mkObs (Raise ValueError) [] []).
Proof. intros st k r g W. cbn [step]. rewrite W. reflexivity. Qed.
Print Assumptions failed_registration_is_atomic.

Theorem failed_registration_of_several_graphs_is_atomic :
  forall st k r gs, forallb (fun g => walkable (st_traits st) (st_heap st) g r) gs = false ->
    step st (ObserveAll k r gs) = (st, mkObs (Raise ValueError) [] []).
Proof. intros st k r gs W. cbn [step]. rewrite W. reflexivity. Qed.
Print Assumptions failed_registration_of_several_graphs_is_atomic.

(* A maintainer that cannot hook the new value: the change is stored, ValueError reaches the caller, and the hooks
   are exactly those the expressions demand when the slot holds only the objects that stayed - nothing remains
   below the detached old value (observer_change_handler unhooks the old value BEFORE hooking the new one).
   Stated for the slot's single maintainer failing on the first added object. *)
Theorem old_value_unhooked_when_new_value_cannot_be_hooked :
  forall st o fo news removed added keep prevented strict k c y ys,
    inv st ->
    Permutation (st_heap st o fo) (keep ++ removed) -> Permutation news (keep ++ added) ->
    fo <> TA ->
    (forall kc, In kc (occ_all (st_traits st) (st_heap st) (st_regs st) o fo) ->
       forall z, In z (st_heap st o fo) \/ In z news -> visits (st_traits st) (st_heap st) (snd kc) z o fo = false) ->
    maint_on (st_hooks st) o fo = [(k, c)] ->
    added = y :: ys -> walkable (st_traits st) (upd (st_heap st) o fo news) c y = false ->
    ob_out (snd (change st o fo news removed added prevented strict)) = Raise ValueError
    /\ st_heap (fst (change st o fo news removed added prevented strict)) = upd (st_heap st) o fo news
    /\ Permutation (st_hooks (fst (change st o fo news removed added prevented strict)))
                   (expected_all (st_traits st) (upd (st_heap st) o fo keep) (st_regs st)).
Proof. intros. eapply change_fails_single; eassumption. Qed.
Print Assumptions old_value_unhooked_when_new_value_cannot_be_hooked.

(* The general case, several maintainers on the slot: those before the failing one have swapped the hooks below
   the removed objects for those below the added ones, the failing one has only unhooked, those after it have not
   run (the exception stops the notifier loop - the code's behaviour, stated exactly). *)
Theorem failing_maintainer_exact_effect :
  forall st o fo news removed added keep prevented strict M1 k c M2 y ys,
    inv st ->
    Permutation (st_heap st o fo) (keep ++ removed) -> Permutation news (keep ++ added) ->
    fo <> TA ->
    (forall kc, In kc (occ_all (st_traits st) (st_heap st) (st_regs st) o fo) ->
       forall z, In z (st_heap st o fo) \/ In z news -> visits (st_traits st) (st_heap st) (snd kc) z o fo = false) ->
    maint_on (st_hooks st) o fo = M1 ++ (k, c) :: M2 ->
    (forall kc z, In kc M1 -> In z added -> walkable (st_traits st) (upd (st_heap st) o fo news) (snd kc) z = true) ->
    added = y :: ys -> walkable (st_traits st) (upd (st_heap st) o fo news) c y = false ->
    let h' := upd (st_heap st) o fo news in
    let t := st_traits st in
    ob_out (snd (change st o fo news removed added prevented strict)) = Raise ValueError
    /\ st_heap (fst (change st o fo news removed added prevented strict)) = h'
    /\ Permutation (st_hooks (fst (change st o fo news removed added prevented strict))
                    ++ S_of t h' M1 removed ++ S_of t h' [(k, c)] removed)
                   (st_hooks st ++ S_of t h' M1 added).
Proof. intros. cbv zeta. eapply change_fails; eassumption. Qed.
Print Assumptions failing_maintainer_exact_effect.

(* ... and what it means for the property: with two handlers observing through the same trait, the first one's
   failing maintainer starves the second (error path; known finding `failing-maintainer/...`): the second handler
   misses the change (401), the detached old value still calls it (502), the new value does not (601). *)
Definition starved_maintainer_history : list op :=
  [AddTrait 1 12; SetRef 0 1 [1]; Observe 0 0 (G [1] true true false [G [12] true true false []]);
   Observe 1 0 (G [1] true true false [G [0] true true false []]); SetRef 0 1 [2]; Probe 1; Probe 2].
Theorem failing_maintainer_refuted :
  exists ops, hyps (init 3) ops = false
              /\ map (fun p : op * obs => ob_out (snd p)) (run (init 3) ops)
                 = [Ok; Ok; Ok; Ok; Raise ValueError; Ok; Ok]
              /\ law_hist 0%Z init_traits (fun _ _ => []) [] (run (init 3) ops) = [401%Z; 502%Z; 601%Z].
Proof. exists starved_maintainer_history. vm_compute. repeat split; reflexivity. Qed.
Print Assumptions failing_maintainer_refuted.

(* The optional flag only matters for failure: it never changes which (object, trait) pairs an expression
   reaches, and an expression all of whose observers are optional can always be hooked. *)
Theorem optional_flag_does_not_change_reachability :
  forall t h b g x o fo, matched t h (set_optional b g) x o fo = matched t h g x o fo.
Proof. exact matched_set_optional. Qed.
Print Assumptions optional_flag_does_not_change_reachability.

Theorem optional_expressions_never_fail :
  forall t h g, all_optional g = true -> forall x, walkable t h g x = true.
Proof. exact all_optional_walkable. Qed.
Print Assumptions optional_expressions_never_fail.

(* A registration that cannot be hooked is INSIDE the hypotheses of the history theorems: it raises ValueError,
   nothing changes, the invariant and the law go on holding. *)
Example failing_registration_inside_hyps :
  let ops := [SetRef 0 1 [1]; Observe 0 0 (G [1] true true false [G [12] true true false []]); Probe 1;
              AddTrait 1 12; Observe 0 0 (G [1] true true false [G [12] true true false []]); SetRef 1 12 [2]] in
  hyps (init 3) ops = true
  /\ map (fun p => (ob_out (snd p), length (ob_calls (snd p)))) (run (init 3) ops)
     = [(Ok, 0); (Raise ValueError, 0); (Ok, 0); (Ok, 0); (Ok, 0); (Ok, 1)]
  /\ law_hist 0%Z init_traits (fun _ _ => []) [] (run (init 3) ops) = [].
Proof. vm_compute. repeat split; reflexivity. Qed.

(* Non-vacuity of failed_registration_is_atomic and old_value_unhooked_when_new_value_cannot_be_hooked: object 1
   has the non-optional trait 12, object 2 does not.  Registering on 2 fails atomically; re-assigning 0.f from 1
   to 2 raises ValueError, is stored, and the detached object 1 is silent: the law has no complaint (the raise is
   the allowed one). *)
Example unhookable_nontrivial :
  let g := G [1] true true false [G [12] true true false [G [0] true true false []]] in
  let ops := [AddTrait 1 12; SetRef 0 1 [1]; SetRef 1 12 [3]; Observe 0 0 g; Probe 3;
              SetRef 0 1 [2]; Probe 3; SetRef 1 12 []; Observe 1 2 (G [12] true true false []); SetRef 0 1 [1]; Probe 3] in
  map (fun p => (ob_out (snd p), length (ob_calls (snd p)))) (run (init 4) ops)
  = [(Ok, 0); (Ok, 0); (Ok, 0); (Ok, 0); (Ok, 1); (Raise ValueError, 1); (Ok, 0); (Ok, 0);
     (Raise ValueError, 0); (Ok, 1); (Ok, 0)]
  /\ law_hist 0%Z init_traits (fun _ _ => []) [] (run (init 4) ops) = []
  /\ hyps (init 4) ops = false.
Proof. vm_compute. repeat split; reflexivity. Qed.

(* Non-vacuity: a history over a DAG with a list holding the same object twice, an equal list
   re-assigned, a default materialised late, a quiet link, a filter node (f and g), an optional observer
   of a trait added later with add_trait, and an anytrait leaf meets the hypotheses, and calls happen. *)
Example history_nontrivial :
  let g := G [3] true true false [G [6] true false false [G [1] false true false [G [0] true true false []]; G [0] true true false []]] in
  let d := G [1; 2] true true false [G [13] true true true [G [0] true true false []]] in
  let ops := [SetRef 1 1 [2]; SetCont 0 3 [1; 2; 1] false; Observe 0 0 g; Probe 1; Probe 2;
              Splice 3 6 0 1 []; Probe 1; SetCont 0 3 [1] false; SetCont 0 3 [1] false; Probe 0;
              Observe 1 1 (G [5] true true false [G [8] true false false []]); Touch 1 5; Splice 6 8 0 0 [2]; Unobserve 0 0 g; Probe 2;
              Observe 0 1 d; Observe 1 2 (G [0; 1; 2; 10; 13] true true true []); AddTrait 2 13; SetRef 2 13 [0]; Probe 0] in
  hyps (init 3) ops = true
  /\ map (fun p => length (ob_calls (snd p))) (run (init 3) ops)
     = [0; 0; 0; 1; 1; 1; 1; 1; 0; 0; 0; 0; 1; 0; 0; 0; 0; 1; 2; 1]
  /\ law_hist 0%Z init_traits (fun _ _ => []) [] (run (init 3) ops) = [].
Proof. vm_compute. repeat split; reflexivity. Qed.
