(* C08 — lemmas.  The executable walk / notifier loop of Model.v against the
   specification [expected] of Common/ObsCore.v; the invariant over histories. *)
From Coq Require Import ZArith List Arith Bool PeanoNat Permutation Lia.
From TV Require Import Common.Harness Common.ObsCore C08.Model C08.Law.
Import ListNotations.
Open Scope nat_scope.

Lemma flat_map_filter {A B} (F : A -> list B) (p : A -> bool) l :
  flat_map F (filter p l) = flat_map (fun a => if p a then F a else []) l.
Proof. induction l as [|a l IH]; cbn; [reflexivity|]. destruct (p a); cbn; rewrite IH; reflexivity. Qed.

(* Model.list_eqb is ObsCore.list_nat_eqb under another name *)
Lemma list_eqb_eq a b : list_eqb a b = true <-> a = b.
Proof. exact (list_nat_eqb_spec a b). Qed.

Lemma list_eqb_refl a : list_eqb a a = true.
Proof. apply list_eqb_eq. reflexivity. Qed.

Lemma reg_eqb_spec a b : reg_eqb a b = true <-> a = b.
Proof.
  destruct a as [k g], b as [k' g']. unfold reg_eqb. cbn [fst snd].
  rewrite andb_true_iff, hkey_eqb_spec, graph_eqb_spec.
  split; [intros [-> ->]; reflexivity|intros [= -> ->]; split; reflexivity].
Qed.

Lemma remove_reg_perm r rs : existsb (reg_eqb r) rs = true -> Permutation rs (r :: remove_reg r rs).
Proof.
  induction rs as [|a rs IH]; cbn; [discriminate|].
  fold (reg_eqb r a). destruct (reg_eqb r a) eqn:Q.
  - apply reg_eqb_spec in Q. subst. reflexivity.
  - cbn. intros E. rewrite perm_swap. apply perm_skip. apply IH. exact E.
Qed.

Lemma splice_old l i n : Permutation l ((firstn i l ++ skipn n (skipn i l)) ++ spliced_out l i n).
Proof.
  unfold spliced_out. rewrite <- (firstn_skipn i l) at 1.
  rewrite <- (firstn_skipn n (skipn i l)) at 1.
  rewrite <- app_assoc. apply Permutation_app_head. apply Permutation_app_comm.
Qed.

Lemma splice_new l i n vs : Permutation (splice l i n vs) ((firstn i l ++ skipn n (skipn i l)) ++ vs).
Proof.
  unfold splice. rewrite <- app_assoc. apply Permutation_app_head. apply Permutation_app_comm.
Qed.

Lemma splice_delta l i n vs : Permutation (splice l i n vs ++ spliced_out l i n) (l ++ vs).
Proof.
  etransitivity; [apply Permutation_app_tail; apply splice_new|].
  etransitivity; [|apply Permutation_app_tail; symmetry; apply (splice_old l i n)].
  rewrite <- !app_assoc. do 2 apply Permutation_app_head. apply Permutation_app_comm.
Qed.

Lemma fresh_slot x f c fc : f <> fc -> slot_eqb x f c fc = false.
Proof. intros N. unfold slot_eqb. rewrite (proj2 (Nat.eqb_neq f fc) N). apply andb_false_r. Qed.

Lemma mem_key_In k l : mem_key k l = true <-> In k l.
Proof.
  induction l as [|a l IH]; cbn; [split; [discriminate|tauto]|].
  rewrite orb_true_iff, hkey_eqb_spec, IH. split; intros [A|A]; auto.
Qed.

Lemma node_perm (t : traits) (h : heap) (k : hkey) (fs : list fname) (n : bool) (cs : list graph) (x : oid)
      (W : graph -> oid -> list (oid * fname * kind)) :
  (forall c, In c cs -> forall y, Permutation (W c y) (expected t h k c y)) ->
  Permutation
    (flat_map (fun f : fname => if n then [(x, f, KUser k)] else []) (obs_fields t x fs)
     ++ flat_map (fun f : fname => map (fun c => (x, f, KMaint k c)) cs) (obs_fields t x fs)
     ++ flat_map (fun c => flat_map (fun y => W c y) (next_objs t h x fs)) cs)
    (flat_map (fun f => if t x f then
                 own k n cs x f ++ flat_map (fun y => flat_map (fun c => expected t h k c y) cs) (h x f)
               else []) fs).
Proof.
  intros HW. unfold obs_fields, next_objs.
  rewrite (flat_map_swap (fun c y => W c y) cs (flat_map (h x) (filter (t x) fs))).
  rewrite (ffm (fun y => flat_map (fun c => W c y) cs) (h x) (filter (t x) fs)).
  rewrite !flat_map_filter. rewrite !flat_map_plus.
  apply Permutation_flat_map_In. intros f Hf. destruct (t x f); [|reflexivity].
  unfold own. rewrite <- app_assoc. do 2 apply Permutation_app_head.
  apply Permutation_flat_map_In. intros y _. apply Permutation_flat_map_In. intros c Hc. apply HW. exact Hc.
Qed.

Lemma add_order_expected t h k g : forall x, Permutation (add_order t h k g x) (expected t h k g x).
Proof.
  induction g as [fs n e p cs IH] using graph_ind'. intros x. rewrite Forall_forall in IH.
  cbn [add_order expected]. rewrite !app_assoc. rewrite Permutation_app_comm. apply Permutation_app_head.
  rewrite <- !app_assoc. apply node_perm. exact IH.
Qed.

Lemma rem_order_expected t h k g : forall x, Permutation (rem_order t h k g x) (expected t h k g x).
Proof.
  induction g as [fs n e p cs IH] using graph_ind'. intros x. rewrite Forall_forall in IH.
  cbn [rem_order expected]. apply Permutation_app_head.
  rewrite <- (node_perm t h k fs n cs x (fun c y => rem_order t h k c y) IH).
  set (U := flat_map (fun f => if n then [(x, f, KUser k)] else []) (obs_fields t x fs)).
  set (M := flat_map (fun f => map (fun c => (x, f, KMaint k c)) cs) (obs_fields t x fs)).
  set (C := flat_map (fun c => flat_map (fun y => rem_order t h k c y) (next_objs t h x fs)) cs).
  rewrite (Permutation_app_comm C). rewrite <- app_assoc. rewrite (Permutation_app_comm M).
  rewrite <- app_assoc. apply Permutation_app_head. apply Permutation_app_comm.
Qed.

Lemma sumexp_cons t h k c y ys : sumexp t h k [c] (y :: ys) = expected t h k c y ++ sumexp t h k [c] ys.
Proof. unfold sumexp. cbn [flat_map]. rewrite app_nil_r. reflexivity. Qed.

Lemma add_objs_perm t h k c ys : forall H, Permutation (add_objs t h k c ys H) (H ++ sumexp t h k [c] ys).
Proof.
  unfold add_objs. induction ys as [|y ys IH]; intros H; cbn [fold_left].
  - rewrite app_nil_r. reflexivity.
  - rewrite IH. rewrite sumexp_cons.
    rewrite <- !app_assoc. apply Permutation_app_head. apply Permutation_app_tail.
    apply add_order_expected.
Qed.

Lemma add_objs_w_ok t h k c ys : (forall y, In y ys -> walkable t h c y = true) ->
  forall H, add_objs_w t h k c ys H = (add_objs t h k c ys H, true).
Proof.
  unfold add_objs. induction ys as [|y ys IH]; intros W H; cbn [add_objs_w fold_left]; [reflexivity|].
  rewrite (W y (or_introl eq_refl)). apply IH. intros y' I. apply W. right. exact I.
Qed.

Lemma rem_objs_complete t h k c ys : forall H K,
  Permutation H (K ++ sumexp t h k [c] ys) ->
  exists H1, rem_objs t h k c ys H = (H1, true) /\ Permutation H1 K.
Proof.
  induction ys as [|y ys IH]; intros H K P; cbn [rem_objs].
  - exists H. split; [reflexivity|]. cbn in P. rewrite app_nil_r in P. exact P.
  - rewrite sumexp_cons in P.
    destruct (remove_all_complete (rem_order t h k c y) H (K ++ sumexp t h k [c] ys)) as [H1 [E1 P1]].
    { rewrite P. rewrite <- app_assoc. apply Permutation_app_head.
      rewrite Permutation_app_comm. apply Permutation_app_head. symmetry. apply rem_order_expected. }
    rewrite E1. apply IH. exact P1.
Qed.

Lemma maintain_complete t h strict k c rem add H K :
  (forall y, In y add -> walkable t h c y = true) ->
  Permutation H (K ++ sumexp t h k [c] rem) ->
  exists H', maintain t h strict k c rem add H = (H', true) /\ Permutation H' (K ++ sumexp t h k [c] add).
Proof.
  intros W P. unfold maintain. destruct (rem_objs_complete t h k c rem H K P) as [H1 [E1 P1]].
  rewrite E1. cbn [orb]. rewrite (add_objs_w_ok t h k c add W).
  eexists. split; [reflexivity|]. rewrite add_objs_perm. apply Permutation_app_tail. exact P1.
Qed.
Lemma maintain_fails t h strict k c rem y ys H K :
  Permutation H (K ++ sumexp t h k [c] rem) -> walkable t h c y = false ->
  exists H1, maintain t h strict k c rem (y :: ys) H = (H1, false) /\ Permutation H1 K.
Proof.
  intros P W. unfold maintain. destruct (rem_objs_complete t h k c rem H K P) as [H1 [E1 P1]].
  rewrite E1. cbn [orb add_objs_w]. rewrite W. exists H1. split; [reflexivity|exact P1].
Qed.

Definition maints_of (ns : list kind) : list (hkey * graph) :=
  flat_map (fun kd => match kd with KMaint k c => [(k, c)] | _ => [] end) ns.
Definition users_of (ns : list kind) : list hkey :=
  flat_map (fun kd => match kd with KUser k => [k] | _ => [] end) ns.
Definition addeds_of (ns : list kind) : list (hkey * graph) :=
  flat_map (fun kd => match kd with KAdded k g => [(k, g)] | _ => [] end) ns.

Lemma on_slot_flat_map {B} (F : kind -> list B) H o fo :
  flat_map F (on_slot H o fo)
  = flat_map (fun hk : oid * fname * kind => let '(x, f, kd) := hk in if slot_eqb x f o fo then F kd else []) H.
Proof.
  unfold on_slot. rewrite ffm. apply flat_map_ext_In. intros [[x f] kd] _.
  destruct (slot_eqb x f o fo); [apply app_nil_r|reflexivity].
Qed.
Lemma maints_of_on_slot H o fo : maints_of (on_slot H o fo) = maint_on H o fo.
Proof. apply on_slot_flat_map. Qed.
Lemma users_of_on_slot H o fo : users_of (on_slot H o fo) = users_on H o fo.
Proof. apply on_slot_flat_map. Qed.
Lemma addeds_of_on_slot H x0 : addeds_of (on_slot H x0 TA) = added_on H x0.
Proof. apply on_slot_flat_map. Qed.

(* the keys a list of user notifiers calls: one notifier per key, none for the keys already seen *)
Fixpoint fresh_keys (seen us : list hkey) : list hkey :=
  match us with
  | [] => []
  | k :: us' => if mem_key k seen then fresh_keys seen us' else k :: fresh_keys (k :: seen) us'
  end.

Lemma fresh_keys_spec us : forall seen,
  NoDup (fresh_keys seen us) /\ forall k, In k (fresh_keys seen us) <-> In k us /\ ~ In k seen.
Proof.
  induction us as [|a us IH]; intros seen; cbn [fresh_keys].
  - split; [constructor|]. cbn. tauto.
  - destruct (mem_key a seen) eqn:Ms.
    + apply mem_key_In in Ms. destruct (IH seen) as [ND Sp]. split; [exact ND|].
      intros k. rewrite Sp. cbn [In]. split; [tauto|]. intros [[<-|I] NS]; [contradiction|tauto].
    + assert (~ In a seen) as Ns by (rewrite <- mem_key_In, Ms; discriminate).
      destruct (IH (a :: seen)) as [ND Sp]. split.
      * constructor; [|exact ND]. rewrite Sp. cbn [In]. tauto.
      * intros k. cbn [In]. rewrite Sp. cbn [In]. split; [intros [<-|I]; tauto|].
        intros [[<-|I] NS]; [left; reflexivity|].
        destruct (hkey_eqb a k) eqn:Q; [left; apply hkey_eqb_spec; exact Q|right].
        split; [exact I|]. intros [->|I2]; [|contradiction].
        rewrite (proj2 (hkey_eqb_spec k k) eq_refl) in Q. discriminate.
Qed.

(* call_notifiers on a slot whose maintainers can all hook the added objects.  K: the hooks the maintainers of the
   slot do not touch; each maintainer swaps the hooks below the removed objects for those below the added ones. *)
Lemma notify_loop_spec t h strict rem add : forall ns seen H K,
  (forall kc y, In kc (maints_of ns) -> In y add -> walkable t h (snd kc) y = true) ->
  Permutation H (K ++ S_of t h (maints_of ns) rem) ->
  exists H', notify_loop t h strict ns seen rem add H = (H', fresh_keys seen (users_of ns), true)
    /\ Permutation H' (K ++ S_of t h (maints_of ns) add).
Proof.
  induction ns as [|kd ns IH]; intros seen H K W P; [exists H; split; [reflexivity|exact P]|].
  cbn [maints_of users_of flat_map] in *. fold (maints_of ns) (users_of ns) in *.
  destruct kd as [k|k c|k c]; cbn [notify_loop app] in *.
  - cbn [fresh_keys]. destruct (mem_key k seen); [apply IH; assumption|].
    destruct (IH (k :: seen) H K W P) as [H' [E PH]]. rewrite E. exists H'. split; [reflexivity|exact PH].
  - rewrite S_of_cons in P.
    destruct (maintain_complete t h strict k c rem add H (K ++ S_of t h (maints_of ns) rem)) as [H1 [E1 P1]].
    { intros y Iy. apply (W (k, c) y (or_introl eq_refl) Iy). }
    { rewrite P. rewrite <- app_assoc. apply Permutation_app_head. apply Permutation_app_comm. }
    rewrite E1.
    destruct (IH seen H1 (K ++ sumexp t h k [c] add)) as [H' [E PH]].
    { intros kc y I Iy. apply (W kc y (or_intror I) Iy). }
    { rewrite P1. rewrite <- !app_assoc. apply Permutation_app_head. apply Permutation_app_comm. }
    exists H'. split; [exact E|]. rewrite PH, S_of_cons, <- !app_assoc. reflexivity.
  - apply IH; assumption.
Qed.

(* The maintainer (k, c) cannot hook y: the maintainers M1 before it have swapped their hooks, it has only removed
   its own, the exception stops the loop before the maintainers M2 after it run.  K as above. *)
Lemma notify_loop_fail_at t h strict rem k c y ys : walkable t h c y = false ->
  forall ns seen H K M1 M2,
    maints_of ns = M1 ++ (k, c) :: M2 ->
    (forall kc z, In kc M1 -> In z (y :: ys) -> walkable t h (snd kc) z = true) ->
    Permutation H (K ++ S_of t h (maints_of ns) rem) ->
    exists H' ks, notify_loop t h strict ns seen rem (y :: ys) H = (H', ks, false)
      /\ Permutation H' (K ++ S_of t h M1 (y :: ys) ++ S_of t h M2 rem).
Proof.
  intros NW. induction ns as [|kd ns IH]; intros seen H K M1 M2 EM W P; [destruct M1; discriminate|].
  cbn [maints_of flat_map] in EM, P. fold (maints_of ns) in EM, P.
  destruct kd as [k0|k0 c0|k0 c0]; cbn [notify_loop app] in *.
  - destruct (mem_key k0 seen); [apply (IH seen H K M1 M2 EM W P)|].
    destruct (IH (k0 :: seen) H K M1 M2 EM W P) as [H' [ks [E PH]]]. rewrite E. eexists. eexists.
    split; [reflexivity|exact PH].
  - rewrite S_of_cons in P.
    assert (Permutation H ((K ++ S_of t h (maints_of ns) rem) ++ sumexp t h k0 [c0] rem)) as P'.
    { rewrite P. rewrite <- app_assoc. apply Permutation_app_head. apply Permutation_app_comm. }
    destruct M1 as [|kc1 M1']; cbn [app] in EM.
    + injection EM as -> -> EM.
      destruct (maintain_fails t h strict k c rem y ys H _ P' NW) as [H1 [E1 P1]].
      rewrite E1. exists H1, []. split; [reflexivity|]. rewrite P1, EM. reflexivity.
    + injection EM as <- EM.
      destruct (maintain_complete t h strict k0 c0 rem (y :: ys) H _ (fun z Iz => W _ z (or_introl eq_refl) Iz) P')
        as [H1 [E1 P1]].
      rewrite E1.
      destruct (IH seen H1 (K ++ sumexp t h k0 [c0] (y :: ys)) M1' M2 EM) as [H' [ks [E PH]]].
      { intros kc z I Iz. apply (W kc z (or_intror I) Iz). }
      { rewrite P1. rewrite <- !app_assoc. apply Permutation_app_head. apply Permutation_app_comm. }
      exists H', ks. split; [exact E|]. rewrite PH, S_of_cons, <- !app_assoc. reflexivity.
  - apply (IH seen H K M1 M2 EM W P).
Qed.

Definition inv (st : state) : Prop :=
  Permutation (st_hooks st) (expected_all (st_traits st) (st_heap st) (st_regs st)).

(* the changed slot is not the trait_added event trait, and it is edge-acyclic for the registrations *)
Definition edge_acyclic (t : traits) (h : heap) (rs : list reg) (o : oid) (fo : fname) (news : list oid) : Prop :=
  fo <> TA /\
  (forall kc, In kc (occ_all t h rs o fo) -> forall y, In y (h o fo) \/ In y news -> visits t h (snd kc) y o fo = false) /\
  (* the residual graphs can be hooked on the new content (no missing non-optional trait) *)
  (forall kc, In kc (occ_all t h rs o fo) -> forall y, In y news -> walkable t (upd h o fo news) (snd kc) y = true).

Lemma edge_acyclic_b_spec t h rs o fo news :
  edge_acyclic_b t h rs o fo news = true -> edge_acyclic t h rs o fo news.
Proof.
  unfold edge_acyclic_b, edge_acyclic. rewrite andb_true_iff, forallb_forall. intros [N A].
  split; [apply negb_true_iff in N; apply Nat.eqb_neq in N; exact N|].
  split; intros kc Hkc y Hy; specialize (A kc Hkc); apply andb_true_iff in A; rewrite !forallb_forall in A.
  - apply negb_true_iff. apply A. apply in_or_app. exact Hy.
  - apply A. exact Hy.
Qed.

(* on a ranked heap (a DAG, in particular a tree) whose rank also dominates the new content of
   the slot, the change is edge-acyclic for every set of registrations *)
Lemma ranked_edge_acyclic t rank h rs o fo news :
  fo <> TA -> ranked rank h -> (forall y, In y news -> rank o < rank y) ->
  (forall kc, In kc (occ_all t h rs o fo) -> forall y, In y news -> walkable t (upd h o fo news) (snd kc) y = true) ->
  edge_acyclic t h rs o fo news.
Proof.
  intros NT R N W. split; [exact NT|]. split; [|exact W]. intros kc _ y Hy.
  destruct (visits t h (snd kc) y o fo) eqn:V; [exfalso|reflexivity].
  apply (visits_rank t rank h o fo (snd kc) R) in V.
  destruct Hy as [Hy|Hy]; [pose proof (R o fo y Hy)|pose proof (N y Hy)]; lia.
Qed.

Lemma matched_keys t h rs o fo k :
  In k (users_on (expected_all t h rs) o fo) <->
  exists g, In (k, g) rs /\ matched t h g (snd k) o fo = true.
Proof.
  rewrite in_users_on. unfold expected_all. rewrite in_flat_map. split.
  - intros [[k' g] [Hr I]]. apply expected_user in I. destruct I as [-> M]. exists g. split; assumption.
  - intros [g [Hr M]]. exists (k, g). split; [exact Hr|]. apply expected_user. split; [reflexivity|exact M].
Qed.

Lemma called_once st x f : inv st ->
  NoDup (fresh_keys [] (users_on (st_hooks st) x f)) /\
  forall k, In k (fresh_keys [] (users_on (st_hooks st) x f)) <->
            exists g, In (k, g) (st_regs st) /\ matched (st_traits st) (st_heap st) g (snd k) x f = true.
Proof.
  intros I. destruct (fresh_keys_spec (users_on (st_hooks st) x f) []) as [ND Sp]. split; [exact ND|].
  intros k. rewrite Sp, <- matched_keys, !in_users_on. cbn [In].
  split; [intros [A _]; apply (Permutation_in _ I A)|intros A; split; [apply (Permutation_in _ (Permutation_sym I) A)|tauto]].
Qed.

(* Maintainers that cannot come back to the slot leave its notifier list alone. *)
Definition off_slot (o : oid) (fo : fname) (A : list (oid * fname * kind)) : Prop :=
  forall z fz kd, In (z, fz, kd) A -> slot_eqb z fz o fo = false.

Lemma on_slot_app H A o fo : on_slot (H ++ A) o fo = on_slot H o fo ++ on_slot A o fo.
Proof. unfold on_slot. apply flat_map_app. Qed.
Lemma on_slot_off A o fo : off_slot o fo A -> on_slot A o fo = [].
Proof.
  intros O. unfold on_slot. apply flat_map_nil_In. intros [[z fz] kd] I. rewrite (O z fz kd I). reflexivity.
Qed.
Lemma on_slot_remove1 x H H' o fo :
  (let '(z, fz, _) := x in slot_eqb z fz o fo = false) -> remove1 x H = Some H' -> on_slot H' o fo = on_slot H o fo.
Proof.
  destruct x as [[z fz] kd]. intros O. revert H'. induction H as [|y H IH]; intros H' E; [discriminate|].
  cbn [remove1] in E. destruct (hook_eqb (z, fz, kd) y) eqn:Q.
  - apply hook_eqb_spec in Q. subst y. inversion E; subst. unfold on_slot. cbn [flat_map]. rewrite O. reflexivity.
  - destruct (remove1 (z, fz, kd) H) as [H0|]; [|discriminate]. inversion E; subst.
    unfold on_slot in *. cbn [flat_map]. rewrite (IH H0 eq_refl). reflexivity.
Qed.
Lemma on_slot_remove_all R o fo : off_slot o fo R -> forall H H',
  remove_all R H = Some H' -> on_slot H' o fo = on_slot H o fo.
Proof.
  induction R as [|x R IH]; intros O H H' E; cbn [remove_all] in E; [inversion E; reflexivity|].
  destruct (remove1 x H) as [H1|] eqn:E1; [|discriminate].
  rewrite (IH (fun z fz kd I => O z fz kd (or_intror I)) H1 H' E).
  apply (on_slot_remove1 x H H1 o fo); [|exact E1]. destruct x as [[z fz] kd]. apply (O z fz kd). left. reflexivity.
Qed.

Lemma walk_off_slot t h k c y o fo W :
  fo <> TA -> visits t h c y o fo = false -> Permutation W (expected t h k c y) -> off_slot o fo W.
Proof.
  intros NT V P z fz kd I. destruct (slot_eqb z fz o fo) eqn:Q; [exfalso|reflexivity].
  apply slot_eqb_true in Q. destruct Q as [-> ->].
  apply (Permutation_in _ P), hooks_on_visited in I. destruct I; congruence.
Qed.

Lemma add_objs_on_slot t h k c ys o fo : fo <> TA -> (forall y, In y ys -> visits t h c y o fo = false) ->
  forall H, on_slot (add_objs t h k c ys H) o fo = on_slot H o fo.
Proof.
  intros NT. unfold add_objs. induction ys as [|y ys IH]; intros V H; cbn [fold_left]; [reflexivity|].
  rewrite IH by (intros y' I; apply V; right; exact I). rewrite on_slot_app.
  rewrite (on_slot_off (add_order t h k c y)); [apply app_nil_r|].
  apply (walk_off_slot t h k c y); [exact NT|apply V; left; reflexivity|apply add_order_expected].
Qed.
Lemma rem_objs_on_slot t h k c ys o fo : fo <> TA -> (forall y, In y ys -> visits t h c y o fo = false) ->
  forall H, on_slot (fst (rem_objs t h k c ys H)) o fo = on_slot H o fo.
Proof.
  intros NT. induction ys as [|y ys IH]; intros V H; cbn [rem_objs]; [reflexivity|].
  destruct (remove_all (rem_order t h k c y) H) as [H1|] eqn:E; [|reflexivity].
  rewrite IH by (intros y' I; apply V; right; exact I).
  apply (on_slot_remove_all (rem_order t h k c y) o fo); [|exact E].
  apply (walk_off_slot t h k c y); [exact NT|apply V; left; reflexivity|apply rem_order_expected].
Qed.
Lemma add_objs_w_on_slot t h k c ys o fo : fo <> TA -> (forall y, In y ys -> visits t h c y o fo = false) ->
  forall H, on_slot (fst (add_objs_w t h k c ys H)) o fo = on_slot H o fo.
Proof.
  intros NT. induction ys as [|y ys IH]; intros V H; cbn [add_objs_w]; [reflexivity|].
  destruct (walkable t h c y); [|reflexivity].
  rewrite IH by (intros y' I; apply V; right; exact I).
  apply (add_objs_on_slot t h k c [y] o fo NT). intros y' [<-|[]]. apply V. left. reflexivity.
Qed.
Lemma maintain_on_slot t h strict k c rem add o fo : fo <> TA ->
  (forall y, In y rem \/ In y add -> visits t h c y o fo = false) ->
  forall H, on_slot (fst (maintain t h strict k c rem add H)) o fo = on_slot H o fo.
Proof.
  intros NT V H. unfold maintain.
  pose proof (rem_objs_on_slot t h k c rem o fo NT (fun y I => V y (or_introl I)) H) as R.
  destruct (rem_objs t h k c rem H) as [H1 ok]. cbn [fst] in R.
  destruct (ok || negb strict); cbn [fst]; [|exact R].
  rewrite add_objs_w_on_slot; [exact R|exact NT|intros y I; apply V; right; exact I].
Qed.
Lemma notify_loop_on_slot t h strict rem add o fo : fo <> TA -> forall ns seen H,
  (forall kc y, In kc (maints_of ns) -> In y rem \/ In y add -> visits t h (snd kc) y o fo = false) ->
  on_slot (fst (fst (notify_loop t h strict ns seen rem add H))) o fo = on_slot H o fo.
Proof.
  intros NT. induction ns as [|[k|k c|k c] ns IH]; intros seen H V; cbn [notify_loop]; [reflexivity| | |].
  - destruct (mem_key k seen).
    + apply IH. exact V.
    + specialize (IH (k :: seen) H V). destruct (notify_loop t h strict ns (k :: seen) rem add H) as [[H' ks] ok].
      exact IH.
  - pose proof (maintain_on_slot t h strict k c rem add o fo NT
                  (fun y I => V (k, c) y (or_introl eq_refl) I) H) as M.
    destruct (maintain t h strict k c rem add H) as [H1 ok]. cbn [fst] in M. destruct ok; [|exact M].
    rewrite IH; [exact M|]. intros kc y I. apply V. right. exact I.
  - apply IH. exact V.
Qed.

(* What the maintainers of the slot will remove is hooked: the hooks are those expected with the slot
   emptied, those below the objects that stay, and those below the removed objects (which the maintainers
   find by reading the heap after the change). *)
Lemma hooks_split t h rs o fo news keep removed H :
  Permutation H (expected_all t h rs) -> Permutation (h o fo) (keep ++ removed) ->
  (forall kc, In kc (occ_all t h rs o fo) -> forall y, In y (h o fo) \/ In y news -> visits t h (snd kc) y o fo = false) ->
  Permutation H ((expected_all t (upd h o fo []) rs ++ S_of t h (occ_all t h rs o fo) keep)
                 ++ S_of t (upd h o fo news) (maint_on H o fo) removed).
Proof.
  intros HI Hold Hac. pose proof (maint_on_inv t h rs H o fo HI) as MO.
  rewrite (S_of_frame t h rs o fo news Hac).
  - rewrite (S_of_perm_M t h _ _ removed MO), HI, <- app_assoc, <- S_of_app, <- (S_of_perm_ys t h _ _ _ Hold).
    pose proof (subst_all t h rs o fo []) as SUB. rewrite S_of_nil, app_nil_r in SUB. symmetry. apply SUB.
    intros kc Hkc y [Hy|[]]. apply Hac; [exact Hkc|left; exact Hy].
  - intros kc. apply Permutation_in. exact MO.
  - intros y Iy. left. apply (Permutation_in y (Permutation_sym Hold)). apply in_or_app. right. exact Iy.
Qed.

Section Change.
  Variables (st : state) (o : oid) (fo : fname) (news removed added keep : list oid) (prevented strict : bool).
  Let h := st_heap st.
  Let t := st_traits st.
  Let rs := st_regs st.
  Let h' := upd h o fo news.
  Hypothesis Hinv : inv st.
  Hypothesis Hold : Permutation (h o fo) (keep ++ removed).
  Hypothesis Hnew : Permutation news (keep ++ added).
  Hypothesis NT : fo <> TA.
  Hypothesis Hac : forall kc, In kc (occ_all t h rs o fo) ->
    forall y, In y (h o fo) \/ In y news -> visits t h (snd kc) y o fo = false.

  Let RinO y : In y removed -> In y (h o fo).
  Proof. intros Iy. apply (Permutation_in y (Permutation_sym Hold)). apply in_or_app. right. exact Iy. Qed.
  Let AinN y : In y added -> In y news.
  Proof. intros Iy. apply (Permutation_in y (Permutation_sym Hnew)). apply in_or_app. right. exact Iy. Qed.
  Let MinO kc : In kc (maint_on (st_hooks st) o fo) -> In kc (occ_all t h rs o fo).
  Proof. apply Permutation_in. apply maint_on_inv. exact Hinv. Qed.

  Lemma change_spec :
    (forall kc, In kc (occ_all t h rs o fo) -> forall y, In y news -> walkable t h' (snd kc) y = true) ->
    exists H',
      change st o fo news removed added prevented strict =
        (mkState t h' H' rs (st_next st),
         mkObs Ok (if prevented then []
                   else map (fun k => (k, o, fo, removed, added)) (fresh_keys [] (users_on (st_hooks st) o fo)))
               [(o, fo, news)])
      /\ Permutation H' (expected_all t h' rs).
  Proof.
    intros Hw. set (H := st_hooks st) in *.
    pose proof (hooks_split t h rs o fo news keep removed H Hinv Hold Hac) as SPLIT.
    rewrite <- maints_of_on_slot in SPLIT.
    assert (forall kc y, In kc (maints_of (on_slot H o fo)) -> In y added -> walkable t h' (snd kc) y = true) as WK.
    { rewrite maints_of_on_slot. intros kc y Ikc Iy. apply Hw; [apply MinO; exact Ikc|apply AinN; exact Iy]. }
    destruct (notify_loop_spec t h' strict removed added (on_slot H o fo) [] H _ WK SPLIT) as [H' [E PH]].
    unfold change. fold h t H h'. rewrite E.
    (* the live-iteration round is empty: the maintainers did not touch this slot's list *)
    assert (on_slot H' o fo = on_slot H o fo) as SAME.
    { pose proof (notify_loop_on_slot t h' strict removed added o fo NT (on_slot H o fo) [] H) as L.
      rewrite E in L. apply L. rewrite maints_of_on_slot. intros kc y Ikc Iy. apply visits_frame.
      apply Hac; [apply MinO; exact Ikc|]. destruct Iy as [Iy|Iy]; [left; apply RinO|right; apply AinN]; exact Iy. }
    rewrite SAME, skipn_all.
    replace (if strict && true then @nil kind else []) with (@nil kind) by (destruct strict; reflexivity).
    cbn [notify_loop andb]. rewrite app_nil_r, users_of_on_slot.
    exists H'. split; [reflexivity|]. rewrite maints_of_on_slot in PH, SPLIT. set (M := maint_on H o fo) in *.
    apply (inv_preserved_all t h rs o fo news removed added) with (H := H); try assumption.
    - rewrite Hnew, Hold. rewrite <- !app_assoc. apply Permutation_app_head. apply Permutation_app_comm.
    - fold h' M. rewrite PH, SPLIT, <- !app_assoc. do 2 apply Permutation_app_head. apply Permutation_app_comm.
  Qed.

  Lemma change_fails M1 k c M2 y ys :
    maint_on (st_hooks st) o fo = M1 ++ (k, c) :: M2 ->
    (forall kc z, In kc M1 -> In z added -> walkable t h' (snd kc) z = true) ->
    added = y :: ys -> walkable t h' c y = false ->
    ob_out (snd (change st o fo news removed added prevented strict)) = Raise ValueError
    /\ st_heap (fst (change st o fo news removed added prevented strict)) = h'
    /\ Permutation (st_hooks (fst (change st o fo news removed added prevented strict))
                    ++ S_of t h' M1 removed ++ S_of t h' [(k, c)] removed)
                   (st_hooks st ++ S_of t h' M1 added).
  Proof using Hinv Hold Hac.   (* the loop stops before anything depends on how news is made up *)
    intros HM W1 EA NW. rewrite EA in W1 |- *. set (H := st_hooks st) in HM |- *.
    pose proof (hooks_split t h rs o fo news keep removed H Hinv Hold Hac) as SPLIT.
    rewrite <- maints_of_on_slot in SPLIT, HM.
    destruct (notify_loop_fail_at t h' strict removed k c y ys NW (on_slot H o fo) [] H _ M1 M2 HM W1 SPLIT)
      as [H' [ks [EL PH]]].
    unfold change. fold h t H h'. rewrite EL, andb_false_r. cbn [notify_loop fst snd ob_out st_heap st_hooks andb].
    rewrite maints_of_on_slot in HM, SPLIT.
    assert (existsb (fun kc : hkey * graph => existsb (fun z => negb (walkable t h' (snd kc) z)) (y :: ys))
                    (maint_on H o fo) = true) as EX.
    { apply existsb_exists. exists (k, c). split; [rewrite HM; apply in_or_app; right; left; reflexivity|].
      cbn [existsb snd]. rewrite NW. reflexivity. }
    rewrite EX. split; [reflexivity|]. split; [reflexivity|].
    set (M := maint_on H o fo) in *. rewrite PH, SPLIT, HM, S_of_app_M, !S_of_cons.
    change (S_of t h' [] removed) with (@nil (oid * fname * kind)).
    rewrite app_nil_r, <- !app_assoc. do 2 apply Permutation_app_head.
    (* S(M1,add) ++ S(M2,rem) ++ S(M1,rem) ++ S(kc,rem)  ==  S(M1,rem) ++ S(kc,rem) ++ S(M2,rem) ++ S(M1,add) *)
    rewrite (Permutation_app_comm (S_of t h' M1 (y :: ys))). rewrite <- !app_assoc.
    rewrite (Permutation_app_comm (S_of t h' M2 removed)). rewrite <- !app_assoc.
    do 2 apply Permutation_app_head. apply Permutation_app_comm.
  Qed.
  Lemma change_fails_single k c y ys :
    maint_on (st_hooks st) o fo = [(k, c)] -> added = y :: ys -> walkable t h' c y = false ->
    ob_out (snd (change st o fo news removed added prevented strict)) = Raise ValueError
    /\ st_heap (fst (change st o fo news removed added prevented strict)) = h'
    /\ Permutation (st_hooks (fst (change st o fo news removed added prevented strict)))
                   (expected_all t (upd h o fo keep) rs).
  Proof using Hinv Hold Hac.
    intros HM EA NW.
    destruct (change_fails [] k c [] y ys HM (fun kc z F => match F with end) EA NW) as [A [B C]].
    split; [exact A|]. split; [exact B|].
    assert (forall z, In z keep \/ In z removed -> In z (h o fo)) as KR.
    { intros z Iz. apply (Permutation_in z (Permutation_sym Hold)). apply in_or_app. exact Iz. }
    (* below the removed objects the maintainer finds the same hooks whatever the slot holds afterwards *)
    assert (forall v, (forall z, In z v -> In z (h o fo) \/ In z news) ->
              S_of t (upd h o fo v) (maint_on (st_hooks st) o fo) removed = S_of t h (maint_on (st_hooks st) o fo) removed) as FR.
    { intros v Hv. apply (S_of_frame t h rs o fo v).
      - intros kc Hkc z [Iz|Iz]; apply Hac; [exact Hkc|left; exact Iz|exact Hkc|apply Hv; exact Iz].
      - exact MinO.
      - intros z Iz. left. apply KR. right. exact Iz. }
    apply (inv_preserved_all t h rs o fo keep removed []) with (H := st_hooks st).
    - rewrite app_nil_r. symmetry. exact Hold.
    - intros z Iz. apply KR. right. exact Iz.
    - intros z [].
    - intros kc Hkc z Hz. apply Hac; [exact Hkc|]. left. destruct Hz as [Hz|Hz]; [exact Hz|apply KR; left; exact Hz].
    - exact Hinv.
    - rewrite S_of_nil, app_nil_r, (FR keep) by (intros z Iz; left; apply KR; left; exact Iz).
      rewrite <- (FR news) by (intros z Iz; right; exact Iz). fold h'. rewrite HM.
      rewrite app_nil_r in C. exact C.
  Qed.
End Change.

Lemma change_calls st o fo news removed added prevented strict c :
  In c (ob_calls (snd (change st o fo news removed added prevented strict))) -> c = (call_key c, o, fo, removed, added).
Proof.
  unfold change. destruct (notify_loop _ _ _ _ _ _ _ _) as [[H1 ks1] ok1].
  destruct (notify_loop _ _ _ _ _ _ _ _) as [[H2 ks2] ok2]. cbn [snd ob_calls].
  destruct prevented; [intros []|]. intros I. apply in_map_iff in I. destruct I as [k [<- _]]. reflexivity.
Qed.

Definition call_slot (c : call) : oid * fname := let '(_, x, f, _, _) := c in (x, f).

(* what one step guarantees *)
Definition step_ok (st : state) (o : op) : Prop :=
  let '(st', ob) := step st o in
  inv st' /\
  (* nothing raises, except a registration that cannot be hooked: ValueError, and nothing changes *)
  (ob_out ob = Ok \/ (op_slot o = None /\ ob_out ob = Raise ValueError /\ st' = st)) /\
  match notified st o with
  | None => ob_calls ob = []
  | Some (x, f) =>
      NoDup (map call_key (ob_calls ob))
      /\ (forall k, In k (map call_key (ob_calls ob)) <->
                    exists g, In (k, g) (st_regs st) /\ matched (st_traits st) (st_heap st) g (snd k) x f = true)
      /\ (forall c, In c (ob_calls ob) -> call_slot c = (x, f))
  end.

(* ... and what the law sees of it: no complaint, and the heap, registrations and traits it threads are
   those of the model *)
Definition law_ok (st : state) (o : op) : Prop :=
  law_step (st_traits st) (st_heap st) (st_regs st) o (snd (step st o)) = []
  /\ apply_delta (st_heap st) (ob_delta (snd (step st o))) = st_heap (fst (step st o))
  /\ law_regs (st_regs st) o (snd (step st o)) = st_regs (fst (step st o))
  /\ law_traits (st_traits st) o (snd (step st o)) = st_traits (fst (step st o)).
Definition sound (st : state) (o : op) : Prop := step_ok st o /\ law_ok st o.

Lemma expected_all_perm t h rs rs' : Permutation rs rs' -> Permutation (expected_all t h rs) (expected_all t h rs').
Proof. apply Permutation_flat_map. Qed.

Lemma expected_all_fresh t h rs c fc items :
  fresh_b t h rs c fc = true -> expected_all t (upd h c fc items) rs = expected_all t h rs.
Proof.
  unfold fresh_b. rewrite forallb_forall. intros F. unfold expected_all. apply flat_map_ext_In.
  intros r Hr. unfold expected_reg. apply expected_frame. apply negb_true_iff. apply F. exact Hr.
Qed.

Lemma count_nat_perm x a b : Permutation a b -> count_nat x a = count_nat x b.
Proof.
  unfold count_nat. induction 1; cbn; try congruence.
  - destruct (Nat.eqb x x0); cbn; congruence.
  - destruct (Nat.eqb x y), (Nat.eqb x x0); reflexivity.
Qed.
Lemma perm_eqb_of_perm a b : Permutation a b -> perm_eqb a b = true.
Proof.
  intros P. unfold perm_eqb. apply forallb_forall. intros x _. apply Nat.eqb_eq. apply count_nat_perm. exact P.
Qed.

Lemma nodup_keys_In k l : In k (nodup_keys l) <-> In k l.
Proof.
  induction l as [|a l IH]; cbn; [tauto|]. destruct (mem_key a l) eqn:M.
  - rewrite IH. split; [tauto|]. intros [<-|I]; [apply mem_key_In; exact M|exact I].
  - cbn. rewrite IH. tauto.
Qed.
Lemma nodup_b_of_NoDup l : NoDup l -> nodup_b l = true.
Proof.
  induction 1 as [|a l Na ND IH]; [reflexivity|]. cbn. rewrite IH, andb_true_r.
  apply negb_true_iff. destruct (mem_key a l) eqn:M; [apply mem_key_In in M; contradiction|reflexivity].
Qed.

Lemma expect_keys_In rs t h x f k :
  In k (expect_keys rs t h x f) <-> exists g, In (k, g) rs /\ matched t h g (snd k) x f = true.
Proof.
  unfold expect_keys. rewrite nodup_keys_In, in_map_iff. split.
  - intros [[k' g] [E I]]. cbn in E. subst k'. apply filter_In in I. exists g. exact I.
  - intros [g I]. exists (k, g). split; [reflexivity|]. apply filter_In. exact I.
Qed.

Lemma filter_nil {A} (p : A -> bool) l : (forall a, In a l -> p a = false) -> filter p l = [].
Proof.
  induction l as [|a l IH]; intros H; [reflexivity|]. cbn. rewrite (H a (or_introl eq_refl)).
  apply IH. intros b I. apply H. right. exact I.
Qed.

Lemma law_step_from_facts t hb rs o ob x f :
  op_slot o = Some (x, f) ->
  ob_out ob = Ok ->
  NoDup (map call_key (ob_calls ob)) ->
  (forall k, In k (map call_key (ob_calls ob)) -> exists g, In (k, g) rs /\ matched t hb g (snd k) x f = true) ->
  (classify t hb (apply_delta hb (ob_delta ob)) o = Exact ->
   forall k g, In (k, g) rs -> matched t hb g (snd k) x f = true -> In k (map call_key (ob_calls ob))) ->
  (classify t hb (apply_delta hb (ob_delta ob)) o = NoChange -> ob_calls ob = []) ->
  forallb (call_ok hb (apply_delta hb (ob_delta ob)) o x f) (ob_calls ob) = true ->
  law_step t hb rs o ob = [].
Proof.
  intros SL OK ND SUB EX NC CO. unfold law_step. rewrite SL.
  set (keys := map call_key (ob_calls ob)) in *.
  assert (filter (fun k => negb (mem_key k (expect_keys rs t hb x f))) keys = []) as BAD.
  { apply filter_nil. intros k I. apply negb_false_iff. apply mem_key_In. apply expect_keys_In. apply SUB. exact I. }
  rewrite BAD. cbn [forallb]. rewrite OK. cbn [out_ok]. rewrite (nodup_b_of_NoDup _ ND). rewrite CO.
  cbn [chk app]. destruct (classify t hb (apply_delta hb (ob_delta ob)) o).
  - unfold keys. rewrite (NC eq_refl). reflexivity.
  - replace (forallb (fun k => mem_key k keys) (expect_keys rs t hb x f)) with true; [reflexivity|].
    symmetry. apply forallb_forall. intros k I. apply mem_key_In. apply expect_keys_In in I. destruct I as [g [Hr Hm]].
    apply (EX eq_refl k g Hr Hm).
  - reflexivity.
Qed.

Lemma map_call_key ks x f (r a : list oid) : map call_key (map (fun k : hkey => (k, x, f, r, a)) ks) = ks.
Proof. induction ks; cbn; [reflexivity|]. rewrite IHks. reflexivity. Qed.

Lemma forallb_map_calls (p : call -> bool) ks x f (r a : list oid) :
  (forall k, p (k, x, f, r, a) = true) -> forallb p (map (fun k : hkey => (k, x, f, r, a)) ks) = true.
Proof. intros P. apply forallb_forall. intros c I. apply in_map_iff in I. destruct I as [k [<- _]]. apply P. Qed.

Lemma law_regs_slot o s rs ob : op_slot o = Some s -> law_regs rs o ob = rs.
Proof. destruct o; try discriminate; reflexivity. Qed.

Lemma law_traits_out t o ob : law_traits t o ob = law_traits t o (mkObs (ob_out ob) [] []).
Proof. destruct o; reflexivity. Qed.

(* op_slot is (x, TA) only for add_trait *)
Lemma law_traits_slot o x f t ob : op_slot o = Some (x, f) -> f <> TA -> law_traits t o ob = t.
Proof. destruct o; intros [= <- <-] NT; try reflexivity. contradiction. Qed.

Lemma observe1_inv st k r g : inv st -> inv (observe1 st k r g).
Proof.
  intros Hinv. unfold inv, observe1 in *. cbn [st_hooks st_heap st_regs].
  unfold expected_all in *. rewrite flat_map_app. cbn [flat_map]. rewrite app_nil_r.
  apply Permutation_app; [exact Hinv|]. apply add_order_expected.
Qed.

Lemma observe_all_spec k r : forall gs st, inv st ->
  inv (fold_left (fun s g => observe1 s k r g) gs st)
  /\ st_heap (fold_left (fun s g => observe1 s k r g) gs st) = st_heap st
  /\ st_regs (fold_left (fun s g => observe1 s k r g) gs st) = st_regs st ++ map (pair (k, r)) gs
  /\ st_traits (fold_left (fun s g => observe1 s k r g) gs st) = st_traits st.
Proof.
  induction gs as [|g gs IH]; intros st I; cbn [fold_left map].
  - rewrite app_nil_r. tauto.
  - destruct (IH (observe1 st k r g) (observe1_inv st k r g I)) as [A [B [C D]]].
    split; [exact A|]. split; [rewrite B; reflexivity|]. split; [|rewrite D; reflexivity]. rewrite C. cbn [observe1 st_regs].
    rewrite <- app_assoc. reflexivity.
Qed.

Lemma unobserve1_spec st k r g : inv st -> existsb (reg_eqb ((k, r), g)) (st_regs st) = true ->
  exists st', unobserve1 st k r g = Some st' /\ inv st' /\ st_heap st' = st_heap st
              /\ st_regs st' = remove_reg ((k, r), g) (st_regs st) /\ st_traits st' = st_traits st.
Proof.
  intros Hinv Hyp. pose proof (remove_reg_perm _ _ Hyp) as PR.
  destruct (remove_all_complete (rem_order (st_traits st) (st_heap st) (k, r) g r) (st_hooks st)
              (expected_all (st_traits st) (st_heap st) (remove_reg (k, r, g) (st_regs st)))) as [H' [E PH]].
  { unfold inv in Hinv. rewrite Hinv. rewrite (expected_all_perm _ _ _ _ PR).
    unfold expected_all at 1. cbn [flat_map]. fold (expected_all (st_traits st) (st_heap st) (remove_reg (k, r, g) (st_regs st))).
    rewrite Permutation_app_comm. apply Permutation_app_head.
    unfold expected_reg. cbn [fst snd]. symmetry. apply rem_order_expected. }
  unfold unobserve1. rewrite E. eexists. split; [reflexivity|]. split; [exact PH|]. split; [reflexivity|split; reflexivity].
Qed.

Lemma unobserve_all_spec k r : forall gs st, inv st -> regs_present k r gs (st_regs st) = true ->
  exists st', unobserve_all st k r gs = Some st' /\ inv st' /\ st_heap st' = st_heap st
              /\ st_regs st' = fold_left (fun rs g => remove_reg ((k, r), g) rs) gs (st_regs st)
              /\ st_traits st' = st_traits st.
Proof.
  induction gs as [|g gs IH]; intros st I P; cbn [unobserve_all regs_present fold_left] in *.
  - exists st. tauto.
  - apply andb_true_iff in P. destruct P as [P1 P2].
    destruct (unobserve1_spec st k r g I P1) as [st1 [E [I1 [H1 [R1 T1]]]]]. rewrite E.
    rewrite <- R1 in P2. destruct (IH st1 I1 P2) as [st' [E' [I' [H' [R' T']]]]].
    exists st'. split; [exact E'|]. split; [exact I'|]. split; [congruence|]. split; [|congruence]. rewrite R', R1. reflexivity.
Qed.

Lemma restricted_add_own t h k g x f : h x f = [] -> restricted_add t h k g x f = own_for k x f g.
Proof.
  intros E. destruct g as [fs n e p cs]. cbn [restricted_add own_for]. apply flat_map_ext_In. intros f' _.
  destruct (Nat.eqb f' f); [|reflexivity]. rewrite E. unfold own. rewrite app_assoc.
  rewrite (flat_map_nil_In (fun c : graph => flat_map (fun y => add_order t h k c y) []) cs) by reflexivity.
  apply app_nil_r.
Qed.

Lemma added_loop_spec t h x f : h x f = [] -> forall ns seen H,
  added_loop t h x f ns seen H
  = (H ++ flat_map (fun kg => own_for (fst kg) x f (snd kg)) (addeds_of ns), fresh_keys seen (users_of ns)).
Proof.
  intros Nv. induction ns as [|kd ns IH]; intros seen H; [cbn; rewrite app_nil_r; reflexivity|].
  cbn [addeds_of users_of flat_map]. fold (addeds_of ns) (users_of ns).
  destruct kd as [k|k c|k g]; cbn [added_loop app fresh_keys].
  - destruct (mem_key k seen); [apply IH|]. rewrite IH. reflexivity.
  - apply IH.
  - rewrite IH, (restricted_add_own t h k g x f Nv), <- app_assoc. reflexivity.
Qed.

(* An operation on slot (x, f) that does not raise and calls, unless the notification is prevented, each key
   on the slot once: what is left to check is how the operation is classified and what its events carry. *)
Lemma result_ok st o st' d x f (prevented : bool) removed added :
  step st o = (st', mkObs Ok (if prevented then [] else
                              map (fun k => (k, x, f, removed, added)) (fresh_keys [] (users_on (st_hooks st) x f))) d) ->
  inv st -> inv st' -> op_slot o = Some (x, f) ->
  notified st o = (if prevented then None else Some (x, f)) ->
  apply_delta (st_heap st) d = st_heap st' -> st_regs st' = st_regs st ->
  law_traits (st_traits st) o (mkObs Ok [] []) = st_traits st' ->
  classify (st_traits st) (st_heap st) (st_heap st') o <> (if prevented then Exact else NoChange) ->
  (prevented = false -> forall k, call_ok (st_heap st) (st_heap st') o x f (k, x, f, removed, added) = true) ->
  sound st o.
Proof.
  intros E Hinv Hinv' SL NF D RG TR CL CO. destruct (called_once st x f Hinv) as [ND Sp].
  unfold sound, step_ok, law_ok. rewrite E, NF. cbn [fst snd ob_out ob_calls ob_delta]. split.
  - split; [exact Hinv'|]. split; [left; reflexivity|]. destruct prevented; [reflexivity|].
    rewrite map_call_key. split; [exact ND|]. split; [exact Sp|].
    intros c Hc. apply in_map_iff in Hc. destruct Hc as [k [<- _]]. reflexivity.
  - rewrite (law_regs_slot o _ _ _ SL), law_traits_out. split; [|split; [exact D|split; [symmetry; exact RG|exact TR]]].
    (* the facts the law asks for, each for a prevented and for a delivered notification *)
    apply (law_step_from_facts _ _ _ _ _ x f SL); cbn [ob_out ob_calls ob_delta]; rewrite ?D;
      [reflexivity|destruct prevented; rewrite ?map_call_key..].
    + constructor.
    + exact ND.
    + intros k [].
    + intros k I. apply Sp. exact I.
    + intros EX. contradiction.
    + intros _ k g Hr Hm. apply Sp. exists g. split; assumption.
    + reflexivity.
    + intros NC. contradiction.
    + reflexivity.
    + apply forallb_map_calls. exact (CO eq_refl).
Qed.

(* The slot-changing operations all have one shape: container objects are allocated (the slots d, which no
   registration visits yet; n is the next free oid), then slot (x, f) changes with a notification. *)
Definition notify_change (st : state) (d : list (oid * fname * list oid)) (n : oid) (x : oid) (f : fname)
           (news removed added : list oid) (prevented strict : bool) : state * obs :=
  let '(st2, ob) := change (mkState (st_traits st) (apply_delta (st_heap st) d) (st_hooks st) (st_regs st) n)
                           x f news removed added prevented strict in
  (st2, mkObs (ob_out ob) (ob_calls ob) (d ++ ob_delta ob)).

Lemma change_eta st n x f news removed added prevented strict :
  change (mkState (st_traits st) (st_heap st) (st_hooks st) (st_regs st) n) x f news removed added prevented strict
  = notify_change st [] n x f news removed added prevented strict.
Proof. unfold notify_change. cbn [apply_delta fold_left]. destruct (change _ _ _ _ _ _ _ _) as [st2 []]. reflexivity. Qed.

Lemma notify_change_ok st o d n x f news removed added keep prevented strict :
  step st o = notify_change st d n x f news removed added prevented strict ->
  inv st ->
  apply_delta (st_heap st) d x f = st_heap st x f ->
  expected_all (st_traits st) (apply_delta (st_heap st) d) (st_regs st)
    = expected_all (st_traits st) (st_heap st) (st_regs st) ->
  Permutation (st_heap st x f) (keep ++ removed) -> Permutation news (keep ++ added) ->
  edge_acyclic (st_traits st) (apply_delta (st_heap st) d) (st_regs st) x f news ->
  op_slot o = Some (x, f) ->
  notified st o = (if prevented then None else Some (x, f)) ->
  classify (st_traits st) (st_heap st) (upd (apply_delta (st_heap st) d) x f news) o
    <> (if prevented then Exact else NoChange) ->
  (forall k, call_ok (st_heap st) (upd (apply_delta (st_heap st) d) x f news) o x f (k, x, f, removed, added) = true) ->
  sound st o.
Proof.
  intros E Hinv Hs He Hold Hnew [NT [Hac Hw]] SL NF CL CO. unfold notify_change in E.
  set (st1 := mkState (st_traits st) (apply_delta (st_heap st) d) (st_hooks st) (st_regs st) n) in *.
  assert (inv st1) as I1 by (unfold inv, st1; cbn [st_hooks st_traits st_heap st_regs]; rewrite He; exact Hinv).
  rewrite <- Hs in Hold.
  destruct (change_spec st1 x f news removed added keep prevented strict I1 Hold Hnew NT Hac Hw) as [H' [EC PH]].
  rewrite EC in E. cbn [ob_out ob_calls ob_delta st1 st_hooks st_traits st_heap st_regs] in E.
  apply (result_ok st o _ _ x f prevented removed added E); try assumption; cbn [st_heap st_regs st_traits].
  - unfold apply_delta. rewrite fold_left_app. reflexivity.
  - reflexivity.
  - apply (law_traits_slot o x f); assumption.
  - intros _. exact CO.
Qed.

Lemma quiet_ok st o x f :
  step st o = quiet st -> inv st -> op_slot o = Some (x, f) -> notified st o = None ->
  law_traits (st_traits st) o (mkObs Ok [] []) = st_traits st ->
  classify (st_traits st) (st_heap st) (st_heap st) o <> Exact ->
  sound st o.
Proof.
  intros E Hinv SL NF TR CL. apply (result_ok st o st [] x f true [] [] E); try assumption; try reflexivity.
  discriminate.
Qed.

Lemma observe_ok st k r g : inv st -> op_hyp st (Observe k r g) = true -> sound st (Observe k r g).
Proof.
  intros Hinv Hyp. cbn [op_hyp] in Hyp.
  unfold sound, step_ok, law_ok. cbn [step notified]. destruct (walkable (st_traits st) (st_heap st) g r).
  - split; [|repeat split]. split; [apply (observe1_inv st k r g Hinv)|split; [left; reflexivity|reflexivity]].
  - split; [|repeat split]. split; [exact Hinv|split; [right; repeat split|reflexivity]].
Qed.

Lemma unobserve_ok st k r g : inv st -> op_hyp st (Unobserve k r g) = true -> sound st (Unobserve k r g).
Proof.
  intros Hinv Hyp. cbn [op_hyp] in Hyp.
  destruct (unobserve1_spec st k r g Hinv Hyp) as [st' [E [I' [Hh [Hr Ht]]]]].
  unfold sound, step_ok, law_ok. cbn [step notified]. unfold unobserve1 in E.
  destruct (remove_all _ (st_hooks st)); [|discriminate]. injection E as <-.
  split; [|repeat split]. split; [exact I'|split; [left; reflexivity|reflexivity]].
Qed.

Lemma observe_all_ok st k r gs : inv st -> op_hyp st (ObserveAll k r gs) = true -> sound st (ObserveAll k r gs).
Proof.
  intros Hinv Hyp. cbn [op_hyp] in Hyp.
  unfold sound, step_ok, law_ok. cbn [step notified].
  destruct (forallb (fun g => walkable (st_traits st) (st_heap st) g r) gs).
  - destruct (observe_all_spec k r gs st Hinv) as [A [B [C D]]]. cbn [fst snd ob_out ob_calls ob_delta law_regs law_traits].
    split; [|split; [reflexivity|split; [symmetry; exact B|split; symmetry; assumption]]].
    split; [exact A|split; [left; reflexivity|reflexivity]].
  - split; [|repeat split]. split; [exact Hinv|split; [right; repeat split|reflexivity]].
Qed.

Lemma unobserve_all_ok st k r gs : inv st -> op_hyp st (UnobserveAll k r gs) = true -> sound st (UnobserveAll k r gs).
Proof.
  intros Hinv Hyp. cbn [op_hyp] in Hyp.
  destruct (unobserve_all_spec k r gs st Hinv Hyp) as [st' [E [I' [B [C D]]]]].
  unfold sound, step_ok, law_ok. cbn [step notified]. rewrite E. cbn [fst snd ob_out ob_calls ob_delta law_regs law_traits].
  split; [|split; [reflexivity|split; [symmetry; exact B|split; symmetry; assumption]]].
  split; [exact I'|split; [left; reflexivity|reflexivity]].
Qed.

(* One lemma per slot-changing operation.  The premises of notify_change_ok that hold by computation are closed by
   [try reflexivity]; the bullets answer the others, in the order of the premises:
     the step is this notify_change;
     (operations that allocate a container) the changed slot is not the allocated one, and no registration visits
       the allocated slot yet;
     (splices) old content = keep ++ removed, new content = keep ++ added;
     edge_acyclic, from op_hyp;
     the law does not classify the operation as the opposite of what the model does;
     the event carries the old / new value, or a faithful delta. *)
Lemma setref_ok st x f v : inv st -> op_hyp st (SetRef x f v) = true -> sound st (SetRef x f v).
Proof.
  intros Hinv Hyp. cbn [op_hyp] in Hyp.
  destruct (list_eqb (st_heap st x f) v) eqn:Q.
  - apply (quiet_ok st _ x f); cbn [step notified classify]; rewrite ?Q, ?list_eqb_refl; try reflexivity; try assumption.
    discriminate.
  - apply (notify_change_ok st _ [] (st_next st) x f v (st_heap st x f) v [] false false); try assumption;
      cbn [step notified classify call_ok apply_delta fold_left app]; rewrite ?upd_same, ?Q; try reflexivity.
    + apply change_eta.
    + apply edge_acyclic_b_spec. exact Hyp.
    + discriminate.
    + intros _. rewrite !Nat.eqb_refl, !perm_eqb_of_perm; reflexivity.
Qed.

Lemma setcont_ok st x f items de : inv st -> op_hyp st (SetCont x f items de) = true -> sound st (SetCont x f items de).
Proof.
  intros Hinv Hyp. cbn [op_hyp] in Hyp.
  apply andb_true_iff in Hyp. destruct Hyp as [Fr Ac]. set (c := st_next st) in *. set (fc := items_field f) in *.
  assert (slot_eqb x f c fc = false) as NE1 by (apply fresh_slot; unfold fc, items_field; lia).
  assert (slot_eqb c fc x f = false) as NE2 by (apply fresh_slot; unfold fc, items_field; lia).
  eapply (notify_change_ok st _ [(c, fc, items)] (S c) x f [c] (st_heap st x f) [c] [] _ false); try assumption;
    cbn [apply_delta fold_left app]; [reflexivity|..]; try reflexivity.
  - apply upd_other. exact NE1.
  - apply expected_all_fresh. exact Fr.
  - apply edge_acyclic_b_spec. exact Ac.
  - cbn [classify]. rewrite upd_same, (upd_other _ _ _ _ _ _ NE2), upd_same. fold fc.
    destruct (identity_field f); [discriminate|]. destruct (st_heap st x f) as [|y ys].
    + destruct items; discriminate.
    + destruct (cont_equal f _ items de); discriminate.
  - intros k0. cbn [call_ok]. rewrite !Nat.eqb_refl, upd_same, !perm_eqb_of_perm; reflexivity.
Qed.

Lemma touch_ok st x f : inv st -> op_hyp st (Touch x f) = true -> sound st (Touch x f).
Proof.
  intros Hinv Hyp. cbn [op_hyp] in Hyp.
  destruct (st_heap st x f) eqn:Q.
  - apply (notify_change_ok st _ [] (S (st_next st)) x f [st_next st] [] [st_next st] [] true false); try assumption;
      cbn [step notified classify call_ok apply_delta fold_left app]; rewrite ?upd_same, ?Q; try reflexivity.
    + apply change_eta.
    + apply edge_acyclic_b_spec. exact Hyp.
    + discriminate.
    + intros _. rewrite !Nat.eqb_refl, !perm_eqb_of_perm; reflexivity.
  - apply (quiet_ok st _ x f); cbn [step notified classify]; rewrite ?Q; try reflexivity; try assumption. discriminate.
Qed.

Lemma splice_ok st c f i n vs : inv st -> op_hyp st (Splice c f i n vs) = true -> sound st (Splice c f i n vs).
Proof.
  intros Hinv Hyp. cbn [op_hyp] in Hyp.
  destruct (spliced_out (st_heap st c f) i n ++ vs) eqn:Q.
  - apply (quiet_ok st _ c f); cbn [step notified classify]; rewrite ?Q, ?list_eqb_refl; try reflexivity; try assumption.
    discriminate.
  - apply (notify_change_ok st _ [] (st_next st) c f (splice (st_heap st c f) i n vs)
             (spliced_out (st_heap st c f) i n) vs (firstn i (st_heap st c f) ++ skipn n (skipn i (st_heap st c f)))
             false true); try assumption;
      cbn [step notified classify call_ok apply_delta fold_left app]; rewrite ?upd_same, ?Q; try reflexivity.
    + apply change_eta.
    + apply splice_old.
    + apply splice_new.
    + apply edge_acyclic_b_spec. exact Hyp.
    + destruct (list_eqb _ _); discriminate.
    + intros _. rewrite !Nat.eqb_refl. apply perm_eqb_of_perm. apply splice_delta.
Qed.

Lemma probe_ok st x : inv st -> op_hyp st (Probe x) = true -> sound st (Probe x).
Proof.
  intros Hinv Hyp. cbn [op_hyp] in Hyp.
  apply (notify_change_ok st _ [] (st_next st) x 0 (st_heap st x 0) [] [] (st_heap st x 0) false false); try assumption;
    cbn [step notified classify call_ok apply_delta fold_left app]; rewrite ?app_nil_r; try reflexivity.
  - apply change_eta.
  - apply edge_acyclic_b_spec. exact Hyp.
  - discriminate.
  - intros _. rewrite !Nat.eqb_refl. reflexivity.
Qed.

Lemma add_trait_ok st x f : inv st -> op_hyp st (AddTrait x f) = true -> sound st (AddTrait x f).
Proof.
  intros Hinv Hyp. cbn [op_hyp] in Hyp.
  destruct (st_traits st x f) eqn:Nt.
  - apply (quiet_ok st _ x TA); cbn [step notified classify law_traits ob_out]; rewrite ?Nt; try reflexivity; try assumption.
    discriminate.
  - cbn [orb] in Hyp. apply andb_true_iff in Hyp. destruct Hyp as [Nv W].
    assert (st_heap st x f = []) as Nv' by (destruct (st_heap st x f); [reflexivity|discriminate]).
    eapply (result_ok st _ (mkState (add_trait (st_traits st) x f) (st_heap st) _ (st_regs st) (st_next st))
              [] x TA false [] []); try assumption;
      cbn [step notified classify call_ok law_traits ob_out st_heap st_regs st_traits]; rewrite ?Nt; try reflexivity.
    + rewrite (added_loop_spec _ _ x f Nv'), users_of_on_slot. reflexivity.
    + unfold inv. cbn [st_hooks st_traits st_heap st_regs]. rewrite addeds_of_on_slot.
      apply inv_add_trait_all; assumption.
    + discriminate.
    + intros _ k. rewrite !Nat.eqb_refl. reflexivity.
Qed.

Lemma touch_items_ok st x f items : inv st -> op_hyp st (TouchItems x f items) = true -> sound st (TouchItems x f items).
Proof.
  intros Hinv Hyp. cbn [op_hyp] in Hyp.
  destruct (st_heap st x f) eqn:Q.
  2: { apply (quiet_ok st _ x f); cbn [step notified classify]; rewrite ?Q; try reflexivity; try assumption. discriminate. }
  apply andb_true_iff in Hyp. destruct Hyp as [Fr Ac]. set (c := st_next st) in *. set (fc := items_field f) in *.
  assert (slot_eqb x f c fc = false) as NE1 by (apply fresh_slot; unfold fc, items_field; lia).
  apply (notify_change_ok st _ [(c, fc, items)] (S c) x f [c] [] [c] [] true false); try assumption;
    cbn [step notified classify call_ok apply_delta fold_left app]; rewrite ?upd_same, ?Q; try reflexivity.
  - rewrite (upd_other _ _ _ _ _ _ NE1). exact Q.
  - apply expected_all_fresh. exact Fr.
  - apply edge_acyclic_b_spec. exact Ac.
  - discriminate.
  - intros _. rewrite !Nat.eqb_refl, !perm_eqb_of_perm; reflexivity.
Qed.

Lemma splice_cont_ok st c f fi i n items : inv st -> op_hyp st (SpliceCont c f fi i n items) = true -> sound st (SpliceCont c f fi i n items).
Proof.
  intros Hinv Hyp. cbn [op_hyp] in Hyp.
  apply andb_true_iff in Hyp. destruct Hyp as [Hyp Ac]. apply andb_true_iff in Hyp. destruct Hyp as [Nf Fr].
  apply negb_true_iff, Nat.eqb_neq in Nf. set (c' := st_next st) in *. set (l := st_heap st c f) in *.
  apply (notify_change_ok st _ [(c', fi, items)] (S c') c f (splice l i n [c']) (spliced_out l i n) [c']
           (firstn i l ++ skipn n (skipn i l)) false true); try assumption;
    cbn [step notified classify call_ok apply_delta fold_left app]; rewrite ?upd_same; try reflexivity.
  - apply upd_other. apply fresh_slot. exact Nf.
  - apply expected_all_fresh. exact Fr.
  - apply splice_old.
  - apply splice_new.
  - apply edge_acyclic_b_spec. exact Ac.
  - discriminate.
  - intros _. rewrite !Nat.eqb_refl. apply perm_eqb_of_perm. apply splice_delta.
Qed.

Theorem step_sound st o : inv st -> op_hyp st o = true -> sound st o.
Proof.
  intros Hinv Hyp. destruct o.
  - apply observe_ok; assumption.
  - apply unobserve_ok; assumption.
  - apply observe_all_ok; assumption.
  - apply unobserve_all_ok; assumption.
  - apply setref_ok; assumption.
  - apply setcont_ok; assumption.
  - apply touch_ok; assumption.
  - apply splice_ok; assumption.
  - apply probe_ok; assumption.
  - apply add_trait_ok; assumption.
  - discriminate Hyp.
  - apply touch_items_ok; assumption.
  - apply splice_cont_ok; assumption.
Qed.

Lemma step_spec st o : inv st -> op_hyp st o = true -> step_ok st o.
Proof. intros I Hy. apply (step_sound st o I Hy). Qed.

Lemma inv_init n : inv (init n).
Proof. unfold inv, init. cbn. constructor. Qed.

(* induction over a history that meets the hypotheses: every state on the way is consistent, every step sound *)
Lemma history_ind (P : state -> list op -> Prop) :
  (forall st, inv st -> P st []) ->
  (forall st o r, inv st -> sound st o -> P (fst (step st o)) r -> P st (o :: r)) ->
  forall ops st, inv st -> hyps st ops = true -> P st ops.
Proof.
  intros P0 PS. induction ops as [|o ops IH]; intros st I Hy; [apply P0; exact I|].
  cbn [hyps] in Hy. apply andb_true_iff in Hy. destruct Hy as [H1 H2].
  pose proof (step_sound st o I H1) as S. apply (PS st o ops I S). apply IH; [|exact H2].
  destruct S as [S _]. unfold step_ok in S. destruct (step st o). apply S.
Qed.

Lemma inv_final : forall ops st, inv st -> hyps st ops = true -> inv (final st ops).
Proof. apply (history_ind (fun st ops => inv (final st ops))); [intros st I; exact I|intros st o r _ _ IH; exact IH]. Qed.

Lemma hyps_app : forall pre st post, hyps st (pre ++ post) = true ->
  hyps st pre = true /\ hyps (final st pre) post = true.
Proof.
  induction pre as [|o pre IH]; intros st post Hy; cbn [app hyps final] in *; [tauto|].
  apply andb_true_iff in Hy. destruct Hy as [H1 H2]. destruct (IH _ _ H2) as [A B].
  rewrite H1, A. split; [reflexivity|exact B].
Qed.

Lemma every_step_ok ops st pre o post :
  inv st -> hyps st ops = true -> ops = pre ++ o :: post -> step_ok (final st pre) o.
Proof.
  intros I Hy ->. apply hyps_app in Hy. destruct Hy as [Hp Ho]. cbn [hyps] in Ho.
  apply andb_true_iff in Ho. destruct Ho as [Ho _].
  apply step_spec; [|exact Ho]. apply inv_final; assumption.
Qed.

(* no MUTATION raises (a registration that cannot be hooked raises ValueError and changes nothing) *)
Lemma run_all_ok : forall ops st, inv st -> hyps st ops = true ->
  Forall (fun p : op * obs => ob_out (snd p) = Ok \/ (op_slot (fst p) = None /\ ob_out (snd p) = Raise ValueError))
         (run st ops).
Proof.
  apply (history_ind (fun st ops => Forall _ (run st ops))); [constructor|].
  intros st o r _ [S _] IH. cbn [run]. unfold step_ok in S. destruct (step st o) as [st' ob].
  constructor; [cbn [fst snd]; tauto|exact IH].
Qed.

Lemma law_hist_model : forall ops st i, inv st -> hyps st ops = true ->
  law_hist i (st_traits st) (st_heap st) (st_regs st) (run st ops) = [].
Proof.
  intros ops st i I Hy. revert i. revert ops st I Hy.
  apply (history_ind (fun st ops => forall i, law_hist i (st_traits st) (st_heap st) (st_regs st) (run st ops) = []));
    [reflexivity|].
  intros st o r _ [_ [L [D [RG TR]]]] IH i. cbn [run]. destruct (step st o) as [st' ob].
  cbn [fst snd law_hist] in *. rewrite L, D, RG, TR. apply IH.
Qed.

Fixpoint all_optional (g : graph) {struct g} : bool :=
  match g with G _ _ _ p cs => p && forallb all_optional cs end.
Fixpoint set_optional (b : bool) (g : graph) {struct g} : graph :=
  match g with G fs n e _ cs => G fs n e b (map (set_optional b) cs) end.

Lemma all_optional_walkable t h g : all_optional g = true -> forall x, walkable t h g x = true.
Proof.
  induction g as [fs n e p cs IH] using graph_ind'. intros A x. rewrite Forall_forall in IH.
  cbn [all_optional] in A. apply andb_true_iff in A. destruct A as [-> A]. rewrite forallb_forall in A.
  cbn [walkable]. apply forallb_forall. intros f _. destruct (t x f); [|reflexivity].
  apply forallb_forall. intros y _. apply forallb_forall. intros c Hc. apply IH; [exact Hc|]. apply A. exact Hc.
Qed.

Lemma existsb_map {A B} (q : B -> bool) (g : A -> B) l : existsb q (map g l) = existsb (fun a => q (g a)) l.
Proof. induction l; cbn; [reflexivity|]. rewrite IHl. reflexivity. Qed.

Lemma matched_set_optional t h b g : forall x o fo,
  matched t h (set_optional b g) x o fo = matched t h g x o fo.
Proof.
  induction g as [fs n e p cs IH] using graph_ind'. intros x o fo. rewrite Forall_forall in IH.
  cbn [set_optional matched]. apply existsb_ext_In. intros f _. f_equal. f_equal.
  apply existsb_ext_In. intros y _. rewrite existsb_map. apply existsb_ext_In. intros c Hc. apply IH. exact Hc.
Qed.
