(* C04 — property theorems only.  Each theorem is closed by a lemma of Proofs.v / DefaultProofs.v (by [exact], or
   applied at [in_rng vld]) and followed by Print Assumptions; [mutator_list_complete] is proved here by enumeration and
   the Example at the end by evaluation.  [vld], [kv], [vv] range over every inner trait seen
   as a validator (accepting, rejecting, converting); [P] is any predicate that holds of
   everything a validator returns (instantiate with "is in the range of vld"); length
   bounds, lists, indices, slices and histories are unbounded. *)
From Coq Require Import ZArith List Bool String.
From TV Require Import Common.PySlice Common.PyList Common.LSet Common.LMap Common.Harness
  C05.Normalize C05.Model C05.Law C04.Model C04.Law C04.Proofs C04.Corr C04.DefaultProofs.
Import ListNotations.
Local Open Scope Z_scope.

Definition in_rng (vld : Z -> option Z) (x : Z) : Prop := exists y, vld y = Some x.

(* ---------- List(T, minlen, maxlen) ---------- *)
Theorem inv_list :
  forall (vld : Z -> option Z) (mn : Z) (mx : option Z) (l : list Z) (lo : lop),
    LInv (in_rng vld) mn mx l -> LInv (in_rng vld) mn mx (o_after (list_step vld mn mx l lo)).
Proof. intros vld. apply list_inv. intros x y H. exists x. exact H. Qed.
Print Assumptions inv_list.

Theorem inv_list_reachable :
  forall (vld : Z -> option Z) (mn : Z) (mx : option Z) (ops : list lop) (l : list Z),
    LInv (in_rng vld) mn mx l ->
    Forall (fun p => LInv (in_rng vld) mn mx (o_after (snd p))) (list_run vld mn mx l ops).
Proof. intros vld. apply list_inv_reachable. intros x y H. exists x. exact H. Qed.
Print Assumptions inv_list_reachable.

Theorem list_failing_op_inert :
  forall (vld : Z -> option Z) (mn : Z) (mx : option Z) (l : list Z) (lo : lop) (e : exn),
    o_out (list_step vld mn mx l lo) = Raise e ->
    o_after (list_step vld mn mx l lo) = l /\ o_events (list_step vld mn mx l lo) = [].
Proof. exact list_failing_inert. Qed.
Print Assumptions list_failing_op_inert.

Theorem list_law_holds_on_every_history :
  forall (vld : Z -> option Z) (dom acc : Z -> bool),
    (forall x y, vld x = Some y -> dom y = true) -> (forall x y, vld x = Some y -> acc x = true) ->
  forall (mn : Z) (mx : option Z) (ops : list lop) (l : list Z) (i : Z),
    list_ok dom mn mx l = true -> law_list_hist dom acc mn mx i l (list_run vld mn mx l ops) = [].
Proof. exact list_law_hist. Qed.
Print Assumptions list_law_holds_on_every_history.

(* ---------- Set(T) ---------- *)
Theorem inv_set_reachable :
  forall (vld : Z -> option Z) (ops : list sop) (s : list Z),
    Forall (in_rng vld) s -> Forall (fun p => Forall (in_rng vld) (so_after (snd p))) (set_run vld s ops).
Proof. intros vld. apply set_inv_reachable. intros x y H. exists x. exact H. Qed.
Print Assumptions inv_set_reachable.

Theorem set_failing_op_inert :
  forall (vld : Z -> option Z) (s : list Z) (so : sop) (e : S.exn),
    so_out (set_step vld s so) = S.Raise e ->
    so_after (set_step vld s so) = s /\ so_nev (set_step vld s so) = 0%nat.
Proof. exact set_failing_inert. Qed.
Print Assumptions set_failing_op_inert.

Theorem set_law_holds_on_every_history :
  forall (vld : Z -> option Z) (dom acc : Z -> bool),
    (forall x y, vld x = Some y -> dom y = true) -> (forall x y, vld x = Some y -> acc x = true) ->
  forall (ops : list sop) (s : list Z) (i : Z),
    forallb dom s = true -> law_set_hist dom acc i s (set_run vld s ops) = [].
Proof. exact set_law_hist. Qed.
Print Assumptions set_law_holds_on_every_history.

(* ---------- Dict(K, V) ---------- *)
Theorem inv_dict_reachable :
  forall (kv vv : Z -> option Z) (ops : list dop) (m : amap),
    DInv (in_rng kv) (in_rng vv) m ->
    Forall (fun p => DInv (in_rng kv) (in_rng vv) (do_after (snd p))) (dict_run kv vv m ops).
Proof. intros kv vv. apply dict_inv_reachable; intros x y H; exists x; exact H. Qed.
Print Assumptions inv_dict_reachable.

Theorem dict_failing_op_inert :
  forall (kv vv : Z -> option Z) (m : amap) (o : dop) (e : D.exn),
    do_out (dict_step kv vv m o) = D.Raise e ->
    do_after (dict_step kv vv m o) = m /\ do_nev (dict_step kv vv m o) = 0%nat.
Proof. exact dict_failing_inert. Qed.
Print Assumptions dict_failing_op_inert.

Theorem dict_law_holds_on_every_history :
  forall (kv vv : Z -> option Z) (kdom kacc vdom vacc : Z -> bool),
    (forall x y, kv x = Some y -> kdom y = true) -> (forall x y, vv x = Some y -> vdom y = true) ->
    (forall x y, kv x = Some y -> kacc x = true) -> (forall x y, vv x = Some y -> vacc x = true) ->
  forall (ops : list dop) (m : amap) (i : Z),
    dict_ok kdom vdom m = true -> law_dict_hist kdom kacc vdom vacc i m (dict_run kv vv m ops) = [].
Proof. exact dict_law_hist. Qed.
Print Assumptions dict_law_holds_on_every_history.

(* ---------- List(List(T)) ---------- *)
Theorem inv_nested_reachable :
  forall (vld : Z -> option Z) (imn omn : Z) (imx omx : option Z) (ops : list nop) (l : list (list Z)),
    NInv (in_rng vld) imn omn imx omx l ->
    Forall (fun p => NInv (in_rng vld) imn omn imx omx (n_after (snd p))) (nested_run vld imn omn imx omx l ops).
Proof. intros vld. apply nested_inv_reachable. intros x y H. exists x. exact H. Qed.
Print Assumptions inv_nested_reachable.

Theorem nested_failing_op_inert :
  forall (vld : Z -> option Z) (imn omn : Z) (imx omx : option Z) (l : list (list Z)) (o : nop) (e : exn),
    n_out (nested_step vld imn omn imx omx l o) = Raise e ->
    n_after (nested_step vld imn omn imx omx l o) = l /\ n_events (nested_step vld imn omn imx omx l o) = 0%nat.
Proof. exact nested_failing_inert. Qed.
Print Assumptions nested_failing_op_inert.

Theorem nested_law_holds_on_every_history :
  forall (vld : Z -> option Z) (dom acc : Z -> bool),
    (forall x y, vld x = Some y -> dom y = true) -> (forall x y, vld x = Some y -> acc x = true) ->
  forall (imn omn : Z) (imx omx : option Z) (ops : list nop) (l : list (list Z)) (i : Z),
    nested_ok dom imn omn imx omx l = true ->
    law_nested_hist dom acc imn omn imx omx i l (nested_run vld imn omn imx omx l ops) = [].
Proof. exact nested_law_hist. Qed.
Print Assumptions nested_law_holds_on_every_history.

(* ---------- Dict(K, List(T)) ---------- *)
Theorem inv_dict_of_lists_reachable :
  forall (kv vld : Z -> option Z) (imn : Z) (imx : option Z) (ops : list ndop) (m : ndict),
    NDInv (in_rng kv) (in_rng vld) imn imx m ->
    Forall (fun p => NDInv (in_rng kv) (in_rng vld) imn imx (nd_after (snd p))) (ndict_run kv vld imn imx m ops).
Proof. intros kv vld. apply ndict_inv_reachable; intros x y H; exists x; exact H. Qed.
Print Assumptions inv_dict_of_lists_reachable.

Theorem dict_of_lists_failing_op_inert :
  forall (kv vld : Z -> option Z) (imn : Z) (imx : option Z) (m : ndict) (o : ndop) (e : exn),
    nd_out (ndict_step kv vld imn imx m o) = Raise e ->
    nd_after (ndict_step kv vld imn imx m o) = m /\ nd_events (ndict_step kv vld imn imx m o) = 0%nat.
Proof. exact ndict_failing_inert. Qed.
Print Assumptions dict_of_lists_failing_op_inert.

Theorem dict_of_lists_law_holds_on_every_history :
  forall (kv vld : Z -> option Z) (kdom kacc dom acc : Z -> bool),
    (forall x y, kv x = Some y -> kdom y = true) -> (forall x y, kv x = Some y -> kacc x = true) ->
    (forall x y, vld x = Some y -> dom y = true) -> (forall x y, vld x = Some y -> acc x = true) ->
  forall (imn : Z) (imx : option Z) (ops : list ndop) (m : ndict) (i : Z),
    ndict_ok kdom dom imn imx m = true ->
    law_ndict_hist kdom kacc dom acc imn imx i m (ndict_run kv vld imn imx m ops) = [].
Proof. exact ndict_law_hist. Qed.
Print Assumptions dict_of_lists_law_holds_on_every_history.

(* ---------- default values ---------- *)
(* a declared default that the model lets through on the first read satisfies the invariant
   (so a default outside the bounds / with an invalid item is refused) *)
Theorem materialised_default_satisfies_the_invariant :
  forall vk mn mx d l, default_list vk mn mx d = Ok l -> law_default (DfList vk mn mx d (Ok l)) = [].
Proof. exact default_list_valid. Qed.
Print Assumptions materialised_default_satisfies_the_invariant.

(* ---------- the op types enumerate the mutating methods ---------- *)
Theorem mutator_list_complete :
  (forall m, In m list_mutators -> exists o, op_method o = m) /\ (forall o, In (op_method o) list_mutators) /\
  (forall m, In m set_mutators -> exists o, sop_method o = m) /\
  (forall m, In m dict_mutators -> exists o, dop_method o = m) /\ (forall o, In (dop_method o) dict_mutators).
Proof.
  repeat split.
  - intros m H. cbn in H.
    repeat (destruct H as [<-|H]); try contradiction;
    [exists (DelInt 0)|exists (Iadd [])|exists (Imul 0)|exists (SetInt 0 0)|exists (Append 0)|exists Clear|exists (Extend [])
    |exists (Insert 0 0)|exists (Pop None)|exists (Remove 0)|exists Reverse|exists (Sort 0 false)]; reflexivity.
  - intros o. destruct o; cbn; tauto.
  - intros m H. cbn in H.
    repeat (destruct H as [<-|H]); try contradiction;
    [exists (S.Iand (S.ASet []))|exists (S.Ior (S.ASet []))|exists (S.Isub (S.ASet []))|exists (S.Ixor (S.ASet []))
    |exists (S.Add 0)|exists S.Clear|exists (S.DiffUpdate [])|exists (S.Discard 0)|exists (S.InterUpdate [])
    |exists (S.Pop None)|exists (S.Remove 0)|exists (S.SymDiffUpdate [])|exists (S.Update [])]; reflexivity.
  - intros m H. cbn in H.
    repeat (destruct H as [<-|H]); try contradiction;
    [exists (D.DelItem 0)|exists (D.Ior true [])|exists (D.SetItem 0 0)|exists D.Clear|exists (D.Pop 0 None)
    |exists D.PopItem|exists (D.SetDefault 0 0)|exists (D.Update true [])]; reflexivity.
  - intros o. destruct o; cbn; tauto.
Qed.
Print Assumptions mutator_list_complete.

(* the validators of the correspondence harness meet the hypotheses of the law theorems *)
Theorem harness_validators_fit :
  forall k x y, vld_of k x = Some y -> dom_of k y = true /\ acc_of k x = true.
Proof.
  intros k x y H. split; [eapply vld_of_dom; exact H|unfold acc_of; rewrite H; reflexivity].
Qed.
Print Assumptions harness_validators_fit.

(* Non-vacuity: a bounded list of a converting inner trait; the invariant holds at the start
   and the history contains refusals for both reasons and successful changes. *)
Example history_nontrivial :
  let h := list_run (vld_of VCInt) 1 (Some 3) [1; 2; 3]
             [LOp (Append 4); LOp (SetSlice (None, None, Some 2) [7; 200]); LOp (SetInt 0 105); LOp (Pop None);
              LOp (Pop None); LOp (Pop None); LAssign true [1; 2; 3; 4]; LAssign true [9; 108]] in
  list_ok (dom_of VCInt) 1 (Some 3) [1; 2; 3] = true /\
  map (fun p => o_out (snd p)) h =
    [Raise TraitError; Raise TraitError; Ok tt; Ok tt; Ok tt; Raise TraitError; Raise TraitError; Ok tt] /\
  map (fun p => o_after (snd p)) h =
    [[1; 2; 3]; [1; 2; 3]; [5; 2; 3]; [5; 2]; [5]; [5]; [5]; [9; 8]].
Proof. vm_compute. repeat split; reflexivity. Qed.
