(* C04 — the harness validators ([vld_of] returns values in [dom_of]) and default values: a default that can
   be read satisfies the invariant (the model of materialisation is validation; C04/Corr.v default_list / law_default). *)
From Coq Require Import ZArith List Bool Lia.
From TV Require Import Common.PySlice Common.PyList Common.PyListInv Common.LSet Common.LMap Common.Harness
  C05.Normalize C05.Model C05.Law C05.Proofs C04.Model C04.Law C04.Corr C04.Proofs.
Import ListNotations.
Local Open Scope Z_scope.

Lemma vld_of_dom k x y : vld_of k x = Some y -> dom_of k y = true.
Proof.
  destruct k; cbn; intros H.
  - reflexivity.
  - destruct ((0 <=? x) && (x <? 100)) eqn:E; inversion H; subst. exact E.
  - remember (vpart x) as v. clear Heqv.
    destruct ((0 <=? v) && (v <? 100)) eqn:E; [inversion H; subst; exact E|].
    destruct ((100 <=? v) && (v <? 200)) eqn:E2; [inversion H; subst; lia|].
    destruct ((300 <=? v) && (v <? 400)) eqn:E3; inversion H; subst. lia.
  - destruct ((0 <=? x) && (x <? 90)) eqn:E; inversion H; subst. lia.
  - destruct ((x =? 200) || (x =? 203)) eqn:E; inversion H; subst. exact E.
Qed.

Lemma default_list_valid vk mn mx d l :
  default_list vk mn mx d = Ok l -> law_default (DfList vk mn mx d (Ok l)) = [].
Proof.
  unfold default_list, law_default, start_ok. cbn [list_step].
  destruct (len_ok mn mx (zlen d)) eqn:L; cbn [andb]; [|discriminate].
  destruct (vld_all (vld_of vk) d) as [ys|] eqn:V; cbn; [|discriminate]. intros H. inversion H; subst.
  assert (list_ok (dom_of vk) mn mx l = true) as ->; [|reflexivity].
  unfold list_ok. apply andb_true_iff. split.
  - apply forallb_Forall. eapply (vld_all_P (vld_of vk) (fun x => dom_of vk x = true)); [|exact V].
    intros x y Hv. eapply vld_of_dom. exact Hv.
  - pose proof (vld_all_length (vld_of vk) d l V) as E. unfold zlen in *. rewrite E. exact L.
Qed.
