(* C04 — proofs for arbitrary nesting depth (Deep.v): the invariant [wfb] is preserved by every
   mutator applied at any path and by whole-value assignment; failing operations are inert;
   the boolean law holds of the model. *)
From Coq Require Import ZArith List Bool Lia Arith PeanoNat.
From TV Require Import Common.PySlice Common.PyList Common.PyListInv Common.Harness
  C05.Normalize C05.Model C05.Law C05.Corr C05.Proofs C04.Model C04.Law C04.Corr C04.Proofs C04.DefaultProofs C04.Deep.
Import ListNotations.
Local Open Scope Z_scope.

(* induction over items with the nested list *)
Section ItemInd.
  Variable P : item -> Prop.
  Hypothesis HA : forall z, P (Atom z).
  Hypothesis HL : forall l, Forall P l -> P (Lst l).
  Hypothesis HD : forall m, Forall (fun p => P (snd p)) m -> P (Dct m).
  Fixpoint item_ind' (x : item) : P x :=
    match x with
    | Atom z => HA z
    | Lst l => HL l ((fix go (l : list item) : Forall P l :=
                        match l with
                        | [] => Forall_nil P
                        | y :: r => Forall_cons y (item_ind' y) (go r)
                        end) l)
    | Dct m => HD m ((fix go (m : list (Z * item)) : Forall (fun p => P (snd p)) m :=
                        match m with
                        | [] => Forall_nil _
                        | p :: r => Forall_cons p (item_ind' (snd p)) (go r)
                        end) m)
    end.
End ItemInd.

Lemma item_eqb_refl x : item_eqb x x = true.
Proof.
  induction x as [z|l IH|m IH] using item_ind'; cbn; [apply Z.eqb_refl| |].
  - induction IH as [|y r Hy _ IHr]; [reflexivity|]. rewrite Hy. exact IHr.
  - induction IH as [|[k y] r Hy _ IHr]; [reflexivity|]. cbn in Hy. rewrite Z.eqb_refl, Hy. exact IHr.
Qed.

Section IMap.
  Variable R : Z * item -> Prop.
  Lemma F_dset k v m : R (k, v) -> Forall R m -> Forall R (dset k v m).
  Proof. apply (F_set R dset). intros ? ? []; reflexivity. Qed.
  Lemma F_dupdate ps m : Forall R ps -> Forall R m -> Forall R (dupdate ps m).
  Proof. apply (F_update R dset). intros ? ? []; reflexivity. Qed.
End IMap.
Lemma dlookup_In k m v : dlookup k m = Some v -> In (k, v) m.
Proof. apply (lookup_In dlookup). intros ? []; reflexivity. Qed.
Lemma dset_same k v m : dlookup k m = Some v -> dset k v m = m.
Proof. apply (set_same dset); [intros ? ? []|intros ? []]; reflexivity. Qed.

Lemma mapM_all_valid {A B} (f : A -> option B) l : mapM f l = all_valid f l.
Proof. induction l as [|x l IH]; cbn; [reflexivity|]. rewrite IH. reflexivity. Qed.

Lemma mapM_zlen {A B} (f : A -> option B) l l' : mapM f l = Some l' -> zlen l' = zlen l.
Proof. rewrite mapM_all_valid. intros H. unfold zlen. rewrite (all_valid_length f l l' H). reflexivity. Qed.
Lemma mapM_Forall {A B} (f : A -> option B) (Q : B -> Prop) l l' :
  (forall x y, f x = Some y -> Q y) -> mapM f l = Some l' -> Forall Q l'.
Proof. rewrite mapM_all_valid. intros Hf. apply all_valid_range, Hf. Qed.
Lemma mapM_accepted {A B} (f : A -> option B) l l' :
  mapM f l = Some l' -> forallb (fun x => match f x with Some _ => true | None => false end) l = true.
Proof. rewrite mapM_all_valid. apply all_valid_accepted. intros x y ->. reflexivity. Qed.

Lemma validate_wf t : forall x y, validate t x = Some y -> wfb t y = true.
Proof.
  induction t as [vk|inner IH mn mx|kk vt IH]; intros x y H; cbn in H; destruct x as [z|l|m]; try discriminate.
  - destruct (vld_of vk z) as [w|] eqn:V; [|discriminate]. injection H as <-. exact (vld_of_dom _ _ _ V).
  - destruct (len_ok mn mx (zlen l)) eqn:L; [|discriminate].
    destruct (mapM (validate inner) l) as [l'|] eqn:M; [|discriminate]. injection H as <-. cbn.
    rewrite (mapM_zlen _ _ _ M), L, andb_true_r. apply forallb_Forall. exact (mapM_Forall _ _ _ _ IH M).
  - destruct (mapM _ m) as [qs|] eqn:M; [|discriminate]. injection H as <-. cbn.
    apply forallb_Forall, F_dupdate; [|constructor].
    eapply mapM_Forall; [|exact M]. intros [k v] [k' v'] Hp. cbn in Hp.
    destruct (vld_of kk k) as [k1|] eqn:K; [|discriminate]. destruct (validate vt v) as [v1|] eqn:V; [|discriminate].
    injection Hp as <- <-. cbn. rewrite (vld_of_dom kk k k1 K), (IH v v1 V). reflexivity.
Qed.

Definition lout (r : lres) : res unit := fst (fst r).
Definition lafter (r : lres) : list item := snd (fst r).
Definition lnev (r : lres) : nat := snd r.

Section LevelProofs.
  Variable ivld : item -> option item.
  Variable Q : item -> Prop.
  Hypothesis HQ : forall r y, ivld r = Some y -> Q y.
  Variable mn : Z.
  Variable mx : option Z.

  Definition LvInv (l : list item) : Prop := Forall Q l /\ len_ok mn mx (zlen l) = true.
  Notation step := (level_step ivld mn mx).

  Lemma lguard_inv n l k : LvInv l -> (len_ok mn mx n = true -> LvInv (lafter k)) -> LvInv (lafter (lguard mn mx n l k)).
  Proof. intros I H. unfold lguard. destruct (len_ok mn mx n); [auto|exact I]. Qed.

  Theorem level_inv l o : LvInv l -> LvInv (lafter (step l o)).
  Proof.
    intros I. pose proof I as [F LN].
    assert (forall r y, ivld r = Some y -> Forall Q [y]) as Q1 by (intros r y V; repeat constructor; exact (HQ r y V)).
    destruct o; cbn [level_step].
    - apply lguard_inv; [exact I|]. intros G. destruct (ivld r) as [y|] eqn:V; [|exact I].
      exact (kept Q _ _ l _ [y] _ F (Q1 _ _ V) (append_res l y) G).
    - apply lguard_inv; [exact I|]. intros G. destruct (mapM ivld rs) as [ys|] eqn:V; [|exact I].
      rewrite <- (mapM_zlen _ _ _ V) in G. exact (kept Q _ _ l _ ys _ F (mapM_Forall _ _ _ _ HQ V) (extend_res l ys) G).
    - apply lguard_inv; [exact I|]. intros G. destruct (ivld r) as [y|] eqn:V; [|exact I].
      exact (kept Q _ _ l _ [y] _ F (Q1 _ _ V) (insert_res l i y) G).
    - destruct (ivld r) as [y|] eqn:V; [|exact I]. destruct (setitem_int l i y) as [l'|e] eqn:E; [|exact I].
      exact (kept Q _ _ l _ [y] _ F (Q1 _ _ V) (setitem_int_res _ _ _ _ E) LN).
    - (* GSetSlice: the assignment keeps the invariant as soon as the new length is legal *)
      destruct (getitem_slice l sl) as [removed|e] eqn:G; [|exact I].
      set (k := match mapM ivld rs with Some _ => _ | None => _ end).
      assert (len_ok mn mx (if is_step1 sl then zlen l - zlen removed + zlen rs else zlen l) = true ->
              LvInv (lafter k)) as K.
      { subst k. intros LO. destruct (mapM ivld rs) as [ys|] eqn:V; [|exact I].
        destruct (setitem_slice l sl ys) as [l'|e] eqn:E; [|exact I]. rewrite is_step1_eqb, <- (mapM_zlen _ _ _ V) in LO.
        exact (kept Q _ _ l _ ys _ F (mapM_Forall _ _ _ _ HQ V) (setitem_slice_res _ _ _ _ _ E G) LO). }
      destruct (is_step1 sl); [apply lguard_inv; assumption|].
      destruct (zlen rs =? zlen removed); [exact (K LN)|exact I].
    - apply lguard_inv; [exact I|]. intros G. destruct (delitem_int l i) as [l'|e] eqn:E; [|exact I].
      exact (kept_max Q _ _ l _ [] _ F (Forall_nil _) (delitem_int_res _ _ _ E) G).
    - destruct (getitem_slice l sl) as [removed|e] eqn:G; [|exact I].
      apply lguard_inv; [exact I|]. intros LO. destruct (delitem_slice l sl) as [l'|e] eqn:E; [|exact I].
      exact (kept_max Q _ _ l _ [] _ F (Forall_nil _) (delitem_slice_res _ _ _ _ E G) LO).
    - apply lguard_inv; [exact I|]. intros G. destruct (pop l _) as [[x l']|e] eqn:E; [|exact I].
      exact (kept_max Q _ _ l _ [] _ F (Forall_nil _) (pop_res _ _ _ _ E) G).
    - exact (kept Q _ _ l _ [] _ F (Forall_nil _) (perm_res l _ (Permutation.Permutation_sym (Permutation.Permutation_rev l))) LN).
    - (* GClear *)
      apply lguard_inv; [exact I|]. intros G. split; [constructor|exact G].
    - apply lguard_inv; [exact I|]. intros G. destruct (remove item_pyeq l r) as [l'|e] eqn:E; [|exact I].
      exact (kept_max Q _ _ l _ [] _ F (Forall_nil _) (remove_res _ _ _ _ E) G).
    - exact (kept Q _ _ l _ [] _ F (Forall_nil _) (perm_res l _ (sort_perm item_leb reverse l)) LN).
    - apply lguard_inv; [exact I|]. intros G. destruct (n <? 1); exact (kept Q _ _ l _ [] _ F (Forall_nil _) (imul_res l n) G).
  Qed.

  Theorem level_inert l o e : lout (step l o) = Raise e -> lafter (step l o) = l /\ lnev (step l o) = 0%nat.
  Proof.
    destruct o; cbn [level_step]; unfold lguard, lraise, lok, lout, lafter, lnev; split_matches;
      cbn [fst snd]; intros H; try discriminate; auto.
  Qed.

  Theorem level_success l o :
    lout (step l o) = Ok tt -> forallb (fun r => match ivld r with Some _ => true | None => false end) (g_offered o) = true.
  Proof.
    destruct o; cbn [level_step g_offered]; unfold lguard, lraise, lok, lout; split_matches;
      cbn [fst snd]; intros H; try discriminate; try reflexivity; cbn [forallb];
      repeat match goal with
             | V : ivld _ = Some _ |- _ => rewrite V
             | V : mapM ivld _ = Some _ |- _ => apply mapM_accepted in V; rewrite V
             end; try reflexivity.
  Qed.
End LevelProofs.

Definition dout (r : dres) : res unit := fst (fst r).
Definition dafter (r : dres) : imap := snd (fst r).
Definition dnev (r : dres) : nat := snd r.

Section DLevelProofs.
  Variable kvld : Z -> option Z.
  Variable vvld : item -> option item.
  Variable PK : Z -> Prop.
  Variable Q : item -> Prop.
  Hypothesis HPK : forall k k', kvld k = Some k' -> PK k'.
  Hypothesis HQ : forall r y, vvld r = Some y -> Q y.

  Definition entry_ok (p : Z * item) : Prop := PK (fst p) /\ Q (snd p).
  Definition DvInv (m : imap) : Prop := Forall entry_ok m.
  Notation step := (dlevel_step kvld vvld).

  Lemma pair_vld_ok p q : pair_vld kvld vvld p = Some q -> entry_ok q.
  Proof.
    unfold pair_vld. destruct (kvld (fst p)) as [k'|] eqn:K; [|discriminate].
    destruct (vvld (snd p)) as [v'|] eqn:V; [|discriminate]. intros [= <-]. split; cbn; eauto.
  Qed.

  Theorem dlevel_inv m o : DvInv m -> DvInv (dafter (step m o)).
  Proof.
    intros F. unfold DvInv in *. destruct o as [k r|ps|k r|k|k| ]; cbn [dlevel_step]; unfold draise, dok, dafter;
      split_matches; cbn [fst snd]; try exact F;
      try (apply F_dset; [eapply pair_vld_ok; eassumption|exact F]);
      try (apply F_remove; exact F); try constructor.
    apply F_dupdate; [|exact F]. eapply mapM_Forall; [apply pair_vld_ok|eassumption].
  Qed.

  Theorem dlevel_inert m o e : dout (step m o) = Raise e -> dafter (step m o) = m /\ dnev (step m o) = 0%nat.
  Proof.
    destruct o; cbn [dlevel_step]; unfold draise, dok, dout, dafter, dnev; split_matches;
      cbn [fst snd]; intros H; try discriminate; auto.
  Qed.

  Theorem dlevel_success m o :
    dout (step m o) = Ok tt ->
    forallb (fun p => match pair_vld kvld vvld p with Some _ => true | None => false end) (d_offered_pairs m o) = true.
  Proof.
    destruct o; cbn [dlevel_step d_offered_pairs]; unfold draise, dok, dout; split_matches;
      cbn [fst snd]; intros H; try discriminate; try reflexivity; cbn [forallb];
      repeat match goal with
             | V : pair_vld _ _ _ = Some _ |- _ => rewrite V
             | V : mapM _ _ = Some _ |- _ => apply mapM_accepted in V; rewrite V
             end; try reflexivity.
  Qed.
End DLevelProofs.

Lemma wfb_list inner mn mx l :
  wfb (TList inner mn mx) (Lst l) = true <-> LvInv (fun y => wfb inner y = true) mn mx l.
Proof. cbn. unfold LvInv. rewrite andb_true_iff, forallb_Forall. reflexivity. Qed.

Lemma wfb_dict kk vt m :
  wfb (TDict kk vt) (Dct m) = true <-> DvInv (fun k => dom_of kk k = true) (fun y => wfb vt y = true) m.
Proof.
  cbn. unfold DvInv, entry_ok. rewrite forallb_Forall. split; intros F; eapply Forall_impl; try exact F; cbn; intros [k v]; cbn.
  - intros H. apply andb_true_iff in H. exact H.
  - intros [A B]. rewrite A, B. reflexivity.
Qed.

(* The three facts the law needs of one observation: the invariant is kept, a failure is inert,
   a success was offered acceptable values only. *)
Definition good_step (t : ttype) (x : item) (o : dpop) (ob : dpobs) : Prop :=
  (wfb t x = true -> wfb t (dp_after ob) = true) /\
  (forall e, dp_out ob = Raise e -> dp_after ob = x /\ dp_events ob = 0%nat) /\
  (dp_out ob = Ok tt -> offered_ok t x o = true).

Lemma good_raise t x o e : good_step t x o (mkDP (Raise e) x 0).
Proof. repeat split; cbn; auto; discriminate. Qed.

Lemma good_level inner mn mx l g :
  good_step (TList inner mn mx) (Lst l) (DPath [] (OnList g))
    (let '(out, l', n) := level_step (validate inner) mn mx l g in mkDP out (Lst l') n).
Proof.
  pose proof (level_inv (validate inner) _ (validate_wf inner) mn mx l g) as LI.
  pose proof (level_inert (validate inner) mn mx l g) as LE.
  pose proof (level_success (validate inner) mn mx l g) as LS.
  destruct (level_step (validate inner) mn mx l g) as [[out l'] n]. unfold lout, lafter, lnev in *. cbn [fst snd] in *.
  repeat split; cbn [dp_out dp_after dp_events].
  - intros W. apply wfb_list, LI, wfb_list, W.
  - destruct (LE e H) as [-> _]. reflexivity.
  - apply (LE e H).
  - exact LS.
Qed.

Lemma good_dlevel kk vt m d :
  good_step (TDict kk vt) (Dct m) (DPath [] (OnDict d))
    (let '(out, m', n) := dlevel_step (vld_of kk) (validate vt) m d in mkDP out (Dct m') n).
Proof.
  pose proof (dlevel_inv (vld_of kk) (validate vt) _ _ (vld_of_dom kk) (validate_wf vt) m d) as LI.
  pose proof (dlevel_inert (vld_of kk) (validate vt) m d) as LE.
  pose proof (dlevel_success (vld_of kk) (validate vt) m d) as LS.
  destruct (dlevel_step (vld_of kk) (validate vt) m d) as [[out m'] n]. unfold dout, dafter, dnev in *. cbn [fst snd] in *.
  repeat split; cbn [dp_out dp_after dp_events].
  - intros W. apply wfb_dict, LI, wfb_dict, W.
  - destruct (LE e H) as [-> _]. reflexivity.
  - apply (LE e H).
  - intros H. cbn. specialize (LS H). rewrite forallb_forall in *. intros [a b] Hin. specialize (LS _ Hin).
    unfold pair_vld in LS. cbn [fst snd] in *. unfold acc_of, accb.
    destruct (vld_of kk a); [|discriminate]. destruct (validate vt b); [reflexivity|discriminate].
Qed.

(* one step further down: what holds of the item reached holds of the container around it *)
Lemma good_idx inner mn mx l j y p o ob : nth_error l j = Some y -> good_step inner y (DPath p o) ob ->
  good_step (TList inner mn mx) (Lst l) (DPath (PIdx j :: p) o)
    (mkDP (dp_out ob) (Lst (set_nth j (dp_after ob) l)) (dp_events ob)).
Proof.
  intros N (GI & GE & GS). repeat split; cbn [dp_out dp_after dp_events].
  - intros W. apply wfb_list. apply wfb_list in W. apply (inv_set_nth _ _ _ l j y _ N); [|exact W].
    apply GI. destruct W as [F _]. rewrite Forall_forall in F. exact (F _ (nth_error_In _ _ N)).
  - destruct (GE e H) as [-> _]. rewrite (set_nth_same l j y N). reflexivity.
  - apply (GE e H).
  - intros H. specialize (GS H). destruct o; cbn [offered_ok type_at item_at] in *; [|rewrite N]; exact GS.
Qed.

Lemma good_key kk vt m k y p o ob : dlookup k m = Some y -> good_step vt y (DPath p o) ob ->
  good_step (TDict kk vt) (Dct m) (DPath (PKey k :: p) o)
    (mkDP (dp_out ob) (Dct (dset k (dp_after ob) m)) (dp_events ob)).
Proof.
  intros N (GI & GE & GS). repeat split; cbn [dp_out dp_after dp_events].
  - intros W. apply wfb_dict. apply wfb_dict in W. unfold DvInv in *.
    pose proof W as W0. rewrite Forall_forall in W0. destruct (W0 _ (dlookup_In k m y N)) as [HK HY].
    apply F_dset; [|exact W]. split; [exact HK|exact (GI HY)].
  - destruct (GE e H) as [-> _]. rewrite (dset_same k y m N). reflexivity.
  - apply (GE e H).
  - intros H. specialize (GS H). destruct o; cbn [offered_ok type_at item_at] in *; [|rewrite N]; exact GS.
Qed.

Theorem path_good : forall path t x o, good_step t x (DPath path o) (path_step t x path o).
Proof.
  induction path as [|[j|k] p IH]; intros t x o;
    destruct t as [vk|inner mn mx|kk vt]; destruct x as [z|l|m]; cbn [path_step]; try apply good_raise.
  - destruct o; [apply good_level|apply good_raise].
  - destruct o; [apply good_raise|apply good_dlevel].
  - destruct (nth_error l j) as [y|] eqn:N; [apply (good_idx _ _ _ _ _ y), IH; exact N|apply good_raise].
  - destruct (dlookup k m) as [y|] eqn:N; [apply (good_key _ _ _ _ y), IH; exact N|apply good_raise].
Qed.

Theorem deep_good t x o : good_step t x o (deep_step t x o).
Proof.
  destruct o as [path g|r]; cbn [deep_step]; [apply path_good|].
  destruct (validate t r) as [y|] eqn:V; [|apply good_raise].
  repeat split; cbn [dp_out dp_after dp_events offered_ok]; try discriminate.
  - intros _. exact (validate_wf t r y V).
  - intros _. unfold accb. rewrite V. reflexivity.
Qed.

Theorem deep_inv t x o : wfb t x = true -> wfb t (dp_after (deep_step t x o)) = true.
Proof. apply deep_good. Qed.

Theorem deep_inert t x o e :
  dp_out (deep_step t x o) = Raise e -> dp_after (deep_step t x o) = x /\ dp_events (deep_step t x o) = 0%nat.
Proof. apply deep_good. Qed.

Theorem deep_inv_reachable t : forall ops x, wfb t x = true ->
  Forall (fun p => wfb t (dp_after (snd p)) = true) (deep_run t x ops).
Proof.
  induction ops as [|o ops IH]; intros x W; cbn [deep_run]; constructor.
  - cbn. apply deep_inv. exact W.
  - apply IH. apply deep_inv. exact W.
Qed.

Theorem deep_law_step t x o :
  wfb t x = true -> law_deep_step t x o (deep_step t x o) = [] /\ wfb t (dp_after (deep_step t x o)) = true.
Proof.
  intros W. pose proof (deep_inv t x o W) as W'. split; [|exact W'].
  unfold law_deep_step. rewrite W', orb_true_r. apply inert_clauses.
  - apply trait_error_raise.
  - destruct (dp_out _) as [|e] eqn:EO; [discriminate|]. intros _.
    destruct (deep_inert t x o e EO) as [-> ->]. rewrite item_eqb_refl. reflexivity.
  - destruct (dp_out _) as [[]|e] eqn:EO; [|discriminate]. intros _. exact (proj2 (proj2 (deep_good t x o)) EO).
Qed.

Theorem deep_law_hist t : forall ops x i, wfb t x = true -> law_deep_hist t i x (deep_run t x ops) = [].
Proof.
  induction ops as [|o ops IH]; intros x i W; cbn [deep_run law_deep_hist]; [reflexivity|].
  destruct (deep_law_step t x o W) as [H1 H2]. rewrite H1, (IH _ _ H2). reflexivity.
Qed.
