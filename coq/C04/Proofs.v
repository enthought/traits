(* C04 — proofs: the invariant (every element in the range of the inner trait, length
   within minlen..maxlen) is preserved by every mutator and by whole-value assignment,
   hence holds after every history; a failing operation is inert; the boolean law of
   Law.v holds of the models. *)
From Coq Require Import ZArith List Bool Lia Arith PeanoNat.
From TV Require Import Common.PySlice Common.PyList Common.PyListInv Common.LSet Common.LMap Common.Harness
  C05.Normalize C05.Model C05.Law C05.Proofs C04.Model C04.Law.
Import ListNotations.
Local Open Scope Z_scope.

Lemma forallb_Forall {A} (f : A -> bool) l : forallb f l = true <-> Forall (fun x => f x = true) l.
Proof. rewrite forallb_forall, Forall_forall. reflexivity. Qed.

(* Clauses 3 to 5 are the same in the law of every container kind: an exception leaves the
   container alone and silent ([same]), and without one every offered value was acceptable. *)
Lemma inert_clauses (te rs same off : bool) :
  (te = true -> rs = true) -> (rs = true -> same = true) -> (rs = false -> off = true) ->
  chk 3 (negb te || same) ++ chk 4 (negb rs || same) ++ chk 5 (off || rs) = [].
Proof.
  intros A B C. destruct rs.
  - rewrite (B eq_refl), !orb_true_r. reflexivity.
  - rewrite (C eq_refl). destruct te; [discriminate (A eq_refl)|reflexivity].
Qed.

Lemma trait_error_raise (o : res unit) : is_trait_error o = true -> is_raise o = true.
Proof. destruct o as [|[]]; cbn; congruence. Qed.

(* The invariant of a bounded list with items in [Q] ([LInv], [NInv] below, and the levels of Deep.v)
   holds of a result made of old items and valid new ones whose length is legal. *)
Lemma items_kept {A} (Q : A -> Prop) (l l' new : list A) :
  Forall Q l -> Forall Q new -> incl l' (new ++ l) -> Forall Q l'.
Proof. intros F Fn S. apply (incl_Forall S), Forall_app. split; assumption. Qed.

Lemma kept {A} (Q : A -> Prop) mn mx (l l' new : list A) n :
  Forall Q l -> Forall Q new -> incl l' (new ++ l) /\ zlen l' = n -> len_ok mn mx n = true ->
  Forall Q l' /\ len_ok mn mx (zlen l') = true.
Proof. intros F Fn [S ->] L. split; [exact (items_kept Q l l' new F Fn S)|exact L]. Qed.

(* the overrides that shrink the list announce [max (len - k) 0] *)
Lemma kept_max {A} (Q : A -> Prop) mn mx (l l' new : list A) n :
  Forall Q l -> Forall Q new -> incl l' (new ++ l) /\ zlen l' = n -> len_ok mn mx (Z.max n 0) = true ->
  Forall Q l' /\ len_ok mn mx (zlen l') = true.
Proof. intros F Fn R. exact (kept Q mn mx l l' new _ F Fn (res_max l l' new n R)). Qed.

(* ... and is kept when one item is replaced by another one in [Q] (a mutation inside a nested container) *)
Lemma inv_set_nth {A} (Q : A -> Prop) mn mx (l : list A) j x y :
  nth_error l j = Some x -> Q y -> Forall Q l /\ len_ok mn mx (zlen l) = true ->
  Forall Q (set_nth j y l) /\ len_ok mn mx (zlen (set_nth j y l)) = true.
Proof.
  intros N Hy [F LN]. split; [apply (incl_Forall (set_nth_incl j y l)); constructor; assumption|].
  unfold zlen. rewrite set_nth_length; [exact LN|]. apply nth_error_Some. congruence.
Qed.

(* case analysis on every [match] scrutinee of the goal, except a step of an inner list: that is
   left to the theorems about lists *)
Ltac split_matches :=
  repeat match goal with
         | |- context [match ?x with _ => _ end] =>
             lazymatch x with tlo_step _ _ _ _ _ => fail | _ => destruct x eqn:? end
         end.

Section ListProofs.
  Variable vld : Z -> option Z.
  Variable P : Z -> Prop.
  Hypothesis HP : forall x y, vld x = Some y -> P y.

  Lemma vld_all_P xs ys : vld_all vld xs = Some ys -> Forall P ys.
  Proof. exact (all_valid_range vld P HP xs ys). Qed.

  Lemma vld_all_zlen xs ys : vld_all vld xs = Some ys -> zlen ys = zlen xs.
  Proof. intros V. unfold zlen. rewrite (vld_all_length vld xs ys V). reflexivity. Qed.

  (* the reference result of C05 (the built-in list on the validated items) keeps [P] and has exactly
     the length the TraitListObject override announced *)
  Lemma announced_deX l o : announced l o = announced l (deX o).
  Proof. destruct o; reflexivity. Qed.

  Lemma builtin_res l o l' r alt an :
    Forall P l -> builtin vld l o = (Ok (l', r), alt) -> announced l o = Ok an ->
    Forall P l' /\ zlen l' = match an with Some n => n | None => zlen l end.
  Proof.
    intros F H AN.
    assert (forall new n, Forall P new -> incl l' (new ++ l) /\ zlen l' = n -> Forall P l' /\ zlen l' = n) as K
      by (intros new n Fn [S L]; split; [exact (items_kept P l l' new F Fn S)|exact L]).
    assert (forall x y, vld x = Some y -> Forall P [y]) as P1 by (intros x y V; repeat constructor; exact (HP x y V)).
    assert (forall (a : res (list Z)) x, lift a = Ok (l', x) -> a = Ok l') as LF by (intros [a|e] x [=]; congruence).
    (* an index-like argument is the int it converts to, for the reference as for the override *)
    rewrite builtin_deX in H. rewrite announced_deX in AN.
    assert (xkey (deX o) = false) as XK by (destruct o; reflexivity).
    revert H AN XK. generalize (deX o). clear o. intros o H AN XK.
    (* in every case the validators accepted and the argument fits a machine word, else the reference raised *)
    destruct o as [i v|sl vs|i|sl|v|vs|vs|n|p q|i v|oi|v| |m rv| |xi xv|xi|xn|nsl| | ]; try discriminate XK;
      cbn [builtin] in H; cbn [announced] in AN; cbv zeta in H; try discriminate H; try discriminate AN;
      repeat match type of H with
             | context [match vld ?v with _ => _ end] => destruct (vld v) as [y|] eqn:V; [|discriminate H]
             | context [match vld_all vld ?vs with _ => _ end] => destruct (vld_all vld vs) as [ys|] eqn:V; [|discriminate H]
             | context [if fits ?n then _ else _] => destruct (fits n); [|discriminate H]
             end;
      injection H as H; subst; try apply LF in H.
    - (* SetInt *) injection AN as <-. exact (K [y] _ (P1 _ _ V) (setitem_int_res _ _ _ _ H)).
    - (* SetSlice *)
      destruct (getitem_slice l sl) as [rm|] eqn:G; [|discriminate]. cbn [bind] in AN.
      apply (K ys); [exact (vld_all_P _ _ V)|]. destruct (setitem_slice_res _ _ _ _ _ H G) as [S ->]. split; [exact S|].
      rewrite <- is_step1_eqb, (vld_all_zlen _ _ V).
      destruct (is_step1 sl); [|destruct (zlen vs =? zlen rm); [|discriminate]]; injection AN as <-; reflexivity.
    - (* DelInt *) injection AN as <-. exact (K [] _ (Forall_nil _) (res_max _ _ [] _ (delitem_int_res _ _ _ H))).
    - (* DelSlice *)
      destruct (getitem_slice l sl) as [rm|] eqn:G; [|discriminate]. injection AN as <-.
      exact (K [] _ (Forall_nil _) (res_max _ _ [] _ (delitem_slice_res _ _ _ _ H G))).
    - (* Append *) injection AN as <-. exact (K [y] _ (P1 _ _ V) (append_res l y)).
    - (* Extend *) injection AN as <-. rewrite <- (vld_all_zlen _ _ V). exact (K ys _ (vld_all_P _ _ V) (extend_res l ys)).
    - (* Iadd, as Extend *) injection AN as <-. rewrite <- (vld_all_zlen _ _ V). exact (K ys _ (vld_all_P _ _ V) (extend_res l ys)).
    - (* Imul *) injection AN as <-. exact (K [] _ (Forall_nil _) (imul_res l n)).
    - (* Insert *) injection AN as <-. exact (K [y] _ (P1 _ _ V) (insert_res l i y)).
    - (* Pop *)
      injection AN as <-. destruct (pop l _) as [[x l2]|] eqn:E; [|discriminate]. injection H as <- _.
      exact (K [] _ (Forall_nil _) (res_max _ _ [] _ (pop_res _ _ _ _ E))).
    - (* Remove *) injection AN as <-. exact (K [] _ (Forall_nil _) (res_max _ _ [] _ (remove_res _ _ _ _ H))).
    - (* Reverse *)
      injection AN as <-. exact (K [] _ (Forall_nil _) (perm_res l _ (Permutation.Permutation_sym (Permutation.Permutation_rev l)))).
    - (* Sort *) injection AN as <-. exact (K [] _ (Forall_nil _) (perm_res l _ (sort_perm _ _ l))).
    - (* Clear *) injection AN as <-. split; [constructor|reflexivity].
  Qed.

  Definition LInv (mn : Z) (mx : option Z) (l : list Z) : Prop := Forall P l /\ len_ok mn mx (zlen l) = true.

  (* A TraitListObject step, read through C05's refinement theorem: it fails and is inert, or it passed the
     length guard and leaves the contents of the built-in list on the validated items. *)
  Lemma tlo_cases mn mx l o :
    let ob := tlo_step vld mn mx l o in
    (exists e, o_out ob = Raise e /\ o_after ob = l /\ o_events ob = []) \/
    (o_out ob = Ok tt /\ exists r alt an, builtin vld l o = (Ok (o_after ob, r), alt) /\ announced l o = Ok an /\
                                         match an with Some n => len_ok mn mx n = true | None => True end).
  Proof.
    cbv zeta. rewrite tlo_step_step0. unfold tlo_step0.
    (* the override's own computation raised, or the guard refused ... *)
    destruct (announced l o) as [[n|]|e] eqn:AN;
      [destruct (len_ok mn mx n) eqn:LO; [|left; exists TraitError; cbn; auto]| |left; exists e; cbn; auto].
    (* ... otherwise the step is the TraitList step *)
    all: destruct (step_refines vld l o) as (HO & HA & _); cbv zeta in *.
    all: destruct (o_out (tl_step vld l o)) as [[]|e] eqn:EO;
      [right; split; [reflexivity|]|left; exists e; split; [reflexivity|exact (step_failing_untouched vld l o e EO)]].
    all: destruct (builtin vld l o) as [[[l' r]|e'] alt]; cbn in *; [subst l'|discriminate].
    all: exists r, alt; eexists; (split; [reflexivity|split; [reflexivity|]]); first [exact LO|exact Logic.I].
  Qed.

  Theorem tlo_inv mn mx l o : LInv mn mx l -> LInv mn mx (o_after (tlo_step vld mn mx l o)).
  Proof.
    intros [F LN]. destruct (tlo_cases mn mx l o) as [(e & _ & -> & _)|(_ & r & alt & an & HB & AN & LO)]; [split; assumption|].
    destruct (builtin_res l o _ r alt an F HB AN) as [F' L]. split; [exact F'|].
    rewrite L. destruct an; [exact LO|exact LN].
  Qed.

  Theorem tlo_failing_inert mn mx l o e :
    o_out (tlo_step vld mn mx l o) = Raise e ->
    o_after (tlo_step vld mn mx l o) = l /\ o_events (tlo_step vld mn mx l o) = [].
  Proof.
    intros H. destruct (tlo_cases mn mx l o) as [(e' & _ & HA & HE)|(HO & _)]; [auto|congruence].
  Qed.

  (* with whole-value assignment *)
  Theorem list_inv mn mx l lo : LInv mn mx l -> LInv mn mx (o_after (list_step vld mn mx l lo)).
  Proof.
    intros I. destruct lo as [o|il vs]; [apply tlo_inv; exact I|]. cbn [list_step].
    destruct (il && len_ok mn mx (zlen vs)) eqn:G; [|exact I].
    destruct (vld_all vld vs) as [ys|] eqn:V; [|exact I]. cbn.
    apply andb_true_iff in G. split; [exact (vld_all_P _ _ V)|]. rewrite (vld_all_zlen _ _ V). apply G.
  Qed.

  Theorem list_failing_inert mn mx l lo e :
    o_out (list_step vld mn mx l lo) = Raise e ->
    o_after (list_step vld mn mx l lo) = l /\ o_events (list_step vld mn mx l lo) = [].
  Proof.
    destruct lo as [o|il vs]; [apply tlo_failing_inert|]. cbn [list_step].
    destruct (il && len_ok mn mx (zlen vs)); [|cbn; auto].
    destruct (vld_all vld vs); cbn; [discriminate|auto].
  Qed.

  Theorem list_inv_reachable mn mx : forall ops l, LInv mn mx l ->
    Forall (fun p => LInv mn mx (o_after (snd p))) (list_run vld mn mx l ops).
  Proof.
    induction ops as [|o ops IH]; intros l I; cbn [list_run]; constructor; [|apply IH]; apply list_inv, I.
  Qed.
End ListProofs.

Section ListLawProofs.
  Variable vld : Z -> option Z.
  Variable dom acc : Z -> bool.
  Hypothesis Hdom : forall x y, vld x = Some y -> dom y = true.
  Hypothesis Hacc : forall x y, vld x = Some y -> acc x = true.

  Lemma vld_all_acc xs ys : vld_all vld xs = Some ys -> forallb acc xs = true.
  Proof. exact (all_valid_accepted vld acc Hacc xs ys). Qed.

  Lemma builtin_acc l o x alt : builtin vld l o = (Ok x, alt) -> forallb acc (offered o) = true.
  Proof.
    intros H. destruct o; cbn [builtin offered] in *; try reflexivity;
      match type of H with
      | context [vld ?v] => destruct (vld v) as [y|] eqn:V; [cbn; rewrite (Hacc v y V); reflexivity|discriminate]
      | context [vld_all vld ?vs] => destruct (vld_all vld vs) as [ys|] eqn:V; [exact (vld_all_acc _ _ V)|discriminate]
      end.
  Qed.

  Lemma list_ok_LInv mn mx l : list_ok dom mn mx l = true <-> LInv (fun x => dom x = true) mn mx l.
  Proof. unfold list_ok, LInv. rewrite andb_true_iff, forallb_Forall. reflexivity. Qed.

  Lemma list_success_acc mn mx l lo :
    o_out (list_step vld mn mx l lo) = Ok tt -> forallb acc (loffered lo) = true.
  Proof.
    destruct lo as [o|il vs]; cbn [list_step loffered].
    - intros H. destruct (tlo_cases vld mn mx l o) as [(e & HO & _)|(_ & r & alt & an & HB & _)]; [congruence|].
      exact (builtin_acc _ _ _ _ HB).
    - destruct (il && len_ok mn mx (zlen vs)); [|cbn; discriminate].
      destruct (vld_all vld vs) as [ys|] eqn:V; [|cbn; discriminate]. intros _. exact (vld_all_acc _ _ V).
  Qed.

  Theorem list_law_step mn mx l lo :
    list_ok dom mn mx l = true ->
    law_list_step dom acc mn mx l lo (list_step vld mn mx l lo) = [] /\
    list_ok dom mn mx (o_after (list_step vld mn mx l lo)) = true.
  Proof.
    intros I. apply list_ok_LInv, (list_inv vld _ Hdom mn mx l lo) in I.
    split; [|apply list_ok_LInv, I]. destruct I as [F LN]. unfold law_list_step.
    apply forallb_Forall in F. rewrite F, LN, !orb_true_r. apply inert_clauses.
    - apply trait_error_raise.
    - destruct (o_out _) as [|e] eqn:EO; [discriminate|]. intros _.
      destruct (list_failing_inert vld mn mx l lo e EO) as [-> ->]. rewrite zlist_eqb_refl. reflexivity.
    - destruct (o_out _) as [[]|e] eqn:EO; [|discriminate]. intros _. exact (list_success_acc mn mx l lo EO).
  Qed.

  Theorem list_law_hist mn mx : forall ops l i, list_ok dom mn mx l = true ->
    law_list_hist dom acc mn mx i l (list_run vld mn mx l ops) = [].
  Proof.
    induction ops as [|o ops IH]; intros l i I; cbn [list_run law_list_hist]; [reflexivity|].
    destruct (list_law_step mn mx l o I) as [H1 H2]. rewrite H1, (IH _ _ H2). reflexivity.
  Qed.
End ListLawProofs.

(* [set_step_P], [set_step_inert] and [set_success_acc] below, and their dict counterparts, go through every
   branch of the model's step: each resulting container is built from the old one and validated items by
   filter / union / cons ([mset] / [update_all] / [mremove] for dicts), each failing branch returns the old
   container, each successful one has validated what was offered.  [s_open] / [d_open] name the arguments of
   the operations (in the order of [S.op] / [D.op]) and expose the branches. *)
Ltac s_open o :=
  destruct o as [x|x|x|hint| |args|[a|a]|[a|a]|[a|a]|[a|a]|args|args|a|k];
  unfold S.step, S.removed_only, S.ok, S.raise; cbv zeta.

Section SetProofs.
  Variable vld : Z -> option Z.
  Variable P : Z -> Prop.
  Hypothesis HP : forall x y, vld x = Some y -> P y.

  Lemma s_vld_all_P xs ys : S.vld_all vld xs = Some ys -> Forall P ys.
  Proof. exact (all_valid_range vld P HP xs ys). Qed.

  Lemma F_filter (f : Z -> bool) l : Forall P l -> Forall P (filter f l).
  Proof. apply incl_Forall, incl_filter. Qed.
  Lemma F_diff a b : Forall P a -> Forall P (diff a b). Proof. apply F_filter. Qed.
  Lemma F_inter a b : Forall P a -> Forall P (inter a b). Proof. apply F_filter. Qed.
  Lemma F_remove1 x a : Forall P a -> Forall P (remove1 x a). Proof. apply F_filter. Qed.
  Lemma F_union a b : Forall P a -> Forall P b -> Forall P (union a b).
  Proof. intros. unfold union. apply Forall_app. auto. Qed.
  Lemma F_fold (op : list Z -> list Z -> list Z) args :
    (forall a b, Forall P a -> Forall P (op a b)) -> forall s, Forall P s -> Forall P (fold_left op args s).
  Proof. intros Hop. induction args as [|a args IH]; intros s F; cbn; [exact F|]. apply IH, Hop, F. Qed.

  Theorem set_step_P s o : Forall P s -> Forall P (S.o_after (S.step vld s o)).
  Proof.
    intros F. s_open o; unfold S.inter_all, S.diff_all; split_matches; cbn [S.o_after];
      repeat match goal with
             | H : S.vld_all vld _ = Some _ |- _ => apply s_vld_all_P in H
             | H : vld _ = Some _ |- _ => apply HP in H
             end;
      auto using F_diff, F_inter, F_remove1, F_union, F_fold, Forall_nil, Forall_cons.
  Qed.

  Theorem set_step_inert s o e :
    S.o_out (S.step vld s o) = S.Raise e -> S.o_after (S.step vld s o) = s /\ S.o_events (S.step vld s o) = [].
  Proof.
    s_open o; split_matches; cbn [S.o_out S.o_after S.o_events]; intros H; try discriminate; auto.
  Qed.

  Definition SInv (s : list Z) : Prop := Forall P s.

  Theorem set_inv s so : SInv s -> SInv (so_after (set_step vld s so)).
  Proof.
    intros F. destruct so as [o|is vs]; cbn [set_step].
    - unfold so_after, s_view. cbn [fst snd]. apply set_step_P. exact F.
    - destruct is; [|exact F]. destruct (S.vld_all vld vs) as [ys|] eqn:V; [|exact F]. exact (s_vld_all_P _ _ V).
  Qed.

  Theorem set_failing_inert s so e :
    so_out (set_step vld s so) = S.Raise e -> so_after (set_step vld s so) = s /\ so_nev (set_step vld s so) = 0%nat.
  Proof.
    destruct so as [o|is vs]; cbn [set_step].
    - unfold so_out, so_after, so_nev, s_view. cbn [fst snd]. intros H.
      destruct (set_step_inert s o e H) as [H1 H2]. rewrite H1, H2. auto.
    - destruct is; [|cbn; auto]. destruct (S.vld_all vld vs); cbn; [discriminate|auto].
  Qed.

  Theorem set_inv_reachable : forall ops s, SInv s ->
    Forall (fun p => SInv (so_after (snd p))) (set_run vld s ops).
  Proof.
    induction ops as [|o ops IH]; intros s I; cbn [set_run]; constructor; [|apply IH]; apply set_inv, I.
  Qed.
End SetProofs.

Section SetLawProofs.
  Variable vld : Z -> option Z.
  Variable dom acc : Z -> bool.
  Hypothesis Hdom : forall x y, vld x = Some y -> dom y = true.
  Hypothesis Hacc : forall x y, vld x = Some y -> acc x = true.

  Lemma s_vld_all_acc xs ys : S.vld_all vld xs = Some ys -> forallb acc xs = true.
  Proof. exact (all_valid_accepted vld acc Hacc xs ys). Qed.

  Lemma diff_inter_same l s : diff l (inter s l) = diff l s.
  Proof.
    unfold diff. apply filter_ext_in. intros x Hx. unfold inter. rewrite mem_filter.
    apply mem_In in Hx. rewrite Hx, andb_true_r. reflexivity.
  Qed.

  Lemma set_success_acc s o : S.o_out (S.step vld s o) = S.Ok -> forallb acc (s_offered s o) = true.
  Proof.
    s_open o; cbn [s_offered]; try rewrite <- (diff_inter_same a s); split_matches; cbn [S.o_out]; intros H;
      try discriminate; try reflexivity;
      try (eapply s_vld_all_acc; eassumption).
    all: cbn; erewrite Hacc by eassumption; reflexivity.
  Qed.

  Theorem set_law_step s so :
    forallb dom s = true ->
    law_set_step dom acc s so (set_step vld s so) = [] /\ forallb dom (so_after (set_step vld s so)) = true.
  Proof.
    intros I. apply forallb_Forall, (set_inv vld _ Hdom s so), forallb_Forall in I.
    split; [|exact I]. unfold law_set_step. rewrite I, orb_true_r. apply inert_clauses.
    - destruct (so_out _) as [|[]]; cbn; congruence.
    - destruct (so_out _) as [|e] eqn:EO; [discriminate|]. intros _.
      destruct (set_failing_inert vld s so e EO) as [-> ->]. rewrite (proj2 (seteq_spec s s)); reflexivity.
    - destruct (so_out _) as [|e] eqn:EO; [|discriminate]. intros _.
      destruct so as [o|is vs]; cbn [so_offered set_step] in *; [exact (set_success_acc s o EO)|].
      destruct is; [|discriminate]. destruct (S.vld_all vld vs) eqn:V; [|discriminate]. exact (s_vld_all_acc _ _ V).
  Qed.

  Theorem set_law_hist : forall ops s i, forallb dom s = true ->
    law_set_hist dom acc i s (set_run vld s ops) = [].
  Proof.
    induction ops as [|o ops IH]; intros s i I; cbn [set_run law_set_hist]; [reflexivity|].
    destruct (set_law_step s o I) as [H1 H2]. rewrite H1, (IH _ _ H2). reflexivity.
  Qed.
End SetLawProofs.

(* insertion-ordered association lists whose entries all satisfy [R]: [mset] / [update_all] / [mremove] of
   Common/LMap and their copies for dicts of lists (C04/Model) and of items (C04/Deep) *)
Section Entries.
  Context {V : Type}.
  Variable R : Z * V -> Prop.
  Variable set : Z -> V -> list (Z * V) -> list (Z * V).
  Hypothesis set_eq : forall k v m, set k v m =
    match m with [] => [(k, v)] | (k', v') :: r => if k =? k' then (k, v) :: r else (k', v') :: set k v r end.

  Lemma F_set k v m : R (k, v) -> Forall R m -> Forall R (set k v m).
  Proof.
    intros Hp F. induction m as [|[k' v'] m IH]; rewrite set_eq; [repeat constructor; exact Hp|].
    inversion F; subst. destruct (k =? k'); constructor; auto.
  Qed.
  Lemma F_update ps : forall m, Forall R ps -> Forall R m -> Forall R (fold_left (fun acc p => set (fst p) (snd p) acc) ps m).
  Proof.
    induction ps as [|[k v] ps IH]; intros m Fp Fm; cbn; [exact Fm|].
    inversion Fp; subst. apply IH; [assumption|]. apply F_set; assumption.
  Qed.
  Lemma F_remove k (m : list (Z * V)) : Forall R m -> Forall R (filter (fun p => negb (k =? fst p)) m).
  Proof. apply incl_Forall, incl_filter. Qed.

  Variable lookup : Z -> list (Z * V) -> option V.
  Hypothesis lookup_eq : forall k m, lookup k m =
    match m with [] => None | (k', v) :: r => if k =? k' then Some v else lookup k r end.
  Lemma lookup_In k m v : lookup k m = Some v -> In (k, v) m.
  Proof.
    induction m as [|[k' v'] m IH]; rewrite lookup_eq; [discriminate|]. destruct (Z.eqb_spec k k') as [->|].
    - intros [= ->]. left. reflexivity.
    - intros H. right. exact (IH H).
  Qed.
  Lemma set_same k v m : lookup k m = Some v -> set k v m = m.
  Proof.
    induction m as [|[k' v'] m IH]; rewrite lookup_eq, set_eq; [discriminate|]. destruct (Z.eqb_spec k k') as [->|].
    - intros [= ->]. reflexivity.
    - intros H. f_equal. exact (IH H).
  Qed.
End Entries.

Ltac d_open o :=
  destruct o as [k v|k|asmap ps|asmap ps|k v|k dflt| | ];
  unfold D.step, D.store, D.do_update, D.ok, D.raise; cbv zeta.

Section DictProofs.
  Variable kv vv : Z -> option Z.
  Variable PK PV : Z -> Prop.
  Hypothesis HK : forall x y, kv x = Some y -> PK y.
  Hypothesis HV : forall x y, vv x = Some y -> PV y.

  Definition DP (p : Z * Z) : Prop := PK (fst p) /\ PV (snd p).
  Definition DInv (m : amap) : Prop := Forall DP m.

  Lemma F_mset k v m : DP (k, v) -> Forall DP m -> Forall DP (mset k v m).
  Proof. apply (F_set DP mset). intros ? ? []; reflexivity. Qed.
  Lemma F_update_all ps m : Forall DP ps -> Forall DP m -> Forall DP (update_all ps m).
  Proof. apply (F_update DP mset). intros ? ? []; reflexivity. Qed.

  Lemma valid_pair k v vk vvv : kv k = Some vk -> vv v = Some vvv -> DP (vk, vvv).
  Proof. intros K V. split; [exact (HK _ _ K)|exact (HV _ _ V)]. Qed.

  Lemma upd_loop_P m items : forall vd a c vd' a' c',
    Forall DP vd -> D.upd_loop kv vv m items vd a c = Some (vd', a', c') -> Forall DP vd'.
  Proof.
    induction items as [|[k v] items IH]; intros vd a c vd' a' c' F H; cbn in H.
    - injection H as <- _ _. exact F.
    - destruct (kv k) as [vk|] eqn:K; [|discriminate]. destruct (vv v) as [vvv|] eqn:V; [|discriminate].
      destruct (lookup vk m); eapply IH; try exact H; apply F_mset; eauto using valid_pair.
  Qed.

  Lemma vld_pairs_P ps qs : vld_pairs kv vv ps = Some qs -> Forall DP qs.
  Proof.
    revert qs. induction ps as [|[k v] ps IH]; intros qs H; cbn in H.
    - injection H as <-. constructor.
    - destruct (kv k) as [vk|] eqn:K; [|discriminate]. destruct (vv v) as [vvv|] eqn:V; [|discriminate].
      destruct (vld_pairs kv vv ps) as [r|]; [|discriminate]. injection H as <-.
      constructor; [exact (valid_pair _ _ _ _ K V)|apply IH; reflexivity].
  Qed.

  Theorem dict_step_P tgt m o : DInv m -> DInv (D.o_after (D.step kv vv tgt m o)).
  Proof.
    intros F. unfold DInv in *. d_open o; split_matches; cbn [D.o_after D.mk]; subst;
      try exact F; try (apply F_remove; exact F); try constructor.
    all: try (apply F_mset; [eapply valid_pair; eassumption|exact F]).
    all: apply F_update_all; [|exact F]; eapply upd_loop_P; [|eassumption]; constructor.
  Qed.

  Theorem dict_step_inert tgt m o e :
    D.o_out (D.step kv vv tgt m o) = D.Raise e ->
    D.o_after (D.step kv vv tgt m o) = m /\ D.o_events (D.step kv vv tgt m o) = [].
  Proof.
    d_open o; split_matches; cbn [D.o_out D.o_after D.o_events D.mk]; intros H; try discriminate; auto.
  Qed.

  Theorem dict_inv m o : DInv m -> DInv (do_after (dict_step kv vv m o)).
  Proof.
    intros F. destruct o as [o|isd ps|ps kw]; cbn [dict_step].
    - unfold do_after, d_view. cbn [fst snd]. apply dict_step_P. exact F.
    - destruct isd; [|exact F]. destruct (vld_pairs kv vv (update_all ps [])) as [qs|] eqn:V; [|exact F].
      unfold do_after. cbn [fst snd]. apply F_update_all; [exact (vld_pairs_P _ _ V)|constructor].
    - exact F.
  Qed.

  Theorem dict_failing_inert m o e :
    do_out (dict_step kv vv m o) = D.Raise e ->
    do_after (dict_step kv vv m o) = m /\ do_nev (dict_step kv vv m o) = 0%nat.
  Proof.
    destruct o as [o|isd ps|ps kw]; cbn [dict_step].
    - unfold do_out, do_after, do_nev, d_view. cbn [fst snd]. intros H.
      destruct (dict_step_inert D.Plain m o e H) as [H1 H2]. rewrite H1, H2. auto.
    - destruct isd; [|cbn; auto]. destruct (vld_pairs kv vv (update_all ps [])); cbn; [discriminate|auto].
    - cbn. auto.
  Qed.

  Theorem dict_inv_reachable : forall ops m, DInv m ->
    Forall (fun p => DInv (do_after (snd p))) (dict_run kv vv m ops).
  Proof.
    induction ops as [|o ops IH]; intros m I; cbn [dict_run]; constructor; [|apply IH]; apply dict_inv, I.
  Qed.
End DictProofs.

Section DictLawProofs.
  Variable kv vv : Z -> option Z.
  Variable kdom kacc vdom vacc : Z -> bool.
  Hypothesis Hkdom : forall x y, kv x = Some y -> kdom y = true.
  Hypothesis Hvdom : forall x y, vv x = Some y -> vdom y = true.
  Hypothesis Hkacc : forall x y, kv x = Some y -> kacc x = true.
  Hypothesis Hvacc : forall x y, vv x = Some y -> vacc x = true.

  Let accp (p : Z * Z) : bool := kacc (fst p) && vacc (snd p).

  Lemma upd_loop_acc m items : forall vd a c r,
    D.upd_loop kv vv m items vd a c = Some r -> forallb accp items = true.
  Proof.
    induction items as [|[k v] items IH]; intros vd a c r H; cbn in *; [reflexivity|].
    destruct (kv k) as [vk|] eqn:K; [|discriminate]. destruct (vv v) as [vvv|] eqn:V; [|discriminate].
    unfold accp at 1. cbn [fst snd]. rewrite (Hkacc k vk K), (Hvacc v vvv V). cbn.
    destruct (lookup vk m); eapply IH; exact H.
  Qed.

  Lemma vld_pairs_acc ps qs : vld_pairs kv vv ps = Some qs -> forallb accp ps = true.
  Proof.
    revert qs. induction ps as [|[k v] ps IH]; intros qs H; cbn in *; [reflexivity|].
    destruct (kv k) as [vk|] eqn:K; [|discriminate]. destruct (vv v) as [vvv|] eqn:V; [|discriminate].
    destruct (vld_pairs kv vv ps) as [r|]; [|discriminate].
    unfold accp at 1. cbn [fst snd]. rewrite (Hkacc k vk K), (Hvacc v vvv V), (IH r eq_refl). reflexivity.
  Qed.

  Lemma dict_success_acc tgt m o :
    D.o_out (D.step kv vv tgt m o) = D.Ok -> forallb accp (d_offered m o) = true.
  Proof.
    d_open o; cbn [d_offered]; unfold has, D.items_of; split_matches; cbn [D.o_out D.mk]; intros H;
      try discriminate; try reflexivity;
      try (eapply upd_loop_acc; unfold D.items_of; eassumption).
    all: cbn; unfold accp; cbn [fst snd]; erewrite Hkacc, Hvacc by eassumption; reflexivity.
  Qed.

  Definition dokb (m : amap) : bool := dict_ok kdom vdom m.

  Lemma dokb_DInv m : dokb m = true <-> DInv (fun x => kdom x = true) (fun x => vdom x = true) m.
  Proof.
    unfold dokb, dict_ok, DInv, DP. rewrite forallb_Forall. split; intros F; eapply Forall_impl; try exact F;
      cbn; intros p Hp; [apply andb_true_iff in Hp|apply andb_true_iff]; exact Hp.
  Qed.

  Theorem dict_law_step m o :
    dokb m = true ->
    law_dict_step kdom kacc vdom vacc m o (dict_step kv vv m o) = [] /\ dokb (do_after (dict_step kv vv m o)) = true.
  Proof.
    intros I. apply dokb_DInv, (dict_inv kv vv _ _ Hkdom Hvdom m o), dokb_DInv in I.
    split; [|exact I]. unfold law_dict_step. unfold dokb in I. rewrite I, orb_true_r. apply inert_clauses.
    - destruct (do_out _) as [|[]]; cbn; congruence.
    - destruct (do_out _) as [|e] eqn:EO; [discriminate|]. intros _.
      destruct (dict_failing_inert kv vv m o e EO) as [-> ->]. rewrite mapeq_refl. reflexivity.
    - destruct (do_out _) as [|e] eqn:EO; [|discriminate]. intros _.
      destruct o as [o|isd ps|ps kw]; cbn [do_offered dict_step] in *; [exact (dict_success_acc D.Plain m o EO)| |discriminate EO].
      destruct isd; [|discriminate]. destruct (vld_pairs kv vv (update_all ps [])) eqn:V; [|discriminate].
      exact (vld_pairs_acc _ _ V).
  Qed.

  Theorem dict_law_hist : forall ops m i, dokb m = true ->
    law_dict_hist kdom kacc vdom vacc i m (dict_run kv vv m ops) = [].
  Proof.
    induction ops as [|o ops IH]; intros m i I; cbn [dict_run law_dict_hist]; [reflexivity|].
    destruct (dict_law_step m o I) as [H1 H2]. rewrite H1, (IH _ _ H2). reflexivity.
  Qed.
End DictLawProofs.

Section NestedProofs.
  Variable vld : Z -> option Z.
  Variable P : Z -> Prop.
  Hypothesis HP : forall x y, vld x = Some y -> P y.
  Variables imn omn : Z.
  Variables imx omx : option Z.

  Definition Q (inner : list Z) : Prop := LInv P imn imx inner.
  Definition NInv (l : list (list Z)) : Prop := Forall Q l /\ len_ok omn omx (zlen l) = true.

  Notation step := (nested_step vld imn omn imx omx).

  Lemma ivld_Q r y : ivld vld imn imx r = Some y -> Q y.
  Proof.
    destruct r as [vs|]; cbn; [|discriminate]. destruct (len_ok imn imx (zlen vs)) eqn:L; [|discriminate].
    intros V. split; [exact (vld_all_P vld P HP _ _ V)|]. rewrite (vld_all_zlen vld _ _ V). exact L.
  Qed.

  Lemma ivld_all_Q rs ys : ivld_all vld imn imx rs = Some ys -> Forall Q ys /\ zlen ys = zlen rs.
  Proof.
    intros H. split; [exact (all_valid_range _ Q ivld_Q rs ys H)|].
    unfold zlen. rewrite (all_valid_length _ rs ys H). reflexivity.
  Qed.

  Lemma guard_inv n l k :
    NInv l -> (len_ok omn omx n = true -> NInv (n_after k)) -> NInv (n_after (guard omn omx n l k)).
  Proof. intros I H. unfold guard. destruct (len_ok omn omx n); [auto|exact I]. Qed.

  Theorem nested_inv l o : NInv l -> NInv (n_after (step l o)).
  Proof.
    intros I. pose proof I as [F LN].
    assert (forall r y, ivld vld imn imx r = Some y -> Forall Q [y]) as Q1
      by (intros r y V; exact (Forall_cons _ (ivld_Q r y V) (Forall_nil _))).
    destruct o; cbn [nested_step].
    - apply guard_inv; [exact I|]. intros G. destruct (ivld vld imn imx r) as [y|] eqn:V; [|exact I].
      exact (kept Q _ _ l _ [y] _ F (Q1 _ _ V) (append_res l y) G).
    - apply guard_inv; [exact I|]. intros G. destruct (ivld_all vld imn imx rs) as [ys|] eqn:V; [|exact I].
      destruct (ivld_all_Q rs ys V) as [FQ E]. rewrite <- E in G. exact (kept Q _ _ l _ ys _ F FQ (extend_res l ys) G).
    - apply guard_inv; [exact I|]. intros G. destruct (ivld vld imn imx r) as [y|] eqn:V; [|exact I].
      exact (kept Q _ _ l _ [y] _ F (Q1 _ _ V) (insert_res l i y) G).
    - destruct (ivld vld imn imx r) as [y|] eqn:V; [|exact I]. destruct (setitem_int l i y) as [l'|e] eqn:E; [|exact I].
      exact (kept Q _ _ l _ [y] _ F (Q1 _ _ V) (setitem_int_res _ _ _ _ E) LN).
    - (* NSetSlice: the assignment keeps the invariant as soon as the new length is legal *)
      destruct (getitem_slice l sl) as [removed|e] eqn:G; [|exact I].
      set (k := match ivld_all vld imn imx rs with Some _ => _ | None => _ end).
      assert (len_ok omn omx (if is_step1 sl then zlen l - zlen removed + zlen rs else zlen l) = true ->
              NInv (n_after k)) as K.
      { subst k. intros LO. destruct (ivld_all vld imn imx rs) as [ys|] eqn:V; [|exact I].
        destruct (ivld_all_Q rs ys V) as [FQ EL]. destruct (setitem_slice l sl ys) as [l'|e] eqn:E; [|exact I].
        rewrite is_step1_eqb, <- EL in LO. exact (kept Q _ _ l _ ys _ F FQ (setitem_slice_res _ _ _ _ _ E G) LO). }
      destruct (is_step1 sl); [apply guard_inv; assumption|].
      destruct (zlen rs =? zlen removed); [exact (K LN)|exact I].
    - apply guard_inv; [exact I|]. intros G. destruct (delitem_int l i) as [l'|e] eqn:E; [|exact I].
      exact (kept_max Q _ _ l _ [] _ F (Forall_nil _) (delitem_int_res _ _ _ E) G).
    - destruct (getitem_slice l sl) as [removed|e] eqn:G; [|exact I].
      apply guard_inv; [exact I|]. intros LO. destruct (delitem_slice l sl) as [l'|e] eqn:E; [|exact I].
      exact (kept_max Q _ _ l _ [] _ F (Forall_nil _) (delitem_slice_res _ _ _ _ E G) LO).
    - apply guard_inv; [exact I|]. intros G. destruct (pop l _) as [[x l']|e] eqn:E; [|exact I].
      exact (kept_max Q _ _ l _ [] _ F (Forall_nil _) (pop_res _ _ _ _ E) G).
    - exact (kept Q _ _ l _ [] _ F (Forall_nil _) (perm_res l _ (Permutation.Permutation_sym (Permutation.Permutation_rev l))) LN).
    - (* NClear *)
      apply guard_inv; [exact I|]. intros G. split; [constructor|exact G].
    - (* NAssign *)
      destruct rs as [rs|]; [|exact I]. destruct (len_ok omn omx (zlen rs)) eqn:LO; [|exact I].
      destruct (ivld_all vld imn imx rs) as [ys|] eqn:V; [|exact I]. destruct (ivld_all_Q rs ys V) as [FQ E].
      split; [exact FQ|]. cbn. rewrite E. exact LO.
    - (* NInner *)
      destruct (nth_error l j) as [inner|] eqn:N; [|exact I].
      apply (inv_set_nth Q _ _ l j inner _ N); [|exact I].
      apply (tlo_inv vld P HP). rewrite Forall_forall in F. exact (F _ (nth_error_In _ _ N)).
  Qed.

  Theorem nested_failing_inert l o e :
    n_out (step l o) = Raise e -> n_after (step l o) = l /\ n_events (step l o) = 0%nat.
  Proof.
    destruct o; cbn [nested_step]; unfold guard, nraise, nok; split_matches;
      cbn [n_out n_after n_events]; intros H; try discriminate; auto.
    (* NInner *)
    destruct (tlo_failing_inert vld imn imx l0 o e H) as [HA HE]. rewrite HA, HE.
    split; [apply set_nth_same; assumption|reflexivity].
  Qed.

  Theorem nested_inv_reachable : forall ops l, NInv l ->
    Forall (fun p => NInv (n_after (snd p))) (nested_run vld imn omn imx omx l ops).
  Proof.
    induction ops as [|o ops IH]; intros l I; cbn [nested_run]; constructor; [|apply IH]; apply nested_inv, I.
  Qed.
End NestedProofs.

Lemma nl_eqb_refl (l : list (list Z)) : nl_eqb l l = true.
Proof. unfold nl_eqb. induction l as [|a l IH]; cbn; [reflexivity|]. rewrite zlist_eqb_refl, IH. reflexivity. Qed.

Section NestedLawProofs.
  Variable vld : Z -> option Z.
  Variable dom acc : Z -> bool.
  Hypothesis Hdom : forall x y, vld x = Some y -> dom y = true.
  Hypothesis Hacc : forall x y, vld x = Some y -> acc x = true.
  Variables imn omn : Z.
  Variables imx omx : option Z.

  Notation step := (nested_step vld imn omn imx omx).
  Notation PD := (fun x => dom x = true).

  Lemma ivld_acc r y : ivld vld imn imx r = Some y -> raw_acc acc imn imx r = true.
  Proof.
    destruct r as [vs|]; cbn; [|discriminate]. destruct (len_ok imn imx (zlen vs)); [|discriminate].
    intros V. rewrite (vld_all_acc vld acc Hacc vs y V). reflexivity.
  Qed.
  Lemma ivld_all_acc rs ys : ivld_all vld imn imx rs = Some ys -> forallb (raw_acc acc imn imx) rs = true.
  Proof. exact (all_valid_accepted _ _ ivld_acc rs ys). Qed.

  (* an inner list mutator that succeeds was offered acceptable items only *)
  Lemma inner_success_acc inner io : o_out (tlo_step vld imn imx inner io) = Ok tt -> forallb acc (offered io) = true.
  Proof. exact (list_success_acc vld acc Hacc imn imx inner (LOp io)). Qed.

  Lemma nested_success_acc l o :
    n_out (step l o) = Ok tt ->
    forallb (raw_acc acc imn imx) (n_offered o) && forallb acc (n_inner_offered o) = true.
  Proof.
    destruct o as [r|rs|i r|i r|sl rs|i|sl|oi| | |rs|j io];
      cbn [nested_step n_offered n_inner_offered]; unfold guard, nraise, nok; split_matches;
      cbn [n_out]; intros H; try discriminate; try reflexivity; cbn [forallb];
      repeat match goal with
             | V : ivld _ _ _ _ = Some _ |- _ => apply ivld_acc in V; rewrite V
             | V : ivld_all _ _ _ _ = Some _ |- _ => apply ivld_all_acc in V; rewrite V
             end; try reflexivity.
    exact (inner_success_acc _ io H).
  Qed.

  Lemma nested_ok_NInv l : nested_ok dom imn omn imx omx l = true <-> NInv PD imn omn imx omx l.
  Proof.
    unfold nested_ok, NInv, Q. rewrite andb_true_iff, forallb_Forall.
    split; intros [F L]; (split; [|exact L]); eapply Forall_impl; try exact F; cbn; intros a Ha;
      apply (list_ok_LInv dom imn imx a); exact Ha.
  Qed.

  Theorem nested_law_step l o :
    nested_ok dom imn omn imx omx l = true ->
    law_nested_step dom acc imn omn imx omx l o (step l o) = [] /\
    nested_ok dom imn omn imx omx (n_after (step l o)) = true.
  Proof.
    intros I. apply nested_ok_NInv, (nested_inv vld PD Hdom imn omn imx omx l o) in I.
    split; [|apply nested_ok_NInv, I]. destruct I as [F LN]. unfold law_nested_step.
    assert (forallb (forallb dom) (n_after (step l o)) = true) as ->.
    { apply forallb_Forall. eapply Forall_impl; [|exact F]. cbn. intros a [Ha _]. apply forallb_Forall. exact Ha. }
    assert (forallb (fun l0 => len_ok imn imx (zlen l0)) (n_after (step l o)) = true) as ->.
    { apply forallb_Forall. eapply Forall_impl; [|exact F]. cbn. intros a [_ Ha]. exact Ha. }
    rewrite LN, !orb_true_r. apply inert_clauses.
    - apply trait_error_raise.
    - destruct (n_out _) as [|e] eqn:EO; [discriminate|]. intros _.
      destruct (nested_failing_inert vld imn omn imx omx l o e EO) as [-> ->]. rewrite nl_eqb_refl. reflexivity.
    - destruct (n_out _) as [[]|e] eqn:EO; [|discriminate]. intros _. exact (nested_success_acc l o EO).
  Qed.

  Theorem nested_law_hist : forall ops l i, nested_ok dom imn omn imx omx l = true ->
    law_nested_hist dom acc imn omn imx omx i l (nested_run vld imn omn imx omx l ops) = [].
  Proof.
    induction ops as [|o ops IH]; intros l i I; cbn [nested_run law_nested_hist]; [reflexivity|].
    destruct (nested_law_step l o I) as [H1 H2]. rewrite H1, (IH _ _ H2). reflexivity.
  Qed.
End NestedLawProofs.

Section NDictProofs.
  Variable kv vld : Z -> option Z.
  Variable PK P : Z -> Prop.
  Hypothesis HK : forall x y, kv x = Some y -> PK y.
  Hypothesis HP : forall x y, vld x = Some y -> P y.
  Variable imn : Z.
  Variable imx : option Z.

  Definition NDP (p : Z * list Z) : Prop := PK (fst p) /\ LInv P imn imx (snd p).
  Definition NDInv (m : ndict) : Prop := Forall NDP m.
  Notation step := (ndict_step kv vld imn imx).

  Lemma F_nd_set k v m : NDP (k, v) -> Forall NDP m -> Forall NDP (nd_set k v m).
  Proof. apply (F_set NDP nd_set). intros ? ? []; reflexivity. Qed.
  Lemma F_nd_update ps m : Forall NDP ps -> Forall NDP m -> Forall NDP (nd_update ps m).
  Proof. apply (F_update NDP nd_set). intros ? ? []; reflexivity. Qed.
  Lemma nd_lookup_In k m v : nd_lookup k m = Some v -> In (k, v) m.
  Proof. apply (lookup_In nd_lookup). intros ? []; reflexivity. Qed.
  Lemma nd_set_same k v m : nd_lookup k m = Some v -> nd_set k v m = m.
  Proof. apply (set_same nd_set); [intros ? ? []|intros ? []]; reflexivity. Qed.

  Lemma valid_entry k r k' y : kv k = Some k' -> ivld vld imn imx r = Some y -> NDP (k', y).
  Proof. intros K V. split; [exact (HK _ _ K)|exact (ivld_Q vld P HP imn imx r y V)]. Qed.

  Lemma nd_vld_pairs_P ps qs : nd_vld_pairs kv vld imn imx ps = Some qs -> Forall NDP qs.
  Proof.
    revert qs. induction ps as [|[k r] ps IH]; intros qs H; cbn in H.
    - injection H as <-. constructor.
    - destruct (kv k) as [k'|] eqn:K; [|discriminate]. destruct (ivld vld imn imx r) as [y|] eqn:V; [|discriminate].
      destruct (nd_vld_pairs kv vld imn imx ps) as [t|]; [|discriminate]. injection H as <-.
      constructor; [exact (valid_entry _ _ _ _ K V)|apply IH; reflexivity].
  Qed.

  Theorem ndict_inv m o : NDInv m -> NDInv (nd_after (step m o)).
  Proof.
    intros F. unfold NDInv in *. destruct o as [k r|ps|k r|k|k| |ps|k io]; cbn [ndict_step]; unfold ndraise, ndok;
      split_matches; cbn [nd_after]; try exact F;
      try (apply F_nd_set; [eapply valid_entry; eassumption|exact F]);
      try (apply F_nd_update; [eapply nd_vld_pairs_P; eassumption|]; (exact F || constructor));
      try (apply F_remove; exact F); try constructor.
    (* NDInner *)
    match goal with N : nd_lookup k m = Some ?inner |- _ => apply nd_lookup_In in N; rename N into Hin end.
    pose proof F as F0. rewrite Forall_forall in F0. destruct (F0 _ Hin) as [HKk HQ].
    apply F_nd_set; [|exact F]. split; [exact HKk|exact (tlo_inv vld P HP imn imx _ io HQ)].
  Qed.

  Theorem ndict_failing_inert m o e :
    nd_out (step m o) = Raise e -> nd_after (step m o) = m /\ nd_events (step m o) = 0%nat.
  Proof.
    destruct o as [k r|ps|k r|k|k| |ps|k io]; cbn [ndict_step]; unfold ndraise, ndok; split_matches;
      cbn [nd_out nd_after nd_events]; intros H; try discriminate; auto.
    (* NDInner *)
    destruct (tlo_failing_inert vld imn imx _ io e H) as [HA HE]. rewrite HA, HE.
    split; [apply nd_set_same; assumption|reflexivity].
  Qed.

  Theorem ndict_inv_reachable : forall ops m, NDInv m ->
    Forall (fun p => NDInv (nd_after (snd p))) (ndict_run kv vld imn imx m ops).
  Proof.
    induction ops as [|o ops IH]; intros m I; cbn [ndict_run]; constructor; [|apply IH]; apply ndict_inv, I.
  Qed.
End NDictProofs.

Lemma nd_eqb_refl (m : ndict) : nd_eqb m m = true.
Proof.
  unfold nd_eqb. induction m as [|[k v] m IH]; cbn; [reflexivity|].
  rewrite Z.eqb_refl, zlist_eqb_refl, IH. reflexivity.
Qed.

Section NDictLawProofs.
  Variable kv vld : Z -> option Z.
  Variable kdom kacc dom acc : Z -> bool.
  Hypothesis Hkdom : forall x y, kv x = Some y -> kdom y = true.
  Hypothesis Hkacc : forall x y, kv x = Some y -> kacc x = true.
  Hypothesis Hdom : forall x y, vld x = Some y -> dom y = true.
  Hypothesis Hacc : forall x y, vld x = Some y -> acc x = true.
  Variable imn : Z.
  Variable imx : option Z.
  Notation step := (ndict_step kv vld imn imx).
  Notation okb := (ndict_ok kdom dom imn imx).

  Lemma okb_NDInv m : okb m = true <-> NDInv (fun x => kdom x = true) (fun x => dom x = true) imn imx m.
  Proof.
    unfold ndict_ok, NDInv, NDP. rewrite forallb_Forall.
    split; intros F; eapply Forall_impl; try exact F; cbn; intros [k v]; cbn;
      rewrite <- (list_ok_LInv dom imn imx v); unfold list_ok; rewrite !andb_true_iff; tauto.
  Qed.

  Lemma nd_vld_pairs_acc ps qs : nd_vld_pairs kv vld imn imx ps = Some qs ->
    forallb (fun p => kacc (fst p) && raw_acc acc imn imx (snd p)) ps = true.
  Proof.
    revert qs. induction ps as [|[k r] ps IH]; intros qs H; cbn in *; [reflexivity|].
    destruct (kv k) as [k'|] eqn:K; [|discriminate]. destruct (ivld vld imn imx r) as [y|] eqn:V; [|discriminate].
    destruct (nd_vld_pairs kv vld imn imx ps) as [t|]; [|discriminate].
    rewrite (Hkacc k k' K), (ivld_acc vld acc Hacc imn imx r y V), (IH t eq_refl). reflexivity.
  Qed.

  Lemma ndict_success_acc m o :
    nd_out (step m o) = Ok tt ->
    forallb (fun p => kacc (fst p) && raw_acc acc imn imx (snd p)) (nd_offered m o)
    && forallb acc (nd_inner_offered o) = true.
  Proof.
    destruct o as [k r|ps|k r|k|k| |ps|k io]; cbn [ndict_step nd_offered nd_inner_offered]; unfold ndraise, ndok;
      split_matches; cbn [nd_out]; intros H; try discriminate; try reflexivity; cbn [forallb fst snd];
      repeat match goal with
             | V : kv _ = Some _ |- _ => apply Hkacc in V; rewrite V
             | V : ivld _ _ _ _ = Some _ |- _ => apply (ivld_acc vld acc Hacc) in V; rewrite V
             | V : nd_vld_pairs _ _ _ _ _ = Some _ |- _ => apply nd_vld_pairs_acc in V; rewrite V
             end; try reflexivity.
    exact (inner_success_acc vld acc Hacc imn imx _ io H).
  Qed.

  Theorem ndict_law_step m o :
    okb m = true ->
    law_ndict_step kdom kacc dom acc imn imx m o (step m o) = [] /\ okb (nd_after (step m o)) = true.
  Proof.
    intros I. apply okb_NDInv, (ndict_inv kv vld _ _ Hkdom Hdom imn imx m o), okb_NDInv in I.
    split; [|exact I]. unfold law_ndict_step. rewrite I, orb_true_r. apply inert_clauses.
    - apply trait_error_raise.
    - destruct (nd_out _) as [|e] eqn:EO; [discriminate|]. intros _.
      destruct (ndict_failing_inert kv vld imn imx m o e EO) as [-> ->]. rewrite nd_eqb_refl. reflexivity.
    - destruct (nd_out _) as [[]|e] eqn:EO; [|discriminate]. intros _. exact (ndict_success_acc m o EO).
  Qed.

  Theorem ndict_law_hist : forall ops m i, okb m = true ->
    law_ndict_hist kdom kacc dom acc imn imx i m (ndict_run kv vld imn imx m ops) = [].
  Proof.
    induction ops as [|o ops IH]; intros m i I; cbn [ndict_run law_ndict_hist]; [reflexivity|].
    destruct (ndict_law_step m o I) as [H1 H2]. rewrite H1, (IH _ _ H2). reflexivity.
  Qed.
End NDictLawProofs.
