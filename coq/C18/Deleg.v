(* C18 — reference-count ledger of the delegate name resolvers (ctraits.c: delegate_attr_name_name and its three siblings) and of
   getattr_delegate.  Every resolver returns a NEW reference (the name itself, the stored prefix,
   or a freshly concatenated string) and getattr_delegate releases it after the lookup; the delegate object
   is held for the duration of the call.  Tie to the build: the native stream of tools/props/c18.py reads
   through all resolver styles with run-time-built (mortal) prefix strings and evaluates the law
   "delta = change of held references" on every step (no separate correspondence function). *)
From Coq Require Import ZArith List Bool Lia.
From TV Require Import Common.Harness C18.Model C18.Proofs.
Import ListNotations.
Open Scope Z_scope.

Inductive dstyle := DName | DPrefix | DPrefixName | DClassName.

(* delegate_attr_name_name / _prefix / _prefix_name / _class_name: (resolved name, ledger) *)
Definition resolve (st : dstyle) (name prefix fresh : atom) (l : ledger) : atom * ledger :=
  match st with
  | DName => (name, inc name l)            (* 4556-4557 *)
  | DPrefix => (prefix, inc prefix l)      (* 4564-4565 *)
  | _ => (fresh, inc fresh l)              (* PyUnicode_Concat: a new string *)
  end.

(* getattr_delegate with the delegate in the instance dict: Py_INCREF(delegate) 2036; the resolver; the
   lookup on the delegate yields `found` (a new reference v) or fails; Py_DECREF of the name and of the
   delegate at done: (2067-2069).  Returns (reference handed to the caller, ledger). *)
Definition getattr_delegate (st : dstyle) (name prefix fresh delegate : atom) (found : option atom)
  : option atom * ledger :=
  let l0 := inc delegate [] in
  let '(dn, l1) := resolve st name prefix fresh l0 in
  let l2 := match found with Some v => inc v l1 | None => l1 end in
  (found, dec delegate (dec dn l2)).

(* a delegated read is reference-neutral for the name, the prefix, the delegate and everything else: the
   only reference left is the one returned to the caller *)
Theorem getattr_delegate_neutral : forall st name prefix fresh delegate found a,
  net (snd (getattr_delegate st name prefix fresh delegate found)) a
  = match found with Some v => ind v a | None => 0 end.
Proof.
  intros st name prefix fresh delegate found a. unfold getattr_delegate, resolve.
  destruct st; destruct found as [v|]; cbn [snd]; led; lia.
Qed.

(* a resolver that hands out the stored prefix WITHOUT taking a reference (the shape of the independently
   seeded change C18-m2) makes every delegated read lose one reference of the prefix string *)
Definition getattr_delegate_borrowed (name prefix delegate v : atom) : ledger :=
  dec delegate (dec prefix (inc v (inc delegate []))).

Theorem borrowed_prefix_refuted : exists name prefix delegate v a,
  net (getattr_delegate_borrowed name prefix delegate v) a <> ind v a.
Proof. exists 1, 2, 3, 4, 2. vm_compute. discriminate. Qed.
