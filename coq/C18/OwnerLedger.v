(* C18 — the two transcriptions of getattr_trait agree: the reference-count ledger of C18/Model.v and the
   ownership program of C18/Owner.v (interpreted without adversary on the same dict, with local 5 bound to the
   computed default) have the same net effect on every object, for every configuration. *)
From Coq Require Import ZArith List Bool Lia.
From TV Require Import Common.Harness C18.Model C18.Law C18.Proofs.
From TV Require C18.Owner.
Import ListNotations.
Open Scope Z_scope.

(* reference events of an ownership program under a fixed binding of the locals, on a real dict *)
Fixpoint ledger_of (env : nat -> atom) (d : dict) (p : list Owner.instr) (l : ledger) : ledger * dict :=
  match p with
  | [] => (l, d)
  | i :: p' =>
      match i with
      | Owner.New x | Owner.Acquire x | Owner.AcquireAs x _ => ledger_of env d p' (inc (env x) l)
      | Owner.Release x => ledger_of env d p' (dec (env x) l)
      | Owner.Store n x => ledger_of env (store d n (env x)) p' (l_store d n (env x) l)
      | Owner.Remove n => ledger_of env (remove d n) p' (l_remove d n l)
      | _ => ledger_of env d p' l
      end
  end.

Definition post_flags (t : tcfg) : bool * bool :=
  match run_post t with None => (false, true) | Some ok => (true, ok) end.

Theorem getattr_trait_transcriptions_agree :
  forall (c : cfg) (t : tcfg) (d : dict) (n : Z) (env : nat -> atom) (a : atom),
    let m := getattr_trait c t d n [] in
    match fst (fst (default_value_for t [])) with
    | None =>
        net (fst (ledger_of env d (Owner.p_getattr_trait n false false false false false) [])) a = net (r_ledger m) a
    | Some r =>
        env Owner.L_RES = r ->
        let '(hp, pok) := post_flags t in
        exists notif_ok,
          net (fst (ledger_of env d (Owner.p_getattr_trait n true hp pok (has_notifiers t) notif_ok) [])) a
          = net (r_ledger m) a
    end.
Proof.
  intros c t d n env a m. unfold m, getattr_trait.
  destruct (default_value_for t []) as [[[r|] e] l1] eqn:D; fact (default_ledger _ _ _ _ _ D a); cbn [fst];
    [|simpl; led; lia].
  intro He. unfold post_flags. cbv zeta. destruct (run_post t) as [[|]|].
  2: exists true; simpl; rewrite He; led; lia.
  all: destruct (has_notifiers t); [|exists true; simpl; rewrite He; led; lia];
    destruct (call_notifiers c t false A_NONE r (l_store d n r l1)) as [[ok k] l3] eqn:N;
    fact (call_notifiers_ledger _ _ _ _ _ _ _ _ _ N a);
    exists ok; destruct ok; simpl; rewrite He; led; lia.
Qed.
