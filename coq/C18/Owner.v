(* C18 — ownership discipline on re-entrant paths: "every reference used after a callback is owned".

   The attribute paths of ctraits.c call back into arbitrary Python code (validators, default callables,
   post_setattr hooks, notifiers, finalisers of released values).  Such code can assign or delete the very
   attribute being processed, i.e. change the instance dict arbitrarily.  A C local that holds only a BORROWED
   reference obtained from the dict is then possibly dangling.  This file gives
     - an abstract machine over the C locals of one call frame (instructions New / Acquire / AcquireAs /
       Release / Use / Store / Remove / Lookup / Callback) whose dynamic semantics lets an ADVERSARY replace
       the whole instance dict at every re-entrancy point (callbacks, and every release / dict update, whose
       finalisers may run code) and pick the object every callee returns;
     - a static ownership checker and its soundness theorem: a program that passes the check never uses,
       increfs or releases a reference that is not guaranteed alive, for EVERY adversary, dict and objects;
     - the instruction sequences of getattr_trait, setattr_trait (assignment and delete paths) and setattr_event, transcribed line by line, for every
       combination of branch outcomes, with the theorem that they pass the check;
     - the refuted variants (witness adversaries): getattr_trait keeping only a borrowed reference to the
       freshly computed default (held-out seed C18-t3), setattr_trait without Py_INCREF(old_value).
   Locals: 0 obj, 2 the caller's value (both pinned: the caller holds them for the duration of the call),
   3 validated value, 4 old_value, 5 default / result. *)
From Coq Require Import ZArith List Bool Lia Arith.
From TV Require Import Common.Harness C18.Model.
Import ListNotations.
Open Scope Z_scope.

Inductive instr :=
| New (l : nat)                 (* l := a NEW reference returned by a callee (any object) *)
| Acquire (l : nat)             (* Py_INCREF(l) *)
| AcquireAs (l l' : nat)        (* l := l'; Py_INCREF(l) *)
| Release (l : nat)             (* Py_DECREF(l): a finaliser may run arbitrary code *)
| Use (l : nat)                 (* dereference l / pass it to a callee / return it *)
| Store (n : Z) (l : nat)       (* PyDict_SetItem(dict, n, l): the replaced value is released *)
| Remove (n : Z)                (* PyDict_DelItem *)
| Lookup (n : Z) (l : nat)      (* l := PyDict_GetItem(dict, n) — BORROWED; the path is taken only if present *)
| Callback.                     (* validator / default callable / post_setattr / notifiers *)

Fixpoint memn (x : nat) (l : list nat) : bool :=
  match l with [] => false | y :: r => Nat.eqb x y || memn x r end.
Fixpoint remove1 (x : nat) (l : list nat) : list nat :=
  match l with [] => [] | y :: r => if Nat.eqb x y then r else y :: remove1 x r end.
Fixpoint remove_all (x : nat) (l : list nat) : list nat :=
  match l with [] => [] | y :: r => if Nat.eqb x y then remove_all x r else y :: remove_all x r end.

Record dyn := { dd : dict; denv : nat -> atom; down : list nat }.

Definition set_env (e : nat -> atom) (l : nat) (a : atom) : nat -> atom := fun k => if Nat.eqb k l then a else e k.

(* the object local l points to is certainly alive: a pinned or owned local points to it, or the dict holds it *)
Definition aliveb (pinned : list nat) (s : dyn) (l : nat) : bool :=
  existsb (fun l' => denv s l' =? denv s l) (pinned ++ down s) || (0 <? occ (dd s) (denv s l)).

(* the adversary: at every re-entrancy point the next element gives the dict afterwards; at every New the
   object returned *)
Definition adversary := list (dict * atom).
Definition adv_dict (adv : adversary) (d : dict) : dict := match adv with (d', _) :: _ => d' | [] => d end.
Definition adv_atom (adv : adversary) : atom := match adv with (_, a) :: _ => a | [] => 0 end.

(* true = no unsafe step.  A Lookup of an absent key ends the run as safe: the paths that start with a Lookup are
   entered by the C code only when the key is present, and say nothing on a dict that lacks it. *)
Fixpoint run (pinned : list nat) (p : list instr) (s : dyn) (adv : adversary) : bool :=
  match p with
  | [] => true
  | i :: p' =>
      match i with
      | New l =>
          negb (memn l pinned) &&
          run pinned p' {| dd := dd s; denv := set_env (denv s) l (adv_atom adv); down := l :: remove_all l (down s) |} (tl adv)
      | Acquire l =>
          aliveb pinned s l && run pinned p' {| dd := dd s; denv := denv s; down := l :: down s |} adv
      | AcquireAs l l' =>
          negb (memn l pinned) && aliveb pinned s l' &&
          run pinned p' {| dd := dd s; denv := set_env (denv s) l (denv s l'); down := l :: remove_all l (down s) |} adv
      | Release l =>
          memn l (down s) &&
          run pinned p' {| dd := adv_dict adv (dd s); denv := denv s; down := remove1 l (down s) |} (tl adv)
      | Use l => aliveb pinned s l && run pinned p' s adv
      | Store n l =>
          aliveb pinned s l &&
          run pinned p' {| dd := adv_dict adv (store (dd s) n (denv s l)); denv := denv s; down := down s |} (tl adv)
      | Remove n =>
          run pinned p' {| dd := adv_dict adv (remove (dd s) n); denv := denv s; down := down s |} (tl adv)
      | Lookup n l =>
          match lookup (dd s) n with
          | Some a => negb (memn l pinned) &&
                      run pinned p' {| dd := dd s; denv := set_env (denv s) l a; down := remove_all l (down s) |} adv
          | None => true                                   (* this path is not taken *)
          end
      | Callback => run pinned p' {| dd := adv_dict adv (dd s); denv := denv s; down := down s |} (tl adv)
      end
  end.

(* ---------- static ownership check ----------
   O = locals holding an owned reference, B = locals holding a reference borrowed from the dict since the last
   re-entrancy point *)
Definition valid (pinned O B : list nat) (l : nat) : bool := memn l pinned || memn l O || memn l B.

Fixpoint check (pinned O B : list nat) (p : list instr) : bool :=
  match p with
  | [] => true
  | i :: p' =>
      match i with
      | New l => negb (memn l pinned) && check pinned (l :: remove_all l O) (remove_all l B) p'
      | Acquire l => valid pinned O B l && check pinned (l :: O) B p'
      | AcquireAs l l' => negb (memn l pinned) && valid pinned O B l' && negb (Nat.eqb l l') &&
                          check pinned (l :: remove_all l O) (remove_all l B) p'
      | Release l => memn l O && check pinned (remove1 l O) [] p'
      | Use l => valid pinned O B l && check pinned O B p'
      | Store n l => valid pinned O B l && check pinned O [] p'
      | Remove n => check pinned O [] p'
      | Lookup n l => negb (memn l pinned) && check pinned (remove_all l O) (l :: remove_all l B) p'
      | Callback => check pinned O [] p'
      end
  end.

Lemma memn_in : forall x l, memn x l = true <-> In x l.
Proof.
  induction l as [|y r IH]; simpl; [split; [discriminate | tauto]|].
  rewrite orb_true_iff, IH, Nat.eqb_eq. split; intros [H|H]; auto.
Qed.

Lemma memn_app : forall x a b, memn x (a ++ b) = memn x a || memn x b.
Proof. induction a as [|y r IH]; intro b; simpl; [reflexivity|]. rewrite IH. apply orb_assoc. Qed.

Lemma memn_remove_all : forall x l L, memn x (remove_all l L) = true -> x <> l /\ memn x L = true.
Proof.
  induction L as [|y r IH]; simpl; [discriminate|].
  destruct (Nat.eqb l y) eqn:E; simpl; intro H.
  - destruct (IH H) as [A B]. split; [exact A | rewrite B; apply orb_true_r].
  - apply orb_true_iff in H as [H|H].
    + rewrite H. apply Nat.eqb_eq in H. subst y. split; [|reflexivity].
      intros ->. rewrite Nat.eqb_refl in E. discriminate.
    + destruct (IH H) as [A B]. split; [exact A | rewrite B; apply orb_true_r].
Qed.

Lemma ind_nonneg : forall x a, 0 <= ind x a.
Proof. intros. unfold ind. destruct (x =? a); lia. Qed.
Lemma occ_nonneg : forall d a, 0 <= occ d a.
Proof. induction d as [|[k v] r IH]; intro a; simpl; [lia|]. pose proof (ind_nonneg v a). specialize (IH a). lia. Qed.
Lemma lookup_occ : forall d n a, lookup d n = Some a -> 0 < occ d a.
Proof.
  induction d as [|[k v] r IH]; intros n a H; simpl in *; [discriminate|].
  destruct (k =? n).
  - inversion H; subst. unfold ind. rewrite Z.eqb_refl. pose proof (occ_nonneg r a). lia.
  - pose proof (ind_nonneg v a). specialize (IH _ _ H). lia.
Qed.

(* the checker's view of a dynamic state: O is exactly the owned locals, and what a local of B points to is
   still held by the dict *)
Definition rel (O B : list nat) (s : dyn) : Prop :=
  down s = O /\ forall l, memn l B = true -> 0 < occ (dd s) (denv s l).

Lemma exists_self : forall (e : nat -> atom) l L, memn l L = true -> existsb (fun l' => e l' =? e l) L = true.
Proof.
  intros e l L H. apply existsb_exists. exists l. split; [apply memn_in; exact H | apply Z.eqb_refl].
Qed.

Lemma valid_alive : forall pinned O B s l, rel O B s -> valid pinned O B l = true -> aliveb pinned s l = true.
Proof.
  intros pinned O B s l [<- HB] H. unfold valid in H. rewrite <- memn_app in H. unfold aliveb.
  apply orb_true_iff. apply orb_true_iff in H as [H|H].
  - left. apply exists_self. exact H.
  - right. apply Z.ltb_lt. apply HB. exact H.
Qed.

(* after a re-entrancy point nothing borrowed is trusted *)
Lemma rel_nil : forall O d e, rel O [] {| dd := d; denv := e; down := O |}.
Proof. intros. split; [reflexivity | intros l H; discriminate]. Qed.

(* re-binding local l forgets what was known about it; the other borrowed locals are untouched *)
Lemma rel_setenv : forall O B s l a O',
  rel O B s -> rel O' (remove_all l B) {| dd := dd s; denv := set_env (denv s) l a; down := O' |}.
Proof.
  intros O B s l a O' [_ HB]. split; [reflexivity|]. intros l0 H. simpl.
  destruct (memn_remove_all _ _ _ H) as [Hne Hm]. unfold set_env.
  destruct (Nat.eqb l0 l) eqn:E; [apply Nat.eqb_eq in E; contradiction|]. apply HB. exact Hm.
Qed.

(* A program that passes the ownership check never touches a reference that is not guaranteed alive and never
   releases a reference it does not own — whatever the re-entrant code does to the instance dict at every
   callback / release / dict update, and whatever objects the callees return. *)
Theorem check_sound : forall pinned p O B s adv,
  check pinned O B p = true -> rel O B s -> run pinned p s adv = true.
Proof.
  intros pinned p. induction p as [|i p IH]; intros O B s adv C R; [reflexivity|].
  pose proof (valid_alive pinned O B s) as Alive. pose proof R as [HO HB]. subst O.
  destruct i as [l | l | l l' | l | l | n l | n | n l |]; simpl in C |- *; rewrite ?andb_true_iff in C.
  - destruct C as [C1 C2]. rewrite C1. eapply IH; [exact C2|]. eapply rel_setenv, R.
  - destruct C as [C1 C2]. rewrite (Alive l R C1). eapply IH; [exact C2|]. split; [reflexivity | exact HB].
  - destruct C as [[[C1 C3] _] C2]. rewrite C1, (Alive l' R C3). eapply IH; [exact C2|]. eapply rel_setenv, R.
  - destruct C as [C1 C2]. rewrite C1. eapply IH; [exact C2|]. apply rel_nil.
  - destruct C as [C1 C2]. rewrite (Alive l R C1). eapply IH; [exact C2 | exact R].
  - destruct C as [C1 C2]. rewrite (Alive l R C1). eapply IH; [exact C2|]. apply rel_nil.
  - eapply IH; [exact C|]. apply rel_nil.
  - destruct (lookup (dd s) n) as [a|] eqn:L; [|reflexivity].
    destruct C as [C1 C2]. rewrite C1. eapply IH; [exact C2|]. split; [reflexivity|].
    (* the local just looked up points into the dict; the others as for a re-binding *)
    intros l0 H. simpl in *. unfold set_env. destruct (Nat.eqb l0 l) eqn:E.
    + exact (lookup_occ _ _ _ L).
    + apply HB. exact (proj2 (memn_remove_all _ _ _ H)).
  - eapply IH; [exact C|]. apply rel_nil.
Qed.

Definition PIN : list nat := [0%nat; 2%nat].       (* obj, the caller's value *)
Definition L_OBJ := 0%nat.
Definition L_ARG := 2%nat.
Definition L_VAL := 3%nat.
Definition L_OLD := 4%nat.
Definition L_RES := 5%nat.

Definition start (d : dict) (e : nat -> atom) : dyn := {| dd := d; denv := e; down := [] |}.

(* default_value_for 1840-1913: a callable default runs Python code and returns a new reference; validating it
   runs more code (for the ownership discipline it is enough that the result is a NEW reference) *)
Definition p_default (l : nat) : list instr := [Callback; New l].

(* call_notifiers 2259-2329: the args tuple takes its own references to old and new for the duration of the
   calls (PyTuple_Pack), the handlers run, the tuple is released *)
Definition p_notify (old : option nat) (new : nat) : list instr :=
  [Use L_OBJ; Use new] ++ (match old with Some o => [Use o] | None => [] end) ++ [Callback].

(* getattr_trait 1953-2012.  dflt_ok: the default could be computed; post: post_setattr present / succeeds;
   notif: notifiers present / succeed *)
Definition p_getattr_trait (n : Z) (dflt_ok has_post post_ok has_notif notif_ok : bool) : list instr :=
  if negb dflt_ok then [Callback]                                              (* 1979-1982 *)
  else
    p_default L_RES ++ [Store n L_RES]                                         (* 1979, 1983 *)
    ++ (if has_post then [Use L_RES; Callback] else [])                        (* 1989-1990 *)
    ++ (if has_post && negb post_ok then [Release L_RES]                       (* 1991-1993 -> error: *)
        else
          (if has_notif then p_notify None L_RES else [])                      (* 1997-2002 *)
          ++ (if has_notif && negb notif_ok then [Release L_RES]               (* 2002-2004 -> error: *)
              else [Use L_RES])).                                              (* 2007: return result *)

(* the variant of the held-out seed C18-t3: the dict "owns the value from here on" *)
Definition p_getattr_trait_borrowed (n : Z) : list instr :=
  p_default L_RES ++ [Store n L_RES; Release L_RES; Use L_RES; Callback; Use L_RES].

(* setattr_event 2335-2367 *)
Definition p_setattr_event (has_validate validate_ok has_notif : bool) : list instr :=
  (if has_validate then [Use L_ARG; Callback] ++ (if validate_ok then [New L_VAL] else [])
   else [AcquireAs L_VAL L_ARG])                                               (* 2346 / 2352 *)
  ++ (if has_validate && negb validate_ok then []
      else (if has_notif then p_notify None L_VAL else []) ++ [Release L_VAL]). (* 2359-2363 *)

(* setattr_trait, assignment path 2445-2552.
   orig: TRAIT_SETATTR_ORIGINAL_VALUE (new_value is the caller's object, else the validated one) *)
Definition p_setattr_trait (n : Z)
  (has_validate validate_ok orig need_old old_present dflt_ok has_post post_old_ok store_ok changed post_ok has_notif : bool)
  : list instr :=
  let newv := if orig then L_ARG else L_VAL in
  (if has_validate then [Use L_ARG; Callback] ++ (if validate_ok then [New L_VAL] else [])
   else [AcquireAs L_VAL L_ARG])                                               (* 2448-2456 *)
  ++
  if has_validate && negb validate_ok then []                                  (* 2450-2452 *)
  else
    let get_old :=
      if negb need_old then inl []
      else if old_present then inl [Lookup n L_OLD; Acquire L_OLD]             (* 2481, 2513 *)
      else if negb dflt_ok then inr ([Callback; Release L_VAL])                (* 2491-2495 *)
      else if has_post && negb post_old_ok
           then inr (p_default L_OLD ++ [Store n L_OLD; Use L_OLD; Callback; Release L_OLD; Release L_VAL]) (* 2496-2508 *)
           else inl (p_default L_OLD ++ [Store n L_OLD] ++ (if has_post then [Use L_OLD; Callback] else [])) in
    match get_old with
    | inr stop => stop
    | inl pre =>
        let have_old := need_old in
        pre ++
        (if negb store_ok then                                                 (* 2521-2530 *)
           [Use newv] ++ (if have_old then [Release L_OLD] else []) ++ [Release L_VAL]
         else
           [Store n newv]                                                      (* 2521 *)
           ++ (if changed && has_post then [Use newv; Callback] else [])       (* 2535-2541 *)
           ++ (if changed && (negb has_post || post_ok) && has_notif
               then p_notify (if have_old then Some L_OLD else None) newv else [])   (* 2543-2546 *)
           ++ (if have_old then [Release L_OLD] else []) ++ [Release L_VAL])   (* 2549-2550 *)
    end.

(* the variant without Py_INCREF(old_value) at 2513 *)
Definition p_setattr_trait_borrowed_old (n : Z) : list instr :=
  [AcquireAs L_VAL L_ARG; Lookup n L_OLD; Store n L_VAL] ++ p_notify (Some L_OLD) L_VAL ++ [Release L_VAL].

(* setattr_trait, delete path 2392-2443 *)
Definition p_delattr_trait (n : Z) (has_notif getattr_ok changed has_post post_ok : bool) : list instr :=
  [Lookup n L_OLD; Acquire L_OLD; Remove n]                                    (* 2401-2407 *)
  ++ (if has_notif then
        [Callback] ++                                                          (* 2417: traito->getattr *)
        (if getattr_ok then
           [New L_VAL]
           ++ (if changed && has_post then [Use L_VAL; Callback] else [])
           ++ (if changed && (negb has_post || post_ok) then p_notify (Some L_OLD) L_VAL else [])
           ++ [Release L_VAL]                                                  (* 2438 *)
         else [])
      else [])
  ++ [Release L_OLD].                                                          (* 2419 / 2441 *)

(* ---------- every path passes the check and leaves nothing behind ----------
   the owned set after the last instruction *)
Fixpoint owned_after (O : list nat) (p : list instr) : list nat :=
  match p with
  | [] => O
  | i :: p' =>
      match i with
      | New l => owned_after (l :: remove_all l O) p'
      | Acquire l => owned_after (l :: O) p'
      | AcquireAs l _ => owned_after (l :: remove_all l O) p'
      | Release l => owned_after (remove1 l O) p'
      | Lookup _ l => owned_after (remove_all l O) p'
      | _ => owned_after O p'
      end
  end.

(* p, entered owning O, passes the check without relying on anything borrowed before it, and ends owning O' *)
Definition passes (O : list nat) (p : list instr) (O' : list nat) : Prop :=
  (forall B, check PIN O B p = true) /\ owned_after O p = O'.

Lemma check_app : forall p q O B, check PIN O B p = true ->
  (forall B', check PIN (owned_after O p) B' q = true) -> check PIN O B (p ++ q) = true.
Proof.
  induction p as [|i p IH]; intros q O B C Q; [apply Q|].
  destruct i; simpl in *; try (apply andb_true_iff in C as [G C]; rewrite G; simpl); apply IH; assumption.
Qed.

Lemma owned_after_app : forall p q O, owned_after O (p ++ q) = owned_after (owned_after O p) q.
Proof. induction p as [|i p IH]; intros q O; [reflexivity|]. destruct i; simpl; apply IH. Qed.

Lemma passes_app : forall O' p q O O'', passes O p O' -> passes O' q O'' -> passes O (p ++ q) O''.
Proof.
  intros O' p q O O'' [C <-] [D <-]. split; [|apply owned_after_app].
  intro B. apply check_app; [apply C | exact D].
Qed.

Lemma passes_runs : forall p O', passes [] p O' -> forall d e adv, run PIN p (start d e) adv = true.
Proof. intros p O' [C _] d e adv. exact (check_sound PIN p [] [] _ adv (C []) (rel_nil [] d e)). Qed.

Lemma getattr_trait_passes : forall n a b c d e,
  passes [] (p_getattr_trait n a b c d e) (if a && (negb b || c) && (negb d || e) then [L_RES] else []).
Proof. intros n a b c d e. destruct a, b, c, d, e; split; reflexivity. Qed.

Lemma setattr_event_passes : forall a b c, passes [] (p_setattr_event a b c) [].
Proof. intros a b c. destruct a, b, c; split; reflexivity. Qed.

Lemma delattr_trait_passes : forall n a b c d e, passes [] (p_delattr_trait n a b c d e) [].
Proof. intros n a b c d e. destruct a, b, c, d, e; split; reflexivity. Qed.

(* The assignment path of setattr_trait has twelve branch flags; it is checked phase by phase: validation (leaves
   the validated value owned, or ends the path), fetching the old value (may end the path), store and notify. *)
Definition p_validated (has_validate validate_ok : bool) : list instr :=
  if has_validate then [Use L_ARG; Callback] ++ (if validate_ok then [New L_VAL] else [])
  else [AcquireAs L_VAL L_ARG].

Definition p_old_value (n : Z) (need_old old_present dflt_ok has_post post_old_ok : bool) : list instr + list instr :=
  if negb need_old then inl []
  else if old_present then inl [Lookup n L_OLD; Acquire L_OLD]
  else if negb dflt_ok then inr ([Callback; Release L_VAL])
  else if has_post && negb post_old_ok
       then inr (p_default L_OLD ++ [Store n L_OLD; Use L_OLD; Callback; Release L_OLD; Release L_VAL])
       else inl (p_default L_OLD ++ [Store n L_OLD] ++ (if has_post then [Use L_OLD; Callback] else [])).

Definition p_store_notify (n : Z) (newv : nat) (have_old store_ok changed has_post post_ok has_notif : bool)
  : list instr :=
  if negb store_ok then [Use newv] ++ (if have_old then [Release L_OLD] else []) ++ [Release L_VAL]
  else
    [Store n newv]
    ++ (if changed && has_post then [Use newv; Callback] else [])
    ++ (if changed && (negb has_post || post_ok) && has_notif
        then p_notify (if have_old then Some L_OLD else None) newv else [])
    ++ (if have_old then [Release L_OLD] else []) ++ [Release L_VAL].

Lemma p_setattr_trait_phases : forall n a b c d e f g h i j k l,
  p_setattr_trait n a b c d e f g h i j k l =
  p_validated a b ++
  if a && negb b then []
  else match p_old_value n d e f g h with
       | inr stop => stop
       | inl pre => pre ++ p_store_notify n (if c then L_ARG else L_VAL) d i j g k l
       end.
Proof. reflexivity. Qed.

Definition with_old (need_old : bool) : list nat := if need_old then [L_OLD; L_VAL] else [L_VAL].

Lemma validated_passes : forall a b, passes [] (p_validated a b) (if a && negb b then [] else [L_VAL]).
Proof. intros a b. destruct a, b; split; reflexivity. Qed.

Lemma old_value_passes : forall n d e f g h,
  match p_old_value n d e f g h with
  | inr stop => passes [L_VAL] stop []
  | inl pre => passes [L_VAL] pre (with_old d)
  end.
Proof. intros n d e f g h. destruct d, e, f, g, h; split; reflexivity. Qed.

Lemma store_notify_passes : forall n (c d i j g k l : bool),
  passes (with_old d) (p_store_notify n (if c then L_ARG else L_VAL) d i j g k l) [].
Proof. intros n c d i j g k l. destruct c, d, i, j, g, k, l; split; reflexivity. Qed.

Lemma setattr_trait_passes : forall n a b c d e f g h i j k l,
  passes [] (p_setattr_trait n a b c d e f g h i j k l) [].
Proof.
  intros. rewrite p_setattr_trait_phases. pose proof (validated_passes a b) as V.
  destruct (a && negb b); [rewrite app_nil_r; exact V|].
  apply (passes_app _ _ _ _ _ V). pose proof (old_value_passes n d e f g h) as P.
  destruct (p_old_value n d e f g h) as [pre|stop]; [|exact P].
  exact (passes_app _ _ _ _ _ P (store_notify_passes n c d i j g k l)).
Qed.

(* No use of a freed object on the re-entrant paths of the modelled functions: for every branch outcome, every
   instance dict, every object assignment of the locals and EVERY behaviour of the re-entrant code. *)
Theorem reentrant_paths_use_only_owned_references :
  forall n d e adv,
    (forall a b c f g, run PIN (p_getattr_trait n a b c f g) (start d e) adv = true) /\
    (forall a b c, run PIN (p_setattr_event a b c) (start d e) adv = true) /\
    (forall a b c f g h i j k l m o, run PIN (p_setattr_trait n a b c f g h i j k l m o) (start d e) adv = true) /\
    (forall a b c f g, run PIN (p_delattr_trait n a b c f g) (start d e) adv = true).
Proof.
  intros n d e adv. split; [|split; [|split]]; intros; eapply passes_runs.
  - apply getattr_trait_passes.
  - apply setattr_event_passes.
  - apply setattr_trait_passes.
  - apply delattr_trait_passes.
Qed.

(* refuted: with only a borrowed reference to the freshly computed default, re-entrant code that re-assigns the
   attribute makes getattr_trait use (and return) a freed object — the adversary empties the dict *)
Theorem getattr_trait_borrowed_refuted :
  exists n d e adv, run PIN (p_getattr_trait_borrowed n) (start d e) adv = false.
Proof.
  exists 1, [], (fun k => Z.of_nat k), [([], 0); ([], 77); ([], 0); ([], 0)]. vm_compute. reflexivity.
Qed.

(* refuted: without Py_INCREF(old_value) the old value is used after the dict released it *)
Theorem setattr_trait_borrowed_old_refuted :
  exists n d e adv, run PIN (p_setattr_trait_borrowed_old n) (start d e) adv = false.
Proof.
  exists 1, [(1, 50)], (fun k => Z.of_nat k), [([(1, 2)], 0); ([], 0)]. vm_compute. reflexivity.
Qed.

(* both variants are rejected by the static check as well *)
Lemma borrowed_variants_rejected :
  check PIN [] [] (p_getattr_trait_borrowed 1) = false /\ check PIN [] [] (p_setattr_trait_borrowed_old 1) = false.
Proof. split; reflexivity. Qed.

(* no reference is left behind in the frame: empty on every exit, except the result handed to the caller on the
   successful exit of getattr_trait *)
Lemma getattr_trait_frame : forall n a b c d e,
  owned_after [] (p_getattr_trait n a b c d e) =
  if a && (negb b || c) && (negb d || e) then [L_RES] else [].
Proof. intros. apply getattr_trait_passes. Qed.

Lemma setattr_paths_frame : forall n,
  (forall a b c, owned_after [] (p_setattr_event a b c) = []) /\
  (forall a b c d e f g h i j k l, owned_after [] (p_setattr_trait n a b c d e f g h i j k l) = []) /\
  (forall a b c d e, owned_after [] (p_delattr_trait n a b c d e) = []).
Proof.
  intro n. split; [|split]; intros.
  - apply setattr_event_passes.
  - apply setattr_trait_passes.
  - apply delattr_trait_passes.
Qed.

(* ---------- trait objects and delegates across callbacks ----------
   setattr_delegate, has_traits_setattro, has_traits_getattro and trait_property_changed hold OWNED references to the
   delegate object, the delegated-to trait and the trait object while user code runs (commits e2bc43c, ec2634d, fa529d7,
   8fb7f44).  Locals: 6 delegate, 7 resolved attribute name, 8 trait object
   (has_traits_*: fetched from the instance-trait dict, modelled by the same adversarial dict: remove_trait /
   add_trait from a callback change it), 10 the delegated-to trait, 11 the temporary delegate. *)
Definition L_DEL := 6%nat.
Definition L_NAME := 7%nat.
Definition L_TRAIT := 8%nat.
Definition L_TD := 10%nat.
Definition L_TMP := 11%nat.

(* setattr_delegate (one link of the chain; `from_dict`: the delegate is in the instance dict, else it is computed
   by has_traits_getattro — a new reference, possibly with no other owner; `modify`: TRAIT_MODIFY_DELEGATE) *)
Definition p_setattr_delegate (dname tname : Z) (from_dict getattr_ok has_trait : bool) : list instr :=
  [AcquireAs L_DEL L_OBJ]                                        (* delegate = obj; Py_INCREF(delegate) *)
  ++ [Lookup tname L_TD; Acquire L_TD]                           (* Py_INCREF(traitd): the caller's traitd is borrowed *)
  ++ (if from_dict then [Lookup dname L_TMP; Acquire L_TMP]      (* PyDict_GetItem + Py_INCREF(temp_delegate) *)
      else [Use L_DEL; Use L_TD; Callback] ++ (if getattr_ok then [New L_TMP] else []))   (* has_traits_getattro *)
  ++ (if negb from_dict && negb getattr_ok then [Release L_TD; Release L_DEL]
      else
        [Use L_TD; Use L_DEL; New L_NAME]                        (* delegate_attr_name(traitd, delegate, daname) *)
        ++ [Release L_DEL; AcquireAs L_DEL L_TMP; Release L_TMP] (* Py_DECREF(delegate); delegate = temp_delegate *)
        ++ [Use L_DEL]                                           (* PyHasTraits_Check / trait dict lookups *)
        ++ (if negb has_trait then [Release L_TD; Release L_DEL; Release L_NAME]
            else
              [Release L_TD; Lookup tname L_TD; Acquire L_TD]    (* Py_INCREF(temp_traitd); Py_DECREF(traitd) *)
              ++ [Use L_TD; Use L_DEL; Use L_NAME; Use L_ARG; Callback]   (* traitd->setattr(traitd, traitd, delegate, ...) *)
              ++ [Use L_TD; Use L_DEL]                           (* ... which goes on using both *)
              ++ [Release L_TD; Release L_DEL; Release L_NAME])).

(* has_traits_setattro / has_traits_getattro: Py_INCREF(trait) around trait->setattr / trait->getattr *)
Definition p_has_traits_setattro (tname : Z) : list instr :=
  [Lookup tname L_TRAIT; Acquire L_TRAIT; Use L_TRAIT; Use L_ARG; Callback; Use L_TRAIT; Release L_TRAIT].
Definition p_has_traits_getattro (tname : Z) : list instr :=
  [Lookup tname L_TRAIT; Acquire L_TRAIT; Use L_TRAIT; Callback; Use L_TRAIT; Release L_TRAIT].
(* trait_property_changed: get_trait gives a new reference; tnotifiers is a field of the (owned) trait; the property
   getter runs; call_notifiers uses the list; the trait is released afterwards *)
Definition p_trait_property_changed (tname : Z) (getter_ok : bool) : list instr :=
  [Lookup tname L_TRAIT; Acquire L_TRAIT; Use L_TRAIT; Callback]
  ++ (if getter_ok then [Use L_TRAIT; Callback] else []) ++ [Release L_TRAIT].

Lemma setattr_delegate_passes : forall dname tname a b c, passes [] (p_setattr_delegate dname tname a b c) [].
Proof. intros dname tname a b c. destruct a, b, c; split; reflexivity. Qed.

Lemma has_traits_setattro_passes : forall tname, passes [] (p_has_traits_setattro tname) [].
Proof. split; reflexivity. Qed.

Lemma has_traits_getattro_passes : forall tname, passes [] (p_has_traits_getattro tname) [].
Proof. split; reflexivity. Qed.

Lemma trait_property_changed_passes : forall tname g, passes [] (p_trait_property_changed tname g) [].
Proof. intros tname g. destruct g; split; reflexivity. Qed.

Lemma trait_paths_frame : forall dname tname a b c g,
  owned_after [] (p_setattr_delegate dname tname a b c) = [] /\
  owned_after [] (p_has_traits_setattro tname) = [] /\
  owned_after [] (p_has_traits_getattro tname) = [] /\
  owned_after [] (p_trait_property_changed tname g) = [].
Proof.
  intros. split; [apply setattr_delegate_passes|]. split; [apply has_traits_setattro_passes|].
  split; [apply has_traits_getattro_passes | apply trait_property_changed_passes].
Qed.

(* the delegate, the delegated-to trait and the trait object are never used after user code ran unless the frame
   owns them — for every adversary *)
Theorem trait_and_delegate_paths_use_only_owned_references :
  forall dname tname d e adv,
    (forall a b c, run PIN (p_setattr_delegate dname tname a b c) (start d e) adv = true) /\
    run PIN (p_has_traits_setattro tname) (start d e) adv = true /\
    run PIN (p_has_traits_getattro tname) (start d e) adv = true /\
    (forall g, run PIN (p_trait_property_changed tname g) (start d e) adv = true).
Proof.
  intros dname tname d e adv. split; [|split; [|split]]; intros; eapply passes_runs.
  - apply setattr_delegate_passes.
  - apply has_traits_setattro_passes.
  - apply has_traits_getattro_passes.
  - apply trait_property_changed_passes.
Qed.

(* the same paths with BORROWED references across the callback (the parents of those commits): refuted variants *)
Definition p_setattr_delegate_borrowed (dname : Z) : list instr :=
  [Lookup dname L_DEL; Use L_DEL; New L_NAME; Use L_DEL; Use L_DEL; Use L_ARG; Callback; Use L_DEL; Release L_NAME].
Definition p_has_traits_setattro_borrowed (tname : Z) : list instr :=
  [Lookup tname L_TRAIT; Use L_TRAIT; Use L_ARG; Callback; Use L_TRAIT].
Definition p_has_traits_getattro_borrowed (tname : Z) : list instr :=
  [Lookup tname L_TRAIT; Use L_TRAIT; Callback; Use L_TRAIT].
Definition L_NOTIF := 9%nat.
Definition p_trait_property_changed_borrowed (tname : Z) : list instr :=
  [Lookup tname L_TRAIT; Acquire L_TRAIT; Lookup tname L_NOTIF; Release L_TRAIT; Callback; Use L_NOTIF].

Theorem setattr_delegate_borrowed_refuted :
  check PIN [] [] (p_setattr_delegate_borrowed 9) = false /\
  exists d e adv, run PIN (p_setattr_delegate_borrowed 9) (start d e) adv = false.
Proof.
  split; [reflexivity|].
  exists [(9, 60)], (fun k => Z.of_nat k), [([(9, 60)], 70); ([], 0)]. vm_compute. reflexivity.
Qed.

Theorem has_traits_setattro_borrowed_refuted :
  check PIN [] [] (p_has_traits_setattro_borrowed 9) = false /\
  exists d e adv, run PIN (p_has_traits_setattro_borrowed 9) (start d e) adv = false.
Proof. split; [reflexivity|]. exists [(9, 60)], (fun k => Z.of_nat k), [([], 0)]. vm_compute. reflexivity. Qed.

Theorem borrowed_trait_on_read_and_property_changed_refuted :
  (check PIN [] [] (p_has_traits_getattro_borrowed 9) = false /\
   exists d e adv, run PIN (p_has_traits_getattro_borrowed 9) (start d e) adv = false) /\
  (check PIN [] [] (p_trait_property_changed_borrowed 9) = false /\
   exists d e adv, run PIN (p_trait_property_changed_borrowed 9) (start d e) adv = false).
Proof.
  split; (split; [reflexivity|]).
  - exists [(9, 60)], (fun k => Z.of_nat k), [([], 0)]. vm_compute. reflexivity.
  - exists [(9, 60)], (fun k => Z.of_nat k), [([], 0); ([], 0)]. vm_compute. reflexivity.
Qed.

(* ---------- call_notifiers 2259-2329: a private snapshot of the notifier lists ----------
   local 12 = all_notifiers: a NEW list owning a reference to every notifier (2295-2309); the handlers run (and may
   unregister handlers, i.e. change the lists the snapshot was taken from); the loop uses only the snapshot. *)
Definition L_SNAP := 12%nat.
Definition p_call_notifiers (nlist : Z) : list instr :=
  [Lookup nlist L_NOTIF; Use L_NOTIF; New L_SNAP; Callback; Use L_SNAP; Callback; Use L_SNAP; Release L_SNAP].
(* the shape of seed C18-u1: iterate over the object's own notifier list while the handlers run *)
Definition p_call_notifiers_live_list (nlist : Z) : list instr :=
  [Lookup nlist L_NOTIF; Use L_NOTIF; Callback; Use L_NOTIF; Callback; Use L_NOTIF].

Theorem call_notifiers_snapshot :
  (forall nlist d e adv, run PIN (p_call_notifiers nlist) (start d e) adv = true) /\
  check PIN [] [] (p_call_notifiers_live_list 9) = false /\
  exists d e adv, run PIN (p_call_notifiers_live_list 9) (start d e) adv = false.
Proof.
  split; [intros; apply passes_runs with []; split; reflexivity|]. split; [reflexivity|].
  exists [(9, 60)], (fun k => Z.of_nat k), [([], 0)]. vm_compute. reflexivity.
Qed.
