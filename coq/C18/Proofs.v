(* C18 — proofs about the reference-count ledger. *)
From Coq Require Import ZArith List Bool Lia.
From TV Require Import Common.Harness C18.Model C18.Law.
Import ListNotations.
Open Scope Z_scope.

Arguments ind : simpl never.
Arguments oind : simpl never.

Lemma occ_remove : forall d n a, occ (remove d n) a = occ d a - oind (lookup d n) a.
Proof.
  induction d as [|[k v] r IH]; intros n a; cbn [occ remove lookup].
  - unfold oind. lia.
  - destruct (k =? n); cbn [occ].
    + unfold oind. lia.
    + rewrite IH. lia.
Qed.

Lemma occ_store : forall d n v a, occ (store d n v) a = occ d a + ind v a - oind (lookup d n) a.
Proof. intros. unfold store. cbn [occ]. rewrite occ_remove. lia. Qed.

Lemma net_inc : forall x l a, net (inc x l) a = ind x a + net l a.
Proof. intros. unfold inc. cbn [net]. lia. Qed.
Lemma net_dec : forall x l a, net (dec x l) a = net l a - ind x a.
Proof. intros. unfold dec. cbn [net]. lia. Qed.
Lemma net_xdec : forall x l a, net (xdec x l) a = net l a - oind x a.
Proof. intros. destruct x; unfold xdec; [rewrite net_dec|]; unfold oind; lia. Qed.
Lemma net_l_store : forall d n v l a, net (l_store d n v l) a = net l a + ind v a - oind (lookup d n) a.
Proof. intros. unfold l_store. rewrite net_xdec, net_inc. lia. Qed.
Lemma net_l_remove : forall d n l a, net (l_remove d n l) a = net l a - oind (lookup d n) a.
Proof. intros. unfold l_remove. rewrite net_xdec. lia. Qed.

Lemma oind_some : forall x a, oind (Some x) a = ind x a.
Proof. reflexivity. Qed.
Lemma oind_none : forall a, oind None a = 0.
Proof. reflexivity. Qed.

Lemma net_nil : forall a, net [] a = 0.
Proof. reflexivity. Qed.
Arguments call_notifiers : simpl never.
Arguments validate : simpl never.
Arguments default_value_for : simpl never.
Arguments getattr_trait : simpl never.
Arguments l_store : simpl never.
Arguments l_remove : simpl never.
Arguments store : simpl never.
Arguments remove : simpl never.
Arguments inc : simpl never.
Arguments dec : simpl never.
Arguments xdec : simpl never.
Arguments net : simpl never.
Arguments occ : simpl never.

(* counting: every ledger and dictionary operation becomes a sum of indicators, the rest is arithmetic *)
#[export] Hint Rewrite net_inc net_dec net_xdec net_l_store net_l_remove occ_store occ_remove
  oind_some oind_none net_nil : led.
Ltac led := autorewrite with led.
(* what is known about a callee's ledger, brought to the same form once, so that the goal alone is rewritten later *)
Ltac fact H := let F := fresh "F" in pose proof H as F; autorewrite with led in F.

(* trait->validate returns a NEW reference or leaves everything as it was *)
Lemma validate_ledger : forall t v l r e l', validate t v l = (r, e, l') ->
  forall a, net l' a = net l a + oind r a.
Proof.
  intros t v l r e l' H a. unfold validate in H.
  destruct (t_has_validate t); [destruct (vlookup (t_vld t) v)|]; inversion H; subst; led; lia.
Qed.

Lemma default_ledger : forall t l r e l', default_value_for t l = (r, e, l') ->
  forall a, net l' a = net l a + oind r a.
Proof.
  intros t l r e l' H a. unfold default_value_for in H.
  destruct (t_dflt t) as [d | [x|] |]; try (inversion H; subst; led; lia).
  destruct (t_has_validate t); [|inversion H; subst; led; lia].
  destruct (validate t x (inc x l)) as [[[w|] e1] l2] eqn:V; fact (validate_ledger _ _ _ _ _ _ V a);
    destruct (t_orig t); inversion H; subst; led; lia.
Qed.

Lemma call_notifiers_ledger : forall c t u old new l ok k l',
  call_notifiers c t u old new l = (ok, k, l') -> forall a, net l' a = net l a.
Proof.
  intros c t u old new l ok k l' H a. unfold call_notifiers in H.
  destruct (if u && (t_cmp_none t || negb (old =? new)) then run_handlers (c_reraise c) (t_handlers t) else (true, 0)).
  inversion H; subst; led; lia.
Qed.

Lemma run_setter_ledger : forall c t d n v l d' ok l', run_setter c t d n v l = (d', ok, l') ->
  forall a, net l' a = net l a + occ d' a - occ d a.
Proof.
  intros c t d n v l d' ok l' H a. unfold run_setter in H. destruct (t_post t); inversion H; subst; led; lia.
Qed.

(* post_setattr and the notifiers once the new value is stored (2535-2546, 2423-2437): (rc, user calls, ledger).
   Nothing in it keeps a reference. *)
Definition after_store (c : cfg) (t : tcfg) (post : option bool) (changed notif : bool) (old new : atom) (l : ledger)
  : bool * Z * ledger :=
  if changed then
    match post with
    | Some false => (false, 0, l)
    | _ => if notif then call_notifiers c t true old new l else (true, 0, l)
    end
  else (true, 0, l).

Lemma after_store_ledger : forall c t post changed notif old new l rc k l',
  after_store c t post changed notif old new l = (rc, k, l') -> forall a, net l' a = net l a.
Proof.
  intros c t post changed notif old new l rc k l' H a. unfold after_store in H.
  destruct changed; [destruct post as [[|]|]; [destruct notif| |destruct notif]|];
    try (inversion H; subst; reflexivity); exact (call_notifiers_ledger _ _ _ _ _ _ _ _ _ H a).
Qed.

Section Ledger.
Variable a : atom.     (* the object whose references are counted *)

(* Every operation, succeeding or failing, on every configuration and state: the net effect of all
   INCREF/DECREF of the path on a is exactly the change of the number of references the state holds to a, plus
   the reference handed to the caller — and the model never crashes (Crashed is an implementation-only
   observation).  l0: the ledger the path starts from. *)
Definition good (d : dict) (l0 : ledger) (r : res) : Prop :=
  r_out r <> Crashed /\
  net (r_ledger r) a = net l0 a + occ (r_dict r) a - occ d a + oind (r_ret r) a.

Lemma good_mk : forall d l0 d' o k l r, o <> Crashed ->
  net l a = net l0 a + occ d' a - occ d a + oind r a -> good d l0 (mk d' o k l r).
Proof. intros. split; assumption. Qed.

(* an exit of a path: the outcome is visibly not a crash, the ledger is settled by counting *)
Ltac leaf := apply good_mk; [try discriminate | led; lia].

Lemma getattr_trait_good : forall c t d n l, good d l (getattr_trait c t d n l).
Proof.
  intros c t d n l. unfold getattr_trait.
  destruct (default_value_for t l) as [[[r|] e] l1] eqn:D; fact (default_ledger _ _ _ _ _ D a); [|leaf].
  cbv zeta. destruct (run_post t) as [[|]|].
  2: leaf.
  all: destruct (has_notifiers t); [|leaf];
    destruct (call_notifiers c t false A_NONE r (l_store d n r l1)) as [[ok k] l3] eqn:N;
    fact (call_notifiers_ledger _ _ _ _ _ _ _ _ _ N a); destruct ok; leaf.
Qed.

Lemma do_get_good : forall c t d n, good d [] (do_get c t d n).
Proof.
  intros c t d n. unfold do_get.
  destruct (lookup d n); [leaf|]. destruct (t_kind t); try apply getattr_trait_good. leaf.
Qed.

Lemma setattr_event_good : forall c t d v, good d [] (setattr_event c t d v).
Proof.
  intros c t d v. unfold setattr_event.
  destruct (validate t v []) as [[[w|] e] l1] eqn:V; fact (validate_ledger _ _ _ _ _ _ V a); [|leaf].
  destruct (has_notifiers t); [|leaf].
  destruct (call_notifiers c t true A_NONE w l1) as [[ok k] l2] eqn:N.
  fact (call_notifiers_ledger _ _ _ _ _ _ _ _ _ N a). destruct ok; leaf.
Qed.

(* setattr_trait from the store on (2516-2552), entered with the validated value and the old value owned *)
Definition store_phase (c : cfg) (t : tcfg) (post : option bool) (n : Z) (value new_value : atom) (d1 : dict)
  (old : option atom) (l2 : ledger) : res :=
  let changed := t_cmp_none t || match old with Some o => negb (o =? new_value) | None => false end in
  if c_dictfail c then mk d1 (Raise OtherError) 0 (dec value (xdec old l2)) None
  else
    let '(rc, k, l4) :=
      after_store c t post changed (has_notifiers t) (match old with Some o => o | None => A_NONE end) new_value
        (l_store d1 n new_value l2) in
    mk (store d1 n new_value) (if rc then Ok else Raise UserExn) k (dec value (xdec old l4)) None.

Lemma store_phase_good : forall c t post n value nv d d1 old l2,
  net l2 a = occ d1 a - occ d a + ind value a + oind old a ->
  good d [] (store_phase c t post n value nv d1 old l2).
Proof.
  intros c t post n value nv d d1 old l2 H. unfold store_phase. destruct (c_dictfail c); [leaf|].
  cbv zeta. destruct (after_store _ _ _ _ _ _ _ _) as [[rc k] l4] eqn:S.
  fact (after_store_ledger _ _ _ _ _ _ _ _ _ _ _ S a). destruct rc; leaf.
Qed.

(* Model.setattr_trait read as three phases: validation, the old value (looked up, or the default materialised — either
   may end the path), and store_phase *)
Lemma setattr_trait_phases : forall c t d n v,
  setattr_trait c t d n v =
  match validate t v [] with
  | (None, e, l1) => mk d (Raise e) 0 l1 None
  | (Some value, _, l1) =>
      let old_phase :=
        if (match run_post t with Some _ => true | None => false end) || has_notifiers t then
          match lookup d n with
          | Some o => inl (d, Some o, inc o l1)
          | None =>
              match default_value_for t l1 with
              | (None, e, l2) => inr (mk d (Raise e) 0 (dec value l2) None)
              | (Some o, _, l2) =>
                  match run_post t with
                  | Some false => inr (mk (store d n o) (Raise UserExn) 0 (dec value (dec o (l_store d n o l2))) None)
                  | _ => inl (store d n o, Some o, l_store d n o l2)
                  end
              end
          end
        else inl (d, None, l1) in
      match old_phase with
      | inr r => r
      | inl (d1, old, l2) => store_phase c t (run_post t) n value (if t_orig t then v else value) d1 old l2
      end
  end.
Proof. reflexivity. Qed.

Lemma setattr_trait_good : forall c t d n v, good d [] (setattr_trait c t d n v).
Proof.
  intros c t d n v. rewrite setattr_trait_phases.
  destruct (validate t v []) as [[[value|] e] l1] eqn:V; fact (validate_ledger _ _ _ _ _ _ V a); [|leaf].
  cbv zeta. destruct (_ || has_notifiers t); [|apply store_phase_good; led; lia].
  destruct (lookup d n) as [o|]; [apply store_phase_good; led; lia|].
  destruct (default_value_for t l1) as [[[o|] e2] l2] eqn:D; fact (default_ledger _ _ _ _ _ D a); [|leaf].
  destruct (run_post t) as [[|]|]; [|leaf|]; apply store_phase_good; led; lia.
Qed.

Lemma delattr_trait_good : forall c t d n, good d [] (delattr_trait c t d n).
Proof.
  intros c t d n. unfold delattr_trait.
  destruct (lookup d n) as [o|] eqn:L; [|leaf]. destruct (has_notifiers t); [|leaf].
  cbv zeta. destruct (getattr_trait_good c t (remove d n) n (l_remove d n (inc o []))) as [G1 G2].
  destruct (getattr_trait c t (remove d n) n (l_remove d n (inc o []))) as [gd go gk gl [value|]];
    cbn [r_ret r_dict r_out r_calls r_ledger] in *; autorewrite with led in G2; [|leaf; exact G1].
  change (good d [] (let '(rc, k, l3) := after_store c t (run_post t)
                                            (t_cmp_none t || negb (o =? value) || (value =? A_FRESH)) true o value gl in
                     mk gd (if rc then Ok else Raise UserExn) (gk + k) (dec o (dec value l3)) None)).
  destruct (after_store _ _ _ _ _ _ _ _) as [[rc k] l3] eqn:S.
  fact (after_store_ledger _ _ _ _ _ _ _ _ _ _ _ S a). destruct rc; leaf.
Qed.

Lemma getattr_prop_good : forall c t d n, good d [] (getattr_prop c t d n).
Proof. intros c t d n. unfold getattr_prop. destruct (t_dflt t) as [x | [x|] |]; leaf. Qed.

Lemma setattr_prop_good : forall c t d n v, good d [] (setattr_prop c t d n v).
Proof.
  intros c t d n v. unfold setattr_prop. destruct (t_has_validate t).
  - destruct (validate t v []) as [[[w|] e] l1] eqn:V; fact (validate_ledger _ _ _ _ _ _ V a); [|leaf].
    destruct (run_setter c t d n w l1) as [[d' ok] l2] eqn:S.
    fact (run_setter_ledger _ _ _ _ _ _ _ _ _ S a). destruct ok; leaf.
  - destruct (run_setter c t d n v []) as [[d' ok] l2] eqn:S.
    fact (run_setter_ledger _ _ _ _ _ _ _ _ _ S a). destruct ok; leaf.
Qed.

Lemma do_op_good : forall c d o, good d [] (do_op c d o).
Proof.
  intros c d o. destruct o as [n v | n | n | n v | n]; unfold do_op; destruct (tlookup (c_traits c) n) as [t|];
    try leaf.
  - destruct (t_kind t); [apply setattr_trait_good | apply setattr_event_good | apply setattr_prop_good].
  - destruct (t_kind t); [apply do_get_good | apply do_get_good | apply getattr_prop_good].
  - destruct (t_kind t); [apply delattr_trait_good | leaf | leaf].
  - destruct (validate t v []) as [[[w|] e] l1] eqn:V; fact (validate_ledger _ _ _ _ _ _ V a); leaf.
  - destruct (default_value_for t []) as [[[r|] e] l1] eqn:D; fact (default_ledger _ _ _ _ _ D a); leaf.
Qed.
End Ledger.

Lemma refdelta : forall c d o a,
  observed_delta (do_op c d o) a = occ (r_dict (do_op c d o)) a - occ d a.
Proof. intros. unfold observed_delta. destruct (do_op_good a c d o) as [_ H]. rewrite net_nil in H. lia. Qed.

Lemma step_law : forall c pool d o, law_step d (snd (step c pool d o)) = [].
Proof.
  intros c pool d o. unfold law_step, step, neutral, not_crashed. cbn [snd o_delta o_dict o_out].
  replace (forallb _ _) with true.
  - pose proof (proj1 (do_op_good 0 c d o)) as NC. destruct (r_out (do_op c d o)); [reflexivity..|contradiction].
  - symmetry. apply forallb_forall. intros [x k] Hin. apply in_map_iff in Hin. destruct Hin as [x' [He _]].
    inversion He; subst. cbn [fst snd]. rewrite refdelta. apply Z.eqb_refl.
Qed.

Lemma run_law : forall c pool ops d i, law_hist i d (run c pool d ops) = [].
Proof.
  intros c pool ops. induction ops as [|o r IH]; intros d i; [reflexivity|].
  cbn [run]. pose proof (step_law c pool d o) as S. destruct (step c pool d o) as [d' ob] eqn:E.
  cbn [law_hist]. cbn [snd] in S. rewrite S. replace (o_dict ob) with d' by (inversion E; reflexivity). apply IH.
Qed.

(* Prop reading: every measured atom of every step of every history is neutral *)
Lemma step_Neutral : forall c pool d o, Neutral d (snd (step c pool d o)).
Proof.
  intros c pool d o x k Hin. unfold step in Hin. simpl in Hin.
  apply in_map_iff in Hin. destruct Hin as [x' [He _]]. inversion He; subst. apply refdelta.
Qed.
