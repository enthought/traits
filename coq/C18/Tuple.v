(* C18 — reference-count ledger of validate_trait_tuple_check (ctraits.c; the line tags in ttc_loop count the
   function's first line as 3665): the loop that
   validates the items of a tuple, allocating a new result tuple the first time an item validator returns
   a different object and back-filling the unchanged leading items into it.

   Model (executable), proofs and the correspondence function in one small development.
   items = the value's items with what their item validator does: validator NULL or returning the same
   object (ISame: one new reference to the item), returning another object w (IConv w: a new reference to
   w), failing (IFail).  State of the loop: [done] = items already visited (in order), [tuple] = the slots
   of the new result tuple filled so far (None: not allocated yet). *)
From Coq Require Import ZArith List Bool Lia.
From TV Require Import Common.Harness C18.Model C18.Proofs.
Import ListNotations.
Open Scope Z_scope.

Inductive ivres := ISame | IConv (w : atom) | IFail.

Inductive tres :=
| TNew (slots : list atom)       (* a new tuple owning one reference per slot *)
| TSame                          (* the value itself, Py_INCREF'ed (3715-3716) *)
| TFailed.                       (* NULL *)

Fixpoint inc_all (xs : list atom) (l : ledger) : ledger :=
  match xs with [] => l | x :: r => inc x (inc_all r l) end.
Fixpoint dec_all (xs : list atom) (l : ledger) : ledger :=
  match xs with [] => l | x :: r => dec x (dec_all r l) end.

Fixpoint ttc_loop (done : list atom) (rest : list (atom * ivres)) (tuple : option (list atom)) (l : ledger)
  : option (option (list atom)) * ledger :=
  match rest with
  | [] => (Some tuple, l)
  | (b, r) :: rest' =>
      match r with
      | IFail =>                                            (* 3687-3692: Py_XDECREF(tuple); return NULL *)
          (None, match tuple with Some slots => dec_all slots l | None => l end)
      | _ =>
          let a := match r with IConv w => w | _ => b end in
          let l1 := inc a l in                              (* 3679-3684: aitem is a new reference *)
          match tuple with
          | Some slots => ttc_loop (done ++ [b]) rest' (Some (slots ++ [a])) l1          (* 3694-3696 *)
          | None =>
              if a =? b then ttc_loop (done ++ [b]) rest' None (dec a l1)                (* 3710-3712 *)
              else                                                                       (* 3697-3709 *)
                ttc_loop (done ++ [b]) rest' (Some (done ++ [a])) (inc_all done l1)
          end
      end
  end.

(* tv = the value tuple itself (an object like any other) *)
Definition tuple_check (tv : atom) (items : list (atom * ivres)) : tres * ledger :=
  match ttc_loop [] items None [] with
  | (None, l) => (TFailed, l)
  | (Some (Some slots), l) => (TNew slots, l)
  | (Some None, l) => (TSame, inc tv l)
  end.

Fixpoint count (xs : list atom) (a : atom) : Z :=
  match xs with [] => 0 | x :: r => ind x a + count r a end.

(* references the result legitimately owns *)
Definition owned (tv : atom) (r : tres) (a : atom) : Z :=
  match r with TNew slots => count slots a | TSame => ind tv a | TFailed => 0 end.

Lemma net_inc_all : forall xs l a, net (inc_all xs l) a = count xs a + net l a.
Proof. induction xs as [|x r IH]; intros l a; cbn [inc_all count]; [lia|]. rewrite net_inc, IH. lia. Qed.
Lemma net_dec_all : forall xs l a, net (dec_all xs l) a = net l a - count xs a.
Proof. induction xs as [|x r IH]; intros l a; cbn [dec_all count]; [lia|]. rewrite net_dec, IH. lia. Qed.
Lemma count_app : forall xs ys a, count (xs ++ ys) a = count xs a + count ys a.
Proof. induction xs as [|x r IH]; intros ys a; cbn [app count]; [lia|]. rewrite IH. lia. Qed.
Lemma count_one : forall x a, count [x] a = ind x a.
Proof. intros. cbn [count]. lia. Qed.

(* loop invariant: the ledger accounts exactly for the slots of the new tuple filled so far *)
Lemma ttc_loop_spec : forall rest done tuple l a,
  net l a = match tuple with Some slots => count slots a | None => 0 end ->
  let '(res, l') := ttc_loop done rest tuple l in
  net l' a = match res with Some (Some slots) => count slots a | _ => 0 end.
Proof.
  induction rest as [|[b r] rest IH]; intros done tuple l a Inv; cbn [ttc_loop].
  - destruct tuple; exact Inv.
  - destruct r as [| w |].
    3: destruct tuple; [rewrite net_dec_all|]; lia.
    all: destruct tuple as [slots|]; [|destruct (_ =? b)]; apply IH;
      rewrite ?net_inc_all, ?net_dec, ?net_inc, ?count_app, ?count_one; lia.
Qed.

(* Every reference the loop creates is owned by the result: a new tuple owns one reference per slot
   (including the back-filled leading items), an unchanged value gets one, a failure none — for every
   tuple, every combination of item validators, at every position of the first changed item. *)
Theorem tuple_check_neutral : forall tv items a,
  net (snd (tuple_check tv items)) a = owned tv (fst (tuple_check tv items)) a.
Proof.
  intros tv items a. unfold tuple_check.
  pose proof (ttc_loop_spec items [] None [] a eq_refl) as H.
  destruct (ttc_loop [] items None []) as [[[slots|]|] l]; cbn [fst snd owned] in *;
    [exact H | rewrite net_inc; lia | exact H].
Qed.

(* the result has one slot per item: those filled so far (all the visited items, once it is allocated) and one
   for each remaining item *)
Lemma ttc_loop_length : forall rest done tuple l,
  match fst (ttc_loop done rest tuple l) with
  | Some (Some slots) => length slots = (length (match tuple with Some s => s | None => done end) + length rest)%nat
  | _ => True
  end.
Proof.
  induction rest as [|[b r] rest IH]; intros done tuple l; cbn [ttc_loop fst].
  - destruct tuple; [rewrite Nat.add_0_r; reflexivity | exact I].
  - destruct r as [| w |]; [| |exact I].
    all: destruct tuple as [slots|]; [|destruct (_ =? b)];
      match goal with |- context[ttc_loop ?d _ ?t ?l'] =>
        specialize (IH d t l'); destruct (fst (ttc_loop d _ t l')) as [[s|]|]; trivial end;
      rewrite IH, app_length; simpl; lia.
Qed.

Lemma ttc_loop_slots : forall rest done tuple l,
  (match tuple with Some slots => length slots = length done | None => True end) ->
  match fst (ttc_loop done rest tuple l) with
  | Some (Some slots) => length slots = (length done + length rest)%nat
  | _ => True
  end.
Proof.
  intros rest done tuple l Inv. pose proof (ttc_loop_length rest done tuple l) as H.
  destruct tuple; [rewrite Inv in H|]; exact H.
Qed.

(* ---------- correspondence ----------
   one case = (tv, items as observed: per item, whether the result's item was the same object, another
   object, or the validation failed at that item; the kind of result observed; the sys.getrefcount deltas
   of the measured objects while the result was still held) *)
Definition tcase := (atom * list (atom * ivres) * Z * list (atom * Z))%type.   (* result kind: 0 new, 1 same, 2 failed *)

Definition kind_of (r : tres) : Z := match r with TNew _ => 0 | TSame => 1 | TFailed => 2 end.

(* codes: 1 result kind, 2 reference-count deltas *)
Definition tuple_corr_codes (c : tcase) : list Z :=
  let '(tv, items, k, deltas) := c in
  let '(r, l) := tuple_check tv items in
  chk 1 (kind_of r =? k)
  ++ chk 2 (forallb (fun p => snd p =? net l (fst p)) deltas).

(* law on the observation alone: the deltas are what the observed result owns *)
Definition tuple_law_codes (c : tcase) : list Z :=
  let '(tv, items, k, deltas) := c in
  let result_slots := map (fun p => match snd p with IConv w => w | _ => fst p end) items in
  chk 1 (forallb (fun p => snd p =? (if k =? 0 then count result_slots (fst p)
                                      else if k =? 1 then ind tv (fst p) else 0)) deltas).
