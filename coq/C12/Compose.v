(* C12 over C09 — for changes of scalar dependencies on a fixed object graph the interface hypothesis
   [faithful] (delivered_iff_relevant) of C12 is a theorem of the C09 registration model: the handler of
   the property, registered once when the object is created (has_traits._init_trait_observers ->
   apply_observers), is called exactly once by a change of a trait on which the registration placed a
   user notifier, and never otherwise.  Sections ComposeDyn and ComposeHist below do the same for steps and
   histories that mutate the object graph, on top of the invariant of C09/DynCount.v. *)
From Coq Require Import ZArith List Bool Arith PeanoNat Lia.
From TV Require Import C09.Model C09.Law C09.Proofs C09.Dyn C09.DynProofs C09.DynCount C09.DynSlot C09.DynAdd C12.Model C12.Law C12.Proofs.
Import ListNotations.

Section Compose.
  Variable h : heap.
  Variable x : oid.
  Variables hd dp : nat.
  Variable gs : list graph.
  Let k : key := (hd, x, dp).

  Definition is_user_k (e : entry) : bool := akey_eqb (snd e) (AUser k).
  (* the observables on which the registration places the handler *)
  Definition targets : list obsv :=
    flat_map (fun g => map fst (filter is_user_k (fst (plan h k false g x)))) gs.

  Definition World := obsv -> Z.
  Definition view (w : World) : list Z := map w targets.
  Definition wupd (w : World) (o : obsv) (v : Z) : World := fun o' => if obsv_eqb o' o then v else w o'.

  Lemma ecnt_user_targets o es : (0 < ecnt o (CK (AUser k)) es)%nat <-> In o (map fst (filter is_user_k es)).
  Proof.
    induction es as [|e r IH]; cbn [ecnt filter map]; [split; [lia|intros []]|].
    unfold eind, is_user_k at 1. cbn [ckey_eqb].
    destruct (akey_eqb (snd e) (AUser k)) eqn:Q.
    - rewrite andb_true_r. cbn [map In]. destruct (obsv_eqb (fst e) o) eqn:P.
      + apply obsv_eqb_spec in P. split; [intros _; left; exact P|intros _; cbn; lia].
      + cbn [b2n]. rewrite IH. split; [right; assumption|intros [E|H]; [|exact H]].
        subst. rewrite obsv_eqb_refl in P. discriminate.
    - rewrite andb_false_r. cbn [b2n]. exact IH.
  Qed.

  Lemma gsum_targets o : (0 < gsum h k gs x o (CK (AUser k)))%nat <-> In o targets.
  Proof.
    unfold targets. induction gs as [|g r IH]; cbn [gsum flat_map]; [split; [lia|intros []]|].
    rewrite in_app_iff, <- IH, <- ecnt_user_targets. unfold pcnt. lia.
  Qed.

  Lemma view_upd_outside w o v : ~ In o targets -> view (wupd w o v) = view w.
  Proof.
    intros N. unfold view. apply map_ext_in. intros o' Ho. unfold wupd.
    destruct (obsv_eqb o' o) eqn:Q; [|reflexivity]. apply obsv_eqb_spec in Q. subst. contradiction.
  Qed.

  Theorem static_scalar_changes_are_faithful :
    forall (s0 s1 : C09.Model.state) (ob : C09.Model.obs),
      wfH (st_hooks s0) ->
      (forall o, cntH (st_hooks s0) o (CK (AUser k)) = 0%nat) ->          (* the handler is new *)
      C09.Model.step h s0 (Register x hd dp gs) = (s1, ob) -> o_out ob = None ->
      alive s1 k = true ->
      forall (cs : C12.Model.state World) (o : obsv) (v : Z) s2 ob2,
        C09.Model.step h s1 (Change (fst o) (snd o)) = (s2, ob2) ->
        faithful World view cs
                 (Mut (wupd (world cs) o v) (existsb (obsv_eqb o) targets) (ncalls k (o_calls ob2))).
  Proof.
    intros s0 s1 ob W0 Z0 S1 Ok1 A cs o v s2 ob2 S2.
    pose proof (step_wf _ _ _ _ _ W0 S1) as W1.
    destruct (step_spec _ _ _ _ _ (proj1 W0) S1) as [_ Q]. cbn beta iota in Q. rewrite Ok1 in Q.
    assert (cntH (st_hooks s1) o (CK (AUser k)) = gsum h k gs x o (CK (AUser k))) as Cn.
    { specialize (Q o (CK (AUser k))). cbn beta iota in Q. rewrite Z0 in Q. exact Q. }
    destruct o as [oo ff]. cbn [fst snd] in S2.
    rewrite (change_calls h s1 oo ff s2 ob2 k W1 S2), A, Cn. cbn [andb].
    assert (existsb (obsv_eqb (oo, ff)) targets = (0 <? gsum h k gs x (oo, ff) (CK (AUser k)))%nat) as ->.
    { apply eq_true_iff_eq. rewrite existsb_exists, Nat.ltb_lt, gsum_targets. split.
      - intros (o' & Ho & E). apply obsv_eqb_spec in E. subst. exact Ho.
      - intros Hin. exists (oo, ff). split; [exact Hin|apply obsv_eqb_refl]. }
    apply faithful_flag. intros Z. symmetry. apply view_upd_outside. intros Hin. apply gsum_targets in Hin.
    apply Nat.ltb_ge in Z. lia.
  Qed.
End Compose.

(* The same for MUTATIONS OF THE OBJECT GRAPH (Instance-link reassignment, in-place list / dict / set mutation), on
   top of the invariant of C09/DynCount.v + DynSlot.v (the hooks are what the live registrations plan on the current
   heap, [dinv]): the notifier loop of the mutated slot [sg] calls the property's handler k exactly once if a live
   registration of k matches the slot, and not at all otherwise.  With [touched] := "some live registration of k
   matches the slot", the mutation step is [faithful] for every view that does not change under untouched
   mutations. *)
Section ComposeDyn.
  Variable W : Type.
  Variable view : W -> list Z.

  Definition touched_by (h : heap) (R : list reg) (k : key) (sg : obsv) : bool :=
    existsb (fun r : reg => let '(k', g, x) := r in key_eqb k' k && l_matched h g x sg) R.

  Lemma touched_by_spec h R k sg :
    touched_by h R k sg = true <-> exists g x, In (k, g, x) R /\ l_matched h g x sg = true.
  Proof.
    unfold touched_by. rewrite existsb_exists. split.
    - intros ([[k' g] x] & Hin & Q). apply andb_true_iff in Q. destruct Q as [Qk M]. apply key_eqb_spec in Qk. subst.
      exists g, x. split; assumption.
    - intros (g & x & Hin & M). exists (k, g, x). split; [exact Hin|]. rewrite key_eqb_refl, M. reflexivity.
  Qed.

  Lemma faithful_of_calls (h : heap) (R : list reg) (k : key) (sg : obsv) (calls : list key) :
    (ncalls k calls <= 1)%nat /\
    (ncalls k calls = 1%nat <-> exists g x, In (k, g, x) R /\ l_matched h g x sg = true) ->
    forall (cs : C12.Model.state W) (w' : W),
      (touched_by h R k sg = false -> view (world cs) = view w') ->
      faithful W view cs (Mut w' (touched_by h R k sg) (ncalls k calls)).
  Proof.
    intros [Le Iff] cs w' Vl. rewrite <- touched_by_spec in Iff.
    assert (ncalls k calls = if touched_by h R k sg then 1 else 0)%nat as ->.
    { destruct (touched_by h R k sg); [apply Iff; reflexivity|].
      destruct (Nat.eq_dec (ncalls k calls) 1) as [E|E]; [apply Iff in E; discriminate|lia]. }
    apply faithful_flag, Vl.
  Qed.

  Theorem graph_mutations_are_faithful :
    forall (h hrun : heap) (R : list reg) (H : hooks) (s : C09.Model.state) (sg : obsv) (t : bool)
           (olds news : list oid) H' calls (k : key),
      dinv h H R -> wfH H -> dead_handlers s = [] -> dead_objs s = [] ->
      run_notifiers hrun s t (H sg) olds news H [] = (H', calls, None) ->
      forall (cs : C12.Model.state W) (w' : W),
        (touched_by h R k sg = false -> view (world cs) = view w') ->
        faithful W view cs (Mut w' (touched_by h R k sg) (ncalls k calls)).
  Proof.
    intros h hrun R H s sg t olds news H' calls k I Wf Dh Do Rn.
    apply faithful_of_calls, (slot_calls h hrun R H s sg t olds news H' calls k I Wf Dh Do Rn).
  Qed.

  (* scalar changes AFTER any admissible history of graph mutations and add_trait: faithful w.r.t. the registrations
     matched on the heap as it is now *)
  Theorem changes_are_faithful_on_the_current_heap :
    forall (d : dstate) (R : list reg) o f s' ob (k : key),
      dstate_inv d R -> wfH (st_hooks (d_st d)) ->
      C09.Model.step (d_heap d) (d_st d) (Change o f) = (s', ob) ->
      forall (cs : C12.Model.state W) (w' : W),
        (touched_by (d_heap d) R k (o, f) = false -> view (world cs) = view w') ->
        faithful W view cs (Mut w' (touched_by (d_heap d) R k (o, f)) (ncalls k (o_calls ob))).
  Proof.
    intros d R o f s' ob k I Wf S. apply faithful_of_calls, (dyn_once_per_change d R o f s' ob k I Wf S).
  Qed.

  (* obj.add_trait: the step is faithful with [touched] := "a registration of the handler matches the object's
     trait_added" (that the handler is then called exactly once, and else not, is DynAdd.add_trait_calls).
     A Property's own graphs never match it (they name the dependency, the trait_added node is the maintainers' extra
     graph), so for them the hypothesis on the view says that the getter's view does not depend on whether the optional
     dependency is defined (design.d/C12.md places getters that do outside property C12). *)
  Theorem add_trait_is_faithful_iff_matched :
    forall (h hrun : heap) (R : list reg) (H : hooks) (s : C09.Model.state) x f H' calls (k : key),
      dinv h H R -> wfH H -> dead_handlers s = [] -> dead_objs s = [] ->
      run_ta_notifiers hrun s x f (H (x, F_TA)) H [] = (H', calls, None) ->
      forall (cs : C12.Model.state W) (w' : W),
        (touched_by h R k (x, F_TA) = false -> view (world cs) = view w') ->
        faithful W view cs (Mut w' (touched_by h R k (x, F_TA)) (ncalls k calls)).
  Proof.
    intros h hrun R H s x f H' calls k I Wf Dh Do Rn.
    apply faithful_of_calls, (add_trait_calls h hrun R H s x f H' calls k I Wf Dh Do Rn).
  Qed.
End ComposeDyn.

(* HISTORIES: the per-step theorems above chained along any admissible C09 history (registrations and removals of any
   handlers, scalar changes, link reassignments, container mutations, add_trait), interleaved with reads of the property
   and listeners coming and going.  The interface hypothesis [faithful_hist] of C12 is then a THEOREM, and so is the
   law of C12, under one condition on the worlds: a step that fires no slot matched by the property's registrations
   leaves the observed view unchanged. *)
Section ComposeHist.
  Variable W : Type.
  Variable f : W -> Z.
  Variable cached : bool.
  Variable view : W -> list Z.
  Variable k : key.                 (* the property's handler *)

  (* a C09 history in which every step comes with the world it leaves behind, seen from the property: every step that
     fires a slot is a [Mut] whose [touched] flag is "a live registration of the property's handler matches the slot
     on the heap as it is now" and whose delivery count is how often the C09 model calls the handler; reads of the
     property and listeners coming and going are interleaved *)
  Inductive jop := JStep (c : cop3) (w' : W) | JRead | JListen | JUnlisten.
  Definition cops (ops : list jop) : list cop3 :=
    flat_map (fun j => match j with JStep c _ => [c] | _ => [] end) ops.
  Fixpoint joint (d : dstate) (R : list reg) (ops : list jop) : list (op W) :=
    match ops with
    | [] => []
    | JStep c w' :: r =>
        let '(d1, ob) := dstep d (dop_of3 c) in
        let rest := joint d1 (live_after3 R c ob) r in
        match slot_of3 c with
        | Some sg => Mut w' (touched_by (d_heap d) R k sg) (ncalls k (o_calls ob)) :: rest
        | None => rest
        end
    | JRead :: r => Read :: joint d R r
    | JListen :: r => Listen :: joint d R r
    | JUnlisten :: r => Unlisten :: joint d R r
    end.
  (* the only thing asked of the worlds: a step that fires no matched slot leaves the observed view unchanged *)
  Fixpoint coherent (d : dstate) (R : list reg) (w : W) (ops : list jop) : Prop :=
    match ops with
    | [] => True
    | JStep c w' :: r =>
        let '(d1, ob) := dstep d (dop_of3 c) in
        match slot_of3 c with
        | Some sg => (touched_by (d_heap d) R k sg = false -> view w = view w') /\ coherent d1 (live_after3 R c ob) w' r
        | None => coherent d1 (live_after3 R c ob) w r
        end
    | _ :: r => coherent d R w r
    end.

  Theorem dynamic_histories_are_faithful : forall ops d R (cs : C12.Model.state W),
    dstate_inv d R -> wfH (st_hooks (d_st d)) -> admissible_run3 d R (cops ops) ->
    coherent d R (world cs) ops ->
    faithful_hist W f cached view cs (joint d R ops).
  Proof.
    induction ops as [|[c w'| | |] ops IH]; intros d R cs I Wf Ad Co; [exact Logic.I| | | |].
    - cbn [cops flat_map app admissible_run3] in Ad. fold (cops ops) in Ad. destruct Ad as [Ad1 Ad2]. cbn [joint coherent] in *.
      destruct (dstep d (dop_of3 c)) as [d1 ob] eqn:S. cbn [fst snd] in Ad2.
      destruct (cstep3 d R c d1 ob I Ad1 S) as [I1 _]. pose proof (dstep_wf _ _ _ _ Wf S) as Wf1.
      pose proof (cstep3_calls d R c d1 ob k I Wf Ad1 S) as Cl.
      destruct (slot_of3 c) as [sg|].
      + destruct Co as [Vl Co]. cbn [faithful_hist]. split.
        * apply (faithful_of_calls W view (d_heap d) R k sg (o_calls ob) Cl cs w' Vl).
        * apply (IH d1 _ _ I1 Wf1 Ad2). rewrite (proj1 (step_frame W f cached cs _)). exact Co.
      + apply (IH d1 _ cs I1 Wf1 Ad2 Co).
    - cbn [joint faithful_hist faithful]. split; [exact Logic.I|]. apply (IH d R _ I Wf Ad).
      rewrite (proj1 (step_frame W f cached cs Read)). exact Co.
    - cbn [joint faithful_hist faithful]. split; [exact Logic.I|]. apply (IH d R _ I Wf Ad). exact Co.
    - cbn [joint faithful_hist faithful]. split; [exact Logic.I|]. apply (IH d R _ I Wf Ad). exact Co.
  Qed.

  (* ... and therefore the whole law of C12 holds on them, with NO interface hypothesis left *)
  Corollary law_holds_on_dynamic_histories :
    (forall w w', view w = view w' -> f w = f w') ->
    forall ops d R (cs : C12.Model.state W) i runs,
      dstate_inv d R -> wfH (st_hooks (d_st d)) -> admissible_run3 d R (cops ops) ->
      coherent d R (world cs) ops ->
      inv W f cs -> (cached = true -> (runs + slack W cs <= 1)%nat) ->
      C12.Law.law_hist cached i (f (world cs)) runs (listeners cs) (observe W f cached view cs (joint d R ops)) = [].
  Proof.
    intros Ro ops d R cs i runs I Wf Ad Co Iv Sl.
    apply (law_model W f cached view Ro (joint d R ops) cs i runs Iv (dynamic_histories_are_faithful ops d R cs I Wf Ad Co) Sl).
  Qed.
End ComposeHist.
