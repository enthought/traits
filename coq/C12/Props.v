(* C12 — the property theorems (each closed by [exact] of a lemma of Proofs.v or Compose.v and followed by its
   Print Assumptions), two refutation witnesses and the non-vacuity Examples.  The statements of the first part hold
   for every world type W, every getter f, cached or not, every observed view with
   [view w = view w' -> f w = f w'] (the getter reads only what is observed), every start state satisfying the cache
   invariant and every history that is [faithful]: the observe machinery calls the property's handler exactly once for
   a mutation that changes the observed view, only for mutations of matched dependencies and at most once per mutation.
   The second part (from [static_scalar_changes_are_faithful] on) proves [faithful] from the C09 registration model. *)
From Coq Require Import ZArith List Bool Arith Lia.
From TV Require Import C12.Model C12.Law C12.Proofs C12.Compose.
From TV Require C09.Model C09.Proofs C09.DynCount C09.DynSlot C09.DynAdd C09.Dyn C09.Law.
Import ListNotations.
Open Scope Z_scope.

(* the cache is empty or holds what the getter computes from the current state, after every history *)
Theorem cache_inv : forall (W : Type) (f : W -> Z) (cached : bool) (view : W -> list Z),
  (forall w w', view w = view w' -> f w = f w') ->
  forall ops s, inv W f s -> faithful_hist W f cached view s ops ->
  inv W f (snd (run W f cached s ops)).
Proof. exact run_inv. Qed.
Print Assumptions cache_inv.

Theorem read_is_current : forall (W : Type) (f : W -> Z) (cached : bool) s,
  inv W f s -> o_val (snd (step W f cached s Read)) = Some (f (world s)).
Proof. exact read_current. Qed.
Print Assumptions read_is_current.

(* however often the property is read (and whatever else happens that is not a mutation of a dependency
   or a copy), the cached getter runs at most once — and not at all if the cache is filled *)
Theorem getter_at_most_once_between_changes : forall (W : Type) (f : W -> Z) (cached : bool) (view : W -> list Z),
  cached = true -> forall ops s, faithful_hist W f cached view s ops -> forallb (quiet W) ops = true ->
  (total_getter W (fst (run W f cached s ops)) <= slack W s)%nat.
Proof. exact quiet_run. Qed.
Print Assumptions getter_at_most_once_between_changes.

(* a mutation that alters the computed value delivers exactly one change event (old, new = current value)
   to a listener of the property *)
Theorem value_change_notified : forall (W : Type) (f : W -> Z) (cached : bool) (view : W -> list Z),
  (forall w w', view w = view w' -> f w = f w') ->
  forall s w' t d, faithful W view s (Mut w' t d) -> f (world s) <> f w' -> (0 < listeners s)%nat ->
  exists old, o_events (snd (step W f cached s (Mut w' t d))) = [(old, f w')].
Proof. exact change_notified. Qed.
Print Assumptions value_change_notified.

(* the whole law (clauses 1-4 of Law.v: reads current, getter at most once between dependency mutations,
   value changes notified, events announce the current value) holds on the model's own observations of
   every faithful history *)
Theorem law_holds_on_every_faithful_history :
  forall (W : Type) (f : W -> Z) (cached : bool) (view : W -> list Z),
  (forall w w', view w = view w' -> f w = f w') ->
  forall ops s i runs, inv W f s -> faithful_hist W f cached view s ops ->
  (cached = true -> (runs + slack W s <= 1)%nat) ->
  law_hist cached i (f (world s)) runs (listeners s) (observe W f cached view s ops) = [].
Proof. exact law_model. Qed.
Print Assumptions law_holds_on_every_faithful_history.

(* Re-entrant histories: a listener of the property that assigns another dependency from inside the property's own
   notification.  The nested delivery (Model.step_nested, following the un-guarded handler of
   _create_property_observe_state) is exactly the outer mutation followed by the nested one, so cache_inv,
   read_is_current and the law carry over; the cache ends up holding the value of the LAST world and both values
   are announced (a re-entrancy guard in the handler, as in the seeded change C12-t2, loses the second).  The flags
   t1, t2 are arbitrary: [step] does not read the touched flag of a mutation, only the law does. *)
Theorem nested_delivery_is_two_steps : forall (W : Type) (f : W -> Z) (cached : bool) (s : state W) (w1 w2 : W) (t1 t2 : bool),
  (0 < listeners s)%nat ->
  step_nested W f cached s w1 w2
  = (let '(s1, ob1) := step W f cached s (Mut w1 t1 1) in
     let '(s2, ob2) := step W f cached s1 (Mut w2 t2 1) in
     (s2, mkObs None (o_getter ob1 + o_getter ob2)%nat (o_events ob1 ++ o_events ob2))).
Proof. exact nested_is_two_steps. Qed.
Print Assumptions nested_delivery_is_two_steps.

Theorem nested_delivery_keeps_cache_inv : forall (W : Type) (f : W -> Z) (cached : bool) (s : state W) (w1 w2 : W),
  inv W f (fst (step_nested W f cached s w1 w2)).
Proof. exact nested_inv. Qed.
Print Assumptions nested_delivery_keeps_cache_inv.

Theorem nested_delivery_announces_both : forall (W : Type) (f : W -> Z) (cached : bool) (s : state W) (w1 w2 : W),
  (0 < listeners s)%nat ->
  exists old1 old2, o_events (snd (step_nested W f cached s w1 w2)) = [(old1, f w1); (old2, f w2)]
                    /\ (cached = true -> cache (fst (step_nested W f cached s w1 w2)) = Some (f w2)).
Proof. exact nested_announces. Qed.
Print Assumptions nested_delivery_announces_both.

(* The interface hypothesis is a THEOREM of the C09 registration model for changes of scalar
   dependencies on a fixed object graph: with the property's handler (hd, x, dp) registered once on the
   expression gs when the object x is created, a change of the trait o delivers to the handler exactly
   once iff the registration placed a user notifier on o ([targets]), so the mutation step built from it
   is faithful for the view "values of the targets".  (Mutations of the object graph in between: the theorems
   below.) *)
Theorem static_scalar_changes_are_faithful :
  forall (h : C09.Model.heap) (x : C09.Model.oid) (hd dp : nat) (gs : list C09.Model.graph)
         (s0 s1 : C09.Model.state) (ob : C09.Model.obs),
    C09.Proofs.wfH (C09.Model.st_hooks s0) ->
    (forall o, C09.Proofs.cntH (C09.Model.st_hooks s0) o (C09.Proofs.CK (C09.Model.AUser (hd, x, dp))) = 0%nat) ->
    C09.Model.step h s0 (C09.Model.Register x hd dp gs) = (s1, ob) -> C09.Model.o_out ob = None ->
    C09.Model.alive s1 (hd, x, dp) = true ->
    forall (cs : state World) (o : C09.Model.obsv) (v : Z) s2 ob2,
      C09.Model.step h s1 (C09.Model.Change (fst o) (snd o)) = (s2, ob2) ->
      faithful World (view h x hd dp gs) cs
               (Mut (wupd (world cs) o v) (existsb (C09.Model.obsv_eqb o) (targets h x hd dp gs))
                    (C09.Proofs.ncalls (hd, x, dp) (C09.Model.o_calls ob2))).
Proof. exact Compose.static_scalar_changes_are_faithful. Qed.
Print Assumptions static_scalar_changes_are_faithful.

(* ... and for MUTATIONS OF THE OBJECT GRAPH (Instance-link reassignment, in-place list / dict / set mutation), on
   top of the invariant proved in C09/DynCount.v and DynSlot.v for acyclic reassignments: the mutated slot's
   notifier loop calls the property's handler exactly once iff a live registration of it matches the slot, so the
   mutation step is faithful for every view that untouched mutations leave unchanged.  Nothing ties hrun, t, olds, news
   to the mutation that produced w': whom a loop that does not raise calls depends only on the list [H sg] it runs over. *)
Theorem graph_mutations_are_faithful :
  forall (W : Type) (view : W -> list Z)
         (h hrun : C09.Model.heap) (R : list C09.DynCount.reg) (H : C09.Model.hooks) (s : C09.Model.state)
         (sg : C09.Model.obsv) (t : bool) (olds news : list C09.Model.oid) H' calls (k : C09.Model.key),
    C09.DynCount.dinv h H R -> C09.Proofs.wfH H ->
    C09.Model.dead_handlers s = [] -> C09.Model.dead_objs s = [] ->
    C09.Dyn.run_notifiers hrun s t (H sg) olds news H [] = (H', calls, None) ->
    forall (cs : state W) (w' : W),
      (touched_by h R k sg = false -> view (world cs) = view w') ->
      faithful W view cs (Mut w' (touched_by h R k sg) (C09.Proofs.ncalls k calls)).
Proof. exact Compose.graph_mutations_are_faithful. Qed.
Print Assumptions graph_mutations_are_faithful.

(* scalar changes after ANY admissible history of graph mutations and add_trait (C09's dynamic invariant): faithful with
   respect to the registrations matched on the heap as it is now *)
Theorem changes_are_faithful_on_the_current_heap :
  forall (W : Type) (view : W -> list Z)
         (d : C09.Dyn.dstate) (R : list C09.DynCount.reg) o f s' ob (k : C09.Model.key),
    C09.DynCount.dstate_inv d R -> C09.Proofs.wfH (C09.Model.st_hooks (C09.Dyn.d_st d)) ->
    C09.Model.step (C09.Dyn.d_heap d) (C09.Dyn.d_st d) (C09.Model.Change o f) = (s', ob) ->
    forall (cs : state W) (w' : W),
      (touched_by (C09.Dyn.d_heap d) R k (o, f) = false -> view (world cs) = view w') ->
      faithful W view cs (Mut w' (touched_by (C09.Dyn.d_heap d) R k (o, f)) (C09.Proofs.ncalls k (C09.Model.o_calls ob))).
Proof. exact Compose.changes_are_faithful_on_the_current_heap. Qed.
Print Assumptions changes_are_faithful_on_the_current_heap.

(* obj.add_trait of a dependency the property names as OPTIONAL: C09 proves that the hooks are completed
   (C09.add_trait_completes_the_registrations), so later changes of the new trait are faithful by the theorem above.  The
   add_trait step itself is faithful with [touched] := "a registration of the handler matches the object's trait_added";
   that the handler is called exactly once iff so is C09.add_trait_calls_once_iff_matched.  A Property's own graph never
   matches trait_added, so for it the hypothesis on the view says: the getter's view does not depend on whether the
   optional dependency is defined (design.d/C12.md places getters that do depend on it outside property C12). *)
Theorem add_trait_is_faithful_iff_matched :
  forall (W : Type) (view : W -> list Z)
         (h hrun : C09.Model.heap) (R : list C09.DynCount.reg) (H : C09.Model.hooks) (s : C09.Model.state)
         x f H' calls (k : C09.Model.key),
    C09.DynCount.dinv h H R -> C09.Proofs.wfH H ->
    C09.Model.dead_handlers s = [] -> C09.Model.dead_objs s = [] ->
    C09.Dyn.run_ta_notifiers hrun s x f (H (x, C09.Model.F_TA)) H [] = (H', calls, None) ->
    forall (cs : state W) (w' : W),
      (touched_by h R k (x, C09.Model.F_TA) = false -> view (world cs) = view w') ->
      faithful W view cs (Mut w' (touched_by h R k (x, C09.Model.F_TA)) (C09.Proofs.ncalls k calls)).
Proof. exact Compose.add_trait_is_faithful_iff_matched. Qed.
Print Assumptions add_trait_is_faithful_iff_matched.

(* REFUTED without the interface hypothesis, the other way round (known finding, family `afterreset`: after `del obj.m`
   the new default value is hooked twice, so a change of an item that has left the container is still delivered): a
   delivery for a mutation that does NOT touch the observed view makes a cached getter run again between two relevant
   changes, and the law reports it.  Witness: one listener, read, an untouched mutation delivered once. *)
Theorem spurious_delivery_refuted :
  exists (ops : list (op (Z * Z))),
    let f := fun w : Z * Z => 3 * fst w + 1 in
    let view := fun w : Z * Z => [fst w] in
    let s0 := mkState (1, 0) None 1%nat in
    ~ faithful_hist (Z * Z) f true view s0 ops
    /\ map (fun p => o_getter (snd p)) (fst (run (Z * Z) f true s0 ops)) = [1%nat; 1%nat]
    /\ law_hist true 0 (f (world s0)) 0 (listeners s0) (observe (Z * Z) f true view s0 ops) <> [].
Proof.
  exists [Read; Mut (1, 7) false 1]. cbn zeta. split; [|split].
  - cbn [faithful_hist faithful]. intros [_ [[_ [H _]] _]]. specialize (H eq_refl). destruct H as [H _]. discriminate H.
  - vm_compute. reflexivity.
  - vm_compute. discriminate.
Qed.
Print Assumptions spurious_delivery_refuted.

(* HISTORIES (Compose.ComposeHist): along any admissible C09 history -- registrations and removals of any handlers,
   scalar changes, Instance-link reassignments, in-place container mutations, add_trait -- interleaved with reads of
   the property and listeners coming and going, the interface hypothesis is a theorem, and hence the law, provided
   only that a step firing no slot matched by the property's live registrations leaves the observed view unchanged *)
Theorem dynamic_histories_are_faithful :
  forall (W : Type) (f : W -> Z) (cached : bool) (view : W -> list Z) (k : C09.Model.key)
         (ops : list (jop W)) (d : C09.Dyn.dstate) (R : list C09.DynCount.reg) (cs : state W),
    C09.DynCount.dstate_inv d R -> C09.Proofs.wfH (C09.Model.st_hooks (C09.Dyn.d_st d)) ->
    C09.DynAdd.admissible_run3 d R (cops W ops) ->
    coherent W view k d R (world cs) ops ->
    faithful_hist W f cached view cs (joint W k d R ops).
Proof. exact Compose.dynamic_histories_are_faithful. Qed.
Print Assumptions dynamic_histories_are_faithful.

Theorem law_holds_on_dynamic_histories :
  forall (W : Type) (f : W -> Z) (cached : bool) (view : W -> list Z) (k : C09.Model.key),
    (forall w w', view w = view w' -> f w = f w') ->
    forall (ops : list (jop W)) (d : C09.Dyn.dstate) (R : list C09.DynCount.reg) (cs : state W) i runs,
      C09.DynCount.dstate_inv d R -> C09.Proofs.wfH (C09.Model.st_hooks (C09.Dyn.d_st d)) ->
      C09.DynAdd.admissible_run3 d R (cops W ops) ->
      coherent W view k d R (world cs) ops ->
      inv W f cs -> (cached = true -> (runs + slack W cs <= 1)%nat) ->
      law_hist cached i (f (world cs)) runs (listeners cs) (observe W f cached view cs (joint W k d R ops)) = [].
Proof. exact Compose.law_holds_on_dynamic_histories. Qed.
Print Assumptions law_holds_on_dynamic_histories.

(* REFUTED without the interface hypothesis (listed finding F23): when the observe machinery delivers nothing
   for a relevant change — which is what happens to a Property(observe=...) added with add_trait /
   add_class_trait, whose observers are never installed — a cached property is stale and a listener hears
   nothing.  Witness: world (value, _), f = 3*value + 1, read, change value 1 -> 4 with 0 deliveries, read. *)
Theorem unhooked_property_refuted :
  exists (ops : list (op (Z * Z))) ,
    let f := fun w : Z * Z => 3 * fst w + 1 in
    let '(tr, s) := run (Z * Z) f true (mkState (1, 0) None 1%nat) ops in
    map (fun p => o_val (snd p)) tr = [Some 4; None; Some 4] /\ f (world s) = 13
    /\ map (fun p => o_events (snd p)) tr = [[]; []; []].
Proof. exists [Read; Mut (4, 0) true 0; Read]. vm_compute. repeat split; reflexivity. Qed.
Print Assumptions unhooked_property_refuted.

(* non-vacuity: a world of two numbers, the getter reads only the first *)
Definition exW := (Z * Z)%type.
Definition ex_f (w : exW) : Z := 3 * fst w + 1.
Definition ex_view (w : exW) : list Z := [fst w].
Example ex_reads_only_observed : forall w w', ex_view w = ex_view w' -> ex_f w = ex_f w'.
Proof. intros [a b] [a' b'] E. inversion E. reflexivity. Qed.

Definition ex_ops : list (op exW) :=
  [Read; Read; Mut (1, 5) false 0; Read; Listen; Mut (2, 5) true 1; Read; Mut (2, 5) true 0; Read;
   Unlisten; Mut (4, 5) true 1; Read; Read; Copy (4, 5); Read].
Example ex_faithful : faithful_hist exW ex_f true ex_view (mkState (1, 0) None 0%nat) ex_ops.
Proof. cbn. repeat split; intros; try congruence; try lia; auto; exfalso; apply H; reflexivity. Qed.
Example history_nontrivial :
  map (fun p => (o_val (snd p), o_getter (snd p), o_events (snd p)))
      (fst (run exW ex_f true (mkState (1, 0) None 0%nat) ex_ops))
  = [(Some 4, 1%nat, []); (Some 4, 0%nat, []); (None, 0%nat, []); (Some 4, 0%nat, []); (None, 0%nat, []);
     (None, 1%nat, [(Some 4, 7)]); (Some 7, 0%nat, []); (None, 0%nat, []); (Some 7, 0%nat, []);
     (None, 0%nat, []); (None, 0%nat, []); (Some 13, 1%nat, []); (Some 13, 0%nat, []); (None, 0%nat, []);
     (Some 13, 1%nat, [])].
Proof. vm_compute. reflexivity. Qed.

(* non-vacuity of the composition: object 0 with child 1 (field 3), expression child.value (field 2) *)
Definition cx_heap : C09.Model.heap :=
  C09.Model.mkHeap (fun _ => C09.Model.KObj)
                   (fun x f => ((x =? 0) || (x =? 1))%nat && ((f =? 1) || (f =? 2) || (f =? 3))%nat)
                   (fun x f => if ((x =? 0) && (f =? 3))%nat then [1%nat] else []) (fun _ => []).
Example composition_nontrivial :
  let g := C09.Model.G (C09.Model.NNamed 3%nat true false) [C09.Model.G (C09.Model.NNamed 2%nat true false) []] in
  let s0 := C09.Model.mkState (fun _ => []) [] [] in
  let '(s1, ob) := C09.Model.step cx_heap s0 (C09.Model.Register 0%nat 7%nat 0%nat [g]) in
  C09.Model.o_out ob = None /\ C09.Model.alive s1 (7, 0, 0)%nat = true
  /\ targets cx_heap 0%nat 7%nat 0%nat [g] = [(0, 3); (1, 2)]%nat
  /\ map (fun o => C09.Proofs.ncalls (7, 0, 0)%nat
                     (C09.Model.o_calls (snd (C09.Model.step cx_heap s1 (C09.Model.Change (fst o) (snd o))))))
         [(1, 2); (0, 2); (0, 3)]%nat = [1; 0; 1]%nat.
Proof. vm_compute. repeat split; reflexivity. Qed.

(* non-vacuity of graph_mutations_are_faithful: after registering child.value on object 0 (child = object 1) the
   invariant holds, the slot (0, child) is touched, and un-linking the child calls the handler exactly once *)
Example graph_mutation_nontrivial :
  let g := C09.Model.G (C09.Model.NNamed 3%nat true false) [C09.Model.G (C09.Model.NNamed 2%nat true false) []] in
  let k := (7, 0, 0)%nat in
  let s0 := C09.Model.mkState (fun _ => []) [] [] in
  let s1 := fst (C09.Model.step cx_heap s0 (C09.Model.Register 0%nat 7%nat 0%nat [g])) in
  C09.DynCount.dinv cx_heap (C09.Model.st_hooks s1) [(k, g, 0%nat)]
  /\ touched_by cx_heap [(k, g, 0%nat)] k (0, 3)%nat = true
  /\ (let '(_, calls, e) := C09.Dyn.run_notifiers (C09.Dyn.set_links cx_heap 0%nat 3%nat []) s1 true
                               (C09.Model.st_hooks s1 (0, 3)%nat) [1%nat] [] (C09.Model.st_hooks s1) [] in
      e = None /\ C09.Proofs.ncalls k calls = 1%nat).
Proof.
  intros g k s0 s1. split; [|split].
  - apply (C09.DynCount.register_first cx_heap 0%nat 7%nat 0%nat g). vm_compute. reflexivity.
  - vm_compute. reflexivity.
  - vm_compute. split; reflexivity.
Qed.

(* non-vacuity of add_trait_is_faithful_iff_matched: object 0 observes the optional, not yet defined trait 9; the
   invariant holds, trait_added of object 0 is NOT touched by the registration; add_trait(9) runs the trait_added
   maintainer, which hooks the handler on the new trait -- and does not call it *)
Example add_trait_nontrivial :
  let g := C09.Model.G (C09.Model.NNamed 9%nat true true) [] in
  let k := (7, 0, 0)%nat in
  let s0 := C09.Model.mkState (fun _ => []) [] [] in
  let s1 := fst (C09.Model.step cx_heap s0 (C09.Model.Register 0%nat 7%nat 0%nat [g])) in
  C09.DynCount.dinv cx_heap (C09.Model.st_hooks s1) [(k, g, 0%nat)]
  /\ touched_by cx_heap [(k, g, 0%nat)] k (0%nat, C09.Model.F_TA) = false
  /\ C09.Proofs.cntH (C09.Model.st_hooks s1) (0, 9)%nat (C09.Proofs.CK (C09.Model.AUser k)) = 0%nat
  /\ (let '(H', calls, e) := C09.Dyn.run_ta_notifiers (C09.Dyn.add_trait_h cx_heap 0%nat 9%nat []) s1 0%nat 9%nat
                               (C09.Model.st_hooks s1 (0%nat, C09.Model.F_TA)) (C09.Model.st_hooks s1) [] in
      e = None /\ C09.Proofs.ncalls k calls = 0%nat
      /\ C09.Proofs.cntH H' (0, 9)%nat (C09.Proofs.CK (C09.Model.AUser k)) = 1%nat).
Proof.
  intros g k s0 s1. split; [|split; [|split]].
  - apply (C09.DynCount.register_first cx_heap 0%nat 7%nat 0%nat g). vm_compute. reflexivity.
  - vm_compute. reflexivity.
  - vm_compute. reflexivity.
  - vm_compute. repeat split; reflexivity.
Qed.

(* non-vacuity of the joint theorem: the property of object 0 observes child.value (child = object 1); the world is
   the observed view itself.  The child's value changes (delivered), the child is un-linked (delivered), the former
   child's value changes again (not matched any more, not delivered, view unchanged); reads in between *)
Example dynamic_history_nontrivial :
  let g := C09.Model.G (C09.Model.NNamed 3%nat true false) [C09.Model.G (C09.Model.NNamed 2%nat true false) []] in
  let k := (7, 0, 0)%nat in
  let s0 := C09.Model.mkState (fun _ => []) [] [] in
  let s1 := fst (C09.Model.step cx_heap s0 (C09.Model.Register 0%nat 7%nat 0%nat [g])) in
  let d := C09.Dyn.mkD cx_heap s1 in
  let R := [(k, g, 0%nat)] in
  let chg := C09.DynAdd.C2 (C09.DynSlot.C1 (C09.DynCount.CChange 1%nat 2%nat)) in
  let ops := [JRead (list Z); JListen (list Z); JStep (list Z) chg [5]; JRead (list Z);
              JStep (list Z) (C09.DynAdd.C2 (C09.DynSlot.C1 (C09.DynCount.CLink 0%nat 3%nat []))) []; JRead (list Z);
              JStep (list Z) chg []; JRead (list Z)] in
  C09.DynCount.dstate_inv d R /\ C09.Proofs.wfH (C09.Model.st_hooks s1)
  /\ C09.DynAdd.admissible_run3 d R (cops (list Z) ops)
  /\ coherent (list Z) (fun w => w) k d R [3] ops
  /\ joint (list Z) k d R ops
     = [Read; Listen; Mut [5] true 1%nat; Read; Mut [] true 1%nat; Read; Mut [] false 0%nat; Read].
Proof.
  intros g k s0 s1 d R chg ops.
  assert (C09.DynCount.dinv cx_heap (C09.Model.st_hooks s1) R) as I.
  { apply (C09.DynCount.register_first cx_heap 0%nat 7%nat 0%nat g). vm_compute. reflexivity. }
  split; [split; [exact I|split; reflexivity]|]. split.
  { apply (C09.Proofs.step_wf cx_heap s0 (C09.Model.Register 0%nat 7%nat 0%nat [g]) s1
             (snd (C09.Model.step cx_heap s0 (C09.Model.Register 0%nat 7%nat 0%nat [g]))) C09.Proofs.wf_empty).
    unfold s1. destruct (C09.Model.step cx_heap s0 (C09.Model.Register 0%nat 7%nat 0%nat [g])); reflexivity. }
  split; [|split].
  - cbn [cops flat_map app C09.DynAdd.admissible_run3 C09.DynAdd.admissible3 C09.DynSlot.admissible2 C09.DynCount.admissible].
    repeat split; try exact Logic.I.
    + intros ch y Hy. change (C09.Dyn.d_heap (fst (C09.Dyn.dstep d (C09.DynAdd.dop_of3 chg)))) with cx_heap in *.
      assert (y = 1%nat) as -> by (vm_compute in Hy; intuition).
      apply (C09.DynCount.vis_leaf cx_heap (C09.DynCount.hits cx_heap 0%nat 3%nat) _ (fun _ _ _ => eq_refl)); intros n.
      * destruct n; cbn; rewrite ?andb_false_r; reflexivity.
      * destruct n as [f0 nt opt|ck nt opt]; unfold C09.DynCount.nexts; cbn;
          repeat (match goal with |- context [if ?b then _ else _] => destruct b end; try reflexivity).
    + intros k' g' x' Hin. vm_compute in Hin. destruct Hin as [E|[]]. inversion E; subst. vm_compute. reflexivity.
  - vm_compute. repeat split; congruence.
  - vm_compute. reflexivity.
Qed.

Example nested_nontrivial :
  let '(s, ob) := step_nested exW ex_f true (mkState (1, 0) (Some 4) 1%nat) (5, 0) (2, 0) in
  cache s = Some 7 /\ o_events ob = [(Some 4, 16); (Some 16, 7)] /\ o_getter ob = 2%nat.
Proof. vm_compute. repeat split; reflexivity. Qed.
