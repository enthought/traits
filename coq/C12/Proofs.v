(* C12 — under the interface hypothesis [faithful]: the cache invariant, the budget of a cached getter, and the law
   on the model's own observations. *)
From Coq Require Import ZArith List Bool Arith Lia.
From TV Require Import C12.Model C12.Law.
Import ListNotations.
Open Scope Z_scope.

Section Proofs.
  Variable W : Type.
  Variable f : W -> Z.
  Variable cached : bool.
  (* the observed dependency view: what the observe expression of the property matches *)
  Variable view : W -> list Z.
  (* getter_reads_only_observed *)
  Hypothesis reads_only_observed : forall w w', view w = view w' -> f w = f w'.

  Notation state := (state W).
  Notation op := (op W).
  Notation step := (step W f cached).
  Notation run := (run W f cached).
  Notation read := (read W f cached).
  Notation deliver := (deliver W f cached).
  Notation deliver_n := (deliver_n W f cached).

  (* delivered_iff_relevant — the interface to C08: the handler of the property is called exactly once
     when a mutation changes the observed view, only for mutations of matched dependencies, and never
     more than once per mutation *)
  Definition faithful (s : state) (o : op) : Prop :=
    match o with
    | Mut w' t d => (view (world s) <> view w' -> (1 <= d)%nat)
                    /\ (t = false -> d = 0%nat /\ view (world s) = view w')
                    /\ (d <= 1)%nat
    | _ => True
    end.
  Fixpoint faithful_hist (s : state) (ops : list op) : Prop :=
    match ops with
    | [] => True
    | o :: r => faithful s o /\ faithful_hist (fst (step s o)) r
    end.

  Definition inv (s : state) : Prop :=
    match cache s with None => True | Some v => v = f (world s) end.

  (* a mutation delivered exactly when it is flagged as touching a dependency is faithful, provided the untouched
     ones leave the view alone *)
  Lemma faithful_flag s w' (t : bool) : (t = false -> view (world s) = view w') ->
    faithful s (Mut w' t (if t then 1 else 0)%nat).
  Proof.
    intros V. cbn [faithful]. destruct t; [split; [intros _; lia|split; [discriminate|lia]]|].
    split; [intros N; elim N; apply V; reflexivity|split; [intros _; split; [reflexivity|apply V; reflexivity]|lia]].
  Qed.

  Lemma view_dec (a b : list Z) : {a = b} + {a <> b}.
  Proof. apply list_eq_dec, Z.eq_dec. Qed.

  Lemma faithful_mut s w' t d : faithful s (Mut w' t d) ->
    (d = 0%nat /\ f (world s) = f w') \/ (d = 1%nat /\ t = true).
  Proof.
    intros (F1 & F2 & F3). destruct d as [|[|d]]; [left|right|lia]; (split; [reflexivity|]).
    - destruct (view_dec (view (world s)) (view w')) as [E|N]; [apply reads_only_observed, E|]. specialize (F1 N). lia.
    - destruct t; [reflexivity|destruct (F2 eq_refl); discriminate].
  Qed.

  Lemma read_spec s : inv s ->
    let '(s', v, n) := read s in
    inv s' /\ v = f (world s) /\ world s' = world s /\ listeners s' = listeners s /\
    n = (if cached then match cache s with Some _ => 0 | None => 1 end else 1)%nat /\
    cache s' = (if cached then Some (f (world s)) else cache s).
  Proof.
    unfold read, inv. intros I. destruct cached.
    - destruct (cache s) as [v|] eqn:C; cbn [cache world listeners].
      + rewrite C. subst v. repeat split; try reflexivity; exact C.
      + repeat split; reflexivity.
    - repeat split; try reflexivity; exact I.
  Qed.

  Lemma deliver_spec s :
    let '(s', n, ev) := deliver s in
    inv s' /\ world s' = world s /\ listeners s' = listeners s /\
    n = (match listeners s with O => 0 | S _ => 1 end)%nat /\
    ev = (match listeners s with O => [] | S _ => [(if cached then cache s else None, f (world s))] end) /\
    (cached = true -> cache s' = match listeners s with O => None | S _ => Some (f (world s)) end).
  Proof.
    unfold deliver. destruct (listeners s) as [|l] eqn:L.
    - cbn [inv cache world listeners]. unfold inv. cbn. repeat split; reflexivity.
    - pose proof (read_spec (mkState (world s) None (S l)) I) as R.
      destruct (read (mkState (world s) None (S l))) as [[s2 v] n]. cbn [world cache listeners] in R.
      destruct R as (I2 & -> & Wd & Ls & Nn & Cc). repeat split; auto.
      + rewrite Nn. destruct cached; reflexivity.
      + intros ->. exact Cc.
  Qed.

  Lemma step_inv s o : inv s -> faithful s o -> inv (fst (step s o)).
  Proof.
    intros I F. destruct o as [|w' t d| | |w']; cbn [step].
    - pose proof (read_spec s I) as R. destruct (read s) as [[s' v] n]. cbn [fst]. apply R.
    - destruct (faithful_mut s w' t d F) as [[-> E]|[-> _]].
      + cbn [deliver_n fst]. unfold inv in *. cbn [cache world].
        destruct (cache s) as [v|]; [rewrite I; exact E|exact I].
      + cbn [deliver_n]. pose proof (deliver_spec (mkState w' (cache s) (listeners s))) as D.
        destruct (deliver (mkState w' (cache s) (listeners s))) as [[s1 n1] e1]. cbn [fst]. apply D.
    - exact I.
    - exact I.
    - unfold inv. cbn. trivial.
  Qed.

  Lemma run_inv : forall ops s, inv s -> faithful_hist s ops -> inv (snd (run s ops)).
  Proof.
    induction ops as [|o ops IH]; intros s I F; cbn [run]; [exact I|].
    destruct F as [F1 F2]. pose proof (step_inv s o I F1) as I1.
    destruct (step s o) as [s1 ob]. cbn [fst] in *. specialize (IH s1 I1 F2).
    destruct (run s1 ops) as [tr s2]. exact IH.
  Qed.

  Lemma read_current s : inv s -> o_val (snd (step s Read)) = Some (f (world s)).
  Proof.
    intros I. cbn [step]. pose proof (read_spec s I) as R. destruct (read s) as [[s' v] n].
    cbn [snd o_val]. destruct R as (_ & -> & _). reflexivity.
  Qed.

  Lemma change_notified s w' t d :
    faithful s (Mut w' t d) -> f (world s) <> f w' -> (0 < listeners s)%nat ->
    exists old, o_events (snd (step s (Mut w' t d))) = [(old, f w')].
  Proof.
    intros F N L. destruct (faithful_mut s w' t d F) as [[_ E]|[-> _]]; [contradiction|].
    cbn [step deliver_n]. pose proof (deliver_spec (mkState w' (cache s) (listeners s))) as D.
    destruct (deliver (mkState w' (cache s) (listeners s))) as [[s1 n1] e1]. cbn [snd o_events].
    cbn [world listeners cache] in D. destruct D as (_ & _ & _ & _ & -> & _).
    destruct (listeners s); [lia|]. rewrite app_nil_r. eexists. reflexivity.
  Qed.

  (* t1, t2 are arbitrary: [step] does not read the touched flag of a mutation *)
  Lemma nested_is_two_steps s w1 w2 t1 t2 : (0 < listeners s)%nat ->
    Model.step_nested W f cached s w1 w2
    = (let '(s1, ob1) := step s (Mut w1 t1 1) in
       let '(s2, ob2) := step s1 (Mut w2 t2 1) in
       (s2, mkObs None (o_getter ob1 + o_getter ob2)%nat (o_events ob1 ++ o_events ob2))).
  Proof.
    intros L. unfold Model.step_nested. destruct (listeners s) as [|l] eqn:Ls; [lia|].
    cbn [Model.step Model.deliver_n Model.deliver world cache listeners]. rewrite Ls.
    unfold Model.read. cbn [cache world listeners]. destruct cached; cbn [cache world listeners app];
      rewrite ?Nat.add_0_r; reflexivity.
  Qed.
  Lemma nested_inv s w1 w2 : inv (fst (Model.step_nested W f cached s w1 w2)).
  Proof.
    unfold Model.step_nested, inv. destruct (listeners s) as [|l]; [cbn; trivial|].
    unfold Model.read. cbn [cache world listeners]. destruct cached; cbn; trivial.
  Qed.
  Lemma nested_announces s w1 w2 : (0 < listeners s)%nat ->
    exists old1 old2, o_events (snd (Model.step_nested W f cached s w1 w2)) = [(old1, f w1); (old2, f w2)]
                      /\ (cached = true -> cache (fst (Model.step_nested W f cached s w1 w2)) = Some (f w2)).
  Proof.
    intros L. unfold Model.step_nested. destruct (listeners s) as [|l]; [lia|].
    unfold Model.read. cbn [cache world listeners]. destruct cached; cbn; eexists; eexists; split; try reflexivity; intros; congruence.
  Qed.

  (* quiet segments: no mutation of a dependency, no copy *)
  Definition quiet (o : op) : bool :=
    match o with Mut _ t _ => negb t | Copy _ => false | _ => true end.
  Fixpoint total_getter (tr : list (op * obs)) : nat :=
    match tr with [] => 0%nat | (_, ob) :: r => (o_getter ob + total_getter r)%nat end.

  Definition slack (s : state) : nat := match cache s with Some _ => 0%nat | None => 1%nat end.

  Lemma read_frame s : world (fst (fst (read s))) = world s /\ listeners (fst (fst (read s))) = listeners s.
  Proof. unfold read. destruct cached; [destruct (cache s)|]; split; reflexivity. Qed.
  Lemma deliver_n_frame d : forall s,
    world (fst (fst (deliver_n d s))) = world s /\ listeners (fst (fst (deliver_n d s))) = listeners s.
  Proof.
    induction d as [|d IH]; intros s; [split; reflexivity|]. cbn [deliver_n].
    assert (world (fst (fst (deliver s))) = world s /\ listeners (fst (fst (deliver s))) = listeners s) as D.
    { unfold deliver. pose proof (read_frame (mkState (world s) None (listeners s))) as R.
      destruct (listeners s); [split; reflexivity|]. destruct (read _) as [[s2 v] n0]. exact R. }
    specialize (IH (fst (fst (deliver s)))). destruct (deliver s) as [[s1 n1] e1]. cbn [fst] in *.
    destruct (deliver_n d s1) as [[s2 n2] e2]. cbn [fst] in *. destruct D, IH. split; congruence.
  Qed.
  Lemma step_frame s o :
    world (fst (step s o)) = match o with Mut w' _ _ | Copy w' => w' | _ => world s end /\
    listeners (fst (step s o)) = match o with
                                 | Listen => S (listeners s) | Unlisten => pred (listeners s) | Copy _ => 0%nat
                                 | _ => listeners s
                                 end.
  Proof.
    destruct o as [|w' t d| | |w']; cbn [step]; try (split; reflexivity).
    - pose proof (read_frame s) as R. destruct (read s) as [[s' v] n]. exact R.
    - pose proof (deliver_n_frame d (mkState w' (cache s) (listeners s))) as D.
      destruct (deliver_n d _) as [[s' n] ev]. exact D.
  Qed.

  (* the budget of a cached getter: it runs only when the cache is empty ([slack]), and only a mutation of a
     dependency or a copy empties the cache *)
  Lemma getter_budget s o : cached = true -> faithful s o ->
    (o_getter (snd (step s o)) + slack (fst (step s o)) <= if quiet o then slack s else 1)%nat.
  Proof.
    intros Cd F. destruct o as [|w' t d| | |w']; cbn [step quiet].
    - unfold read, slack. rewrite Cd. destruct (cache s) as [v|] eqn:C; cbn [fst snd o_getter cache]; [rewrite C|]; lia.
    - destruct F as (_ & F2 & F3). destruct d as [|[|d]]; [| |lia].
      + cbn [deliver_n fst snd o_getter]. unfold slack. cbn [cache]. destruct (negb t), (cache s); lia.
      + destruct t; [|destruct (F2 eq_refl); discriminate]. cbn [deliver_n negb].
        pose proof (deliver_spec (mkState w' (cache s) (listeners s))) as D.
        destruct (deliver _) as [[s1 n1] e1]. cbn [fst snd o_getter world listeners cache] in *.
        destruct D as (_ & _ & _ & -> & _ & Cc). unfold slack. rewrite (Cc Cd). destruct (listeners s); lia.
    - unfold slack. cbn [fst snd o_getter cache]. lia.
    - unfold slack. cbn [fst snd o_getter cache]. lia.
    - unfold slack. cbn [fst snd o_getter cache]. lia.
  Qed.

  Lemma quiet_run : cached = true -> forall ops s, faithful_hist s ops -> forallb quiet ops = true ->
    (total_getter (fst (run s ops)) <= slack s)%nat.
  Proof.
    intros Cd. induction ops as [|o ops IH]; intros s F Q; cbn [run]; [cbn; lia|].
    destruct F as [F1 F2]. cbn [forallb] in Q. apply andb_true_iff in Q. destruct Q as [Qo Q].
    pose proof (getter_budget s o Cd F1) as S1. rewrite Qo in S1. specialize (IH (fst (step s o)) F2 Q).
    destruct (step s o) as [s1 ob]. cbn [fst snd] in *. destruct (run s1 ops) as [tr s2].
    cbn [fst total_getter] in *. lia.
  Qed.

  Definition kind_of (o : op) : okind :=
    match o with Read => KRead | Mut _ t _ => KMut t | Listen => KListen | Unlisten => KUnlisten | Copy _ => KCopy end.
  Definition delivered_of (o : op) : nat := match o with Mut _ _ d => d | _ => 0%nat end.
  Definition observe1 (s : state) (o : op) : okind * iobs :=
    let '(s', ob) := step s o in
    (kind_of o, mkI (o_val ob) (f (world s')) (view (world s')) (o_getter ob) (o_events ob) (delivered_of o) (cache s')).
  Fixpoint observe (s : state) (ops : list op) : list (okind * iobs) :=
    match ops with [] => [] | o :: r => observe1 s o :: observe (fst (step s o)) r end.

  Lemma events_current s o : faithful s o ->
    forall e, In e (o_events (snd (step s o))) -> snd e = f (world (fst (step s o))).
  Proof.
    intros F e. rewrite (proj1 (step_frame s o)). destruct o as [|w' t d| | |w']; cbn [step]; try (intros []).
    - destruct (read s) as [[s' v] n]. intros [].
    - destruct F as (_ & _ & F3). destruct d as [|[|d]]; [intros []| |lia]. cbn [deliver_n].
      pose proof (deliver_spec (mkState w' (cache s) (listeners s))) as D. destruct (deliver _) as [[s1 n1] e1].
      cbn [fst snd o_events world listeners cache] in *. destruct D as (_ & _ & _ & _ & -> & _). rewrite app_nil_r.
      destruct (listeners s); [intros []|intros [<-|[]]; reflexivity].
  Qed.

  Lemma chk_ok c b : b = true -> chk c b = [].
  Proof. intros ->. reflexivity. Qed.

  (* one step of the law on the model's own observation: clause 1 is [read_current], 2 [getter_budget],
     3 [change_notified], 4 [events_current] *)
  Lemma law_step_ok s o runs : inv s -> faithful s o -> (cached = true -> (runs + slack s <= 1)%nat) ->
    exists runs',
      law_step cached (f (world s)) runs (listeners s) (fst (observe1 s o)) (snd (observe1 s o))
        = ([], runs', listeners (fst (step s o)))
      /\ i_oracle (snd (observe1 s o)) = f (world (fst (step s o)))
      /\ (cached = true -> (runs' + slack (fst (step s o)) <= 1)%nat).
  Proof.
    intros I F J. unfold observe1, law_step. destruct (step_frame s o) as [Wd Ls].
    pose proof (events_current s o F) as Ev. pose proof (fun Cd => getter_budget s o Cd F) as B.
    assert (o = Read -> o_val (snd (step s o)) = Some (f (world s))) as Rc by (intros ->; apply (read_current s I)).
    assert (forall w' t d, o = Mut w' t d -> f (world s) <> f w' -> (0 < listeners s)%nat ->
              exists old, o_events (snd (step s o)) = [(old, f w')]) as Cn
        by (intros w' t d ->; apply (change_notified s w' t d F)).
    destruct (step s o) as [s' ob]. cbn [fst snd i_val i_oracle i_getter i_events] in *.
    assert (cached = true -> ((match kind_of o with KMut true | KCopy => 0 | _ => runs end) + o_getter ob + slack s' <= 1)%nat) as K2.
    { intros Cd. specialize (B Cd). specialize (J Cd). destruct o as [|w' [|] d| | |w']; cbn [kind_of quiet negb] in *; lia. }
    eexists. split; [|split; [reflexivity|exact K2]]. f_equal; [f_equal|].
    - rewrite (chk_ok 2), (chk_ok 4).
      + destruct o as [|w' t d| | |w']; cbn [kind_of app]; try reflexivity; (rewrite chk_ok; [reflexivity|]).
        * rewrite (Rc eq_refl), Wd. apply Z.eqb_refl.
        * rewrite Wd. destruct (Z.eqb_spec (f (world s)) (f w')) as [|N]; [reflexivity|].
          destruct (Nat.eqb_spec (listeners s) 0) as [|L]; [reflexivity|].
          destruct (Cn w' t d eq_refl N) as [old ->]; [lia|reflexivity].
      + apply forallb_forall. intros e He. rewrite (Ev e He). apply Z.eqb_refl.
      + destruct cached; [|reflexivity]. apply Nat.leb_le. specialize (K2 eq_refl). lia.
    - rewrite Ls. destruct o; reflexivity.
  Qed.

  Lemma law_model : forall ops s i runs, inv s -> faithful_hist s ops ->
    (cached = true -> (runs + slack s <= 1)%nat) ->
    law_hist cached i (f (world s)) runs (listeners s) (observe s ops) = [].
  Proof.
    induction ops as [|o ops IH]; intros s i runs I F J; [reflexivity|].
    destruct F as [F1 F2]. cbn [observe law_hist].
    destruct (law_step_ok s o runs I F1 J) as (runs' & L & O & J').
    destruct (observe1 s o) as [k ob] eqn:Ob. cbn [fst snd] in *. rewrite L. cbn [map app].
    rewrite O. apply IH; [apply (step_inv s o I F1)|exact F2|exact J'].
  Qed.
End Proofs.
