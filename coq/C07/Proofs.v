(* C07 — proofs that the model of TraitSet satisfies the law, for every
   validator, every state and every operation / history. *)
From Coq Require Import ZArith List Bool.
From TV Require Import Common.LSet Common.Harness C07.Model C07.Law.
Import ListNotations.
Open Scope Z_scope.

Lemma chk_nil k b : chk k b = [] <-> b = true.
Proof. destruct b; cbn; split; intros; congruence. Qed.

Lemma app_nil_iff {A} (a b : list A) : a ++ b = [] <-> a = [] /\ b = [].
Proof. split; [apply app_eq_nil | intros [-> ->]; reflexivity]. Qed.

Lemma seteq_cong_r s a b : seteq a b = true -> seteq s a = seteq s b.
Proof.
  intros H. rewrite seteq_spec in H. apply eq_true_iff_eq. rewrite !seteq_spec.
  split; intros E x; rewrite E; [apply H | symmetry; apply H].
Qed.

(* The heart of the silence / exactly-one-event clauses. *)
Lemma delta_changed s rem add :
  subset rem s = true -> disjoint add s = true ->
  seteq s (union (diff s rem) add) = is_empty rem && is_empty add.
Proof.
  intros Hs Hd. rewrite subset_spec in Hs. rewrite disjoint_spec in Hd.
  destruct (is_empty rem) eqn:Er.
  - rewrite is_empty_spec in Er. destruct (is_empty add) eqn:Ea.
    + rewrite is_empty_spec in Ea. apply seteq_spec. intro x. mem_norm.
      rewrite Er, Ea. destruct (mem x s); reflexivity.
    + apply is_empty_false in Ea. destruct Ea as [y Hy]. cbn.
      destruct (seteq _ _) eqn:E; [|reflexivity]. rewrite seteq_spec in E.
      specialize (E y). mem_norm. rewrite Hy, (Hd y Hy) in E. cbn in E. discriminate.
  - apply is_empty_false in Er. destruct Er as [y Hy]. cbn.
    destruct (seteq _ _) eqn:E; [|reflexivity]. rewrite seteq_spec in E.
    specialize (E y). mem_norm. pose proof (Hs y Hy) as Hys. rewrite Hy, Hys in E. cbn in E.
    symmetry in E. apply Hd in E. congruence.
Qed.

Lemma fold_subset (f : list Z -> list Z -> list Z) :
  (forall a b x, mem x (f a b) = true -> mem x a = true) ->
  forall args s x, mem x (fold_left f args s) = true -> mem x s = true.
Proof.
  intros Hf. induction args as [|a args IH]; intros s x H; [exact H|]. eapply Hf, IH, H.
Qed.
Lemma mem_diff_l a b x : mem x (diff a b) = true -> mem x a = true.
Proof. rewrite mem_diff. intros H. apply andb_true_iff in H. tauto. Qed.
Lemma mem_inter_l a b x : mem x (inter a b) = true -> mem x a = true.
Proof. rewrite mem_inter. intros H. apply andb_true_iff in H. tauto. Qed.

(* The notifications of one operation that takes [s] to [after]: none, and the contents are as they were,
   or one non-empty delta. *)
Inductive delta (s after : list Z) : list (list Z * list Z) -> Prop :=
| delta_none : seteq after s = true -> delta s after []
| delta_one rem add :
    subset rem s = true -> disjoint add s = true -> seteq after (union (diff s rem) add) = true ->
    is_empty rem && is_empty add = false -> delta s after [(rem, add)].

Lemma delta_if s after rem add :
  subset rem s = true -> disjoint add s = true ->
  seteq after (union (diff s rem) add) = true ->
  delta s after (if is_empty rem && is_empty add then [] else [(rem, add)]).
Proof.
  intros Hs Hd Ha. destruct (is_empty rem && is_empty add) eqn:E.
  - apply delta_none. eapply seteq_trans; [exact Ha|]. rewrite seteq_sym.
    rewrite delta_changed by assumption. exact E.
  - apply delta_one; assumption.
Qed.

(* clauses 4-7 *)
Lemma delta_chk s after evs :
  delta s after evs ->
  chk 4 (Nat.leb (length evs) 1)
  ++ chk 5 (negb (negb (seteq s after)) || negb (is_nil evs))
  ++ chk 6 (negb (seteq s after) || is_nil evs)
  ++ chk 7 (forallb (event_ok s after) evs) = [].
Proof.
  intros [H | rem add Hs Hd Ha Hne].
  - rewrite seteq_sym in H. rewrite H. reflexivity.
  - rewrite (seteq_cong_r s _ _ Ha), delta_changed, Hne by assumption.
    cbn. rewrite Hs, Hd, Hne. rewrite seteq_sym in Ha. rewrite Ha. reflexivity.
Qed.

Lemma delta_events s after evs rem add :
  delta s after evs -> In (rem, add) evs ->
  (forall x, mem x rem = true -> mem x s = true) /\
  (forall x, mem x add = true -> mem x s = false) /\
  (forall x, mem x after = (mem x s && negb (mem x rem)) || mem x add) /\
  (exists x, mem x rem = true \/ mem x add = true).
Proof.
  intros [H | rem' add' Hs Hd Ha Hne] Hin; [contradiction Hin|]. destruct Hin as [Heq|[]]. injection Heq as -> ->.
  rewrite subset_spec in Hs. rewrite disjoint_spec in Hd. rewrite seteq_spec in Ha.
  split; [exact Hs|]. split; [exact Hd|]. split.
  - intro x. rewrite Ha. mem_norm. reflexivity.
  - apply andb_false_iff in Hne. destruct Hne as [Hn|Hn];
      apply is_empty_false in Hn; destruct Hn as [x Hx]; exists x; tauto.
Qed.

Lemma delta_silent s after evs :
  delta s after evs ->
  (seteq s after = true -> evs = []) /\ (seteq s after = false -> exists ev, evs = [ev]).
Proof.
  intros [H | rem add Hs Hd Ha Hne].
  - rewrite seteq_sym, H. split; [reflexivity | discriminate].
  - rewrite (seteq_cong_r s _ _ Ha), delta_changed, Hne by assumption. split; [discriminate | eauto].
Qed.

Lemma removed_only_delta s new :
  (forall x, mem x new = true -> mem x s = true) ->
  delta s new (if is_empty (diff s new) then [] else [(diff s new, [])]).
Proof.
  intros Hsub. pose proof (delta_if s new (diff s new) []) as H. cbn [is_empty] in H. rewrite andb_true_r in H.
  apply H; [seteq_tac | reflexivity |].
  apply seteq_spec. intro x. mem_norm. specialize (Hsub x).
  destruct (mem x new), (mem x s); cbn in *; try reflexivity. discriminate Hsub. reflexivity.
Qed.

Lemma outcome_eqb_refl o : outcome_eqb o o = true.
Proof. destruct o as [|[]]; reflexivity. Qed.

Section Main.
  Variable vld : Z -> option Z.

  (* [ob], shown by an operation on [s], against the built-in set's (outcome, contents) *)
  Definition agrees (s : list Z) (copy : bool) (ob : obs) (b : outcome * list Z) : Prop :=
    let '(bo, ba) := b in
    o_out ob = bo /\ seteq (o_after ob) ba = true /\ delta s (o_after ob) (o_events ob) /\
    (is_raise bo = true -> o_after ob = s /\ o_events ob = []) /\
    (copy = true -> o_after ob = s /\ o_copy_validates ob = Some true) /\
    o_observed ob = None.

  Lemma agrees_law s o ob : agrees s (is_copy o) ob (builtin vld s o (o_ret ob)) -> law_step vld s o ob = [].
  Proof.
    unfold law_step. destruct (builtin vld s o (o_ret ob)) as [bo ba]. intros (H1 & H2 & Hd & H3 & H8 & H9).
    assert (C3 : negb (is_raise bo) || (seteq (o_after ob) s && is_nil (o_events ob)) = true).
    { destruct (is_raise bo); [|reflexivity]. destruct (H3 eq_refl) as [-> ->]. rewrite seteq_refl. reflexivity. }
    assert (C8 : negb (is_copy o) ||
                 (seteq (o_after ob) s && match o_copy_validates ob with Some true => true | _ => false end) = true).
    { destruct (is_copy o); [|reflexivity]. destruct (H8 eq_refl) as [-> ->]. rewrite seteq_refl. reflexivity. }
    rewrite H1, outcome_eqb_refl, H2, C3, C8, H9. cbn [chk app]. rewrite app_nil_r. apply delta_chk, Hd.
  Qed.

  Lemma agrees_raise s e : agrees s false (raise e s) (Raise e, s).
  Proof.
    split; [reflexivity|]. split; [apply seteq_refl|]. split; [apply delta_none, seteq_refl|].
    split; [intros _; split; reflexivity|]. split; [discriminate | reflexivity].
  Qed.

  Lemma agrees_ok s new evs r ba :
    seteq new ba = true -> delta s new evs -> agrees s false (mkObs Ok new evs r None None) (Ok, ba).
  Proof. intros H2 Hd. split; [reflexivity|]. do 4 (split; [assumption || discriminate|]). reflexivity. Qed.

  Lemma agrees_removed_only s new :
    (forall x, mem x new = true -> mem x s = true) -> agrees s false (removed_only s new) (Ok, new).
  Proof. intros Hsub. apply agrees_ok; [apply seteq_refl | apply removed_only_delta, Hsub]. Qed.

  Lemma agrees_xor s l :
    agrees s false
      (let removed := inter s l in
       let raw := diff l removed in
       match vld_all vld raw with
       | None => raise TraitError s
       | Some va =>
           let added := diff va s in
           ok (union (diff s removed) added)
             (if is_empty removed && is_empty added then [] else [(removed, added)])
       end)
      (validated vld (diff l s) (fun vs => (Ok, union (diff s l) (diff vs s))) s).
  Proof.
    cbn zeta. rewrite diff_inter_l. unfold validated.
    destruct (vld_all vld (diff l s)) as [va|]; [|apply agrees_raise].
    apply agrees_ok; [seteq_tac | apply delta_if; seteq_tac].
  Qed.

  Definition not_detached (o : op) : bool := match o with Copy CopyPickleDetached => false | _ => true end.

  Theorem step_agrees s o :
    not_detached o = true -> agrees s (is_copy o) (step vld s o) (builtin vld s o (o_ret (step vld s o))).
  Proof.
    intros Hnd.
    destruct o as [x|x|x|hint| |args|a|a|a|a|args|args|l|k]; cbn [step builtin is_copy]; unfold validated.
    - (* Add *)
      cbn [vld_all]. destruct (vld x) as [v|]; [|apply agrees_raise].
      destruct (mem v s) eqn:Em; apply agrees_ok; try seteq_tac.
      + apply delta_none, seteq_refl.
      + apply delta_one; [reflexivity | cbn; rewrite Em; reflexivity | seteq_tac | reflexivity].
    - (* Discard *)
      destruct (mem x s) eqn:Em; apply agrees_ok; try seteq_tac.
      + apply delta_one; [cbn; rewrite Em; reflexivity | reflexivity | seteq_tac | reflexivity].
      + apply delta_none, seteq_refl.
    - (* Remove *)
      destruct (mem x s) eqn:Em; [|apply agrees_raise]. apply agrees_ok; [apply seteq_refl|].
      apply delta_one; [cbn; rewrite Em; reflexivity | reflexivity | seteq_tac | reflexivity].
    - (* Pop: the element returned is a member *)
      destruct s as [|h t]; [apply agrees_raise|]. cbn iota zeta. set (s := h :: t).
      set (x := match hint with Some y => if mem y s then y else h | None => h end).
      assert (Hx : mem x s = true).
      { subst x. destruct hint as [y|]; [destruct (mem y s) eqn:E; [exact E|] |];
          subst s; rewrite mem_cons, Z.eqb_refl; reflexivity. }
      assert (He : is_empty s = false) by reflexivity. clearbody x s. cbn [o_ret]. rewrite He, Hx.
      apply agrees_ok; [apply seteq_refl|].
      apply delta_one; [unfold subset; cbn [forallb]; rewrite Hx; reflexivity | reflexivity | seteq_tac | reflexivity].
    - (* Clear *)
      destruct (is_empty s) eqn:Ee; apply agrees_ok; try reflexivity.
      + apply delta_none. destruct s; [reflexivity | discriminate].
      + apply delta_one; [seteq_tac | reflexivity | seteq_tac | cbn; rewrite Ee; reflexivity].
    - (* Update *)
      destruct (vld_all vld (concat args)) as [vs|]; [|apply agrees_raise].
      apply agrees_ok; [seteq_tac|]. apply (delta_if s _ [] (diff vs s)); [reflexivity | seteq_tac | seteq_tac].
    - (* Ior *)
      destruct a as [l|l]; [|apply agrees_raise]. destruct (vld_all vld l) as [vs|]; [|apply agrees_raise].
      apply agrees_ok; [apply seteq_refl|].
      apply (delta_if s _ [] (diff (union s vs) s)); [reflexivity | seteq_tac | seteq_tac].
    - (* Iand *) destruct a as [l|l]; [apply agrees_removed_only, mem_inter_l | apply agrees_raise].
    - (* Isub *) destruct a as [l|l]; [apply agrees_removed_only, mem_diff_l | apply agrees_raise].
    - (* Ixor *) destruct a as [l|l]; [apply agrees_xor | apply agrees_raise].
    - (* DiffUpdate *) apply agrees_removed_only, (fold_subset diff mem_diff_l).
    - (* InterUpdate *) apply agrees_removed_only, (fold_subset inter mem_inter_l).
    - (* SymDiffUpdate *) apply agrees_xor.
    - (* Copy *)
      destruct k; try discriminate Hnd;
        (split; [reflexivity|]; split; [apply seteq_refl|]; split; [apply delta_none, seteq_refl|];
         repeat split; discriminate).
  Qed.

  Theorem step_law s o : not_detached o = true -> law_step vld s o (step vld s o) = [].
  Proof. intros Hnd. apply agrees_law, step_agrees, Hnd. Qed.

  Theorem run_law : forall ops s i, forallb not_detached ops = true -> law_hist vld i s (run vld s ops) = [].
  Proof.
    induction ops as [|o ops IH]; intros s i Hnd; cbn [run law_hist]; [reflexivity|].
    cbn [forallb] in Hnd. apply andb_true_iff in Hnd. destruct Hnd as [Ho Hr].
    rewrite (step_law s o Ho). cbn [map app]. apply IH. exact Hr.
  Qed.

  (* the known finding: the detached pickle copy fails the copy clause (and only it) *)
  Lemma detached_copy_refuted s : law_step vld s (Copy CopyPickleDetached) (step vld s (Copy CopyPickleDetached)) = [8].
  Proof.
    cbn [step]. unfold law_step. cbn [builtin o_ret o_out o_after o_events o_copy_validates o_observed outcome_eqb is_raise negb orb is_copy].
    rewrite !seteq_refl. cbn. reflexivity.
  Qed.

  Lemma step_events_delta s o :
    not_detached o = true -> delta s (o_after (step vld s o)) (o_events (step vld s o)).
  Proof.
    intros Hnd. pose proof (step_agrees s o Hnd) as H.
    destruct (builtin vld s o (o_ret (step vld s o))) as [bo ba]. apply H.
  Qed.

  Lemma step_failing_inert s o e (Hnd : not_detached o = true) :
    o_out (step vld s o) = Raise e ->
    (forall x, mem x (o_after (step vld s o)) = mem x s) /\ o_events (step vld s o) = [].
  Proof.
    intros He. pose proof (step_agrees s o Hnd) as H.
    destruct (builtin vld s o (o_ret (step vld s o))) as [bo ba]. destruct H as (H1 & _ & _ & H3 & _).
    rewrite He in H1. subst bo. destruct (H3 eq_refl) as [Ha Hev]. rewrite Ha, Hev. split; reflexivity.
  Qed.

  Lemma step_refines_builtin s o (Hnd : not_detached o = true) :
    let ob := step vld s o in
    let '(bo, ba) := builtin vld s o (o_ret ob) in
    o_out ob = bo /\ (forall x, mem x (o_after ob) = mem x ba).
  Proof.
    cbn zeta. pose proof (step_agrees s o Hnd) as H.
    destruct (builtin vld s o (o_ret (step vld s o))) as [bo ba]. destruct H as (H1 & H2 & _).
    split; [exact H1 | apply seteq_spec, H2].
  Qed.

  (* For a validator that never converts (accept-or-reject), ^= and
     symmetric_difference_update compute exactly the built-in symmetric difference. *)
  Lemma vld_all_id (Hid : forall x y, vld x = Some y -> y = x) xs vs : vld_all vld xs = Some vs -> vs = xs.
  Proof.
    revert vs. induction xs as [|x r IH]; cbn; intros vs H; [congruence|].
    destruct (vld x) as [y|] eqn:Ex; [|discriminate]. destruct (vld_all vld r) as [ys|]; [|discriminate].
    injection H as <-. rewrite (Hid _ _ Ex), (IH ys); reflexivity.
  Qed.

  Lemma sdu_is_symmetric_difference (Hid : forall x y, vld x = Some y -> y = x) s l :
    o_out (step vld s (SymDiffUpdate l)) = Ok ->
    forall x, mem x (o_after (step vld s (SymDiffUpdate l))) = xorb (mem x s) (mem x l).
  Proof.
    cbn [step]. rewrite diff_inter_l. destruct (vld_all vld (diff l s)) as [va|] eqn:Ev; [|discriminate].
    intros _ x. apply (vld_all_id Hid) in Ev. subst va. cbn [ok o_after]. mem_norm.
    destruct (mem x s), (mem x l); reflexivity.
  Qed.
End Main.
