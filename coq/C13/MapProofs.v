(* C13 — the law on histories of one mapped pair (name, name_), proved directly on Model.step
   (no use of the plain-trait invariant of Proofs.v).  Setting: any class-level rule, any
   class tables, any object state in which add_trait(name, Map(m, default d)) has installed
   the pair (instance traits PMap at name, PShadow at name_), d a key of m; histories of
   get / set / del on name and name_ of any length. *)
From Coq Require Import ZArith List Bool Lia.
From TV Require Import Common.Harness C13.Model C13.Law C13.Corr C13.Proofs.
Import ListNotations.
Open Scope Z_scope.

Lemma removelast_snoc : forall (n : name) x, removelast (n ++ [x]) = n.
Proof. intros. apply removelast_last. Qed.
Lemma ends_us_snoc : forall (n : name), ends_us (n ++ [US]) = true.
Proof. intro n. unfold ends_us. rewrite rev_app_distr. simpl. reflexivity. Qed.

(* the law's bookkeeping agrees with the object *)
Definition Agree (s : state) (ls : lstate) : Prop :=
  l_itd ls = s_itd s /\ forall k, assoc k (l_od ls) = assoc k (s_od s).

(* The law re-reads what is stored for name, name_ and name[:-1] from the observation, so its
   bookkeeping follows any operation that changed obj.__dict__ at these names only. *)
Lemma resync3_agree : forall (l od od' : list (name * Z)) k,
  (forall a, assoc a l = assoc a od) ->
  (forall a, name_eqb k a = false -> name_eqb (k ++ [US]) a = false ->
             (ends_us k = true -> name_eqb (removelast k) a = false) -> assoc a od' = assoc a od) ->
  forall a,
    assoc a (let od2 := resync (k ++ [US]) (assoc (k ++ [US]) od') (resync k (assoc k od') l) in
             if ends_us k then resync (removelast k) (if ends_us k then assoc (removelast k) od' else None) od2
             else od2) = assoc a od'.
Proof.
  intros l od od' k Ao Hf a. cbv zeta.
  assert (Base : (ends_us k = true -> name_eqb (removelast k) a = false) ->
                 assoc a (resync (k ++ [US]) (assoc (k ++ [US]) od') (resync k (assoc k od') l)) = assoc a od').
  { intro H3. rewrite !assoc_resync. destruct (name_eqb (k ++ [US]) a) eqn:E2; auto.
    destruct (name_eqb k a) eqn:E1; auto. rewrite Ao. symmetry. apply Hf; auto. }
  destruct (ends_us k); [|apply Base; discriminate].
  rewrite assoc_resync. destruct (name_eqb (removelast k) a) eqn:E3; auto.
Qed.

Lemma access_agree3 : forall (crule : name -> rule) pt s ls o, Agree s ls -> is_access o = true ->
  (forall a, name_eqb (op_name o) a = false -> name_eqb (op_name o ++ [US]) a = false ->
             (ends_us (op_name o) = true -> name_eqb (removelast (op_name o)) a = false) ->
             assoc a (s_od (fst (step pt s o))) = assoc a (s_od s)) ->
  Agree (fst (step pt s o)) (law_next crule ls o (snd (step pt s o))).
Proof.
  intros crule pt s ls o [Ai Ao] Ha Fr. pose proof (step_itd_access pt s o Ha) as Hi.
  destruct (step_out pt s o) as (s2 & x & E). rewrite E in *. cbn [fst out] in Hi, Fr.
  unfold Agree, law_next, out. cbn [l_itd l_od fst snd o_out o_stored o_shadow o_base]. split.
  - rewrite Hi. destruct o; try discriminate Ha; exact Ai.
  - intro a. pose proof (resync3_agree (l_od ls) (s_od s) (s_od s2) (op_name o) Ao Fr a) as G.
    destruct o; try discriminate Ha; exact G.
Qed.

(* Histories of a life: if the operations [ok] pass the law and keep a state predicate P and the
   agreement, so does every sequence of them, also when closed by an operation [last] that passes. *)
Section Histories.
  Variable crule : name -> rule.
  Variable pt : ptab.
  Variable P : state -> Prop.
  Variable ok : op -> bool.
  Variable last : op.
  Hypothesis ok_step : forall s ls o, P s -> Agree s ls -> ok o = true ->
    law_step crule ls o (snd (step pt s o)) = [] /\ P (fst (step pt s o)) /\
    Agree (fst (step pt s o)) (law_next crule ls o (snd (step pt s o))).
  Hypothesis last_step : forall s ls, P s -> Agree s ls ->
    law_step crule ls last (snd (step pt s last)) = [].

  Lemma life_law : forall ops s ls i, P s -> Agree s ls -> forallb ok ops = true ->
    law_hist crule i ls (run pt s ops) = [] /\ law_hist crule i ls (run pt s (ops ++ [last])) = [].
  Proof.
    induction ops as [|o r IH]; intros s ls i HP HA Hf; cbn [app run].
    - split; [reflexivity|]. pose proof (last_step s ls HP HA) as A.
      destruct (step pt s last) as [s' ob]. cbn [law_hist snd run] in *. rewrite A. reflexivity.
    - cbn [forallb] in Hf. apply andb_true_iff in Hf. destruct Hf as [Ho Hr].
      destruct (ok_step s ls o HP HA Ho) as (A & B & C).
      destruct (step pt s o) as [s' ob]. cbn [law_hist fst snd] in *. rewrite A. apply IH; auto.
  Qed.
End Histories.

Section Pair.
  Variable crule : name -> rule.
  Variable pt : ptab.
  Variable n : name.
  Variable m : list (Z * Z).
  Variable d wd : Z.
  Hypothesis d_key : zassoc d m = Some wd.
  Notation n_ := (n ++ [US]).

  Definition Pair (s : state) : Prop :=
    assoc n (s_itd s) = Some (PMap m d) /\ assoc n_ (s_itd s) = Some (PShadow m).
  Definition pair_op (o : op) : bool :=
    is_access o && (name_eqb (op_name o) n || name_eqb (op_name o) n_).

  Lemma nn_ : name_eqb n n_ = false /\ name_eqb n_ n = false.
  Proof. split; [apply name_app_neq|rewrite name_eqb_sym; apply name_app_neq]. Qed.

  Lemma pair_op_ind : forall Q : op -> Prop,
    Q (OGet n) -> Q (OGet n_) -> (forall v, Q (OSet n v)) -> (forall v, Q (OSet n_ v)) -> Q (ODel n) -> Q (ODel n_) ->
    forall o, pair_op o = true -> Q o.
  Proof.
    intros Q G G_ S S_ D D_ o Ho. unfold pair_op in Ho. apply andb_true_iff in Ho. destruct Ho as [Ha Hn].
    apply orb_true_iff in Hn.
    destruct o as [k|k v|k|k q|k]; try discriminate Ha; cbn [op_name] in Hn;
      destruct Hn as [Hn|Hn]; apply name_eqb_eq in Hn; subst k; auto.
  Qed.

  Lemma Pair_set_od : forall s od, Pair s -> Pair (set_od s od).
  Proof. intros s od H. exact H. Qed.
  Lemma nested_set_pair : forall s w, Pair s ->
    nested_set pt s n_ w = (set_od s (aset n_ w (s_od s)), None).
  Proof.
    intros s w [_ H2]. unfold nested_set, lookup_set. rewrite H2. reflexivity.
  Qed.
  Lemma post_map_pair : forall s v, Pair s ->
    post_map pt s n m v = match zassoc v m with
                          | Some w => (set_od s (aset n_ w (s_od s)), None)
                          | None => (s, Some OtherError)
                          end.
  Proof. intros s v H. unfold post_map. destruct (zassoc v m); [apply nested_set_pair; exact H|reflexivity]. Qed.

  (* the value of name, its default materialised first where nothing is stored: getattr_trait
     stores d and post_setattr writes m[d] to name_ *)
  Definition settle (s : state) : state * Z :=
    match assoc n (s_od s) with
    | Some x => (s, x)
    | None => (set_od s (aset n_ wd (aset n d (s_od s))), d)
    end.

  Lemma get_with_n : forall ga s, Pair s -> (forall s0, ga s0 n (PMap m d) = getattr_map pt s0 n m d) ->
    get_with pt ga s n = out (fst (settle s)) n (Val (snd (settle s))).
  Proof.
    intros ga s HP Hga. unfold get_with, settle. destruct (assoc n (s_od s)); [reflexivity|].
    rewrite (proj1 HP), Hga. unfold getattr_map.
    rewrite (post_map_pair _ d (Pair_set_od s _ HP)), d_key. reflexivity.
  Qed.

  Lemma step_get_n : forall s, Pair s -> step pt s (OGet n) = out (fst (settle s)) n (Val (snd (settle s))).
  Proof. intros s HP. apply get_with_n; [exact HP|reflexivity]. Qed.

  (* the shadow's default is m[value of name] *)
  Lemma step_get_n_ : forall s, Pair s ->
    step pt s (OGet n_) =
    match assoc n_ (s_od s) with
    | Some v => out s n_ (Val v)
    | None =>
        let s1 := fst (settle s) in
        match zassoc (snd (settle s)) m with
        | Some w => out (set_od s1 (aset n_ w (s_od s1))) n_ (Val w)
        | None => out s1 n_ (Raise (if Z.eqb (snd (settle s)) VEmptyList then TypeError else OtherError))
        end
    end.
  Proof.
    intros s HP. cbn [step]. unfold get_with at 1. destruct (assoc n_ (s_od s)); [reflexivity|].
    rewrite (proj2 HP). unfold getattr_m. rewrite removelast_snoc, (get_with_n _ s HP (fun _ => eq_refl)).
    reflexivity.
  Qed.

  (* setattr_trait of the Map: validation, old value (materialised), the new value stored, and
     post_setattr unless the value is unchanged *)
  Lemma step_set_n : forall s v, Pair s ->
    step pt s (OSet n v) =
    if negb (Z.eqb v VUndef) && match zassoc v m with Some _ => false | None => true end
    then out s n (Raise TraitError)
    else let s2 := set_od (fst (settle s)) (aset n v (s_od (fst (settle s)))) in
         if Z.eqb (snd (settle s)) v then out s2 n Done
         else match zassoc v m with
              | Some w => out (set_od s2 (aset n_ w (s_od s2))) n Done
              | None => out s2 n (Raise OtherError)
              end.
  Proof.
    intros s v HP. cbn [step]. unfold lookup_set. rewrite (proj1 HP). unfold setattr_m, settle.
    destruct (negb (Z.eqb v VUndef) && _); [reflexivity|].
    destruct (assoc n (s_od s)) as [o|]; cbn [fst snd].
    - destruct (Z.eqb o v); [reflexivity|].
      rewrite (post_map_pair _ v (Pair_set_od s _ HP)). destruct (zassoc v m); reflexivity.
    - rewrite (post_map_pair _ d (Pair_set_od s _ HP)), d_key. destruct (Z.eqb d v); [reflexivity|].
      cbv zeta. rewrite post_map_pair by exact HP. destruct (zassoc v m); reflexivity.
  Qed.

  Lemma step_set_n_ : forall s v, Pair s -> step pt s (OSet n_ v) = out (set_od s (aset n_ v (s_od s))) n_ Done.
  Proof. intros s v HP. cbn [step]. unfold lookup_set. rewrite (proj2 HP). reflexivity. Qed.
  Lemma step_del_n : forall s, Pair s -> step pt s (ODel n) = out (set_od s (adel n (s_od s))) n Done.
  Proof. intros s HP. cbn [step]. unfold lookup_set. rewrite (proj1 HP). reflexivity. Qed.
  Lemma step_del_n_ : forall s, Pair s -> step pt s (ODel n_) = out (set_od s (adel n_ (s_od s))) n_ Done.
  Proof. intros s HP. cbn [step]. unfold lookup_set. rewrite (proj2 HP). reflexivity. Qed.

  (* what an access of the pair leaves alone: the class dictionary, the instance traits, and
     obj.__dict__ outside name and name_ *)
  Definition Rest (s s' : state) : Prop :=
    s_ctd s' = s_ctd s /\ s_itd s' = s_itd s /\
    forall k, name_eqb n k = false -> name_eqb n_ k = false -> assoc k (s_od s') = assoc k (s_od s).

  (* a [Rest] goal on an explicit state: both dictionaries are the same terms, and obj.__dict__ differs
     by aset / adel at name and name_ only (assoc_aset, assoc_adel at a third name) *)
  Ltac rest := unfold Rest, settle;
    repeat match goal with |- context [assoc n (s_od ?s)] => destruct (assoc n (s_od s)) end;
    (split; [reflexivity|split; [reflexivity|]]);
    intros k K1 K2; cbn [fst s_od set_od]; rewrite ?assoc_aset, ?assoc_adel, ?K1, ?K2; reflexivity.

  Lemma pair_shape : forall s o, Pair s -> pair_op o = true ->
    exists s' x, step pt s o = out s' (op_name o) x /\ Rest s s'.
  Proof.
    intros s o HP. revert o. apply pair_op_ind; [| |intro v|intro v| |]; cbn [op_name].
    - rewrite step_get_n by exact HP. do 2 eexists. split; [reflexivity|rest].
    - rewrite step_get_n_ by exact HP. destruct (assoc n_ (s_od s)); [|cbv zeta; destruct (zassoc (snd (settle s)) m)];
        (do 2 eexists; split; [reflexivity|rest]).
    - rewrite step_set_n by exact HP. destruct (negb _ && _); [|cbv zeta; destruct (Z.eqb _ v); [|destruct (zassoc v m)]];
        (do 2 eexists; split; [reflexivity|rest]).
    - rewrite step_set_n_ by exact HP. do 2 eexists. split; [reflexivity|rest].
    - rewrite step_del_n by exact HP. do 2 eexists. split; [reflexivity|rest].
    - rewrite step_del_n_ by exact HP. do 2 eexists. split; [reflexivity|rest].
  Qed.

  Lemma gov_n : forall s ls, Pair s -> Agree s ls -> governing crule ls n = RPol (PMap m d).
  Proof. intros s ls [H _] [A _]. unfold governing. rewrite A, H. reflexivity. Qed.
  Lemma gov_n_ : forall s ls, Pair s -> Agree s ls -> governing crule ls n_ = RPol (PShadow m).
  Proof. intros s ls [_ H] [A _]. unfold governing. rewrite A, H. reflexivity. Qed.

  (* what each access of the pair is shown to do: pass the law, keep the pair installed, keep the agreement *)
  Definition Good (s : state) (ls : lstate) (o : op) : Prop :=
    law_step crule ls o (snd (step pt s o)) = [] /\ Pair (fst (step pt s o)) /\
    Agree (fst (step pt s o)) (law_next crule ls o (snd (step pt s o))).

  (* the pair stays installed and the bookkeeping follows, whatever the access does *)
  Lemma Good_intro : forall s ls o, Pair s -> Agree s ls -> pair_op o = true ->
    law_step crule ls o (snd (step pt s o)) = [] -> Good s ls o.
  Proof.
    intros s ls o HP HA Ho Hl. destruct (pair_shape s o HP Ho) as (s' & x & E & Rc & Ri & Ro).
    unfold pair_op in Ho. apply andb_true_iff in Ho. destruct Ho as [Ha Hn].
    split; [exact Hl|split].
    - rewrite E. unfold Pair. cbn [fst out]. rewrite Ri. exact HP.
    - apply access_agree3; [exact HA|exact Ha|]. rewrite E. cbn [fst out]. intros a A1 A2 A3.
      apply orb_true_iff in Hn. destruct Hn as [Hn|Hn]; apply name_eqb_eq in Hn; rewrite Hn in *.
      + apply Ro; assumption.
      + rewrite removelast_snoc in A3. apply Ro; [apply A3, ends_us_snoc|exact A1].
  Qed.

  (* the law's step check on name / name_ with the governing policy put in; 10 * 6 and 10 * 1 are
     Law.kind_code of a Map and of its shadow *)
  Lemma LS_n : forall s ls o ob, Pair s -> Agree s ls -> is_access o = true -> op_name o = n ->
    law_step crule ls o ob =
    let '(w, ws) := demand_m crule ls (RPol (PMap m d)) (assoc n (s_od s)) o in
    chk (10 * 6 + 1) (class_ok w (o_out ob)) ++ chk (10 * 6 + 2) (value_ok w (o_out ob))
    ++ chk (10 * 6 + 3) (stored_ok ws (o_stored ob)).
  Proof.
    intros s ls o ob HP HA Ha Hn. pose proof HA as [Ai Ao]. unfold law_step. rewrite Hn.
    rewrite (gov_n s ls HP HA), Ao. destruct o; try discriminate Ha; reflexivity.
  Qed.
  Lemma LS_n_ : forall s ls o ob, Pair s -> Agree s ls -> is_access o = true -> op_name o = n_ ->
    law_step crule ls o ob =
    let '(w, ws) := demand_m crule ls (RPol (PShadow m)) (assoc n_ (s_od s)) o in
    chk (10 * 1 + 1) (class_ok w (o_out ob)) ++ chk (10 * 1 + 2) (value_ok w (o_out ob))
    ++ chk (10 * 1 + 3) (stored_ok ws (o_stored ob)).
  Proof.
    intros s ls o ob HP HA Ha Hn. pose proof HA as [Ai Ao]. unfold law_step. rewrite Hn.
    rewrite (gov_n_ s ls HP HA), Ao. destruct o; try discriminate Ha; reflexivity.
  Qed.

  Lemma law_get_n : forall s ls, Pair s -> Agree s ls ->
    law_step crule ls (OGet n) (snd (step pt s (OGet n))) = [].
  Proof.
    intros s ls HP HA. rewrite (LS_n s ls (OGet n) _ HP HA eq_refl eq_refl), (step_get_n s HP).
    unfold demand_m. cbn [op_name]. rewrite (gov_n_ s ls HP HA). unfold settle.
    destruct (assoc n (s_od s)); cbn; rewrite Z.eqb_refl; reflexivity.
  Qed.

  Lemma law_get_n_ : forall s ls, Pair s -> Agree s ls ->
    law_step crule ls (OGet n_) (snd (step pt s (OGet n_))) = [].
  Proof.
    intros s ls HP HA. rewrite (LS_n_ s ls (OGet n_) _ HP HA eq_refl eq_refl), (step_get_n_ s HP).
    unfold demand_m. cbn [op_name]. rewrite removelast_snoc, (gov_n s ls HP HA), (proj2 HA).
    destruct (assoc n_ (s_od s)); [cbn; rewrite Z.eqb_refl; reflexivity|].
    unfold settle. destruct (assoc n (s_od s)) as [x|]; cbn [fst snd]; rewrite ?d_key;
      [destruct (zassoc x m)|]; cbn; rewrite ?Z.eqb_refl; reflexivity.
  Qed.

  Lemma law_set_n : forall s ls v, Pair s -> Agree s ls ->
    law_step crule ls (OSet n v) (snd (step pt s (OSet n v))) = [].
  Proof.
    intros s ls v HP HA. destruct nn_ as [_ N2].
    rewrite (LS_n s ls (OSet n v) _ HP HA eq_refl eq_refl), (step_set_n s v HP).
    unfold demand_m. cbn [op_name]. rewrite (gov_n_ s ls HP HA).
    destruct (Z.eqb v VUndef); [reflexivity|]. cbn [negb andb].
    destruct (zassoc v m) as [w|].
    - (* a key: accepted, and it is the value of name afterwards *)
      cbv zeta. destruct (Z.eqb _ v); cbn; rewrite ?assoc_aset, ?N2, name_eqb_refl; cbn;
        rewrite Z.eqb_refl; reflexivity.
    - (* not a key: TraitError, nothing changes *)
      cbn. rewrite opt_eqb_refl. reflexivity.
  Qed.

  Lemma law_set_n_ : forall s ls v, Pair s -> Agree s ls ->
    law_step crule ls (OSet n_ v) (snd (step pt s (OSet n_ v))) = [].
  Proof.
    intros s ls v HP HA. rewrite (LS_n_ s ls (OSet n_ v) _ HP HA eq_refl eq_refl), (step_set_n_ s v HP).
    cbn. rewrite assoc_aset, name_eqb_refl. cbn. rewrite Z.eqb_refl. reflexivity.
  Qed.

  Lemma law_del_n : forall s ls, Pair s -> Agree s ls ->
    law_step crule ls (ODel n) (snd (step pt s (ODel n))) = [].
  Proof.
    intros s ls HP HA. rewrite (LS_n s ls (ODel n) _ HP HA eq_refl eq_refl), (step_del_n s HP).
    unfold demand_m. cbn [op_name]. rewrite (gov_n_ s ls HP HA). cbn.
    rewrite assoc_adel, name_eqb_refl. reflexivity.
  Qed.

  Lemma law_del_n_ : forall s ls, Pair s -> Agree s ls ->
    law_step crule ls (ODel n_) (snd (step pt s (ODel n_))) = [].
  Proof.
    intros s ls HP HA. rewrite (LS_n_ s ls (ODel n_) _ HP HA eq_refl eq_refl), (step_del_n_ s HP).
    cbn. rewrite assoc_adel, name_eqb_refl. reflexivity.
  Qed.

  Lemma pair_step : forall s ls o, Pair s -> Agree s ls -> pair_op o = true -> Good s ls o.
  Proof.
    intros s ls o HP HA Ho. apply Good_intro; auto. revert o Ho.
    apply pair_op_ind; auto using law_get_n, law_get_n_, law_set_n, law_set_n_, law_del_n, law_del_n_.
  Qed.

  (* add_trait(name, Map(m, d)): accepted, installs the pair, and the bookkeeping agrees *)
  Lemma pair_add : forall s ls, Agree s ls ->
    law_step crule ls (OAdd n (PMap m d)) (snd (step pt s (OAdd n (PMap m d)))) = [] /\
    Pair (fst (step pt s (OAdd n (PMap m d)))) /\
    Agree (fst (step pt s (OAdd n (PMap m d))))
          (law_next crule ls (OAdd n (PMap m d)) (snd (step pt s (OAdd n (PMap m d))))).
  Proof.
    intros s ls [Ai Ao]. destruct (add_mapped_installs pt s n m d) as (A & B & C).
    split; [reflexivity|split; [split; assumption|]].
    unfold Agree, law_next. cbn [step]. unfold out. cbn [fst snd o_out o_stored o_shadow o_base l_itd l_od op_name s_itd s_od].
    split.
    - simpl. rewrite Ai. reflexivity.
    - apply (resync3_agree (l_od ls) (s_od s) (s_od s) n Ao). reflexivity.
  Qed.

  (* remove_trait(name): both traits and both values go *)
  Lemma step_rem_n : forall s, Pair s ->
    step pt s (ORem n) =
    out (mkState (s_ctd s) (adel n (adel n_ (s_itd s))) (adel n (adel n_ (s_od s)))) n (Val 1).
  Proof.
    intros s [P1 P2]. destruct nn_ as [_ N2].
    assert (R : rem1 s n_ = mkState (s_ctd s) (adel n_ (s_itd s)) (adel n_ (s_od s)))
      by (unfold rem1; rewrite P2; reflexivity).
    cbn [step]. rewrite P1. cbn [subs map fst fold_left]. rewrite R. unfold rem1, amem. cbn [s_itd s_ctd s_od].
    rewrite assoc_adel, N2, P1. reflexivity.
  Qed.

  Lemma pair_rem : forall s ls, Pair s -> Agree s ls ->
    law_step crule ls (ORem n) (snd (step pt s (ORem n))) = [] /\
    Agree (fst (step pt s (ORem n))) (law_next crule ls (ORem n) (snd (step pt s (ORem n)))).
  Proof.
    intros s ls HP [Ai Ao]. pose proof HP as [P1 P2]. destruct nn_ as [N1 N2].
    rewrite (step_rem_n s HP). unfold out. cbn [fst snd]. split.
    - unfold law_step. cbn [op_name o_out o_stored o_shadow s_od]. unfold amem. rewrite Ai, P1. cbn.
      rewrite !assoc_adel, N1, !name_eqb_refl. reflexivity.
    - unfold Agree, law_next. cbn [op_name o_out o_stored o_shadow o_base l_itd l_od s_itd s_od].
      unfold found_trait. rewrite Ai, P1. cbn [subs map fst fold_left]. split; [reflexivity|].
      apply (resync3_agree (l_od ls) (s_od s) _ n Ao). intros a A1 A2 _. rewrite !assoc_adel, A1, A2. reflexivity.
  Qed.

  Lemma mapped_life : forall ops s ls i, Agree s ls -> forallb pair_op ops = true ->
    law_hist crule i ls (run pt s (OAdd n (PMap m d) :: ops)) = [] /\
    law_hist crule i ls (run pt s (OAdd n (PMap m d) :: ops ++ [ORem n])) = [].
  Proof.
    intros ops s ls i HA Hf. destruct (pair_add s ls HA) as (A & B & C).
    cbn [run app]. destruct (step pt s (OAdd n (PMap m d))) as [s' ob].
    cbn [law_hist snd fst] in *. rewrite A. cbn [map app].
    apply (life_law crule pt Pair pair_op (ORem n) pair_step (fun s ls HP HA => proj1 (pair_rem s ls HP HA))); auto.
  Qed.

  Lemma pair_step_rest : forall s o, Pair s -> pair_op o = true ->
    s_ctd (fst (step pt s o)) = s_ctd s /\
    (forall k, name_eqb n k = false -> name_eqb n_ k = false ->
       assoc k (s_od (fst (step pt s o))) = assoc k (s_od s)).
  Proof.
    intros s o HP Ho. destruct (pair_shape s o HP Ho) as (s' & x & E & Rc & _ & Ro). rewrite E. auto.
  Qed.
End Pair.

Lemma Agree_init : forall ct, Agree (init_state ct) l_init.
Proof. intro ct. split; reflexivity. Qed.

(* after any clean history on plain traits the bookkeeping agrees, so the above applies there too *)
Lemma Inv_Agree : forall ct0 pt s ls, Inv ct0 pt s ls -> Agree s ls.
Proof. intros ct0 pt s ls H. split; [apply (inv_itd _ _ _ _ H)|apply (inv_od _ _ _ _ H)]. Qed.

(* the law's bookkeeping after a history *)
Fixpoint lfinal (crule : name -> rule) (ls : lstate) (h : list (op * obs)) : lstate :=
  match h with [] => ls | (o, ob) :: r => lfinal crule (law_next crule ls o ob) r end.

Lemma law_hist_app : forall crule h1 h2 i ls,
  law_hist crule i ls (h1 ++ h2) =
  law_hist crule i ls h1 ++ law_hist crule (i + Z.of_nat (length h1)) (lfinal crule ls h1) h2.
Proof.
  intros crule. induction h1 as [|[o ob] r IH]; intros h2 i ls.
  - simpl. rewrite Z.add_0_r. reflexivity.
  - cbn [app law_hist lfinal length]. rewrite IH, <- app_assoc. do 3 f_equal. lia.
Qed.

Lemma run_app : forall pt a b s, run pt s (a ++ b) = run pt s a ++ run pt (final_state pt s a) b.
Proof.
  intros pt. induction a as [|o r IH]; intros b s; [reflexivity|].
  cbn [app run final_state]. destruct (step pt s o) as [s' ob]. cbn [fst]. rewrite IH. reflexivity.
Qed.

Lemma run_Inv_final : forall ct0 pt ops s ls, Inv ct0 pt s ls -> clean_run pt s ops = true ->
  Inv ct0 pt (final_state pt s ops) (lfinal (model_rule ct0 pt) ls (run pt s ops)).
Proof.
  intros ct0 pt. induction ops as [|o r IH]; intros s ls HI Hc; [exact HI|].
  simpl in Hc. apply andb_true_iff in Hc. destruct Hc as [H1 H2].
  destruct (step_ok ct0 pt s ls o HI H1) as [_ Hn].
  cbn [run final_state]. destruct (step pt s o) as [s' ob]. cbn [fst snd lfinal] in *. apply IH; auto.
Qed.

(* ---- after remove_trait the object is again in a state of the plain-trait invariant, so
        plain phases and mapped lives can alternate ---- *)
Lemma In_adel : forall {A} (l : list (name * A)) a k p, In (k, p) (adel a l) -> In (k, p) l /\ k <> a.
Proof.
  induction l as [|[k0 v] r IH]; intros a k p H; simpl in *; [contradiction|].
  destruct (name_eqb k0 a) eqn:E.
  - apply IH in H. tauto.
  - destruct H as [H|H].
    + inversion H; subst. split; auto. intro; subst. rewrite name_eqb_refl in E. discriminate.
    + apply IH in H. tauto.
Qed.
Lemma In_aset : forall {A} (l : list (name * A)) a q k p, In (k, p) (aset a q l) -> (k = a /\ p = q) \/ In (k, p) l.
Proof.
  induction l as [|[k0 v] r IH]; intros a q k p H; simpl in *.
  - destruct H as [H|H]; [inversion H; auto|contradiction].
  - destruct (name_eqb k0 a) eqn:E.
    + apply name_eqb_eq in E. subst. destruct H as [H|H]; [inversion H; auto|auto].
    + destruct H as [H|H]; [auto|]. apply IH in H. tauto.
Qed.
Lemma plain_tab_In : forall l, plain_tab l = true <-> (forall k p, In (k, p) l -> plainp p = true).
Proof.
  intro l. unfold plain_tab. rewrite forallb_forall. split.
  - intros H k p Hi. apply (H (k, p) Hi).
  - intros H [k p] Hi. apply (H k p Hi).
Qed.

Section Phase.
  Variable ct0 : ctab.
  Variable pt : ptab.
  Variable n : name.
  Variable m : list (Z * Z).
  Variable d wd : Z.
  Hypothesis d_key : zassoc d m = Some wd.
  Notation n_ := (n ++ [US]).
  Notation crule := (model_rule ct0 pt).

  (* the state during the life of the mapped trait, relative to the state s0 before add_trait *)
  Definition During (s0 s : state) : Prop :=
    s_ctd s = s_ctd s0 /\
    s_itd s = aset n (PMap m d) (aset n_ (PShadow m) (s_itd s0)) /\
    (forall k, name_eqb n k = false -> name_eqb n_ k = false -> assoc k (s_od s) = assoc k (s_od s0)).

  Lemma During_Pair : forall s0 s, During s0 s -> Pair n m d s.
  Proof.
    intros s0 s (_ & Hi & _). destruct (nn_ n) as [N1 N2]. unfold Pair. rewrite Hi.
    rewrite !assoc_aset, name_eqb_refl, N1, name_eqb_refl. auto.
  Qed.

  (* remove_trait takes both traits and both values away (step_rem_n), so for names other than the two the
     instance traits, values and governing rules are those of s0, where [Inv] held; at the two names nothing
     is stored any more, so [inv_st] asks nothing; the instance traits are those of s0 minus two entries. *)
  Lemma Inv_after_life : forall s0 ls0 s ls, Inv ct0 pt s0 ls0 -> During s0 s -> Agree s ls ->
    Inv ct0 pt (fst (step pt s (ORem n))) (law_next crule ls (ORem n) (snd (step pt s (ORem n)))).
  Proof.
    intros s0 ls0 s ls HI0 HD HA. pose proof (During_Pair _ _ HD) as HP. pose proof HP as [P1 P2].
    destruct (nn_ n) as [N1 N2].
    destruct (pair_rem crule pt n m d s ls HP HA) as [_ HA'].
    assert (Hs : assoc n_ (s_itd s) <> None \/ amem n_ (s_ctd s) = true) by (left; congruence).
    destruct (remove_mapped_clears pt s n m d P1 Hs) as (_ & R1 & R2 & R3 & R4).
    set (s' := fst (step pt s (ORem n))) in *.
    set (ls' := law_next crule ls (ORem n) (snd (step pt s (ORem n)))) in *.
    destruct HD as (Hc & Hi & Ho). destruct HA' as [Ai' Ao'].
    assert (Es : s_ctd s' = s_ctd s /\ s_itd s' = adel n (adel n_ (s_itd s)) /\
                 (forall k, name_eqb n k = false -> name_eqb n_ k = false -> assoc k (s_od s') = assoc k (s_od s))).
    { unfold s'. rewrite (step_rem_n pt n m d s HP). repeat split.
      intros k K1 K2. cbn. rewrite !assoc_adel, K1, K2. reflexivity. }
    destruct Es as (Ec & Ei & Eo).
    destruct (inv_plain4 _ _ _ _ HI0) as (Q1 & Q2 & Q3 & Q4).
    assert (Gov : forall k, name_eqb n k = false -> name_eqb n_ k = false -> gov ct0 pt s' k = gov ct0 pt s0 k).
    { intros k K1 K2. unfold gov. rewrite Ei, Hi, !assoc_adel, !assoc_aset, K1, K2. reflexivity. }
    constructor.
    - exact Ai'.
    - exact Ao'.
    - intros k p Hk. rewrite Ec, Hc. apply (inv_c1 _ _ _ _ HI0 _ _ Hk).
    - intros k p Hk. rewrite Ec, Hc in Hk. apply (inv_c2 _ _ _ _ HI0 _ _ Hk).
    - intros k v Hk. destruct (name_eqb n k) eqn:K1; [apply name_eqb_eq in K1; subst; congruence|].
      destruct (name_eqb n_ k) eqn:K2; [apply name_eqb_eq in K2; subst; congruence|].
      rewrite Gov by auto. rewrite Eo, Ho in Hk by auto. apply (inv_st _ _ _ _ HI0 _ _ Hk).
    - apply plain4; auto; [|rewrite Ec, Hc; exact Q4].
      apply plain_tab_In. intros k p Hin. rewrite Ei, Hi in Hin.
      apply In_adel in Hin. destruct Hin as [Hin K1]. apply In_adel in Hin. destruct Hin as [Hin K2].
      apply In_aset in Hin. destruct Hin as [[E _]|Hin]; [contradiction|].
      apply In_aset in Hin. destruct Hin as [[E _]|Hin]; [contradiction|].
      apply (proj1 (plain_tab_In _) Q3 _ _ Hin).
  Qed.
End Phase.

Lemma final_state_app : forall pt a b s, final_state pt s (a ++ b) = final_state pt (final_state pt s a) b.
Proof. intros pt. induction a as [|o r IH]; intros b s; [reflexivity|]. cbn [app final_state]. apply IH. Qed.

(* histories that alternate clean plain phases and complete lives of mapped traits; the law on them
   is MapInterleave.law_alternating *)
Section Life.
  Variable pt : ptab.

  Inductive seg :=
  | SPlain (ops : list op)                                          (* operations on plain traits *)
  | SMap (n : name) (m : list (Z * Z)) (d : Z) (ops : list op).      (* add_trait(n, Map(m, d)); ops on n, n_; remove_trait(n) *)
  Definition seg_ops (g : seg) : list op :=
    match g with SPlain ops => ops | SMap n m d ops => OAdd n (PMap m d) :: ops ++ [ORem n] end.
  Definition seg_ok (s : state) (g : seg) : bool :=
    match g with
    | SPlain ops => clean_run pt s ops
    | SMap n m d ops => (match zassoc d m with Some _ => true | None => false end) && forallb (pair_op n) ops
    end.
  Fixpoint segs_ok (s : state) (gs : list seg) : bool :=
    match gs with
    | [] => true
    | g :: r => seg_ok s g && segs_ok (final_state pt s (seg_ops g)) r
    end.

End Life.
