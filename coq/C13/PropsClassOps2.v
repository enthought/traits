(* C13 — property theorems: class operations on any classes and objects, the life of a List trait,
   two instances with a trait_added listener.  Each Theorem is closed by [exact] of a lemma of the
   proof files or by a one- to three-line instance of one, and followed by Print Assumptions; the
   Examples are closed by evaluation. *)
From Coq Require Import ZArith List Bool Lia.
From TV Require Import Common.Harness C13.Model C13.Law C13.Corr C13.Proofs C13.MapProofs C13.ListenerProofs C13.ClassOpProofs C13.ListenerInd C13.ClassOpInd C13.ClassOpSub C13.MapInterleave C13.ClassOpDag C13.ClassOpSubRun C13.ClassOpGlobal C13.ClassOpChain C13.ListLife C13.ListenerInd2 C13.ClassOpTie.
Import ListNotations.
Open Scope Z_scope.


(* the model side: the recursion over __subclasses__ visits every such descendant *)
Theorem add_class_trait_visits_every_descendant :
  forall hh0 hh k n,
    (forall i, i <> k -> c_bases (nth i hh dcls) = c_bases (nth i hh0 dcls)) ->
    forall j, Reach hh k n j -> j <> k -> forall f, (j - k <= f)%nat -> is_desc hh0 f j k = true.
Proof. exact desc_reach. Qed.
Print Assumptions add_class_trait_visits_every_descendant.

(* the name condition is necessary for the base-order reading (and the MRO reading sides with the
   implementation on the witness) *)
Theorem diamond_with_name_on_another_route_refuted :
  exists hh k j adds ops,
    (k < j)%nat /\ (j < length hh)%nat /\
    plain_t (tabs_nth (tables hh) k) = true /\ plain_t (tabs_nth (tables hh) j) = true /\
    forallb (fun e => plainp (snd e)) adds = true /\
    let ph := class_phase hh k (tables hh) hh adds in
    let t := tabs_nth (fst ph) j in
    clean_run (snd t) (init_state (fst t)) ops = true /\
    law_hist (class_rule (vis_nth (visible (snd ph)) j)) 0 l_init (run (snd t) (init_state (fst t)) ops) <> [] /\
    law_hist (mro_rule (skipn 3 (snd ph)) j) 0 l_init (run (snd t) (init_state (fst t)) ops) = [].
Proof. exact dag_condition_needed. Qed.
Print Assumptions diamond_with_name_on_another_route_refuted.

(* Non-vacuity: Base(HasStrictTraits) declares tr_ = ReadOnly; L(Base); R(Base) declares z = Any(5);
   M(HasTraits) declares m = Any(9); D(L, M, R) declares z = Any(6).  On Base at run time: t_ = Int
   (accepted, new to D), tr_ = Disallow (rejected), tq = Constant(3) (accepted, new to D), z = Event
   (accepted on Base; D defines z itself).  On a D instance: trx write-once, tc an Int, tq the
   constant, z D's own, m from the mixin, w rejected. *)
Example multiple_inheritance_runtime_declarations_nontrivial :
  let hh := roots ++ [mkClass [([116; 114; 95], PReadOnly VUndef)] [1%nat]; mkClass [] [3%nat];
                      mkClass [([122], PAny 5)] [3%nat]; mkClass [([109], PAny 9)] [0%nat];
                      mkClass [([122], PAny 6)] [4%nat; 6%nat; 5%nat]] in
  let adds := [([116; 95], PTyped VInt 7); ([116; 114; 95], PDisallow); ([116; 113], PConstant 3); ([122], PEvent None)] in
  let ph := class_phase hh 3 (tables hh) hh adds in
  let t := tabs_nth (fst ph) 7 in
  let ops := [OSet [116; 114; 120] 101; OSet [116; 114; 120] 102; OGet [116; 114; 120]; OGet [116; 99]; OSet [116; 99] 101;
              OGet [116; 113]; OGet [122]; OGet [109]; OGet [119]] in
  phase_ok hh 3 7 (tables hh) hh adds /\
  plain_t (tabs_nth (tables hh) 3) = true /\ plain_t (tabs_nth (tables hh) 7) = true /\
  clean_run (snd t) (init_state (fst t)) ops = true /\
  map (fun e => length (c_decls e)) (snd ph) = [3; 1; 2; 4; 0; 1; 1; 1]%nat /\
  map (fun x => o_out (snd x)) (run (snd t) (init_state (fst t)) ops) =
  [Done; Raise TraitError; Val 101; Val 7; Raise TraitError; Val 3; Val 6; Val 9; Raise AttributeError].
Proof.
  split.
  - vm_compute. repeat split; apply (reachb_sound _ _ _ 8); vm_compute; reflexivity.
  - vm_compute. repeat split; reflexivity.
Qed.

(* add_class_trait calls on a BASE class k interleaved, in any order
   and number, with the operations of a live instance of a SUBCLASS j (single or multiple
   inheritance; coq/C13/ClassOpSubRun.v).  [sstep] is Model.add_class seen from classes k and j
   (first theorem).  [sok] asks, step by step: an object operation is clean; a class call has a
   plain trait and, if accepted on k, (a) finds j reachable for its name ([Reach], as above) and
   (b) does not meet the cached-name findings on the object ([sub_clean]: a wildcard must not match a
   name already resolved or stored unless declared / governed by an instance trait / __x__; an
   explicit name must not be a merely cached resolution of j, nor have a value stored under it
   unless its trait stores). *)

Theorem subclass_step_is_the_model_add_class :
  forall hh T k j n p T' out,
    (k < length T)%nat -> (j < length T)%nat -> j <> k -> is_desc hh (length hh) j k = true ->
    add_class hh T k n p = (T', out) ->
    let s := mkState (fst (tabs_nth T j)) [] [] in
    let r := sstep (s, snd (tabs_nth T j)) (tabs_nth T k) (OCls n p) in
    o_out (snd r) = out /\ snd (fst r) = tabs_nth T' k /\
    (s_ctd (fst (fst (fst r))), snd (fst (fst r))) = tabs_nth T' j.
Proof. exact sstep_is_add_class. Qed.
Print Assumptions subclass_step_is_the_model_add_class.

Theorem law_holds_on_base_class_operations_interleaved_with_subclass_instance :
  forall hh k j xs i,
    (k < j)%nat -> (j < length hh)%nat ->
    let tk := tabs_nth (tables hh) k in
    let tj := tabs_nth (tables hh) j in
    plain_t tj = true ->
    sok k j (init_state (fst tj), snd tj) tk hh xs ->
    law_hist_s k j hh i l_init (srun (init_state (fst tj), snd tj) tk xs) = [].
Proof. exact interleaved_base_class_ops. Qed.
Print Assumptions law_holds_on_base_class_operations_interleaved_with_subclass_instance.

(* the step behind it: an inherited run-time declaration arriving on the class of a live object *)
Theorem inherited_runtime_declaration_on_a_live_object :
  forall ct0 pt s ls v v' n p,
    Inv ct0 pt s ls -> Agr (ct0, pt) v -> Ext v v' n p -> plainp p = true ->
    sub_clean (fst v) s pt n p = true ->
    exists ct0', Agr (ct0', snd (sub_add s pt n p)) v' /\
                 Inv ct0' (snd (sub_add s pt n p)) (fst (sub_add s pt n p)) ls.
Proof.
  intros ct0 pt s ls v v' n p HI HA HE Hp Hc. eexists.
  apply (sub_step_ok ct0 pt s ls v v' n p); assumption.
Qed.
Print Assumptions inherited_runtime_declaration_on_a_live_object.

(* Non-vacuity: the diamond of the previous example; on Base at run time, between the operations of
   a D instance: t_ = Int (accepted), tr_ = Disallow (rejected), tq = Constant(3), z = Event. *)
Example base_class_operations_interleaved_nontrivial :
  let hh := roots ++ [mkClass [([116; 114; 95], PReadOnly VUndef)] [1%nat]; mkClass [] [3%nat];
                      mkClass [([122], PAny 5)] [3%nat]; mkClass [([109], PAny 9)] [0%nat];
                      mkClass [([122], PAny 6)] [4%nat; 6%nat; 5%nat]] in
  let xs := [OObj (OGet [119]); OCls [116; 95] (PTyped VInt 7); OObj (OGet [116; 99]); OObj (OSet [116; 114; 120] 101);
             OCls [116; 114; 95] PDisallow; OObj (OSet [116; 114; 120] 102); OObj (OGet [116; 114; 120]);
             OCls [116; 113] (PConstant 3); OObj (OGet [116; 113]); OObj (OSet [116; 99] 101);
             OCls [122] (PEvent None); OObj (OGet [122]); OObj (OGet [109]); OObj (OGet [119])] in
  let tk := tabs_nth (tables hh) 3 in
  let tj := tabs_nth (tables hh) 7 in
  sok 3 7 (init_state (fst tj), snd tj) tk hh xs /\
  plain_t tj = true /\
  map (fun x => o_out (snd x)) (srun (init_state (fst tj), snd tj) tk xs) =
  [Raise AttributeError; Done; Val 7; Done; Raise TraitError; Raise TraitError; Val 101; Done; Val 3;
   Raise TraitError; Done; Val 6; Val 9; Raise AttributeError].
Proof.
  split.
  - vm_compute. repeat split; apply (reachb_sound _ _ _ 8); vm_compute; reflexivity.
  - vm_compute. repeat split; reflexivity.
Qed.

(* the same for the runs the checker evaluates (CorrT.step_t on the tables of all classes, one
   object of class j, class calls on class k) *)
Theorem checker_runs_with_base_class_calls_are_subclass_runs :
  forall hh0 k j, j <> k -> is_desc hh0 (length hh0) j k = true ->
  forall xs T itd od H i ls, (k < length T)%nat -> (j < length T)%nat ->
    law_hist_ta [j] H i [ls] (run_t hh0 [j] (T, [(itd, od)]) (map (top_of k) xs)) =
    law_hist_s k j H i ls (srun (mkState (fst (tabs_nth T j)) itd od, snd (tabs_nth T j)) (tabs_nth T k) xs).
Proof. exact run_t_srun. Qed.
Print Assumptions checker_runs_with_base_class_calls_are_subclass_runs.

Theorem law_holds_on_base_class_operation_runs_with_subclass_instance :
  forall hh k j xs i,
    (k < j)%nat -> (j < length hh)%nat -> is_desc hh (length hh) j k = true ->
    let tk := tabs_nth (tables hh) k in
    let tj := tabs_nth (tables hh) j in
    plain_t tj = true ->
    sok k j (init_state (fst tj), snd tj) tk hh xs ->
    law_hist_ta [j] hh i [l_init] (run_t hh [j] (tables hh, [([], [])]) (map (top_of k) xs)) = [].
Proof. exact interleaved_base_class_ops_run. Qed.
Print Assumptions law_holds_on_base_class_operation_runs_with_subclass_instance.

Example diamond_subclass_is_a_descendant :
  let hh := roots ++ [mkClass [([116; 114; 95], PReadOnly VUndef)] [1%nat]; mkClass [] [3%nat];
                      mkClass [([122], PAny 5)] [3%nat]; mkClass [([109], PAny 9)] [0%nat];
                      mkClass [([122], PAny 6)] [4%nat; 6%nat; 5%nat]] in
  is_desc hh (length hh) 7 3 = true /\ is_desc hh (length hh) 6 3 = false.
Proof. vm_compute. split; reflexivity. Qed.

(* The general form (coq/C13/ClassOpGlobal.v): the runs the checker evaluates for
   add_class_trait — CorrT.step_t on the tables of ALL classes, any number of live objects of any
   classes, object operations and add_class_trait calls on ANY classes in any order.  One global
   invariant [GI] (every class: its tables agree with the declarative pair of the hierarchy as
   declared so far and satisfy the cache invariant; every object: the plain invariant against the
   tables of its class).  [tok] asks, step by step ([tclean]): an object operation is clean; a
   class call has a plain trait and, if accepted on class k, for every other class c: c is a
   descendant the model visits and [Reach] holds, or c is not and [Unaff] holds; and neither the
   classes reached nor the live objects of those classes meet the cached-name findings / finding 1
   ([sub_clean]). *)

Theorem law_holds_on_runs_with_class_operations_on_any_classes_and_objects :
  forall hh objs ts i,
    (forall c, (c < length hh)%nat -> plain_t (tabs_nth (tables hh) c) = true) ->
    (forall j, (j < length objs)%nat -> (nth j objs O < length hh)%nat) ->
    tok hh objs (tables hh, map (fun _ => ([], [])) objs) hh ts ->
    law_hist_ta objs hh i (map (fun _ => l_init) objs)
                (run_t hh objs (tables hh, map (fun _ => ([], [])) objs) ts) = [].
Proof. intros hh objs ts i HP Ho. apply global_run_law with (1 := GI_init hh objs HP Ho). Qed.
Print Assumptions law_holds_on_runs_with_class_operations_on_any_classes_and_objects.

Theorem law_holds_on_runs_from_any_state_of_the_global_invariant :
  forall hh0 objs ts T insts lss H C0 i,
    GI hh0 objs T insts lss H C0 -> tok hh0 objs (T, insts) H ts ->
    law_hist_ta objs H i lss (run_t hh0 objs (T, insts) ts) = [].
Proof. exact global_run_law. Qed.
Print Assumptions law_holds_on_runs_from_any_state_of_the_global_invariant.

(* the two steps *)
Theorem object_step_preserves_the_global_invariant :
  forall hh0 objs T insts lss H C0 i o,
    GI hh0 objs T insts lss H C0 -> (i < length objs)%nat ->
    clean_step (ostate T (nth i objs O) (nth i insts ([], []))) o = true ->
    let c := nth i objs O in
    let rl := class_rule (vis_nth (visible H) c) in
    let r := C13.CorrT.step_t hh0 objs (T, insts) (C13.CorrT.TObj i o) in
    law_step rl (nth i lss l_init) o (snd r) = [] /\
    GI hh0 objs (fst (fst r)) (snd (fst r)) (C13.CorrT.upd lss i (law_next rl (nth i lss l_init) o (snd r))) H C0.
Proof. exact gi_obj_step. Qed.
Print Assumptions object_step_preserves_the_global_invariant.

Theorem class_step_preserves_the_global_invariant :
  forall hh0 objs T insts lss H C0 k n p,
    GI hh0 objs T insts lss H C0 -> tclean hh0 objs T insts H (C13.CorrT.TClass k n p) ->
    let r := C13.CorrT.step_t hh0 objs (T, insts) (C13.CorrT.TClass k n p) in
    exists C0', GI hh0 objs (fst (fst r)) (snd (fst r)) lss
                   (match o_out (snd r) with Done => app_decl H k (n, p) | _ => H end) C0'.
Proof. exact gi_cls_step. Qed.
Print Assumptions class_step_preserves_the_global_invariant.

(* Non-vacuity, in the shape the generator produces: A(HasStrictTraits) declares tr_ = ReadOnly;
   B(A); C(B) declares z = Any(5); live objects a, c, b.  Calls: A.t_ = Int; B.q = Any(8);
   A.tr_ = Disallow (rejected); A.z = Event (new to B, C keeps its own); interleaved with reads
   and writes on the three objects. *)
Example runs_with_class_operations_nontrivial :
  let hh := roots ++ [mkClass [([116; 114; 95], PReadOnly VUndef)] [1%nat]; mkClass [] [3%nat]; mkClass [([122], PAny 5)] [4%nat]] in
  let objs := [3%nat; 5%nat; 4%nat] in
  let ts := [C13.CorrT.TClass 3 [116; 95] (PTyped VInt 7); C13.CorrT.TObj 1 (OGet [116; 99]);
             C13.CorrT.TObj 2 (OSet [116; 99] 101);
             C13.CorrT.TClass 4 [113] (PAny 8); C13.CorrT.TObj 0 (OGet [113]); C13.CorrT.TObj 1 (OGet [113]);
             C13.CorrT.TClass 3 [116; 114; 95] PDisallow;
             C13.CorrT.TClass 3 [122] (PEvent None); C13.CorrT.TObj 1 (OGet [122]); C13.CorrT.TObj 2 (OGet [122]);
             C13.CorrT.TObj 0 (OSet [116; 114; 120] 101); C13.CorrT.TObj 0 (OSet [116; 114; 120] 102)] in
  tok hh objs (tables hh, map (fun _ => ([], [])) objs) hh ts /\
  forallb plain_t (tables hh) = true /\
  map (fun x => o_out (snd x)) (run_t hh objs (tables hh, map (fun _ => ([], [])) objs) ts) =
  [Done; Val 7; Raise TraitError; Done; Raise AttributeError; Val 8; Raise TraitError; Done;
   Val 5; Raise AttributeError; Done; Raise TraitError].
Proof.
  split.
  - apply tok_of_tokb_fresh; vm_compute; reflexivity.
  - vm_compute. split; reflexivity.
Qed.

(* ... and for single-inheritance hierarchies (every class at most one base, declared before it:
   the shape the generator produces; coq/C13/ClassOpChain.v) the reachability hypotheses hold by
   themselves, so the hypothesis is ONE BOOLEAN over the run ([tokb]): object operations clean,
   traits plain, and for each accepted call the classes reached and their live objects do not
   meet the cached-name findings / finding 1 ([sub_clean]). *)

Theorem law_holds_on_single_inheritance_runs_with_class_operations :
  forall hh objs ts i,
    chainb hh = true ->
    forallb plain_t (tables hh) = true ->
    forallb (fun c => Nat.ltb c (length hh)) objs = true ->
    tokb hh objs (tables hh, map (fun _ => ([], [])) objs) hh ts = true ->
    law_hist_ta objs hh i (map (fun _ => l_init) objs)
                (run_t hh objs (tables hh, map (fun _ => ([], [])) objs) ts) = [].
Proof. exact chain_law. Qed.
Print Assumptions law_holds_on_single_inheritance_runs_with_class_operations.

Theorem single_inheritance_classes_are_reached_or_unaffected :
  forall hh0 H k n,
    chain hh0 -> length H = length hh0 ->
    (forall i, c_bases (nth i H dcls) = c_bases (nth i hh0 dcls)) ->
    forall c, (c < length hh0)%nat -> forall f, (c < f)%nat ->
      (is_desc hh0 f c k = true -> Reach H k n c) /\
      (is_desc hh0 f c k = false -> c <> k -> Unaff H k c).
Proof. exact chain_classes. Qed.
Print Assumptions single_inheritance_classes_are_reached_or_unaffected.

Theorem boolean_step_hypothesis_implies_the_general_one :
  forall hh0 objs T insts lss H C0 t,
    chain hh0 -> GI hh0 objs T insts lss H C0 ->
    tcleanb hh0 objs T insts H t = true -> tclean hh0 objs T insts H t.
Proof. exact tcleanb_tclean. Qed.
Print Assumptions boolean_step_hypothesis_implies_the_general_one.

Theorem boolean_run_hypothesis_implies_the_general_one :
  forall hh objs ts,
    chainb hh = true ->
    forallb plain_t (tables hh) = true ->
    forallb (fun c => Nat.ltb c (length hh)) objs = true ->
    tokb hh objs (tables hh, map (fun _ => ([], [])) objs) hh ts = true ->
    tok hh objs (tables hh, map (fun _ => ([], [])) objs) hh ts.
Proof. exact tok_of_tokb_fresh. Qed.
Print Assumptions boolean_run_hypothesis_implies_the_general_one.

(* Non-vacuity: the hierarchy and objects of the previous example, a longer run (also C.w =
   Constant(3) on the leaf class) *)
Example single_inheritance_runs_nontrivial :
  let hh := roots ++ [mkClass [([116; 114; 95], PReadOnly VUndef)] [1%nat]; mkClass [] [3%nat]; mkClass [([122], PAny 5)] [4%nat]] in
  let objs := [3%nat; 5%nat; 4%nat] in
  let ts := [C13.CorrT.TClass 3 [116; 95] (PTyped VInt 7); C13.CorrT.TObj 0 (OGet [116; 99]); C13.CorrT.TObj 1 (OGet [116; 99]);
             C13.CorrT.TObj 2 (OSet [116; 99] 101);
             C13.CorrT.TClass 4 [113] (PAny 8); C13.CorrT.TObj 0 (OGet [113]); C13.CorrT.TObj 1 (OGet [113]); C13.CorrT.TObj 2 (OGet [113]);
             C13.CorrT.TClass 3 [116; 114; 95] PDisallow;
             C13.CorrT.TClass 5 [119] (PConstant 3); C13.CorrT.TObj 1 (OGet [119]); C13.CorrT.TObj 2 (OGet [119]);
             C13.CorrT.TClass 3 [122] (PEvent None); C13.CorrT.TObj 1 (OGet [122]); C13.CorrT.TObj 2 (OGet [122]);
             C13.CorrT.TObj 0 (OSet [116; 114; 120] 101); C13.CorrT.TObj 0 (OSet [116; 114; 120] 102)] in
  chainb hh = true /\ forallb plain_t (tables hh) = true /\
  forallb (fun c => Nat.ltb c (length hh)) objs = true /\
  tokb hh objs (tables hh, map (fun _ => ([], [])) objs) hh ts = true /\
  map (fun x => o_out (snd x)) (run_t hh objs (tables hh, map (fun _ => ([], [])) objs) ts) =
  [Done; Val 7; Val 7; Raise TraitError; Done; Raise AttributeError; Val 8; Val 8; Raise TraitError; Done;
   Val 3; Raise AttributeError; Done; Val 5; Raise AttributeError; Done; Raise TraitError].
Proof. vm_compute. repeat split; reflexivity. Qed.

(* The law on the life of a List instance trait (coq/C13/ListLife.v).  [lpair_op n o]: o is a get / set / del of n or of
   n_items; [LPair]: List at n, its items event at n_items, nothing stored under n_items. *)

Theorem list_pair_step_obeys_the_law :
  forall (crule : name -> rule) pt n s ls o,
    LPair n s -> Agree s ls -> lpair_op n o = true ->
    law_step crule ls o (snd (step pt s o)) = [] /\ LPair n (fst (step pt s o)) /\
    Agree (fst (step pt s o)) (law_next crule ls o (snd (step pt s o))).
Proof. exact lpair_step. Qed.
Print Assumptions list_pair_step_obeys_the_law.

(* from any state whose bookkeeping agrees, under any class-level rule and any class tables:
   add_trait(n, List(Int)), any history on n and n_items, with or without remove_trait(n) *)
Theorem law_holds_on_the_life_of_a_list_trait :
  forall (crule : name -> rule) pt n ops s ls i,
    Agree s ls -> assoc (n ++ items_suffix) (s_od s) = None -> forallb (lpair_op n) ops = true ->
    law_hist crule i ls (run pt s (OAdd n PList :: ops)) = [] /\
    law_hist crule i ls (run pt s (OAdd n PList :: ops ++ [ORem n])) = [].
Proof. exact list_life. Qed.
Print Assumptions law_holds_on_the_life_of_a_list_trait.

Theorem law_holds_on_list_trait_of_a_fresh_object :
  forall (crule : name -> rule) ct pt n ops i,
    forallb (lpair_op n) ops = true ->
    law_hist crule i l_init (run pt (init_state ct) (OAdd n PList :: ops)) = [] /\
    law_hist crule i l_init (run pt (init_state ct) (OAdd n PList :: ops ++ [ORem n])) = [].
Proof. exact list_life_fresh. Qed.
Print Assumptions law_holds_on_list_trait_of_a_fresh_object.

(* every class without Map/List declarations, any clean history on plain traits, then the life *)
Theorem law_holds_on_histories_with_list_traits :
  forall h c pre n ops i,
    plain_class h c = true ->
    let t := class_tables h c in
    clean_run (snd t) (init_state (fst t)) pre = true ->
    amem (n ++ items_suffix) (s_od (final_state (snd t) (init_state (fst t)) pre)) = false ->
    forallb (lpair_op n) ops = true ->
    law_hist (spec_rule h c) i l_init (run (snd t) (init_state (fst t)) (pre ++ OAdd n PList :: ops)) = [] /\
    law_hist (spec_rule h c) i l_init (run (snd t) (init_state (fst t)) (pre ++ OAdd n PList :: ops ++ [ORem n])) = [].
Proof. exact plain_then_list_life_spec. Qed.
Print Assumptions law_holds_on_histories_with_list_traits.

(* any access that changes __dict__ at its own name only keeps the law's bookkeeping in agreement *)
Theorem access_keeps_the_bookkeeping_in_agreement :
  forall (crule : name -> rule) pt s ls o,
    Agree s ls -> is_access o = true ->
    (forall a, name_eqb (op_name o) a = false -> assoc a (s_od (fst (step pt s o))) = assoc a (s_od s)) ->
    Agree (fst (step pt s o)) (law_next crule ls o (snd (step pt s o))).
Proof. exact access_agree. Qed.
Print Assumptions access_keeps_the_bookkeeping_in_agreement.

(* the hypothesis on n_items is needed (finding 1 under the installed sub-trait) *)
Theorem stale_value_under_items_event_refuted :
  exists (crule : name -> rule) ct pt n ops,
    forallb (lpair_op n) ops = true /\
    law_hist crule 0 l_init (run pt (init_state ct) (OSet (n ++ items_suffix) 5 :: OAdd n PList :: ops)) <> [].
Proof. exact stale_items_value_refutes. Qed.
Print Assumptions stale_value_under_items_event_refuted.

(* Non-vacuity: strict class with the wildcard a_ = Int; a plain prefix; add_trait("ab", List(Int));
   reads (empty list), rejected and Undefined assignments, the items event (read refused, None
   accepted, 5 rejected), deletes; remove_trait; afterwards both names are the wildcard's again *)
Example list_life_nontrivial :
  let t := class_tables [mkClass [([97; 95], PTyped VInt 7)] [1%nat]] 3 in
  let pre := [OSet [97; 98; 95] 5; OGet [98]; OAdd [98] (PAny 5); OSet [98] 6] in
  let ni := [97; 98] ++ items_suffix in
  let ops := [OGet [97; 98]; OSet [97; 98] 5; OGet ni; OSet ni 200; OSet ni 5; OSet [97; 98] 201; OGet [97; 98];
              ODel [97; 98]; ODel ni; OGet [97; 98]] in
  plain_class [mkClass [([97; 95], PTyped VInt 7)] [1%nat]] 3 = true /\
  clean_run (snd t) (init_state (fst t)) pre = true /\
  amem ni (s_od (final_state (snd t) (init_state (fst t)) pre)) = false /\
  forallb (lpair_op [97; 98]) ops = true /\
  map (fun x => o_out (snd x))
      (run (snd t) (init_state (fst t)) (pre ++ OAdd [97; 98] PList :: ops ++ [ORem [97; 98]; OGet [97; 98]; OGet ni])) =
  [Done; Raise AttributeError; Done; Done; Done; Val 300; Raise TraitError; Raise AttributeError; Done;
   Raise TraitError; Done; Val 201; Done; Done; Val 300; Val 1; Val 7; Val 7].
Proof. vm_compute. repeat split; reflexivity. Qed.

(* TWO instances of a class with a trait_added listener, every
   interleaving of their histories (Model.step2_l, the runs CorrL evaluates; coq/C13/ListenerInd2.v).
   The instances share the class dictionary only: a name resolved by the first touch of one
   instance is a known name for the other, whose listener is not called for it. *)
Theorem law_holds_on_two_instance_listener_histories :
  forall h c lst ops i,
    plain_class h c = true ->
    (forall n lp, listener lst n = Some lp -> plainp lp = true) ->
    let t := class_tables h c in
    lclean_run2 (snd t) lst (init_state2 (fst t)) ops = true ->
    law_hist2_l lst (spec_rule h c) i l_init l_init (run2_lk lst (snd t) (init_state2 (fst t)) ops) = [].
Proof. exact law_listener_two_instances. Qed.
Print Assumptions law_holds_on_two_instance_listener_histories.

(* the checker's law codes for listener classes (CorrL.law_tag_l, any two-instance history) are
   empty exactly when the un-relabelled law is *)
Theorem two_instance_listener_law_codes_relabelling_is_faithful :
  forall lst mr sr h i la lb,
    C13.CorrL.law_tag_l lst mr sr i la lb h = [] <-> law_hist2_l lst mr i la lb h = [].
Proof. exact law_tag_l_nil. Qed.
Print Assumptions two_instance_listener_law_codes_relabelling_is_faithful.

(* Non-vacuity: the class and listener of listener_history_nontrivial, two instances: the second
   instance finds n_b already resolved (strict class: refused) while the first reads the listener's
   Int; add_trait replaced by the listener; remove_trait on the instance that has no trait *)
Example two_instance_listener_history_nontrivial :
  let t := class_tables [mkClass [([97; 95], PTyped VStr 102)] [1%nat]] 3 in
  let lst := [([110; 95], PTyped VInt 7); ([107; 95], PConstant 42); ([101; 95], PEvent None)] in
  let ops := [(false, OSet [110; 95; 98] 101); (true, OGet [110; 95; 98]); (true, OSet [110; 95; 98] 5); (false, OGet [110; 95; 98]);
              (true, OSet [107; 95; 99] 1); (false, OGet [107; 95; 99]); (false, OAdd [110; 95; 102] (PTyped VStr 102));
              (true, OSet [110; 95; 102] 101); (false, OSet [110; 95; 102] 101); (true, ORem [110; 95; 98]); (true, OGet [110; 95; 98]);
              (false, OGet [122])] in
  lclean_run2 (snd t) lst (init_state2 (fst t)) ops = true /\
  map (fun x => o_out (snd (fst x))) (run2_lk lst (snd t) (init_state2 (fst t)) ops) =
  [Raise TraitError; Raise AttributeError; Raise TraitError; Val 7; Raise TraitError; Raise AttributeError; Done;
   Raise TraitError; Raise TraitError; Val 0; Raise AttributeError; Raise AttributeError].
Proof. vm_compute. split; reflexivity. Qed.

(* The class-operation theorems in the checker's own terms (coq/C13/ClassOpTie.v): CorrT.law_codes — the
   function ./check evaluates on the implementation's observations (mro_rule on the user classes,
   CorrT.add_decl, re-labelling) — returns no code on the MODEL's runs: single-inheritance user
   classes h, any number of fresh objects of any classes, object operations and add_class_trait
   calls on any user classes, in any order, under the boolean [tokb]. *)
Theorem checker_law_codes_vanish_on_model_runs_with_class_operations :
  forall h objs ts,
    single h = true -> chainb (roots ++ h) = true ->
    forallb plain_t (tables (roots ++ h)) = true ->
    forallb (fun c => Nat.ltb c (length (roots ++ h))) objs = true ->
    forallb (fun t => match t with C13.CorrT.TClass k _ _ => Nat.leb 3 k | _ => true end) ts = true ->
    tokb (roots ++ h) objs (tables (roots ++ h), map (fun _ => ([], [])) objs) (roots ++ h) ts = true ->
    C13.CorrT.law_codes (h, objs, run_t (roots ++ h) objs (tables (roots ++ h), map (fun _ => ([], [])) objs) ts) = [].
Proof. exact checker_law_codes_on_model_runs. Qed.
Print Assumptions checker_law_codes_vanish_on_model_runs_with_class_operations.

(* on any history (model's or implementation's): the checker's codes are empty exactly when the
   declarative law with the declarations appended is *)
Theorem checker_class_operation_law_is_the_declarative_law_on_single_inheritance :
  forall hist objs h i lss,
    single h = true -> forallb (fun k => Nat.ltb k (length (roots ++ h))) objs = true ->
    user_calls hist = true ->
    C13.CorrT.law_tag_t objs h i lss hist = [] <-> law_hist_ta objs (roots ++ h) i lss hist = [].
Proof. exact law_tag_t_ta. Qed.
Print Assumptions checker_class_operation_law_is_the_declarative_law_on_single_inheritance.

Example checker_law_codes_nontrivial :
  let h := [mkClass [([116; 114; 95], PReadOnly VUndef)] [1%nat]; mkClass [] [3%nat]; mkClass [([122], PAny 5)] [4%nat]] in
  let objs := [3%nat; 5%nat; 4%nat] in
  let ts := [C13.CorrT.TClass 3 [116; 95] (PTyped VInt 7); C13.CorrT.TObj 1 (OGet [116; 99]);
             C13.CorrT.TObj 2 (OSet [116; 99] 101);
             C13.CorrT.TClass 4 [113] (PAny 8); C13.CorrT.TObj 0 (OGet [113]); C13.CorrT.TObj 1 (OGet [113]);
             C13.CorrT.TClass 3 [116; 114; 95] PDisallow;
             C13.CorrT.TClass 3 [122] (PEvent None); C13.CorrT.TObj 1 (OGet [122]); C13.CorrT.TObj 2 (OGet [122]);
             C13.CorrT.TObj 0 (OSet [116; 114; 120] 101); C13.CorrT.TObj 0 (OSet [116; 114; 120] 102)] in
  single h = true /\ chainb (roots ++ h) = true /\ forallb plain_t (tables (roots ++ h)) = true /\
  forallb (fun c => Nat.ltb c (length (roots ++ h))) objs = true /\
  forallb (fun t => match t with C13.CorrT.TClass k _ _ => Nat.leb 3 k | _ => true end) ts = true /\
  tokb (roots ++ h) objs (tables (roots ++ h), map (fun _ => ([], [])) objs) (roots ++ h) ts = true.
Proof. vm_compute. repeat split; reflexivity. Qed.
