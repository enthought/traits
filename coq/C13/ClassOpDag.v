(* C13 — add_class_trait on a class k and instances of the classes that descend from it through any
   number of bases and routes (multiple inheritance, diamonds): the run-time declaration is an
   inherited declaration wherever the name is new to the subclass, defined in the subclass's own
   body, or the subclass has a single base.  Class k itself and the paths of single-base classes
   are the instances that need no hypothesis on the names. *)
From Coq Require Import ZArith List Bool Lia Sorted.
From TV Require Import Common.Harness C13.Model C13.Law C13.Corr C13.Proofs C13.MapProofs C13.ClassOpProofs C13.ClassOpInd C13.ClassOpSub.
Import ListNotations.
Open Scope Z_scope.

Definition own_has (cd : classdef) (n : name) : bool :=
  if ends_us n then amem (removelast n) (snd (own_tables (c_decls cd))) else amem n (fst (own_tables (c_decls cd))).
Definition vis_has (v : ctab * ptab) (n : name) : bool :=
  if ends_us n then amem (removelast n) (snd v) else amem n (fst v).

(* a class with any number of bases: each base either receives the declaration (Ext) or is untouched;
   at least one receives it; the name is new to the class or defined in its own body *)
Lemma Ext_multi : forall V V' cd n p,
  (forall b, In b (c_bases cd) -> Ext (vis_nth V b) (vis_nth V' b) n p \/ vis_nth V b = vis_nth V' b) ->
  (exists b, In b (c_bases cd) /\ Ext (vis_nth V b) (vis_nth V' b) n p) ->
  vis_has (vis_class V cd) n = false \/ own_has cd n = true ->
  Ext (vis_class V cd) (vis_class V' cd) n p.
Proof.
  intros V V' cd n p Hall Hex Hc. unfold Ext, vis_has, own_has, vis_class in *.
  destruct (own_tables (c_decls cd)) as [O W]. cbn [fst snd] in *.
  destruct (ends_us n); split.
  - apply tab_eq_app_r, (cat_eq (fun b => fst (vis_nth V b)) (fun b => fst (vis_nth V' b))).
    intros b Hb. destruct (Hall b Hb) as [[E _]|E]; [exact E|rewrite E; intro; reflexivity].
  - apply ExtD_close.
    + apply (ExtD_bases _ _ (fun b => snd (vis_nth V b)) (fun b => snd (vis_nth V' b))).
      * intros b Hb. destruct (Hall b Hb) as [[_ E]|E]; [left; exact E|right; rewrite E; reflexivity].
      * destruct Hex as [b [Hb [_ E]]]. exists b. auto.
      * destruct Hc as [Hc|Hc]; [left; apply (close_absent _ _ Hc)|right; exact Hc].
    + intro H0. destruct Hc as [Hc|Hc]; [apply (close_absent _ _ Hc)|].
      rewrite assoc_app in H0. unfold amem in Hc. destruct (assoc (removelast n) W); discriminate.
  - apply (ExtD_bases _ _ (fun b => fst (vis_nth V b)) (fun b => fst (vis_nth V' b))).
    + intros b Hb. destruct (Hall b Hb) as [[E _]|E]; [left; exact E|right; rewrite E; reflexivity].
    + destruct Hex as [b [Hb [E _]]]. exists b. auto.
    + destruct Hc as [Hc|Hc]; [left; apply amem_false, Hc|right; exact Hc].
  - apply tab_eq_close, tab_eq_app_r, (cat_eq (fun b => snd (vis_nth V b)) (fun b => snd (vis_nth V' b))).
    intros b Hb. destruct (Hall b Hb) as [[_ E]|E]; [exact E|rewrite E; intro; reflexivity].
Qed.

Lemma flat_map_ext_in : forall {A B} (f g : A -> list B) l, (forall a, In a l -> f a = g a) -> flat_map f l = flat_map g l.
Proof.
  induction l as [|a r IH]; intro H; [reflexivity|]. cbn [flat_map].
  rewrite (H a (or_introl eq_refl)), IH; [reflexivity|]. intros b Hb. apply H. right. exact Hb.
Qed.

Lemma vis_class_ext : forall V V' cd, (forall b, In b (c_bases cd) -> vis_nth V b = vis_nth V' b) ->
  vis_class V cd = vis_class V' cd.
Proof.
  intros V V' cd H. unfold vis_class.
  rewrite (flat_map_ext_in (fun b => fst (vis_nth V b)) (fun b => fst (vis_nth V' b)) (c_bases cd))
    by (intros b Hb; rewrite (H b Hb); reflexivity).
  rewrite (flat_map_ext_in (fun b => snd (vis_nth V b)) (fun b => snd (vis_nth V' b)) (c_bases cd))
    by (intros b Hb; rewrite (H b Hb); reflexivity).
  reflexivity.
Qed.

Lemma vis_firstn : forall hh j b, (j < length hh)%nat -> (b < j)%nat ->
  vis_nth (visible (firstn j hh)) b = vis_nth (visible hh) b.
Proof.
  intros hh j b Hj Hb. destruct (split_at hh j Hj) as [E L].
  rewrite E at 2. symmetry. apply visible_app_keeps. lia.
Qed.

(* class j does not descend from class k: all its ancestors are other classes *)
Inductive Unaff (hh : list classdef) (k : nat) : nat -> Prop :=
| U_lt : forall j, (j < k)%nat -> Unaff hh k j
| U_S : forall j, j <> k -> (j < length hh)%nat ->
    (forall b, In b (c_bases (nth j hh dcls)) -> (b < j)%nat /\ Unaff hh k b) -> Unaff hh k j.

Lemma unaff_vis : forall hh k d, (k < length hh)%nat ->
  forall j, Unaff hh k j -> vis_nth (visible (app_decl hh k d)) j = vis_nth (visible hh) j.
Proof.
  intros hh k d Hk j. induction j as [j IH] using lt_wf_ind. intro HU.
  assert (Hj : (j < length hh)%nat) by (inversion HU; lia).
  assert (Hne : j <> k) by (inversion HU; lia).
  rewrite (visible_nth hh j Hj), (visible_nth (app_decl hh k d) j) by (rewrite app_decl_length; exact Hj).
  rewrite (app_decl_nth hh k d j Hne).
  inversion HU as [j' Hlt|j' _ _ Hb]; subst j'.
  - rewrite app_decl_firstn by lia. reflexivity.
  - apply vis_class_ext. intros b Hin. destruct (Hb b Hin) as [Hlt HUb].
    rewrite (vis_firstn hh j b Hj Hlt).
    rewrite (vis_firstn (app_decl hh k d) j b) by (rewrite ?app_decl_length; assumption).
    apply IH; assumption.
Qed.

(* class j descends from class k, possibly through several bases and along several routes; at every
   class on the way the name is new, or defined in the class's own body, or the class has one base *)
Inductive Reach (hh : list classdef) (k : nat) (n : name) : nat -> Prop :=
| R0 : Reach hh k n k
| RS : forall j, (k < j)%nat -> (j < length hh)%nat ->
    (forall b, In b (c_bases (nth j hh dcls)) -> (b < j)%nat /\ (Reach hh k n b \/ Unaff hh k b)) ->
    (exists b, In b (c_bases (nth j hh dcls)) /\ Reach hh k n b) ->
    vis_has (vis_nth (visible hh) j) n = false \/ own_has (nth j hh dcls) n = true \/
    (exists b, c_bases (nth j hh dcls) = [b]) ->
    Reach hh k n j.

(* a path of single-base classes qualifies for every name *)
Lemma Path_Reach : forall hh k n j, Path hh k j -> Reach hh k n j.
Proof.
  induction 1 as [|b j HP IH Hb Hj Hbases]; [apply R0|]. pose proof (Path_ge _ _ _ HP) as Hge.
  apply RS; [lia|exact Hj| | |right; right; exists b; exact Hbases]; rewrite Hbases.
  - intros b' [<-|[]]. split; [exact Hb|left; exact IH].
  - exists b. split; [left; reflexivity|exact IH].
Qed.

Section Dag.
  Variable hh : list classdef.
  Variable k : nat.
  Variable n : name.
  Variable p : policy.
  Hypothesis Hk : (k < length hh)%nat.
  Hypothesis Hp : plainp p = true.
  Hypothesis Habs : vis_has (vis_nth (visible hh) k) n = false.
  Notation hh' := (app_decl hh k (n, p)).

  Lemma Ext_reach : forall j, Reach hh k n j -> Ext (vis_nth (visible hh) j) (vis_nth (visible hh') j) n p.
  Proof.
    intro j. induction j as [j IH] using lt_wf_ind. intro HR.
    inversion HR as [|j' Hlt Hj Hb Hex Hc]; [subst j|subst j'].
    { destruct (vis_app_decl_k hh k (n, p) Hk) as [V1 V2]. rewrite V2, V1.
      apply Ext_own; [exact Hp|]. rewrite <- V1. exact Habs. }
    assert (Hne : j <> k) by lia.
    rewrite (visible_nth hh j Hj) in Hc.
    rewrite (visible_nth hh j Hj), (visible_nth hh' j) by (rewrite app_decl_length; exact Hj).
    rewrite (app_decl_nth hh k (n, p) j Hne).
    (* the bases of j, seen from inside the classes before j *)
    assert (Hin : forall b, (b < j)%nat ->
              vis_nth (visible (firstn j hh)) b = vis_nth (visible hh) b /\
              vis_nth (visible (firstn j hh')) b = vis_nth (visible hh') b).
    { intros b Hbl. split; apply vis_firstn; rewrite ?app_decl_length; assumption. }
    assert (HE : forall b, (b < j)%nat -> Reach hh k n b ->
              Ext (vis_nth (visible (firstn j hh)) b) (vis_nth (visible (firstn j hh')) b) n p).
    { intros b Hbl Hr. destruct (Hin b Hbl) as [-> ->]. apply IH; assumption. }
    assert (Hc' : (vis_has (vis_class (visible (firstn j hh)) (nth j hh dcls)) n = false \/ own_has (nth j hh dcls) n = true) \/
                  (exists b, c_bases (nth j hh dcls) = [b])) by tauto.
    destruct Hc' as [Hc'|[b0 Hb0]].
    2:{ (* a single base: inherited whatever the name *)
      destruct Hex as [b [Hi Hr]]. rewrite Hb0 in Hi. destruct Hi as [<-|[]].
      destruct (Hb b0 ltac:(rewrite Hb0; left; reflexivity)) as [Hbl _].
      apply (Ext_inherit _ _ _ b0 n p Hb0); [apply HE; assumption|].
      rewrite (proj1 (Hin b0 Hbl)), (visible_nth hh b0) by lia. apply vis_class_closed. }
    apply Ext_multi; [| |exact Hc'].
    - intros b Hi. destruct (Hb b Hi) as [Hbl [Hr|Hu]]; [left; apply HE; assumption|right].
      destruct (Hin b Hbl) as [-> ->]. symmetry. apply unaff_vis; assumption.
    - destruct Hex as [b [Hi Hr]]. exists b. split; [exact Hi|]. apply HE; [apply (Hb b Hi)|exact Hr].
  Qed.
End Dag.

(* the model's recursion over __subclasses__ reaches every such descendant *)
Lemma desc_reach : forall hh0 hh k n,
  (forall i, i <> k -> c_bases (nth i hh dcls) = c_bases (nth i hh0 dcls)) ->
  forall j, Reach hh k n j -> j <> k -> forall f, (j - k <= f)%nat -> is_desc hh0 f j k = true.
Proof.
  intros hh0 hh k n Hbs j. induction j as [j IH] using lt_wf_ind. intros HR Hne f Hf.
  inversion HR as [|j' Hlt Hj Hb Hex Hc]; [congruence|subst j'].
  destruct f as [|f']; [lia|]. cbn [is_desc]. fold dcls. rewrite <- (Hbs j Hne).
  apply existsb_exists. destruct Hex as [b [Hin Hr]]. exists b. split; [exact Hin|].
  destruct (Hb b Hin) as [Hbl _].
  destruct (Nat.eqb b k) eqn:E; [reflexivity|]. apply Nat.eqb_neq in E. cbn [orb].
  apply IH; auto. inversion Hr; lia.
Qed.

(* class k itself and the descendants the model visits receive the call as a subclass call *)
Lemma add_class_desc_at : forall hh T k n p T' j,
  j = k \/ is_desc hh (length hh) j k = true -> (j < length T)%nat ->
  add_class hh T k n p = (T', Done) ->
  add_class1 true (tabs_nth T j) n p = Some (tabs_nth T' j).
Proof.
  intros hh T k n p T' j HD Hj H. unfold add_class in H.
  destruct (add_class1 false (tabs_nth T k) n p) as [tk|] eqn:E1; inversion H; subst; clear H.
  unfold tabs_nth at 2.
  rewrite map_idx_nth with (d := (([], []) : ctab * ptab)) by exact Hj.
  cbn [Nat.add]. fold (tabs_nth T j). destruct (Nat.eqb j k) eqn:Ek.
  - apply Nat.eqb_eq in Ek. subst j. apply add_class1_false_true, E1.
  - destruct HD as [->|HD]; [rewrite Nat.eqb_refl in Ek; discriminate|]. rewrite HD.
    destruct (add_class1_true_some (tabs_nth T j) n p) as [t' Et]. rewrite Et. reflexivity.
Qed.

(* the hypothesis on the calls: each accepted one finds the subclass reachable for its name in the
   hierarchy as declared so far *)
Fixpoint phase_ok (hh0 : list classdef) (k j : nat) (T : list (ctab * ptab)) (H : list classdef)
                  (adds : list (name * policy)) : Prop :=
  match adds with
  | [] => True
  | (n, p) :: r =>
      match snd (add_class hh0 T k n p) with
      | Done => Reach H k n j /\ phase_ok hh0 k j (fst (add_class hh0 T k n p)) (app_decl H k (n, p)) r
      | _ => phase_ok hh0 k j (fst (add_class hh0 T k n p)) H r
      end
  end.

(* it holds by itself along a path of single-base classes, in particular for class k itself *)
Lemma phase_ok_path : forall hh0 k j adds T H, Path H k j -> phase_ok hh0 k j T H adds.
Proof.
  intros hh0 k j. induction adds as [|[n p] r IH]; intros T H HP; cbn [phase_ok]; [exact I|].
  destruct (snd (add_class hh0 T k n p)); try (apply IH, HP).
  split; [apply Path_Reach, HP|apply IH, Path_app_decl, HP].
Qed.

(* the phase of add_class_trait calls on class k, seen from class k and from a class j it reaches *)
Lemma dag_phase_inv : forall hh0 k j adds T H,
  phase_ok hh0 k j T H adds ->
  (k <= j)%nat -> (j < length hh0)%nat -> length T = length hh0 -> length H = length hh0 ->
  (forall i, c_bases (nth i H dcls) = c_bases (nth i hh0 dcls)) ->
  Agr (tabs_nth T k) (vis_nth (visible H) k) -> Agr (tabs_nth T j) (vis_nth (visible H) j) ->
  plain_t (tabs_nth T k) = true -> plain_t (tabs_nth T j) = true ->
  forallb (fun e => plainp (snd e)) adds = true ->
  let ph := class_phase hh0 k T H adds in
  Agr (tabs_nth (fst ph) j) (vis_nth (visible (snd ph)) j) /\ plain_t (tabs_nth (fst ph) j) = true.
Proof.
  intros hh0 k j. induction adds as [|[n p] r IH]; intros T H Hok Hkj Hj HLT HLH Hbs Ak Aj Pk Pj Hf; [simpl; auto|].
  simpl in Hf. apply andb_true_iff in Hf. destruct Hf as [Hp Hr]. cbn [class_phase]. cbn [phase_ok] in Hok.
  assert (Hk : (k < length H)%nat) by lia.
  destruct (add_class hh0 T k n p) as [T' out] eqn:E. cbn [fst snd] in Hok.
  destruct (add_class_at hh0 T k n p T' out ltac:(lia) E) as [HL Hc].
  destruct (add_class1 false (tabs_nth T k) n p) as [tk|] eqn:E1.
  2:{ destruct Hc as [-> ->]. apply IH; auto. }
  destruct Hc as [-> _]. destruct Hok as [HR Hok].
  (* one class c that the call reaches *)
  assert (STEP : forall c, Reach H k n c -> (c < length hh0)%nat ->
            Agr (tabs_nth T c) (vis_nth (visible H) c) -> plain_t (tabs_nth T c) = true ->
            Agr (tabs_nth T' c) (vis_nth (visible (app_decl H k (n, p))) c) /\ plain_t (tabs_nth T' c) = true).
  { intros c HRc Hc Ac Pc.
    assert (Es : add_class1 true (tabs_nth T c) n p = Some (tabs_nth T' c)).
    { apply (add_class_desc_at hh0 T k n p T' c); [|lia|exact E].
      destruct (Nat.eq_dec c k) as [Hck|Hck]; [left; exact Hck|right].
      apply (desc_reach hh0 H k n (fun i _ => Hbs i) c HRc Hck). lia. }
    split; [|apply (plain_add_class1 true _ n p _ Pc Hp Es)].
    apply (Agr_add_sub _ _ _ n p _ Hp Ac (Ext_reach H k n p Hk Hp (Agr_absent _ _ n p tk Ak E1) c HRc) Es). }
  destruct (STEP k (R0 _ _ _) ltac:(lia) Ak Pk) as [Ak' Pk']. destruct (STEP j HR Hj Aj Pj) as [Aj' Pj'].
  apply IH; auto; [lia|rewrite app_decl_length; exact HLH|intro i; rewrite app_decl_bases; apply Hbs].
Qed.

(* add_class_trait calls on a class k (any number, accepted or rejected, explicit names and
   wildcards), then every clean history on a fresh instance of k itself or of a subclass j that
   descends from k through any number of bases and routes (multiple inheritance, diamonds): the law
   holds with the rule of j computed from the hierarchy with the accepted run-time declarations
   appended to the body of k *)
Lemma dag_runtime_declarations : forall hh k j adds ops i,
  (k <= j)%nat -> (j < length hh)%nat ->
  phase_ok hh k j (tables hh) hh adds ->
  plain_t (tabs_nth (tables hh) k) = true -> plain_t (tabs_nth (tables hh) j) = true ->
  forallb (fun e => plainp (snd e)) adds = true ->
  let ph := class_phase hh k (tables hh) hh adds in
  let t := tabs_nth (fst ph) j in
  clean_run (snd t) (init_state (fst t)) ops = true ->
  law_hist (class_rule (vis_nth (visible (snd ph)) j)) i l_init (run (snd t) (init_state (fst t)) ops) = [].
Proof.
  intros hh k j adds ops i Hkj Hj Hok Pk Pj Hf ph t Hc.
  destruct (dag_phase_inv hh k j adds (tables hh) hh Hok Hkj Hj (tables_length hh) eq_refl (fun i => eq_refl)
              (Agr_tables hh k) (Agr_tables hh j) Pk Pj Hf) as [A Pl].
  apply Agr_law; assumption.
Qed.

(* the instance: j is k, or reached from k by a path of single-base classes *)
Lemma path_runtime_declarations : forall hh k j adds ops i,
  Path hh k j -> (j < length hh)%nat ->
  plain_t (tabs_nth (tables hh) k) = true -> plain_t (tabs_nth (tables hh) j) = true ->
  forallb (fun e => plainp (snd e)) adds = true ->
  let ph := class_phase hh k (tables hh) hh adds in
  let t := tabs_nth (fst ph) j in
  clean_run (snd t) (init_state (fst t)) ops = true ->
  law_hist (class_rule (vis_nth (visible (snd ph)) j)) i l_init (run (snd t) (init_state (fst t)) ops) = [].
Proof.
  intros hh k j adds ops i HP Hj.
  apply dag_runtime_declarations; [apply (Path_ge _ _ _ HP)|exact Hj|apply phase_ok_path, HP].
Qed.

(* ... and for the runs of CorrT: add_class_trait calls on the class of the object, then its history *)
Lemma class_ops_run : forall hh k adds ops i, (k < length hh)%nat ->
  plain_t (tabs_nth (tables hh) k) = true ->
  forallb (fun e => plainp (snd e)) adds = true ->
  let t := tabs_nth (fst (class_phase hh k (tables hh) hh adds)) k in
  clean_run (snd t) (init_state (fst t)) ops = true ->
  law_hist_ta [k] hh i [l_init]
    (run_t hh [k] (tables hh, [([], [])])
           (map (fun e => C13.CorrT.TClass k (fst e) (snd e)) adds ++ map (C13.CorrT.TObj 0) ops)) = [].
Proof.
  intros hh k adds ops i Hk HP Hf t Hc. rewrite run_t_class_phase.
  rewrite (run_t_object hh _ k ops _ [] [] _ l_init) by (rewrite class_phase_length, tables_length; exact Hk).
  apply (path_runtime_declarations hh k k adds ops _ (P0 hh k) Hk HP HP Hf Hc).
Qed.

(* the name condition cannot be dropped for this (base-order) reading of "inherited": a diamond
   D(L, R) over Base where R declares z; add_class_trait("z") on Base reaches L but D keeps R's z,
   while a declaration in the body of Base would reach D through L first.  (Under the MRO reading
   R's z governs D and the implementation's answer is the expected one.) *)
Lemma dag_condition_needed : exists hh k j adds ops,
  (k < j)%nat /\ (j < length hh)%nat /\
  plain_t (tabs_nth (tables hh) k) = true /\ plain_t (tabs_nth (tables hh) j) = true /\
  forallb (fun e => plainp (snd e)) adds = true /\
  let ph := class_phase hh k (tables hh) hh adds in
  let t := tabs_nth (fst ph) j in
  clean_run (snd t) (init_state (fst t)) ops = true /\
  law_hist (class_rule (vis_nth (visible (snd ph)) j)) 0 l_init (run (snd t) (init_state (fst t)) ops) <> [] /\
  law_hist (mro_rule (skipn 3 (snd ph)) j) 0 l_init (run (snd t) (init_state (fst t)) ops) = [].
Proof.
  exists (roots ++ [mkClass [] [1%nat]; mkClass [] [3%nat]; mkClass [([122], PAny 5)] [3%nat]; mkClass [] [4%nat; 5%nat]]).
  exists 3%nat, 6%nat, [([122], PAny 8)], [OGet [122]].
  vm_compute. repeat split; try lia; try reflexivity. discriminate.
Qed.

(* [Unaff] and [Reach] decided, for concrete hierarchies; the fuel bounds the depth of the descent
   through the bases (the number of classes is enough) *)
Fixpoint unaffb (hh : list classdef) (k fuel j : nat) : bool :=
  Nat.ltb j k ||
  match fuel with
  | O => false
  | S f => negb (Nat.eqb j k) && Nat.ltb j (length hh) &&
           forallb (fun b => Nat.ltb b j && unaffb hh k f b) (c_bases (nth j hh dcls))
  end.

Fixpoint reachb (hh : list classdef) (k : nat) (n : name) (fuel j : nat) : bool :=
  Nat.eqb j k ||
  match fuel with
  | O => false
  | S f =>
      let bs := c_bases (nth j hh dcls) in
      Nat.ltb k j && Nat.ltb j (length hh) &&
      forallb (fun b => Nat.ltb b j && (reachb hh k n f b || unaffb hh k f b)) bs &&
      existsb (reachb hh k n f) bs &&
      (negb (vis_has (vis_nth (visible hh) j) n) || own_has (nth j hh dcls) n ||
       match bs with [_] => true | _ => false end)
  end.

Lemma unaffb_sound : forall hh k f j, unaffb hh k f j = true -> Unaff hh k j.
Proof.
  intros hh k. induction f as [|f IH]; intros j H; cbn [unaffb] in H; apply orb_true_iff in H;
    destruct H as [H|H]; try (apply U_lt, Nat.ltb_lt, H); [discriminate|].
  apply andb_true_iff in H. destruct H as [H H3]. apply andb_true_iff in H. destruct H as [H1 H2].
  apply U_S; [apply Nat.eqb_neq, negb_true_iff, H1|apply Nat.ltb_lt, H2|].
  intros b Hb. apply (proj1 (forallb_forall _ _) H3), andb_true_iff in Hb.
  split; [apply Nat.ltb_lt|apply IH]; apply Hb.
Qed.

Lemma reachb_sound : forall hh k n f j, reachb hh k n f j = true -> Reach hh k n j.
Proof.
  intros hh k n. induction f as [|f IH]; intros j H; cbn [reachb] in H; apply orb_true_iff in H;
    destruct H as [H|H]; try (apply Nat.eqb_eq in H; subst j; apply R0); [discriminate|].
  repeat (apply andb_true_iff in H; destruct H as [H ?H]).
  apply RS; [apply Nat.ltb_lt, H|apply Nat.ltb_lt, H3| | |].
  - intros b Hb. apply (proj1 (forallb_forall _ _) H2), andb_true_iff in Hb. destruct Hb as [Hl Hb].
    split; [apply Nat.ltb_lt, Hl|]. apply orb_true_iff in Hb.
    destruct Hb as [Hb|Hb]; [left; apply IH, Hb|right; apply (unaffb_sound _ _ _ _ Hb)].
  - apply existsb_exists in H1. destruct H1 as [b [Hb Hr]]. exists b. split; [exact Hb|apply IH, Hr].
  - apply orb_true_iff in H0. destruct H0 as [H0|H0]; [apply orb_true_iff in H0; destruct H0 as [H0|H0]|].
    + left. apply negb_true_iff, H0.
    + right. left. exact H0.
    + right. right. destruct (c_bases (nth j hh dcls)) as [|b [|? ?]]; try discriminate. exists b. reflexivity.
Qed.
