(* C13 — the plain traits.  The length-sorted prefix list answers with the longest matching wildcard;
   one invariant, [Inv], carries the law along every clean history of Model.step for arbitrary
   class tables; the tables built by update_traits_class_dict resolve every name as the law's
   declarative rule does (resolve_order); then the MRO reading, a second instance, and the direct
   statements about the sub-traits of Map and List. *)
From Coq Require Import ZArith List Bool Lia Sorted Permutation.
From TV Require Import Common.Harness C13.Model C13.Law C13.Corr.
Import ListNotations.
Open Scope Z_scope.


Lemma name_eqb_eq : forall a b, name_eqb a b = true <-> a = b.
Proof.
  induction a as [|x a IH]; destruct b as [|y b]; simpl; split; intro H; try congruence; try reflexivity.
  - apply andb_true_iff in H. destruct H as [H1 H2]. apply Z.eqb_eq in H1. apply IH in H2. congruence.
  - inversion H; subst. rewrite Z.eqb_refl. simpl. apply IH. reflexivity.
Qed.
Lemma name_eqb_refl : forall a, name_eqb a a = true.
Proof. intro a. apply name_eqb_eq. reflexivity. Qed.
Lemma name_eqb_neq : forall a b, a <> b -> name_eqb a b = false.
Proof. intros a b H. destruct (name_eqb a b) eqn:E; auto. apply name_eqb_eq in E. contradiction. Qed.
Lemma name_eqb_sym : forall a b, name_eqb a b = name_eqb b a.
Proof.
  intros a b. destruct (name_eqb a b) eqn:E.
  - apply name_eqb_eq in E. subst. symmetry. apply name_eqb_refl.
  - destruct (name_eqb b a) eqn:E2; auto. apply name_eqb_eq in E2. subst. rewrite name_eqb_refl in E. discriminate.
Qed.

Section AssocLemmas.
  Context {A : Type}.
  Implicit Types l : list (name * A).

  Lemma assoc_aset : forall l n v m, assoc m (aset n v l) = if name_eqb n m then Some v else assoc m l.
  Proof.
    induction l as [|[k w] r IH]; intros n v m; simpl.
    - rewrite name_eqb_sym. reflexivity.
    - destruct (name_eqb k n) eqn:E; simpl.
      + apply name_eqb_eq in E. subst k. destruct (name_eqb n m); reflexivity.
      + rewrite IH. destruct (name_eqb k m) eqn:E2; auto.
        apply name_eqb_eq in E2. subst k. rewrite name_eqb_sym, E. reflexivity.
  Qed.
  Lemma assoc_adel : forall l n m, assoc m (adel n l) = if name_eqb n m then None else assoc m l.
  Proof.
    induction l as [|[k w] r IH]; intros n m; simpl.
    - destruct (name_eqb n m); reflexivity.
    - destruct (name_eqb k n) eqn:E; simpl.
      + apply name_eqb_eq in E. subst k. rewrite IH. destruct (name_eqb n m); reflexivity.
      + rewrite IH. destruct (name_eqb k m) eqn:E2; auto.
        apply name_eqb_eq in E2. subst k. rewrite name_eqb_sym, E. reflexivity.
  Qed.
  Lemma adel_absent : forall l n, assoc n l = None -> adel n l = l.
  Proof.
    induction l as [|[k w] r IH]; intros n H; simpl in *; auto.
    destruct (name_eqb k n); try discriminate. rewrite IH; auto.
  Qed.
  Lemma assoc_app : forall l1 l2 n, assoc n (l1 ++ l2) = match assoc n l1 with Some v => Some v | None => assoc n l2 end.
  Proof.
    induction l1 as [|[k w] r IH]; intros; simpl; auto. destruct (name_eqb k n); auto.
  Qed.
  Lemma assoc_In : forall l n v, assoc n l = Some v -> In (n, v) l.
  Proof.
    induction l as [|[k w] r IH]; intros n v H; simpl in *; try discriminate.
    destruct (name_eqb k n) eqn:E.
    - apply name_eqb_eq in E. inversion H; subst. auto.
    - right. auto.
  Qed.
  Lemma In_assoc_some : forall l n v, In (n, v) l -> exists w, assoc n l = Some w.
  Proof.
    induction l as [|[k w] r IH]; intros n v H; simpl in *; [contradiction|].
    destruct (name_eqb k n) eqn:E; [eauto|]. destruct H as [H|H]; [|eauto].
    inversion H; subst. rewrite name_eqb_refl in E. discriminate.
  Qed.
End AssocLemmas.

Lemma is_prefix_length : forall p n, is_prefix p n = true -> (length p <= length n)%nat.
Proof.
  induction p as [|x p IH]; destruct n as [|y n]; simpl; intros H; try lia; try discriminate.
  apply andb_true_iff in H. destruct H as [_ H]. apply IH in H. lia.
Qed.
(* two prefixes of one name that have the same length are the same prefix *)
Lemma is_prefix_same_length : forall p q n,
  is_prefix p n = true -> is_prefix q n = true -> length p = length q -> p = q.
Proof.
  induction p as [|x p IH]; destruct q as [|y q]; intros n Hp Hq Hl; simpl in *; try discriminate; auto.
  destruct n as [|z n]; try discriminate.
  apply andb_true_iff in Hp. apply andb_true_iff in Hq. destruct Hp as [Hx Hp]. destruct Hq as [Hy Hq].
  apply Z.eqb_eq in Hx. apply Z.eqb_eq in Hy. f_equal; [congruence|]. apply (IH q n); auto.
Qed.


Definition len_ge (a b : name * policy) : Prop := (length (fst b) <= length (fst a))%nat.

Lemma insert_len_In : forall e l x, In x (insert_len e l) <-> x = e \/ In x l.
Proof.
  induction l as [|y r IH]; intros x; simpl.
  - intuition.
  - destruct (Nat.ltb (length (fst e)) (length (fst y))); simpl; [rewrite IH|]; intuition.
Qed.
Lemma sort_len_In : forall l x, In x (sort_len l) <-> In x l.
Proof.
  induction l as [|e r IH]; intros x; simpl; [tauto|].
  rewrite insert_len_In, IH. intuition.
Qed.
Lemma insert_len_sorted : forall e l, StronglySorted len_ge l -> StronglySorted len_ge (insert_len e l).
Proof.
  induction l as [|y r IH]; intros H; simpl.
  - constructor; constructor.
  - inversion H as [|? ? Hs Hf]; subst.
    destruct (Nat.ltb (length (fst e)) (length (fst y))) eqn:E.
    + apply Nat.ltb_lt in E. constructor; auto.
      apply Forall_forall. intros x Hx. apply insert_len_In in Hx. destruct Hx as [->|Hx].
      * unfold len_ge. lia.
      * rewrite Forall_forall in Hf. auto.
    + apply Nat.ltb_ge in E. constructor; auto.
      constructor; [unfold len_ge; lia|].
      rewrite Forall_forall in *. intros x Hx. specialize (Hf x Hx). unfold len_ge in *. lia.
Qed.
Lemma sort_len_sorted : forall l, StronglySorted len_ge (sort_len l).
Proof. induction l; simpl; [constructor|apply insert_len_sorted; auto]. Qed.

(* the stable sort does not reorder entries of the same key, so dictionary look-up is unchanged *)
Lemma assoc_insert_len : forall e l m, assoc m (insert_len e l) = assoc m (e :: l).
Proof.
  induction l as [|y r IH]; intros m; simpl; auto.
  destruct (Nat.ltb (length (fst e)) (length (fst y))) eqn:E; auto.
  apply Nat.ltb_lt in E. destruct e as [ke ve], y as [ky vy]. simpl in *. rewrite IH. simpl.
  destruct (name_eqb ky m) eqn:E1; destruct (name_eqb ke m) eqn:E2; auto.
  apply name_eqb_eq in E1. apply name_eqb_eq in E2. subst. lia.
Qed.
Lemma assoc_sort_len : forall l m, assoc m (sort_len l) = assoc m l.
Proof.
  induction l as [|[k v] r IH]; intros m; simpl; auto.
  rewrite assoc_insert_len. simpl. rewrite IH. reflexivity.
Qed.

Lemma first_match_sound : forall n l q p, first_match n l = Some (q, p) -> In (q, p) l /\ is_prefix q n = true.
Proof.
  induction l as [|[k v] r IH]; intros q p H; simpl in *; try discriminate.
  destruct (is_prefix k n) eqn:E.
  - inversion H; subst. auto.
  - apply IH in H. tauto.
Qed.
Lemma first_match_none : forall n l, first_match n l = None -> forall q p, In (q, p) l -> is_prefix q n = false.
Proof.
  induction l as [|[k v] r IH]; intros H q p Hin; simpl in *; [contradiction|].
  destruct (is_prefix k n) eqn:E; try discriminate.
  destruct Hin as [Hin|Hin]; [inversion Hin; subst; auto|eauto].
Qed.
Lemma first_match_sorted_longest : forall n l q p,
  StronglySorted len_ge l -> first_match n l = Some (q, p) ->
  forall q' p', In (q', p') l -> is_prefix q' n = true -> (length q' <= length q)%nat.
Proof.
  induction l as [|[k v] r IH]; intros q p Hs H q' p' Hin Hp; simpl in *; [contradiction|].
  inversion Hs as [|? ? Hs' Hf]; subst.
  destruct (is_prefix k n) eqn:E.
  - inversion H; subst. destruct Hin as [Hin|Hin]; [inversion Hin; subst; lia|].
    rewrite Forall_forall in Hf. specialize (Hf _ Hin). unfold len_ge in Hf. simpl in Hf. lia.
  - destruct Hin as [Hin|Hin]; [inversion Hin; subst; congruence|]. eapply IH; eauto.
Qed.
Lemma first_match_is_dict_entry : forall n l q p, first_match n l = Some (q, p) ->
  exists p0, assoc q l = Some p0.
Proof. intros. apply first_match_sound in H. destruct H as [H _]. eapply In_assoc_some; eauto. Qed.

Lemma first_match_sort_longest : forall n l q p,
  first_match n (sort_len l) = Some (q, p) ->
  In (q, p) l /\ is_prefix q n = true /\
  forall q' p', In (q', p') l -> is_prefix q' n = true -> (length q' <= length q)%nat.
Proof.
  intros n l q p H. pose proof (first_match_sound _ _ _ _ H) as [Hin Hp].
  split; [apply sort_len_In; auto|]. split; auto.
  intros q' p' Hin' Hp'. eapply first_match_sorted_longest; eauto using sort_len_sorted.
  apply sort_len_In; eauto.
Qed.


(* the policies under which a value may stand in obj.__dict__ (Disallow, Constant and Event never store) *)
Definition storing (g : rule) : bool :=
  match g with
  | RPol PPython | RPol (PAny _) | RPol (PTyped _ _) | RPol (PReadOnly _) | RDunder
  | RPol (PMap _ _) | RPol (PShadow _) | RPol PList => true
  | _ => false
  end.

(* plain = not a mapped trait (Map) nor its shadow: the traits [Inv] reasons about; mapped
   traits are covered by MapProofs.v and by the correspondence *)
Definition plain_tab (l : list (name * policy)) : bool := forallb (fun e => plainp (snd e)) l.

Lemma plain_assoc : forall l n p, plain_tab l = true -> assoc n l = Some p -> plainp p = true.
Proof.
  induction l as [|[k v] r IH]; intros n p H E; simpl in *; try discriminate.
  apply andb_true_iff in H. destruct H as [H1 H2].
  destruct (name_eqb k n); [inversion E; subst; auto|eauto].
Qed.
Lemma plain_aset : forall l n p, plain_tab l = true -> plainp p = true -> plain_tab (aset n p l) = true.
Proof.
  induction l as [|[k v] r IH]; intros n p H Hp; simpl in *; [rewrite Hp; reflexivity|].
  apply andb_true_iff in H. destruct H as [H1 H2].
  destruct (name_eqb k n); simpl; [rewrite Hp, H2; reflexivity|rewrite H1, IH; auto].
Qed.
Lemma plain_adel : forall l n, plain_tab l = true -> plain_tab (adel n l) = true.
Proof.
  induction l as [|[k v] r IH]; intros n H; simpl in *; auto.
  apply andb_true_iff in H. destruct H as [H1 H2].
  destruct (name_eqb k n); simpl; [auto|rewrite H1, IH; auto].
Qed.
Lemma subs_plain : forall n p, plainp p = true -> subs n p = [].
Proof. intros n p H. destruct p; try discriminate H; reflexivity. Qed.
Lemma plain_first_match : forall l n q p, plain_tab l = true -> first_match n l = Some (q, p) -> plainp p = true.
Proof.
  induction l as [|[k v] r IH]; intros n q p H E; simpl in *; try discriminate.
  apply andb_true_iff in H. destruct H as [H1 H2].
  destruct (is_prefix k n); [inversion E; subst; auto|eauto].
Qed.

(* excluded by [clean_run]: the trigger of the first listed finding (add_trait of a policy that
   stores nothing on a name whose value is already in obj.__dict__), and add_trait of a mapped
   trait (MapProofs.v) *)
Definition clean_step (s : state) (o : op) : bool :=
  match o with
  | OAdd n p => plainp p && (storing (RPol p) || negb (amem n (s_od s)))
  | _ => true
  end.

Section Run.
  Variable ct0 : ctab.
  Variable pt : ptab.

  Fixpoint clean_run (s : state) (ops : list op) : bool :=
    match ops with
    | [] => true
    | o :: r => clean_step s o && clean_run (fst (step pt s o)) r
    end.

  (* the class-level rule the object's class implements *)
  Definition model_rule (n : name) : rule :=
    match assoc n ct0 with
    | Some p => RPol p
    | None => if dunder n then RDunder
              else match first_match n pt with Some (_, p) => RPol p | None => RNone end
    end.

  (* the policy the code finds stands for the rule: itself, or any_trait = Any(None), which
     __prefix_trait__ hands out for an undeclared __x__ name on assignment *)
  Definition rel (g : rule) (p : policy) : Prop := g = RPol p \/ (g = RDunder /\ p = PAny VNone).

  Definition gov (s : state) (n : name) : rule :=
    match assoc n (s_itd s) with Some p => RPol p | None => model_rule n end.

  Record Inv (s : state) (ls : lstate) : Prop := mkInv {
    inv_itd : l_itd ls = s_itd s;
    inv_od : forall m, assoc m (l_od ls) = assoc m (s_od s);
    inv_c1 : forall m p, assoc m ct0 = Some p -> assoc m (s_ctd s) = Some p;
    inv_c2 : forall m p, assoc m (s_ctd s) = Some p -> rel (model_rule m) p;
    inv_st : forall m v, assoc m (s_od s) = Some v -> storing (gov s m) = true;
    inv_plain : plain_tab ct0 && plain_tab pt && plain_tab (s_itd s) && plain_tab (s_ctd s) = true
  }.

  Lemma inv_plain4 : forall s ls, Inv s ls ->
    plain_tab ct0 = true /\ plain_tab pt = true /\ plain_tab (s_itd s) = true /\ plain_tab (s_ctd s) = true.
  Proof.
    intros s ls H. pose proof (inv_plain _ _ H) as P.
    apply andb_true_iff in P. destruct P as [P P4]. apply andb_true_iff in P. destruct P as [P P3].
    apply andb_true_iff in P. destruct P as [P1 P2]. auto.
  Qed.
  Lemma plain4 : forall a b c d, plain_tab a = true -> plain_tab b = true -> plain_tab c = true -> plain_tab d = true ->
    plain_tab a && plain_tab b && plain_tab c && plain_tab d = true.
  Proof. intros a b c d -> -> -> ->. reflexivity. Qed.
  Lemma model_rule_plain : plain_tab ct0 = true -> plain_tab pt = true ->
    forall n p, rel (model_rule n) p -> plainp p = true.
  Proof.
    intros H0 Hp n p [E|[_ ->]]; [|reflexivity]. revert E. unfold model_rule.
    destruct (assoc n ct0) eqn:E0; [intro E; inversion E; subst; exact (plain_assoc _ _ _ H0 E0)|].
    destruct (dunder n); simpl; [discriminate|].
    destruct (first_match n pt) as [[q p1]|] eqn:Ef; simpl; [|discriminate].
    intro E. inversion E; subst. exact (plain_first_match _ _ _ _ Hp Ef).
  Qed.

  Lemma model_rule_dunder : forall n, model_rule n = RDunder -> dunder n = true.
  Proof.
    intro n. unfold model_rule. destruct (assoc n ct0); [discriminate|]. destruct (dunder n); [reflexivity|].
    destruct (first_match n pt) as [[q x]|]; discriminate.
  Qed.

  Lemma governing_gov : forall s ls n, Inv s ls -> governing model_rule ls n = gov s n.
  Proof. intros s ls n H. unfold governing, gov. rewrite (inv_itd _ _ H). reflexivity. Qed.

  Lemma chk3_nil : forall k1 k2 k3 a b c, a = true -> b = true -> c = true ->
    chk k1 a ++ chk k2 b ++ chk k3 c = [].
  Proof. intros; subst; reflexivity. Qed.

  Lemma getattr_ok : forall s n p g, rel g p -> assoc n (s_od s) = None ->
    let ob := snd (getattr s n p) in
    class_ok (fst (demand g None (OGet n))) (o_out ob) = true /\
    value_ok (fst (demand g None (OGet n))) (o_out ob) = true.
  Proof.
    intros s n p g [->|[-> ->]] Hn; [destruct p|]; simpl; rewrite ?Z.eqb_refl; auto.
  Qed.

  Lemma opt_eqb_refl : forall x : option Z, opt_eqb Z.eqb x x = true.
  Proof. destruct x; simpl; auto using Z.eqb_refl. Qed.

  (* closes a handler-versus-demand goal once the policy's branches are split: the value just stored is
     read back (assoc_aset / assoc_adel at the own name) and compared with itself *)
  Ltac fin := simpl; rewrite ?assoc_aset, ?assoc_adel, ?name_eqb_refl; simpl;
              rewrite ?Z.eqb_refl, ?opt_eqb_refl; auto.

  Lemma setattr_ok : forall s n p g v, rel g p ->
    let ob := snd (setattr s n p v) in
    let d := demand g (assoc n (s_od s)) (OSet n v) in
    class_ok (fst d) (o_out ob) = true /\ value_ok (fst d) (o_out ob) = true /\
    stored_ok (snd d) (o_stored ob) = true.
  Proof.
    intros s n p g v [->|[-> ->]]; [destruct p as [ |d| |d|c|k|k d|m d|m| ]|]; simpl; try (fin; fail).
    - destruct (negb (Z.eqb d VUndef)); simpl; [fin|].
      unfold defined. destruct (assoc n (s_od s)) as [w|] eqn:E; [destruct (Z.eqb w VUndef)|]; fin.
      rewrite E. fin.
    - destruct k as [k|]; [destruct (validate k v)|]; fin.
    - destruct (Z.eqb v VUndef); [|destruct (validate k v)]; fin.
    - destruct (Z.eqb v VUndef); fin.
  Qed.

  Lemma delattr_ok : forall s n p g, rel g p ->
    let ob := snd (delattr s n p) in
    let d := demand g (assoc n (s_od s)) (ODel n) in
    class_ok (fst d) (o_out ob) = true /\ value_ok (fst d) (o_out ob) = true /\
    stored_ok (snd d) (o_stored ob) = true.
  Proof.
    intros s n p g [->|[-> ->]]; [destruct p|]; simpl; try (fin; fail).
    unfold amem. destruct (assoc n (s_od s)) as [w|] eqn:E; fin. rewrite E. auto.
  Qed.

  Definition handler (o : op) (s : state) (p : policy) : state * obs :=
    match o with
    | OSet n v => setattr s n p v
    | ODel n => delattr s n p
    | _ => getattr s (op_name o) p
    end.
  Definition is_access (o : op) : bool :=
    match o with OGet _ | OSet _ _ | ODel _ => true | _ => false end.

  (* splits a handler along the policy and then along every test the handlers make (value present,
     Undefined, validator, optional validator); each leaf is one [out] on an explicit state *)
  Ltac hcases p s n :=
    destruct p; simpl; unfold amem;
    repeat match goal with
           | |- context [match assoc n (s_od s) with _ => _ end] => destruct (assoc n (s_od s)) eqn:?; simpl
           | |- context [if ?b then _ else _] => destruct b eqn:?; simpl
           | |- context [match validate ?k ?v with _ => _ end] => destruct (validate k v) eqn:?; simpl
           | |- context [match ?k with Some _ => _ | None => _ end] => is_var k; destruct k; simpl
           end.

  Lemma handler_keeps : forall o s p, is_access o = true ->
    s_itd (fst (handler o s p)) = s_itd s /\ s_ctd (fst (handler o s p)) = s_ctd s /\
    o_stored (snd (handler o s p)) = assoc (op_name o) (s_od (fst (handler o s p))).
  Proof.
    intros o s p H. destruct o as [n|n v|n|n q|n]; try discriminate; simpl; hcases p s n; auto.
  Qed.

  Lemma handler_frame : forall o s p m, is_access o = true -> m <> op_name o ->
    assoc m (s_od (fst (handler o s p))) = assoc m (s_od s).
  Proof.
    intros o s p m H Hm.
    assert (Hn : name_eqb (op_name o) m = false) by (apply name_eqb_neq; congruence).
    destruct o as [n|n v|n|n q|n]; try discriminate; simpl in *; hcases p s n;
      rewrite ?assoc_aset, ?assoc_adel, ?Hn; auto.
  Qed.

  Lemma handler_stores : forall o s p g w, is_access o = true -> rel g p ->
    (forall v, assoc (op_name o) (s_od s) = Some v -> storing g = true) ->
    assoc (op_name o) (s_od (fst (handler o s p))) = Some w -> storing g = true.
  Proof.
    intros o s p g w H [->|[-> ->]] Hold; [|reflexivity].
    destruct o as [n|n v|n|n q|n]; try discriminate; simpl in *; hcases p s n; auto;
      intros Hs; try (eapply Hold; eauto; fail);
      rewrite ?assoc_adel, ?name_eqb_refl in Hs; try discriminate; eauto.
  Qed.

  (* every branch of Model.step (mapped traits included) ends in [out], and the accesses leave
     the instance traits alone *)
  Definition outs (s : state) (n : name) (r : state * obs) : Prop :=
    exists s' x, r = out s' n x /\ s_itd s' = s_itd s.
  Lemma outs_od : forall s od n x, outs s n (out (set_od s od) n x).
  Proof. intros. eexists _, x. split; reflexivity. Qed.
  Lemma outs_same : forall s n x, outs s n (out s n x).
  Proof. intros. exists s, x. split; reflexivity. Qed.
  Lemma outs_from : forall s s1 n r, s_itd s1 = s_itd s -> outs s1 n r -> outs s n r.
  Proof. intros s s1 n r E (s' & x & Er & Ei). exists s', x. split; [exact Er|congruence]. Qed.
  Hint Resolve outs_od outs_same : outs.

  Lemma getattr_outs : forall s n p, outs s n (getattr s n p).
  Proof. intros s n p. destruct p; simpl; auto with outs. Qed.
  Lemma setattr_outs : forall s n p v, outs s n (setattr s n p v).
  Proof.
    intros s n p v. destruct p as [ |d| |d|c|k|k d|m d|m| ]; simpl; auto with outs.
    - destruct (negb (Z.eqb d VUndef)); auto with outs.
      destruct (assoc n (s_od s)) as [w|]; [destruct (Z.eqb w VUndef)|]; auto with outs.
    - destruct k as [k|]; [destruct (validate k v)|]; auto with outs.
    - destruct (Z.eqb v VUndef); [|destruct (validate k v)]; auto with outs.
    - destruct (Z.eqb v VUndef); [|destruct (zassoc v m)]; auto with outs.
    - destruct (Z.eqb v VUndef); auto with outs.
  Qed.
  Lemma delattr_outs : forall s n p, outs s n (delattr s n p).
  Proof. intros s n p. destruct p; simpl; auto with outs. destruct (amem n (s_od s)); auto with outs. Qed.

  (* resolving a name only caches the result in the class dictionary *)
  Lemma prefix_trait_keeps : forall s n b p s', prefix_trait pt s n b = inl (p, s') ->
    s_od s' = s_od s /\ s_itd s' = s_itd s.
  Proof.
    intros s n b p s'. unfold prefix_trait. destruct (dunder n).
    - destruct b; [|discriminate]. intro E. inversion E. auto.
    - destruct (first_match n pt) as [[q p1]|]; [|discriminate]. intro E. inversion E. auto.
  Qed.
  Lemma lookup_set_keeps : forall s n p s', lookup_set pt s n = inl (p, s') ->
    s_od s' = s_od s /\ s_itd s' = s_itd s.
  Proof.
    intros s n p s'. unfold lookup_set. destruct (assoc n (s_itd s)); [intro E; inversion E; auto|].
    destruct (assoc n (s_ctd s)); [intro E; inversion E; auto|]. apply prefix_trait_keeps.
  Qed.
  Lemma post_map_itd : forall s n m v, s_itd (fst (post_map pt s n m v)) = s_itd s.
  Proof.
    intros s n m v. unfold post_map, nested_set. destruct (zassoc v m) as [w|]; [|reflexivity].
    destruct (lookup_set pt s (n ++ [US])) as [[p s']|e] eqn:E; [|reflexivity].
    destruct (setattr_outs s' (n ++ [US]) p w) as (s'' & x & -> & H). cbn. rewrite H.
    eapply lookup_set_keeps; eauto.
  Qed.
  Lemma getattr0_outs : forall s n p, outs s n (getattr0 pt s n p).
  Proof.
    intros s n p. destruct p; try apply getattr_outs. unfold getattr0, getattr_map.
    pose proof (post_map_itd (set_od s (aset n d (s_od s))) n m d) as H.
    destruct (post_map pt (set_od s (aset n d (s_od s))) n m d) as [s1 [e|]]; eexists _, _; (split; [reflexivity|exact H]).
  Qed.
  Lemma get_with_outs : forall ga, (forall s n p, outs s n (ga s n p)) -> forall s n, outs s n (get_with pt ga s n).
  Proof.
    intros ga H s n. unfold get_with. destruct (assoc n (s_od s)); [auto with outs|].
    destruct (assoc n (s_itd s)); [apply H|]. destruct (assoc n (s_ctd s)); [apply H|].
    destruct (prefix_trait pt s n false) as [[p s']|e] eqn:E; [|auto with outs].
    apply (outs_from s s'); [eapply prefix_trait_keeps; eauto|apply H].
  Qed.
  Lemma getattr_m_outs : forall s n p, outs s n (getattr_m pt s n p).
  Proof.
    intros s n p. destruct p; try apply getattr0_outs. unfold getattr_m.
    destruct (get_with_outs (getattr0 pt) getattr0_outs s (removelast n)) as (s1 & y & -> & H).
    apply (outs_from s s1 n _ H). cbn. destruct y as [x| |e]; auto with outs. destruct (zassoc x m); auto with outs.
  Qed.
  Lemma setattr_m_outs : forall s n p v, outs s n (setattr_m pt s n p v).
  Proof.
    intros s n p v. destruct p; try apply setattr_outs. unfold setattr_m.
    destruct (negb (Z.eqb v VUndef) && _); [auto with outs|].
    assert (PM : forall s0 w x y, s_itd s0 = s_itd s ->
              outs s n (let '(s3, e) := post_map pt s0 n m w in match e with Some z => out s3 n (x z) | None => out s3 n y end)).
    { intros s0 w x y E. pose proof (post_map_itd s0 n m w) as H.
      destruct (post_map pt s0 n m w) as [s3 [e|]]; cbn [fst] in H; eexists _, _; (split; [reflexivity|congruence]). }
    destruct (assoc n (s_od s)) as [o|].
    - destruct (Z.eqb o v); [auto with outs|]. apply (PM _ v Raise Done). reflexivity.
    - pose proof (post_map_itd (set_od s (aset n d (s_od s))) n m d) as H1.
      destruct (post_map pt (set_od s (aset n d (s_od s))) n m d) as [s1 [e1|]]; cbn [fst] in H1.
      + eexists _, _. split; [reflexivity|exact H1].
      + destruct (Z.eqb d v); [eexists _, _; split; [reflexivity|exact H1]|]. apply (PM _ v Raise Done). exact H1.
  Qed.

  Lemma access_outs : forall s o, is_access o = true -> outs s (op_name o) (step pt s o).
  Proof.
    intros s o Ha. destruct o as [n|n v|n|n q|n]; try discriminate; cbn [step op_name].
    - apply get_with_outs, getattr_m_outs.
    - destruct (lookup_set pt s n) as [[p s']|e] eqn:E; [|auto with outs].
      apply (outs_from s s'); [eapply lookup_set_keeps; eauto|apply setattr_m_outs].
    - destruct (lookup_set pt s n) as [[p s']|e] eqn:E; [|auto with outs].
      apply (outs_from s s'); [eapply lookup_set_keeps; eauto|apply delattr_outs].
  Qed.
  Lemma step_out : forall s o, exists s' x, step pt s o = out s' (op_name o) x.
  Proof.
    intros s o. destruct (is_access o) eqn:Ha.
    - destruct (access_outs s o Ha) as (s' & x & E & _). eauto.
    - destruct o as [n|n v|n|n q|n]; try discriminate Ha; cbn [step op_name].
      + do 2 eexists. reflexivity.
      + destruct (match assoc n (s_itd s) with Some p => Some p | None => assoc n (s_ctd s) end);
          do 2 eexists; reflexivity.
  Qed.
  Lemma step_stored : forall s o, o_stored (snd (step pt s o)) = assoc (op_name o) (s_od (fst (step pt s o))).
  Proof. intros s o. destruct (step_out s o) as (s' & x & E). rewrite E. reflexivity. Qed.
  Lemma step_itd_access : forall s o, is_access o = true -> s_itd (fst (step pt s o)) = s_itd s.
  Proof. intros s o Ha. destruct (access_outs s o Ha) as (s' & x & E & H). rewrite E. exact H. Qed.

  Lemma Inv_resync : forall s ls s2 n,
    Inv s ls -> s_itd s2 = s_itd s -> s_ctd s2 = s_ctd s ->
    (forall m, m <> n -> assoc m (s_od s2) = assoc m (s_od s)) ->
    (forall v, assoc n (s_od s2) = Some v -> storing (gov s n) = true) ->
    Inv s2 (mkL (l_itd ls) (match assoc n (s_od s2) with Some v => aset n v (l_od ls) | None => adel n (l_od ls) end)).
  Proof.
    intros s ls s2 n H Hi Hc Hf Hst. constructor; simpl.
    - rewrite Hi. apply (inv_itd _ _ H).
    - intro m. destruct (name_eqb n m) eqn:E.
      + apply name_eqb_eq in E. subst m.
        destruct (assoc n (s_od s2)); rewrite ?assoc_aset, ?assoc_adel, name_eqb_refl; reflexivity.
      + assert (m <> n) by (intro; subst; rewrite name_eqb_refl in E; discriminate).
        rewrite (Hf m) by auto. rewrite <- (inv_od _ _ H).
        destruct (assoc n (s_od s2)); rewrite ?assoc_aset, ?assoc_adel, E; reflexivity.
    - intros m p Hm. rewrite Hc. eapply inv_c1; eauto.
    - intros m p Hm. rewrite Hc in Hm. eapply inv_c2; eauto.
    - intros m v Hm. unfold gov. rewrite Hi. fold (gov s m).
      destruct (name_eqb n m) eqn:E.
      + apply name_eqb_eq in E. subst m. eauto.
      + assert (m <> n) by (intro; subst; rewrite name_eqb_refl in E; discriminate).
        rewrite Hf in Hm by auto. eapply inv_st; eauto.
    - rewrite Hi, Hc. apply (inv_plain _ _ H).
  Qed.

  Definition ctd_ext (s s1 : state) (n : name) : Prop :=
    s_od s1 = s_od s /\ s_itd s1 = s_itd s /\
    (s_ctd s1 = s_ctd s \/
     (assoc n (s_ctd s) = None /\ exists p, s_ctd s1 = aset n p (s_ctd s) /\ rel (model_rule n) p)).

  Lemma Inv_ctd_ext : forall s ls s1 n, Inv s ls -> ctd_ext s s1 n -> Inv s1 ls.
  Proof.
    intros s ls s1 n H (Ho & Hi & Hc). constructor.
    - rewrite Hi. apply (inv_itd _ _ H).
    - intro m. rewrite Ho. apply (inv_od _ _ H).
    - intros m p Hm. destruct Hc as [->|(Hn & q & -> & Hr)]; [eapply inv_c1; eauto|].
      rewrite assoc_aset. destruct (name_eqb n m) eqn:E; [|eapply inv_c1; eauto].
      apply name_eqb_eq in E. subst m. rewrite (inv_c1 _ _ H _ _ Hm) in Hn. discriminate.
    - intros m p Hm. destruct Hc as [Hc|(Hn & q & Hc & Hr)]; rewrite Hc in Hm; [eapply inv_c2; eauto|].
      rewrite assoc_aset in Hm. destruct (name_eqb n m) eqn:E; [|eapply inv_c2; eauto].
      apply name_eqb_eq in E. subst m. inversion Hm; subst. exact Hr.
    - intros m v Hm. unfold gov. rewrite Hi. fold (gov s m). rewrite Ho in Hm. eapply inv_st; eauto.
    - destruct (inv_plain4 _ _ H) as (P1 & P2 & P3 & P4). rewrite Hi. apply plain4; auto.
      destruct Hc as [->|(Hn & q & -> & Hr)]; auto. apply plain_aset; auto.
      eapply model_rule_plain; eauto.
  Qed.

  Lemma ct0_none : forall s ls n, Inv s ls -> assoc n (s_ctd s) = None -> assoc n ct0 = None.
  Proof.
    intros s ls n H Hn. destruct (assoc n ct0) eqn:E; auto. rewrite (inv_c1 _ _ H _ _ E) in Hn. discriminate.
  Qed.

  (* get_prefix_trait resolves a name as the class-level rule does, and caches the result *)
  Lemma prefix_trait_inl : forall s ls n b p s1, Inv s ls -> assoc n (s_ctd s) = None ->
    prefix_trait pt s n b = inl (p, s1) -> rel (model_rule n) p /\ ctd_ext s s1 n.
  Proof.
    intros s ls n b p s1 H Ec. unfold prefix_trait, ctd_ext, model_rule. rewrite (ct0_none _ _ _ H Ec).
    destruct (dunder n).
    - destruct b; [|discriminate]. intro E. inversion E; subst. simpl. split; [right; auto|].
      repeat split; auto. right. split; auto. exists (PAny VNone). split; auto. right. auto.
    - destruct (first_match n pt) as [[q p1]|] eqn:Ef; intro E; inversion E; subst. simpl.
      split; [left; reflexivity|]. repeat split; auto. right. split; auto. exists p. split; auto. left. reflexivity.
  Qed.
  Lemma prefix_trait_inr : forall s ls n b e, Inv s ls -> assoc n (s_ctd s) = None ->
    prefix_trait pt s n b = inr e -> model_rule n = RNone \/ (b = false /\ model_rule n = RDunder).
  Proof.
    intros s ls n b e H Ec. unfold prefix_trait, model_rule. rewrite (ct0_none _ _ _ H Ec).
    destruct (dunder n); [destruct b; [discriminate|auto]|].
    destruct (first_match n pt) as [[q p1]|]; [discriminate|auto].
  Qed.

  (* has_traits_getattro and has_traits_setattro look a name up in the same way, up to the flag
     they hand to get_prefix_trait; the policy found is one the governing rule stands for *)
  Definition lookup (s : state) (n : name) (is_set : bool) : (policy * state) + exn :=
    match assoc n (s_itd s) with
    | Some p => inl (p, s)
    | None => match assoc n (s_ctd s) with
              | Some p => inl (p, s)
              | None => prefix_trait pt s n is_set
              end
    end.

  Lemma lookup_inl : forall s ls n b p s1, Inv s ls -> lookup s n b = inl (p, s1) ->
    rel (gov s n) p /\ ctd_ext s s1 n.
  Proof.
    intros s ls n b p s1 H. unfold lookup, gov.
    destruct (assoc n (s_itd s)) as [p0|] eqn:Ei.
    - intro E. inversion E; subst. split; [left; reflexivity|unfold ctd_ext; auto].
    - destruct (assoc n (s_ctd s)) as [p0|] eqn:Ec.
      + intro E. inversion E; subst. split; [eapply inv_c2; eauto|unfold ctd_ext; auto].
      + apply (prefix_trait_inl s ls n b p s1 H Ec).
  Qed.
  Lemma lookup_inr : forall s ls n b e, Inv s ls -> lookup s n b = inr e ->
    gov s n = RNone \/ (b = false /\ gov s n = RDunder).
  Proof.
    intros s ls n b e H. unfold lookup, gov.
    destruct (assoc n (s_itd s)); [discriminate|].
    destruct (assoc n (s_ctd s)) eqn:Ec; [discriminate|]. apply (prefix_trait_inr s ls n b e H Ec).
  Qed.

  (* the look-up and handlers of Model.step for plain traits, and the law's bookkeeping for them *)
  Definition step_p (s : state) (o : op) : state * obs :=
    match o with
    | OGet n =>
        match assoc n (s_od s) with
        | Some v => out s n (Val v)
        | None =>
            match assoc n (s_itd s) with
            | Some p => getattr s n p
            | None =>
                match assoc n (s_ctd s) with
                | Some p => getattr s n p
                | None =>
                    match prefix_trait pt s n false with
                    | inl (p, s') => getattr s' n p
                    | inr e => out s n (Raise e)
                    end
                end
            end
        end
    | OSet n v =>
        match lookup_set pt s n with
        | inl (p, s') => setattr s' n p v
        | inr e => out s n (Raise e)
        end
    | ODel n =>
        match lookup_set pt s n with
        | inl (p, s') => delattr s' n p
        | inr e => out s n (Raise e)
        end
    | OAdd n p => out (mkState (s_ctd s) (aset n p (s_itd s)) (s_od s)) n Done
    | ORem n =>
        match assoc n (s_itd s) with
        | Some _ => out (mkState (s_ctd s) (adel n (s_itd s)) (adel n (s_od s))) n (Val 1)
        | None => if amem n (s_ctd s) then out (set_od s (adel n (s_od s))) n (Val 0) else out s n (Val 0)
        end
    end.

  Definition law_next0 (ls : lstate) (o : op) (ob : obs) : lstate :=
    let n := op_name o in
    let itd := match o, o_out ob with
               | OAdd _ p, Done => aset n p (l_itd ls)
               | ORem _, Val _ => adel n (l_itd ls)
               | _, _ => l_itd ls
               end in
    mkL itd (match o_stored ob with Some v => aset n v (l_od ls) | None => adel n (l_od ls) end).

  Lemma gov_plain : forall s ls, Inv s ls -> forall n p, gov s n = RPol p -> plainp p = true.
  Proof.
    intros s ls HI n p. destruct (inv_plain4 _ _ HI) as (P1 & P2 & P3 & P4). unfold gov.
    destruct (assoc n (s_itd s)) eqn:E; [intro H; inversion H; subst; exact (plain_assoc _ _ _ P3 E)|].
    intro H. eapply model_rule_plain; eauto. left. exact H.
  Qed.

  Lemma demand_m_gov : forall s ls, Inv s ls -> forall n sb o,
    demand_m model_rule ls (gov s n) sb o = demand (gov s n) sb o.
  Proof.
    intros s ls HI n sb o. destruct (gov s n) as [p| |] eqn:Eg; try reflexivity.
    pose proof (gov_plain _ _ HI _ _ Eg) as Hp. destruct p; try discriminate Hp; reflexivity.
  Qed.

  Lemma rel_plain : forall s ls, Inv s ls -> forall n p, rel (gov s n) p -> plainp p = true.
  Proof. intros s ls HI n p [E|[_ ->]]; [eapply gov_plain; eauto|reflexivity]. Qed.

  Lemma demand_m_plain : forall ls g p sb o, rel g p -> plainp p = true -> demand_m model_rule ls g sb o = demand g sb o.
  Proof. intros ls g p sb o [->|[-> ->]] H; [destruct p; try discriminate H|]; reflexivity. Qed.

  Lemma access_handler : forall s ls o p, is_access o = true -> Inv s ls -> rel (gov s (op_name o)) p ->
    (forall n, o = OGet n -> assoc n (s_od s) = None) ->
    law_step model_rule ls o (snd (handler o s p)) = [] /\
    Inv (fst (handler o s p)) (law_next0 ls o (snd (handler o s p))).
  Proof.
    intros s ls o p Ha HI Hr Hg. pose proof (rel_plain _ _ HI _ _ Hr) as Hpl. split.
    - unfold law_step. rewrite (governing_gov _ _ _ HI), (inv_od _ _ HI).
      rewrite (demand_m_plain ls _ p _ o Hr Hpl).
      destruct o as [n|n v|n|n q|n]; try discriminate; simpl op_name in *.
      + rewrite (Hg n eq_refl). pose proof (getattr_ok s n p _ Hr (Hg n eq_refl)) as [A B].
        simpl handler. destruct (demand (gov s n) None (OGet n)) as [w ws] eqn:E.
        assert (ws = None) by (simpl in E; inversion E; reflexivity). subst ws.
        simpl in A, B. apply chk3_nil; auto.
      + pose proof (setattr_ok s n p _ v Hr) as (A & B & D). simpl handler.
        destruct (demand (gov s n) (assoc n (s_od s)) (OSet n v)) as [w ws]. simpl in A, B, D.
        apply chk3_nil; auto.
      + pose proof (delattr_ok s n p _ Hr) as (A & B & D). simpl handler.
        destruct (demand (gov s n) (assoc n (s_od s)) (ODel n)) as [w ws]. simpl in A, B, D.
        apply chk3_nil; auto.
    - destruct (handler_keeps o s p Ha) as (Ki & Kc & Ks).
      assert (E : law_next0 ls o (snd (handler o s p)) =
                  mkL (l_itd ls) (match assoc (op_name o) (s_od (fst (handler o s p))) with
                                  | Some v => aset (op_name o) v (l_od ls)
                                  | None => adel (op_name o) (l_od ls) end)).
      { unfold law_next0. rewrite Ks. destruct o; try discriminate; reflexivity. }
      rewrite E. apply Inv_resync with (s := s); auto.
      + intros m Hm. apply handler_frame; auto.
      + intros v Hv. eapply handler_stores; eauto. intros v0 Hv0. eapply inv_st; eauto.
  Qed.

  Lemma gov_ctd_ext : forall s s1 n m, ctd_ext s s1 n -> gov s1 m = gov s m.
  Proof. intros s s1 n m (_ & Hi & _). unfold gov. rewrite Hi. reflexivity. Qed.

  Lemma Inv_reread : forall s ls n, Inv s ls ->
    Inv s (mkL (l_itd ls) (match assoc n (s_od s) with Some v => aset n v (l_od ls) | None => adel n (l_od ls) end)).
  Proof. intros s ls n HI. apply Inv_resync with (s := s); auto. intros v Hv. eapply inv_st; eauto. Qed.

  (* installing a plain trait on a name without stored value (or a storing one) keeps the invariant *)
  Lemma Inv_set_itd : forall s ls n lp, Inv s ls -> plainp lp = true ->
    storing (RPol lp) || negb (amem n (s_od s)) = true ->
    Inv (mkState (s_ctd s) (aset n lp (s_itd s)) (s_od s)) (mkL (aset n lp (l_itd ls)) (l_od ls)).
  Proof.
    intros s ls n lp HI Hp Hs. destruct (inv_plain4 _ _ HI) as (P1 & P2 & P3 & P4).
    constructor; simpl.
    - rewrite (inv_itd _ _ HI). reflexivity.
    - apply (inv_od _ _ HI).
    - apply (inv_c1 _ _ HI).
    - apply (inv_c2 _ _ HI).
    - intros m v Hm. unfold gov. simpl. rewrite assoc_aset. destruct (name_eqb n m) eqn:E.
      + apply name_eqb_eq in E. subst m. unfold amem in Hs. rewrite Hm in Hs. simpl in Hs.
        rewrite orb_false_r in Hs. exact Hs.
      + apply (inv_st _ _ HI _ _ Hm).
    - apply plain4; auto. apply plain_aset; auto.
  Qed.

  (* get (nothing stored), set and del: the look-up, then the handler of the trait found *)
  Lemma access_ok : forall s ls o, Inv s ls -> is_access o = true ->
    (forall n, o = OGet n -> assoc n (s_od s) = None) ->
    let r := match lookup s (op_name o) (match o with OGet _ => false | _ => true end) with
             | inl (p, s') => handler o s' p
             | inr e => out s (op_name o) (Raise e)
             end in
    law_step model_rule ls o (snd r) = [] /\ Inv (fst r) (law_next0 ls o (snd r)).
  Proof.
    intros s ls o HI Ha Hg. cbv zeta.
    destruct (lookup s (op_name o) _) as [[p s1]|e] eqn:El.
    - destruct (lookup_inl _ _ _ _ _ _ HI El) as [Hr Hx].
      apply (access_handler s1 ls o p Ha).
      + eapply Inv_ctd_ext; eauto.
      + rewrite (gov_ctd_ext _ _ _ _ Hx). exact Hr.
      + intros n E. rewrite (proj1 Hx). auto.
    - split.
      + unfold law_step. rewrite (governing_gov _ _ _ HI), (inv_od _ _ HI).
        destruct (lookup_inr _ _ _ _ _ HI El) as [Hn|[Hb Hn]]; rewrite Hn.
        * destruct o; try discriminate Ha; reflexivity.
        * (* __x__ read that finds nothing: AttributeError, the law is silent *)
          destruct o as [n| | | | ]; try discriminate Hb. cbn [op_name]. rewrite (Hg n eq_refl). reflexivity.
      + destruct o; try discriminate Ha; apply Inv_reread; exact HI.
  Qed.

  Lemma step_ok0 : forall s ls o, Inv s ls -> clean_step s o = true ->
    law_step model_rule ls o (snd (step_p s o)) = [] /\
    Inv (fst (step_p s o)) (law_next0 ls o (snd (step_p s o))).
  Proof.
    intros s ls o HI Hc. destruct o as [n|n v|n|n q|n].
    - destruct (assoc n (s_od s)) as [v|] eqn:Eo.
      + (* value in obj.__dict__ *)
        cbn [step_p]. rewrite Eo. pose proof (inv_st _ _ HI _ _ Eo) as Hst. split; [|apply Inv_reread; exact HI].
        unfold law_step. rewrite (governing_gov _ _ _ HI), (inv_od _ _ HI). simpl op_name. rewrite Eo.
        destruct (gov s n) as [p| |] eqn:Eg; simpl in Hst; try discriminate;
          [pose proof (gov_plain _ _ HI _ _ Eg) as Hp; destruct p; simpl in Hst, Hp; try discriminate|];
          simpl; rewrite Z.eqb_refl; reflexivity.
      + assert (E : step_p s (OGet n) = match lookup s n false with
                                        | inl (p, s') => getattr s' n p
                                        | inr e => out s n (Raise e)
                                        end).
        { cbn [step_p]. rewrite Eo. unfold lookup. destruct (assoc n (s_itd s)); [reflexivity|].
          destruct (assoc n (s_ctd s)); reflexivity. }
        rewrite E. apply (access_ok s ls (OGet n) HI eq_refl). intros n0 E0. inversion E0; subst. exact Eo.
    - apply (access_ok s ls (OSet n v) HI eq_refl). discriminate.
    - apply (access_ok s ls (ODel n) HI eq_refl). discriminate.
    - simpl in Hc. apply andb_true_iff in Hc. destruct Hc as [Hq Hc].
      split; [reflexivity|]. exact (Inv_reread _ _ n (Inv_set_itd s ls n q HI Hq Hc)).
    - destruct (inv_plain4 _ _ HI) as (P1 & P2 & P3 & P4).
      assert (Hrem : Inv (mkState (s_ctd s) (adel n (s_itd s)) (adel n (s_od s)))
                         (mkL (adel n (l_itd ls)) (adel n (l_od ls)))).
      { constructor; simpl.
        - rewrite (inv_itd _ _ HI). reflexivity.
        - intro m. rewrite !assoc_adel. destruct (name_eqb n m); auto. apply (inv_od _ _ HI).
        - apply (inv_c1 _ _ HI).
        - apply (inv_c2 _ _ HI).
        - intros m v Hm. rewrite assoc_adel in Hm. unfold gov; simpl. rewrite assoc_adel.
          destruct (name_eqb n m); [discriminate|]. fold (gov s m). eapply inv_st; eauto.
        - apply plain4; auto. apply plain_adel; auto. }
      simpl step_p. destruct (assoc n (s_itd s)) as [p|] eqn:Ei.
      + pose proof (plain_assoc _ _ _ P3 Ei) as Hp. split.
        * unfold law_step. simpl. unfold amem. rewrite (inv_itd _ _ HI), Ei.
          rewrite assoc_adel, name_eqb_refl. destruct p; try discriminate Hp; reflexivity.
        * unfold out, law_next0; simpl. rewrite assoc_adel, name_eqb_refl. exact Hrem.
      + assert (Hl : forall a b c, law_step model_rule ls (ORem n) (mkObs (Val 0) a b c) = []).
        { intros a b c. unfold law_step. simpl. unfold amem. rewrite (inv_itd _ _ HI), Ei. auto. }
        assert (Ea : adel n (s_itd s) = s_itd s) by (apply adel_absent; exact Ei).
        destruct (amem n (s_ctd s)); (split; [apply Hl|]); unfold out, law_next0; simpl.
        * rewrite assoc_adel, name_eqb_refl. rewrite Ea in Hrem. exact Hrem.
        * rewrite (inv_itd _ _ HI), Ea, <- (inv_itd _ _ HI). apply Inv_reread. exact HI.
  Qed.

  (* Model.step on plain traits is [step_p]; the law's full bookkeeping agrees with [law_next0] *)
  Lemma getattr_m_plain : forall s n p, plainp p = true -> getattr_m pt s n p = getattr s n p.
  Proof. intros s n p H. destruct p; try discriminate H; reflexivity. Qed.
  Lemma setattr_m_plain : forall s n p v, plainp p = true -> setattr_m pt s n p v = setattr s n p v.
  Proof. intros s n p v H. destruct p; try discriminate H; reflexivity. Qed.

  Lemma step_plain_eq : forall s ls o, Inv s ls -> clean_step s o = true -> step pt s o = step_p s o.
  Proof.
    intros s ls o HI Hc. destruct (inv_plain4 _ _ HI) as (P1 & P2 & P3 & P4).
    destruct o as [n|n v|n|n q|n]; simpl.
    - unfold get_with. destruct (assoc n (s_od s)); auto.
      destruct (assoc n (s_itd s)) eqn:Ei; [apply getattr_m_plain; exact (plain_assoc _ _ _ P3 Ei)|].
      destruct (assoc n (s_ctd s)) eqn:Ec; [apply getattr_m_plain; exact (plain_assoc _ _ _ P4 Ec)|].
      unfold prefix_trait. destruct (dunder n); auto.
      destruct (first_match n pt) as [[q p]|] eqn:Ef; auto.
      apply getattr_m_plain. exact (plain_first_match _ _ _ _ P2 Ef).
    - destruct (lookup_set pt s n) as [[p s1]|e] eqn:El; auto.
      apply setattr_m_plain. destruct (lookup_inl _ _ _ true _ _ HI El) as [Hr _].
      eapply rel_plain; eauto.
    - reflexivity.
    - simpl in Hc. apply andb_true_iff in Hc. destruct Hc as [Hq _].
      destruct q; try discriminate Hq; reflexivity.
    - unfold rem1, amem. destruct (assoc n (s_itd s)) as [p|] eqn:Ei.
      + pose proof (plain_assoc _ _ _ P3 Ei) as Hp.
        destruct p; try discriminate Hp; simpl; rewrite Ei; reflexivity.
      + destruct (assoc n (s_ctd s)) as [p|] eqn:Ec; [|reflexivity].
        pose proof (plain_assoc _ _ _ P4 Ec) as Hp.
        destruct p; try discriminate Hp; simpl; rewrite Ei, Ec; reflexivity.
  Qed.

  Lemma assoc_resync : forall (l od' : list (name * Z)) a k,
    assoc k (resync a (assoc a od') l) = if name_eqb a k then assoc k od' else assoc k l.
  Proof.
    intros l od' a k. unfold resync. destruct (assoc a od') as [x|] eqn:E;
      rewrite ?assoc_aset, ?assoc_adel; destruct (name_eqb a k) eqn:Ea; auto;
      apply name_eqb_eq in Ea; subst; auto.
  Qed.
  Lemma resync_same : forall (l : list (name * Z)) m v, assoc m l = v ->
    forall k, assoc k (resync m v l) = assoc k l.
  Proof. intros l m v E k. subst v. rewrite assoc_resync. destruct (name_eqb m k); reflexivity. Qed.

  Lemma Inv_od_ext : forall s itd lod lod', Inv s (mkL itd lod) ->
    (forall k, assoc k lod' = assoc k lod) -> Inv s (mkL itd lod').
  Proof.
    intros s itd lod lod' H E. destruct H as [A B C1 C2 D P]. constructor; simpl in *; auto.
    intro m. rewrite E. auto.
  Qed.

  (* [law_next] re-reads name_ and name[:-1] as well and clears name_items after removing a List trait.
     Under [Inv] the bookkeeping already agrees with obj.__dict__ at every name ([inv_od] for [law_next0]),
     so the extra re-reads change nothing, and no List trait can be found: the two next states have the
     same instance traits and pointwise equal stored values. *)
  Lemma law_next_bridge : forall s ls o, Inv s ls -> clean_step s o = true ->
    Inv (fst (step_p s o)) (law_next0 ls o (snd (step_p s o))) ->
    Inv (fst (step_p s o)) (law_next model_rule ls o (snd (step_p s o))).
  Proof.
    intros s ls o HI Hc H0. destruct (inv_plain4 _ _ HI) as (P1 & P2 & P3 & P4).
    rewrite <- (step_plain_eq s ls o HI Hc) in *.
    destruct (step_out s o) as (s' & x & E). rewrite E in *. simpl fst in *. simpl snd in *.
    assert (Ei : l_itd (law_next model_rule ls o (snd (out s' (op_name o) x))) =
                 l_itd (law_next0 ls o (snd (out s' (op_name o) x)))).
    { unfold law_next, law_next0, out; simpl. destruct o as [n|n v|n|n q|n]; auto.
      - simpl in Hc. apply andb_true_iff in Hc. destruct Hc as [Hq _].
        destruct q; try discriminate Hq; reflexivity.
      - destruct x; auto. unfold found_trait. rewrite (inv_itd _ _ HI). cbn [op_name].
        destruct (assoc n (s_itd s)) as [p|] eqn:Ea.
        + pose proof (plain_assoc _ _ _ P3 Ea) as Hp. destruct p; try discriminate Hp; reflexivity.
        + destruct (model_rule n) as [p| |] eqn:Em; auto.
          assert (Hp : plainp p = true) by (eapply model_rule_plain; eauto; left; exact Em).
          destruct p; try discriminate Hp; reflexivity. }
    remember (law_next0 ls o (snd (out s' (op_name o) x))) as l0 eqn:El0.
    destruct l0 as [itd0 od0]. simpl in Ei.
    pose proof (inv_od _ _ H0) as Hod. simpl in Hod.
    assert (Eod0 : od0 = resync (op_name o) (assoc (op_name o) (s_od s')) (l_od ls)).
    { unfold law_next0, out in El0. simpl in El0. inversion El0. reflexivity. }
    match goal with |- Inv _ ?L => set (ln := L) end.
    assert (Ei' : l_itd ln = itd0) by exact Ei.
    assert (Eln : ln = mkL (l_itd ln) (l_od ln)) by (destruct ln; reflexivity).
    rewrite Eln, Ei'. apply Inv_od_ext with (lod := od0); [rewrite El0; exact H0|].
    unfold ln, law_next, out. cbn [snd o_stored o_shadow o_base o_out l_od].
    match goal with |- context [adel (_ ++ items_suffix) ?B] => set (b := B) end.
    assert (Tail : forall k, assoc k b = assoc k od0).
    { intro k. unfold b. rewrite <- Eod0.
      assert (Hod' : forall m, assoc m od0 = assoc m (s_od s'))
        by (intro m; rewrite Eod0; unfold resync; apply Hod).
      assert (E2 : forall k, assoc k (resync (op_name o ++ [US]) (assoc (op_name o ++ [US]) (s_od s')) od0) = assoc k od0)
        by (apply resync_same; apply Hod').
      destruct (ends_us (op_name o)); [|apply E2].
      rewrite resync_same; [apply E2|]. rewrite E2. apply Hod'. }
    intro k. destruct o as [n|n v|n|n q|n]; try apply Tail.
    destruct x; try apply Tail. unfold found_trait. cbn [op_name].
    rewrite (inv_itd _ _ HI). destruct (assoc n (s_itd s)) as [p|] eqn:Ea.
    - pose proof (plain_assoc _ _ _ P3 Ea) as Hp. destruct p; try discriminate Hp; apply Tail.
    - destruct (model_rule n) as [p| |] eqn:Em; try apply Tail.
      assert (Hp : plainp p = true) by (eapply model_rule_plain; eauto; left; exact Em).
      destruct p; try discriminate Hp; apply Tail.
  Qed.

  Lemma step_ok : forall s ls o, Inv s ls -> clean_step s o = true ->
    law_step model_rule ls o (snd (step pt s o)) = [] /\
    Inv (fst (step pt s o)) (law_next model_rule ls o (snd (step pt s o))).
  Proof.
    intros s ls o HI Hc. rewrite (step_plain_eq s ls o HI Hc).
    destruct (step_ok0 s ls o HI Hc) as [A B]. split; auto. apply law_next_bridge; auto.
  Qed.

  Lemma Inv_init : plain_tab ct0 = true -> plain_tab pt = true -> Inv (init_state ct0) l_init.
  Proof.
    intros P1 P2. constructor; simpl; auto; try discriminate.
    - intros m p H. left. unfold model_rule. rewrite H. reflexivity.
    - rewrite P1, P2. reflexivity.
  Qed.

  Lemma run_law_inv : forall ops s ls i, Inv s ls -> clean_run s ops = true ->
    law_hist model_rule i ls (run pt s ops) = [].
  Proof.
    induction ops as [|o r IH]; intros s ls i HI Hc; simpl; auto.
    simpl in Hc. apply andb_true_iff in Hc. destruct Hc as [Hc1 Hc2].
    destruct (step_ok s ls o HI Hc1) as [Hl Hn].
    destruct (step pt s o) as [s' ob] eqn:E. simpl in *. rewrite Hl. simpl. apply IH; auto.
  Qed.

  Lemma run_law : forall ops i, plain_tab ct0 = true -> plain_tab pt = true ->
    clean_run (init_state ct0) ops = true ->
    law_hist model_rule i l_init (run pt (init_state ct0) ops) = [].
  Proof. intros. apply run_law_inv; auto using Inv_init. Qed.
End Run.


(* (q, p) is THE wildcard governing n in the dictionary l: a matching prefix of maximal length *)
Definition Best (l : ptab) (n q : name) (p : policy) : Prop :=
  assoc q l = Some p /\ is_prefix q n = true /\
  forall q' p', assoc q' l = Some p' -> is_prefix q' n = true -> (length q' <= length q)%nat.

Lemma Best_unique : forall l n q1 p1 q2 p2, Best l n q1 p1 -> Best l n q2 p2 -> q1 = q2 /\ p1 = p2.
Proof.
  intros l n q1 p1 q2 p2 (A1 & B1 & C1) (A2 & B2 & C2).
  assert (q1 = q2).
  { apply (is_prefix_same_length q1 q2 n); auto.
    pose proof (C1 _ _ A2 B2). pose proof (C2 _ _ A1 B1). lia. }
  subst. split; congruence.
Qed.
Lemma Best_ext : forall l l' n q p, (forall k, assoc k l = assoc k l') -> Best l n q p -> Best l' n q p.
Proof.
  intros l l' n q p H (A & B & C). repeat split; auto.
  - rewrite <- H. auto.
  - intros q' p' H1 H2. rewrite <- H in H1. eauto.
Qed.

Lemma prefix_neq : forall k q n, is_prefix k n = false -> is_prefix q n = true -> name_eqb k q = false.
Proof. intros. apply name_eqb_neq. intro. subst. congruence. Qed.

Lemma first_match_assoc : forall n l q p, first_match n l = Some (q, p) -> assoc q l = Some p.
Proof.
  induction l as [|[k v] r IH]; intros q p H; simpl in *; try discriminate.
  destruct (is_prefix k n) eqn:E.
  - inversion H; subst. rewrite name_eqb_refl. reflexivity.
  - pose proof (first_match_sound _ _ _ _ H) as [_ Hq]. rewrite (prefix_neq _ _ _ E Hq). auto.
Qed.

Lemma first_match_Best : forall n l q p, StronglySorted len_ge l -> first_match n l = Some (q, p) -> Best l n q p.
Proof.
  intros n l q p Hs H. split; [eapply first_match_assoc; eauto|].
  split; [eapply first_match_sound; eauto|].
  intros q' p' H1 H2. eapply first_match_sorted_longest; eauto using assoc_In.
Qed.

Lemma best_spec : forall n l,
  match best n l with
  | Some (q, p) => assoc q l = Some p /\ is_prefix q n = true /\
                   forall q' p', In (q', p') l -> is_prefix q' n = true -> (length q' <= length q)%nat
  | None => forall q' p', In (q', p') l -> is_prefix q' n = false
  end.
Proof.
  induction l as [|[k v] r IH]; simpl; [intros; contradiction|].
  destruct (is_prefix k n) eqn:E.
  - destruct (best n r) as [[q0 p0]|].
    + destruct IH as (A & B & C). destruct (Nat.ltb (length k) (length q0)) eqn:El.
      * apply Nat.ltb_lt in El. repeat split; auto.
        -- rewrite name_eqb_neq; auto. intro; subst; lia.
        -- intros q' p' [Hi|Hi] Hp; [inversion Hi; subst; lia|eauto].
      * apply Nat.ltb_ge in El. rewrite name_eqb_refl. repeat split; auto.
        intros q' p' [Hi|Hi] Hp; [inversion Hi; subst; lia|]. specialize (C _ _ Hi Hp). lia.
    + rewrite name_eqb_refl. repeat split; auto.
      intros q' p' [Hi|Hi] Hp; [inversion Hi; subst; lia|]. rewrite (IH _ _ Hi) in Hp. discriminate.
  - destruct (best n r) as [[q0 p0]|].
    + destruct IH as (A & B & C). repeat split; auto.
      * rewrite (prefix_neq _ _ _ E B). auto.
      * intros q' p' [Hi|Hi] Hp; [inversion Hi; subst; congruence|eauto].
    + intros q' p' [Hi|Hi]; [inversion Hi; subst; auto|eauto].
Qed.

Definition wild (o : option (name * policy)) : rule :=
  match o with Some (_, p) => RPol p | None => RNone end.

(* [o] answers "which wildcard of the dictionary l governs n": THE governing one, or none matches.
   Both the code's first match in the sorted list and the law's [best] answer it, so they agree. *)
Definition Sel (l : ptab) (n : name) (o : option (name * policy)) : Prop :=
  match o with
  | Some (q, p) => Best l n q p
  | None => forall q p, assoc q l = Some p -> is_prefix q n = false
  end.

Lemma Sel_wild : forall l n a b, Sel l n a -> Sel l n b -> wild a = wild b.
Proof.
  intros l n [[q p]|] [[q' p']|] A B; simpl in *; auto.
  - destruct (Best_unique _ _ _ _ _ _ A B). congruence.
  - exfalso. destruct A as (A1 & A2 & _). rewrite (B _ _ A1) in A2. discriminate.
  - exfalso. destruct B as (B1 & B2 & _). rewrite (A _ _ B1) in B2. discriminate.
Qed.
Lemma Sel_ext : forall l l' n o, (forall k, assoc k l = assoc k l') -> Sel l n o -> Sel l' n o.
Proof.
  intros l l' n [[q p]|] He; simpl; [apply Best_ext; exact He|].
  intros H q p Hq. rewrite <- He in Hq. eauto.
Qed.
Lemma first_match_Sel : forall n l, StronglySorted len_ge l -> Sel l n (first_match n l).
Proof.
  intros n l Hs. destruct (first_match n l) as [[q p]|] eqn:E; simpl; [apply first_match_Best; auto|].
  intros q p Hq. exact (first_match_none _ _ E _ _ (assoc_In _ _ _ Hq)).
Qed.
Lemma best_Sel : forall n l, Sel l n (best n l).
Proof.
  intros n l. pose proof (best_spec n l) as S. destruct (best n l) as [[q p]|]; simpl.
  - destruct S as (A & B & C). repeat split; auto. intros q' p' H1 H2. eauto using assoc_In.
  - intros q p Hq. exact (S _ _ (assoc_In _ _ _ Hq)).
Qed.

(* first match in the sorted table = longest matching wildcard of the declarations *)
Lemma first_match_best : forall n l l', StronglySorted len_ge l -> (forall k, assoc k l = assoc k l') ->
  wild (first_match n l) = wild (best n l').
Proof.
  intros n l l' Hs He. apply (Sel_wild l' n); [apply (Sel_ext l); auto using first_match_Sel|apply best_Sel].
Qed.

(* merging a base: `if name not in ...` keeps what is there *)
Lemma merge_tab_assoc : forall base t n,
  assoc n (merge_tab t base) = match assoc n t with Some v => Some v | None => assoc n base end.
Proof.
  unfold merge_tab. induction base as [|[k v] r IH]; intros t n; simpl.
  - destruct (assoc n t); reflexivity.
  - rewrite IH. unfold amem. destruct (assoc k t) eqn:Ek.
    + destruct (assoc n t) eqn:En; auto. destruct (name_eqb k n) eqn:E; auto.
      apply name_eqb_eq in E. subst. congruence.
    + rewrite assoc_app. simpl. destruct (assoc n t); auto.
      destruct (name_eqb k n); auto.
Qed.

Definition tab_eq (a b : list (name * policy)) : Prop := forall n, assoc n a = assoc n b.

Lemma tab_eq_app : forall a b c, tab_eq a b -> tab_eq (a ++ c) (b ++ c).
Proof. intros a b c H n. rewrite !assoc_app, (H n). reflexivity. Qed.

Lemma merge_bases_fst : forall (T : list (ctab * ptab)) bases (a : ctab * ptab),
  fst (fold_left (fun acc b => (merge_tab (fst acc) (fst (tabs_nth T b)), merge_tab (snd acc) (snd (tabs_nth T b)))) bases a)
  = fold_left (fun t b => merge_tab t (fst (tabs_nth T b))) bases (fst a).
Proof. induction bases as [|b r IH]; intros a; simpl; auto. rewrite IH. reflexivity. Qed.
Lemma merge_bases_snd : forall (T : list (ctab * ptab)) bases (a : ctab * ptab),
  snd (fold_left (fun acc b => (merge_tab (fst acc) (fst (tabs_nth T b)), merge_tab (snd acc) (snd (tabs_nth T b)))) bases a)
  = fold_left (fun t b => merge_tab t (snd (tabs_nth T b))) bases (snd a).
Proof. induction bases as [|b r IH]; intros a; simpl; auto. rewrite IH. reflexivity. Qed.

Lemma merge_fold_assoc : forall (f g : nat -> list (name * policy)) bases t x,
  (forall b, tab_eq (f b) (g b)) -> tab_eq t x ->
  tab_eq (fold_left (fun t b => merge_tab t (f b)) bases t) (x ++ flat_map g bases).
Proof.
  induction bases as [|b r IH]; intros t x Hf Ht; simpl.
  - rewrite app_nil_r. auto.
  - rewrite app_assoc. apply IH; auto. intro n. rewrite merge_tab_assoc, assoc_app, Ht, Hf. reflexivity.
Qed.

(* invariant between the tables and the visible declarations of all classes created so far *)
Definition agree (T V : list (ctab * ptab)) : Prop :=
  length T = length V /\
  forall c, tab_eq (fst (tabs_nth T c)) (fst (vis_nth V c)) /\
            tab_eq (snd (tabs_nth T c)) (snd (vis_nth V c)) /\
            StronglySorted len_ge (snd (tabs_nth T c)).

Lemma build_vis_agree : forall T V cd, agree T V ->
  tab_eq (fst (build_class T cd)) (fst (vis_class V cd)) /\
  tab_eq (snd (build_class T cd)) (snd (vis_class V cd)) /\
  StronglySorted len_ge (snd (build_class T cd)).
Proof.
  intros T V cd [_ H]. unfold build_class, vis_class. simpl. rewrite merge_bases_fst, merge_bases_snd.
  split; [|split].
  - apply merge_fold_assoc; [intro b; apply H|intro; reflexivity].
  - intro n. rewrite assoc_sort_len.
    assert (E : tab_eq (fold_left (fun t b => merge_tab t (snd (tabs_nth T b))) (c_bases cd) (snd (own_tables (c_decls cd))))
                       (snd (own_tables (c_decls cd)) ++ flat_map (fun b => snd (vis_nth V b)) (c_bases cd)))
      by (apply merge_fold_assoc; [intro b; apply H|intro; reflexivity]).
    unfold amem. rewrite (E []).
    destruct (assoc [] (snd (own_tables (c_decls cd)) ++ flat_map (fun b => snd (vis_nth V b)) (c_bases cd))).
    + apply E.
    + apply tab_eq_app. exact E.
  - apply sort_len_sorted.
Qed.

Lemma agree_snoc : forall T V cd, agree T V -> agree (T ++ [build_class T cd]) (V ++ [vis_class V cd]).
Proof.
  intros T V cd HA. pose proof (build_vis_agree T V cd HA) as HB. destruct HA as [HL HA].
  split; [rewrite !app_length; simpl; lia|].
  intro c. unfold tabs_nth, vis_nth.
  destruct (Nat.lt_ge_cases c (length T)) as [Hc|Hc].
  - rewrite !app_nth1 by lia. apply HA.
  - rewrite !app_nth2 by lia. rewrite <- HL. destruct (c - length T)%nat as [|k]; simpl.
    + exact HB.
    + destruct k; simpl; repeat split; try (intro; reflexivity); constructor.
Qed.

Lemma agree_from : forall h T V, agree T V -> agree (tables_from T h) (visible_from V h).
Proof.
  induction h as [|cd r IH]; intros T V HA; simpl; auto.
  apply IH. apply agree_snoc. auto.
Qed.

Lemma agree_all : forall h, agree (tables h) (visible h).
Proof.
  intro h. apply agree_from. split; auto. intro c. unfold tabs_nth, vis_nth.
  destruct c; simpl; repeat split; try (intro; reflexivity); constructor.
Qed.

(* resolve_order: for every hierarchy, class and name the class tables built by
   update_traits_class_dict resolve the name exactly as the declarative rule of the law *)
Lemma tables_rule : forall h c n,
  model_rule (fst (tabs_nth (tables h) c)) (snd (tabs_nth (tables h) c)) n = class_rule (vis_nth (visible h) c) n.
Proof.
  intros h c n. destruct (agree_all h) as [_ H]. destruct (H c) as (A & B & S).
  unfold model_rule, class_rule. rewrite (A n).
  destruct (assoc n (fst (vis_nth (visible h) c))); auto.
  destruct (dunder n); auto.
  pose proof (first_match_best n _ _ S B) as E. unfold wild in E.
  destruct (first_match n (snd (tabs_nth (tables h) c))) as [[? ?]|];
    destruct (best n (snd (vis_nth (visible h) c))) as [[? ?]|]; auto.
Qed.


Lemma law_step_ext : forall (r1 r2 : name -> rule), (forall n, r1 n = r2 n) ->
  forall ls o ob, law_step r1 ls o ob = law_step r2 ls o ob.
Proof.
  intros r1 r2 He ls o ob. unfold law_step, demand_m, governing. rewrite !He. reflexivity.
Qed.
Lemma law_next_ext : forall (r1 r2 : name -> rule), (forall n, r1 n = r2 n) ->
  forall ls o ob, law_next r1 ls o ob = law_next r2 ls o ob.
Proof.
  intros r1 r2 He ls o ob. unfold law_next, found_trait. rewrite !He. reflexivity.
Qed.

Lemma law_hist_ext : forall (r1 r2 : name -> rule), (forall n, r1 n = r2 n) ->
  forall h i ls, law_hist r1 i ls h = law_hist r2 i ls h.
Proof.
  intros r1 r2 He. induction h as [|[o ob] r IH]; intros i ls; simpl; auto.
  rewrite IH, (law_step_ext _ _ He), (law_next_ext _ _ He). reflexivity.
Qed.

Lemma class_tables_rule : forall h c n,
  model_rule (fst (class_tables h c)) (snd (class_tables h c)) n = spec_rule h c n.
Proof. intros. unfold class_tables, spec_rule. apply tables_rule. Qed.

(* no mapped trait in the class tables *)
Definition plain_class (h : list classdef) (c : nat) : bool :=
  plain_tab (fst (class_tables h c)) && plain_tab (snd (class_tables h c)).

Lemma law_all_histories : forall h c ops i,
  plain_class h c = true ->
  clean_run (snd (class_tables h c)) (init_state (fst (class_tables h c))) ops = true ->
  law_hist (spec_rule h c) i l_init
           (run (snd (class_tables h c)) (init_state (fst (class_tables h c))) ops) = [].
Proof.
  intros h c ops i Hp Hc. apply andb_true_iff in Hp. destruct Hp as [P1 P2].
  rewrite <- (law_hist_ext _ _ (class_tables_rule h c)). apply run_law; auto.
Qed.

Lemma final_Inv : forall ct0 pt ops s ls, Inv ct0 pt s ls -> clean_run pt s ops = true ->
  exists ls', Inv ct0 pt (final_state pt s ops) ls'.
Proof.
  induction ops as [|o r IH]; intros s ls HI Hc; simpl; [eauto|].
  simpl in Hc. apply andb_true_iff in Hc. destruct Hc as [H1 H2].
  destruct (step_ok ct0 pt s ls o HI H1) as [_ Hn]. eapply IH; eauto.
Qed.

Lemma chk3_inv : forall k1 k2 k3 a b c, chk k1 a ++ chk k2 b ++ chk k3 c = [] -> a = true /\ b = true /\ c = true.
Proof. intros k1 k2 k3 [] [] []; simpl; intro H; try discriminate; auto. Qed.

Section Clauses.
  Variable ct0 : ctab.
  Variable pt : ptab.
  Notation gov := (gov ct0 pt).
  Notation Inv := (Inv ct0 pt).

  (* one access of a name: the observation is what the governing policy demands *)
  Lemma step_demand : forall s ls o, Inv s ls -> is_access o = true ->
    let ob := snd (step pt s o) in
    let d := demand (gov s (op_name o)) (assoc (op_name o) (s_od s)) o in
    class_ok (fst d) (o_out ob) = true /\ value_ok (fst d) (o_out ob) = true /\
    stored_ok (snd d) (assoc (op_name o) (s_od (fst (step pt s o)))) = true.
  Proof.
    intros s ls o HI Ha.
    assert (Hc : clean_step s o = true) by (destruct o; try discriminate; reflexivity).
    destruct (step_ok ct0 pt s ls o HI Hc) as [Hl _].
    unfold law_step in Hl. rewrite (step_stored pt s o) in Hl. rewrite (governing_gov ct0 pt _ _ _ HI), (inv_od _ _ _ _ HI) in Hl.
    rewrite (demand_m_gov ct0 pt _ _ HI) in Hl.
    destruct o; try discriminate; simpl op_name in *;
      match type of Hl with context [demand ?g ?sb ?o] => destruct (demand g sb o) as [w ws] end;
      apply chk3_inv in Hl; exact Hl.
  Qed.

  Lemma class_raise : forall e o, class_ok (WRaise e) o = true -> o = Raise e.
  Proof. intros e [v| |e'] H; simpl in H; try discriminate. destruct e, e'; try discriminate; reflexivity. Qed.
  Lemma class_done : forall o, class_ok WDone o = true -> o = Done.
  Proof. intros [v| |e'] H; simpl in H; try discriminate; reflexivity. Qed.
  Lemma class_val : forall v o, class_ok (WVal v) o = true -> value_ok (WVal v) o = true -> o = Val v.
  Proof. intros v [v'| |e'] H1 H2; simpl in *; try discriminate. apply Z.eqb_eq in H2. congruence. Qed.
  Lemma stored_some : forall x st, stored_ok (Some x) st = true -> st = x.
  Proof.
    intros [a|] [b|] H; simpl in H; try discriminate; auto. apply Z.eqb_eq in H. congruence.
  Qed.

  Lemma gov_access_stable : forall s o m, is_access o = true -> gov (fst (step pt s o)) m = gov s m.
  Proof. intros s o m Ha. unfold Proofs.gov. rewrite step_itd_access; auto. Qed.

  Lemma disallow_rejects : forall s ls n v, Inv s ls -> gov s n = RPol PDisallow ->
    (assoc n (s_od s) = None -> o_out (snd (step pt s (OGet n))) = Raise AttributeError) /\
    o_out (snd (step pt s (OSet n v))) = Raise TraitError /\
    o_out (snd (step pt s (ODel n))) = Raise TraitError /\
    assoc n (s_od (fst (step pt s (OSet n v)))) = assoc n (s_od s).
  Proof.
    intros s ls n v HI Hg.
    pose proof (step_demand s ls (OGet n) HI eq_refl) as (G1 & _ & _).
    pose proof (step_demand s ls (OSet n v) HI eq_refl) as (S1 & _ & S3).
    pose proof (step_demand s ls (ODel n) HI eq_refl) as (D1 & _ & _).
    simpl op_name in *. rewrite Hg in *. cbn [demand fst snd] in G1, S1, S3, D1.
    repeat split; auto using class_raise.
    apply stored_some in S3. exact S3.
  Qed.

  Lemma readonly_once : forall s ls n v w, Inv s ls -> gov s n = RPol (PReadOnly VUndef) ->
    defined (assoc n (s_od s)) = false -> v <> VUndef ->
    let s1 := fst (step pt s (OSet n v)) in
    o_out (snd (step pt s (OSet n v))) = Done /\
    o_out (snd (step pt s1 (OGet n))) = Val v /\
    o_out (snd (step pt s1 (OSet n w))) = Raise TraitError /\
    o_out (snd (step pt s1 (ODel n))) = Raise TraitError /\
    assoc n (s_od (fst (step pt s1 (OSet n w)))) = Some v.
  Proof.
    intros s ls n v w HI Hg Hd Hv s1.
    pose proof (step_demand s ls (OSet n v) HI eq_refl) as (S1 & _ & S3).
    simpl op_name in *. rewrite Hg in *. cbn [demand fst snd] in S1, S3. rewrite Hd in S1, S3. cbn [demand fst snd] in S1, S3.
    apply class_done in S1. apply stored_some in S3. fold s1 in S3.
    destruct (step_ok ct0 pt s ls (OSet n v) HI eq_refl) as [_ HI1]. fold s1 in HI1.
    assert (Hg1 : gov s1 n = RPol (PReadOnly VUndef)) by (unfold s1; rewrite gov_access_stable; auto).
    assert (Hdef : defined (Some v) = true) by (simpl; apply negb_true_iff; apply Z.eqb_neq; exact Hv).
    pose proof (step_demand s1 _ (OGet n) HI1 eq_refl) as (G1 & G2 & _).
    pose proof (step_demand s1 _ (OSet n w) HI1 eq_refl) as (T1 & _ & T3).
    pose proof (step_demand s1 _ (ODel n) HI1 eq_refl) as (D1 & _ & _).
    simpl op_name in *. rewrite Hg1, S3 in *. cbn [demand fst snd] in G1, G2, T1, T3, D1.
    rewrite Hdef in T1, T3. cbn [demand fst snd] in T1, T3.
    repeat split; auto using class_raise, class_val.
    apply stored_some in T3. exact T3.
  Qed.

  Lemma constant_fixed : forall s ls n c v, Inv s ls -> gov s n = RPol (PConstant c) ->
    (assoc n (s_od s) = None -> o_out (snd (step pt s (OGet n))) = Val c) /\
    o_out (snd (step pt s (OSet n v))) = Raise TraitError /\
    o_out (snd (step pt s (ODel n))) = Raise TraitError /\
    assoc n (s_od (fst (step pt s (OSet n v)))) = assoc n (s_od s) /\
    assoc n (s_od (fst (step pt s (ODel n)))) = assoc n (s_od s).
  Proof.
    intros s ls n c v HI Hg.
    pose proof (step_demand s ls (OGet n) HI eq_refl) as (G1 & G2 & _).
    pose proof (step_demand s ls (OSet n v) HI eq_refl) as (S1 & _ & S3).
    pose proof (step_demand s ls (ODel n) HI eq_refl) as (D1 & _ & D3).
    simpl op_name in *. rewrite Hg in *. cbn [demand fst snd] in G1, G2, S1, S3, D1, D3.
    repeat split; auto using class_raise, class_val.
    - apply stored_some in S3. exact S3.
    - apply stored_some in D3. exact D3.
  Qed.

  Lemma event_is_write_only : forall s ls n v, Inv s ls -> gov s n = RPol (PEvent None) ->
    o_out (snd (step pt s (OSet n v))) = Done /\
    (assoc n (s_od s) = None -> o_out (snd (step pt s (OGet n))) = Raise AttributeError) /\
    assoc n (s_od (fst (step pt s (OSet n v)))) = assoc n (s_od s).
  Proof.
    intros s ls n v HI Hg.
    pose proof (step_demand s ls (OGet n) HI eq_refl) as (G1 & _ & _).
    pose proof (step_demand s ls (OSet n v) HI eq_refl) as (S1 & _ & S3).
    simpl op_name in *. rewrite Hg in *. cbn [demand fst snd] in G1, S1, S3.
    repeat split; auto using class_raise, class_done.
    apply stored_some in S3. exact S3.
  Qed.

  (* ReadOnly(d) with a given default: the default is the defining value, nothing can be assigned *)
  Lemma readonly_default_fixed : forall s ls n d v, Inv s ls -> gov s n = RPol (PReadOnly d) -> d <> VUndef ->
    (assoc n (s_od s) = None -> o_out (snd (step pt s (OGet n))) = Val d) /\
    o_out (snd (step pt s (OSet n v))) = Raise TraitError /\
    o_out (snd (step pt s (ODel n))) = Raise TraitError /\
    assoc n (s_od (fst (step pt s (OSet n v)))) = assoc n (s_od s).
  Proof.
    intros s ls n d v HI Hg Hd.
    pose proof (step_demand s ls (OGet n) HI eq_refl) as (G1 & G2 & _).
    pose proof (step_demand s ls (OSet n v) HI eq_refl) as (S1 & _ & S3).
    pose proof (step_demand s ls (ODel n) HI eq_refl) as (D1 & _ & _).
    simpl op_name in *. rewrite Hg in *. cbn [demand fst snd] in G1, G2, S1, S3, D1.
    assert (E : negb (Z.eqb d VUndef) = true) by (apply negb_true_iff; apply Z.eqb_neq; exact Hd).
    rewrite E in S1, S3. cbn [orb fst snd] in S1, S3.
    repeat split; auto using class_raise.
    - intro Hn. rewrite Hn in G1, G2. auto using class_val.
    - apply stored_some in S3. exact S3.
  Qed.

  (* an Event with a value type: write-only, and fires only for values its validator accepts *)
  Lemma event_typed : forall s ls n k v, Inv s ls -> gov s n = RPol (PEvent (Some k)) ->
    o_out (snd (step pt s (OSet n v))) = (match validate k v with Some _ => Done | None => Raise TraitError end) /\
    (assoc n (s_od s) = None -> o_out (snd (step pt s (OGet n))) = Raise AttributeError) /\
    assoc n (s_od (fst (step pt s (OSet n v)))) = assoc n (s_od s).
  Proof.
    intros s ls n k v HI Hg.
    pose proof (step_demand s ls (OGet n) HI eq_refl) as (G1 & _ & _).
    pose proof (step_demand s ls (OSet n v) HI eq_refl) as (S1 & _ & S3).
    simpl op_name in *. rewrite Hg in *. cbn [demand fst snd] in G1, S1, S3.
    repeat split; auto using class_raise.
    - destruct (validate k v); cbn [fst] in S1; auto using class_raise, class_done.
    - destruct (validate k v); cbn [snd] in S3; apply stored_some in S3; exact S3.
  Qed.

  (* in a state reached by a clean history nothing is stored under a non-storing policy *)
  Lemma nothing_stored : forall s ls n, Inv s ls -> storing (gov s n) = false -> assoc n (s_od s) = None.
  Proof.
    intros s ls n HI Hs. destruct (assoc n (s_od s)) eqn:E; auto.
    rewrite (inv_st _ _ _ _ HI _ _ E) in Hs. discriminate.
  Qed.

  (* untyped policies (private names, plain Python attributes): any value is accepted and read back *)
  Lemma untyped_accepts : forall s ls n v d, Inv s ls ->
    (gov s n = RPol (PAny d) \/ gov s n = RPol PPython \/ gov s n = RDunder) ->
    let s1 := fst (step pt s (OSet n v)) in
    o_out (snd (step pt s (OSet n v))) = Done /\ o_out (snd (step pt s1 (OGet n))) = Val v.
  Proof.
    intros s ls n v d HI Hg s1.
    pose proof (step_demand s ls (OSet n v) HI eq_refl) as (S1 & _ & S3). simpl op_name in *.
    assert (S1' : class_ok WDone (o_out (snd (step pt s (OSet n v)))) = true /\
                  stored_ok (Some (Some v)) (assoc n (s_od (fst (step pt s (OSet n v))))) = true)
      by (destruct Hg as [Hg|[Hg|Hg]]; rewrite Hg in S1, S3; simpl in S1, S3; auto).
    destruct S1' as [A B]. apply class_done in A. apply stored_some in B.
    fold s1 in B. split; auto.
    destruct (step_ok ct0 pt s ls (OSet n v) HI eq_refl) as [_ HI1]. fold s1 in HI1.
    pose proof (step_demand s1 _ (OGet n) HI1 eq_refl) as (G1 & G2 & _). simpl op_name in *.
    rewrite B in G1, G2. unfold s1 in G1, G2. rewrite gov_access_stable in G1, G2 by reflexivity.
    destruct Hg as [Hg|[Hg|Hg]]; rewrite Hg in G1, G2; simpl in G1, G2; auto using class_val.
  Qed.

  (* typed traits: the trait's own validator decides, for every validator *)
  Lemma typed_validates : forall s ls n k d v, Inv s ls -> gov s n = RPol (PTyped k d) -> v <> VUndef ->
    let s1 := fst (step pt s (OSet n v)) in
    match validate k v with
    | Some w => o_out (snd (step pt s (OSet n v))) = Done /\ o_out (snd (step pt s1 (OGet n))) = Val w
    | None => o_out (snd (step pt s (OSet n v))) = Raise TraitError /\ assoc n (s_od s1) = assoc n (s_od s)
    end.
  Proof.
    intros s ls n k d v HI Hg Hv s1.
    pose proof (step_demand s ls (OSet n v) HI eq_refl) as (S1 & _ & S3). simpl op_name in *.
    rewrite Hg in S1, S3. cbn [demand] in S1, S3.
    assert (E : Z.eqb v VUndef = false) by (apply Z.eqb_neq; exact Hv). rewrite E in S1, S3.
    destruct (validate k v) as [w|]; cbn [fst snd] in S1, S3.
    - apply class_done in S1. apply stored_some in S3. fold s1 in S3.
      split; auto.
      destruct (step_ok ct0 pt s ls (OSet n v) HI eq_refl) as [_ HI1]. fold s1 in HI1.
      pose proof (step_demand s1 _ (OGet n) HI1 eq_refl) as (G1 & G2 & _). simpl op_name in *.
      rewrite S3 in G1, G2. unfold s1 in G1, G2. rewrite gov_access_stable in G1, G2 by reflexivity.
      rewrite Hg in G1, G2. cbn [demand fst snd] in G1, G2. auto using class_val.
    - split; [auto using class_raise|]. apply stored_some in S3.
      exact S3.
  Qed.

  Lemma remove_restores : forall s ls n, Inv s ls ->
    let s1 := fst (step pt s (ORem n)) in
    gov s1 n = model_rule ct0 pt n /\
    (forall m, m <> n -> gov s1 m = gov s m) /\
    (assoc n (s_itd s) <> None -> assoc n (s_od s1) = None /\ o_out (snd (step pt s (ORem n))) = Val 1) /\
    exists ls1, Inv s1 ls1.
  Proof.
    intros s ls n HI s1.
    destruct (step_ok ct0 pt s ls (ORem n) HI eq_refl) as [_ HI1]. fold s1 in HI1.
    pose proof (step_plain_eq ct0 pt s ls (ORem n) HI eq_refl) as Ep.
    assert (Hi : s_itd s1 = adel n (s_itd s)).
    { unfold s1. rewrite Ep. simpl. destruct (assoc n (s_itd s)) eqn:Ei; [reflexivity|].
      rewrite (adel_absent _ _ Ei). destruct (amem n (s_ctd s)); reflexivity. }
    split; [|split; [|split]].
    - unfold Proofs.gov. rewrite Hi, assoc_adel, name_eqb_refl. reflexivity.
    - intros m Hm. unfold Proofs.gov. rewrite Hi, assoc_adel, name_eqb_neq by congruence. reflexivity.
    - intro Hn. unfold s1. rewrite Ep. simpl. destruct (assoc n (s_itd s)); [|congruence].
      simpl. rewrite assoc_adel, name_eqb_refl. auto.
    - eauto.
  Qed.

  Lemma add_governs : forall s n p, gov (fst (step pt s (OAdd n p))) n = RPol p.
  Proof. intros. unfold Proofs.gov. simpl. rewrite assoc_aset, name_eqb_refl. reflexivity. Qed.
End Clauses.

(* The root classes: what is the class default.  HasTraits declares _traits_cache__ (a wildcard for
   "_traits_cache_", l.1054) and the two events, so names under that prefix and the two event names are
   excepted below. *)
Definition n_traits_cache_ : name := removelast n_traits_cache__.

Lemma root_tables :
  let events := [(n_trait_added, PEvent None); (n_trait_modified, PEvent None)] in
  let own := [(n_traits_cache_, PAny VNone); ([], PPython)] in
  visible (roots ++ []) =
  [ (events, own); (events, ([], PDisallow) :: own); (events, ([US], PAny VNone) :: ([], PDisallow) :: own) ].
Proof. reflexivity. Qed.

Lemma strict_default : forall n,
  name_eqb n_trait_added n = false -> name_eqb n_trait_modified n = false ->
  dunder n = false -> is_prefix n_traits_cache_ n = false ->
  spec_rule [] 1 n = RPol PDisallow.
Proof.
  intros n H1 H2 H3 H4. unfold spec_rule, class_rule. rewrite root_tables.
  cbn [vis_nth nth fst snd assoc best]. rewrite H1, H2, H3, H4. cbn. reflexivity.
Qed.

Lemma private_default : forall n,
  name_eqb n_trait_added n = false -> name_eqb n_trait_modified n = false ->
  dunder n = false -> is_prefix n_traits_cache_ n = false ->
  spec_rule [] 2 n = if is_prefix [US] n then RPol (PAny VNone) else RPol PDisallow.
Proof.
  intros n H1 H2 H3 H4. unfold spec_rule, class_rule. rewrite root_tables.
  cbn [vis_nth nth fst snd assoc best]. rewrite H1, H2, H3, H4. destruct (is_prefix [US] n); cbn; reflexivity.
Qed.

Lemma plain_default : forall n,
  name_eqb n_trait_added n = false -> name_eqb n_trait_modified n = false ->
  dunder n = false -> is_prefix n_traits_cache_ n = false ->
  spec_rule [] 0 n = RPol PPython.
Proof.
  intros n H1 H2 H3 H4. unfold spec_rule, class_rule. rewrite root_tables.
  cbn [vis_nth nth fst snd assoc best]. rewrite H1, H2, H3, H4. cbn. reflexivity.
Qed.

(* the listed finding: without the hypothesis [clean_run] the law fails on the model too *)
Definition n_ab : name := [97; 98].
Lemma stale_value_refutes : exists ops,
  law_hist (spec_rule [mkClass [] [0%nat]] 3) 0 l_init
    (run (snd (class_tables [mkClass [] [0%nat]] 3)) (init_state (fst (class_tables [mkClass [] [0%nat]] 3))) ops)
  <> [].
Proof. exists [OSet n_ab 5; OAdd n_ab (PEvent None); OGet n_ab]. vm_compute. discriminate. Qed.


Lemma tables_app : forall a b, tables (a ++ b) = tables_from (tables a) b.
Proof. intros. unfold tables, tables_from. apply fold_left_app. Qed.

Lemma set_ctab_same : forall T k, set_ctab T k (fst (tabs_nth T k)) = T.
Proof.
  unfold set_ctab, tabs_nth. induction T as [|[ct pt] r IH]; intros k; destruct k; simpl; auto.
  f_equal. apply IH.
Qed.

(* nothing was used before the later classes are created: the staged tables are the plain ones *)
Lemma staged_no_pre : forall h1 k h2, staged_tables h1 k [] h2 = tables (h1 ++ h2).
Proof. intros. unfold staged_tables. simpl. rewrite set_ctab_same, tables_app. reflexivity. Qed.

Lemma set_ctab_nth : forall T k ct, (k < length T)%nat -> tabs_nth (set_ctab T k ct) k = (ct, snd (tabs_nth T k)).
Proof.
  unfold set_ctab, tabs_nth. induction T as [|[c0 p0] r IH]; intros k ct H; simpl in H; [lia|].
  destruct k; simpl; auto. apply IH. lia.
Qed.

Lemma staged_same_class : forall h c pre, (c < length (tables h))%nat ->
  tabs_nth (staged_tables h c pre []) c =
  (s_ctd (final_state (snd (tabs_nth (tables h) c)) (init_state (fst (tabs_nth (tables h) c))) pre),
   snd (tabs_nth (tables h) c)).
Proof. intros. unfold staged_tables. simpl. apply set_ctab_nth. auto. Qed.

(* a fresh object of a class whose dictionary already caches resolved names *)
Lemma Inv_second_instance : forall ct0 pt s ls, Inv ct0 pt s ls -> Inv ct0 pt (mkState (s_ctd s) [] []) l_init.
Proof.
  intros ct0 pt s ls H. constructor; simpl; auto; try discriminate.
  - apply (inv_c1 _ _ _ _ H).
  - apply (inv_c2 _ _ _ _ H).
  - destruct (inv_plain4 _ _ _ _ H) as (P1 & P2 & P3 & P4). rewrite P1, P2, P4. reflexivity.
Qed.

Lemma law_second_instance : forall h c pre ops i,
  plain_class h c = true ->
  let t := class_tables h c in
  clean_run (snd t) (init_state (fst t)) pre = true ->
  let s2 := mkState (s_ctd (final_state (snd t) (init_state (fst t)) pre)) [] [] in
  clean_run (snd t) s2 ops = true ->
  law_hist (spec_rule h c) i l_init (run (snd t) s2 ops) = [].
Proof.
  intros h c pre ops i Hpl t Hp s2 Hc. apply andb_true_iff in Hpl. destruct Hpl as [P1 P2].
  destruct (final_Inv (fst t) (snd t) pre _ _ (Inv_init (fst t) (snd t) P1 P2) Hp) as [ls' HI].
  rewrite <- (law_hist_ext _ _ (class_tables_rule h c)).
  apply run_law_inv; auto. eapply Inv_second_instance; eauto.
Qed.

(* the second listed finding: a class created after an instance of its base was used *)
Lemma late_class_refutes : exists h1 k pre h2 c ops,
  let t := tabs_nth (staged_tables (roots ++ h1) k pre h2) c in
  clean_run (snd t) (init_state (fst t)) ops = true /\
  law_hist (spec_rule (h1 ++ h2) c) 0 l_init (run (snd t) (init_state (fst t)) ops) <> [].
Proof.
  exists [mkClass [([97; 95], PTyped VInt 7)] [0%nat]], 3%nat, [OSet n_ab 1],
         [mkClass [([97; 95], PTyped VStr 102)] [3%nat]], 4%nat, [OSet n_ab 101].
  vm_compute. split; [reflexivity|discriminate].
Qed.


(* the checkers re-label the codes of a failing step, or replace them by clause 99: either way the
   result is empty exactly when the law's own codes are *)
Lemma relabel_nil : forall (b : bool) (i : Z) (l rest rest' : list Z), (rest = [] <-> rest' = []) ->
  (match l with [] => [] | z :: t => if b then map (fun c => 100 * i + c) (z :: t) else [100 * i + 99] end) ++ rest = []
  <-> map (fun c => 100 * i + c) l ++ rest' = [].
Proof.
  intros b i [|z l] rest rest' H; simpl; [exact H|].
  split; intro E; exfalso; [destruct b|]; discriminate E.
Qed.

Lemma law_tag_nil : forall mr sr h i ls, law_tag mr sr i ls h = [] <-> law_hist mr i ls h = [].
Proof.
  intros mr sr. induction h as [|[o ob] r IH]; intros i ls; [simpl; tauto|].
  cbn [law_tag law_hist]. apply relabel_nil, IH.
Qed.

Lemma best_ext : forall n l l', tab_eq l l' -> wild (best n l) = wild (best n l').
Proof. intros n l l' He. apply (Sel_wild l' n); [apply (Sel_ext l _ _ _ He)|]; apply best_Sel. Qed.

Lemma class_rule_ext : forall (v w : ctab * ptab) n,
  tab_eq (fst v) (fst w) -> tab_eq (snd v) (snd w) -> class_rule v n = class_rule w n.
Proof.
  intros v w n H1 H2. unfold class_rule. rewrite (H1 n). destruct (assoc n (fst w)); auto.
  destruct (dunder n); auto. pose proof (best_ext n _ _ H2) as E. unfold wild in E.
  destruct (best n (snd v)) as [[? ?]|]; destruct (best n (snd w)) as [[? ?]|]; auto.
Qed.

Definition close (l : ptab) : ptab := if amem [] l then l else l ++ [([], PPython)].

Lemma assoc_close : forall l n,
  assoc n (close l) = match assoc n l with Some v => Some v | None => assoc n [([], PPython)] end.
Proof.
  intros l n. unfold close, amem. destruct (assoc [] l) eqn:E.
  - destruct (assoc n l) eqn:En; auto. simpl. destruct n; simpl; auto. congruence.
  - rewrite assoc_app. reflexivity.
Qed.

Definition own_of (h : list classdef) (i : nat) : ctab * ptab := own_tables (c_decls (nth i h (mkClass [] []))).
Definition single (h : list classdef) : bool := forallb (fun cd => Nat.leb (length (c_bases cd)) 1) h.

Lemma mro_vis_unfold : forall h c,
  mro_vis h c = (flat_map (fun i => fst (own_of h i)) (nth c (mros h) []),
                 close (flat_map (fun i => snd (own_of h i)) (nth c (mros h) []))).
Proof. reflexivity. Qed.

(* Invariant of the sequential creation of single-inheritance classes: what class c shows (V) is, as a
   dictionary, the declarations of the classes along its MRO (M) in that order, the wildcard list closed by
   the default entry.  A new class with one base b puts its own declarations in front of both sides. *)
Definition SI (done : list classdef) (V : list (ctab * ptab)) (M : list (list nat)) : Prop :=
  length V = length done /\ length M = length done /\
  forall c, (c < length done)%nat ->
    Forall (fun i => (i < length done)%nat) (nth c M []) /\
    tab_eq (fst (vis_nth V c)) (flat_map (fun i => fst (own_of done i)) (nth c M [])) /\
    tab_eq (snd (vis_nth V c)) (close (flat_map (fun i => snd (own_of done i)) (nth c M []))).

Lemma flat_map_own_ext : forall (f g : nat -> list (name * policy)) m,
  Forall (fun i => f i = g i) m -> flat_map f m = flat_map g m.
Proof. induction m as [|i r IH]; intro H; simpl; auto. inversion H; subst. rewrite H2, IH; auto. Qed.

Lemma own_of_snoc : forall done cd i, (i < length done)%nat -> own_of (done ++ [cd]) i = own_of done i.
Proof. intros. unfold own_of. rewrite app_nth1; auto. Qed.
Lemma own_of_last : forall done cd, own_of (done ++ [cd]) (length done) = own_tables (c_decls cd).
Proof. intros. unfold own_of. rewrite app_nth2, Nat.sub_diag; auto. Qed.

Lemma SI_snoc : forall done V M cd, SI done V M -> (length (c_bases cd) <= 1)%nat ->
  SI (done ++ [cd]) (V ++ [vis_class V cd]) (M ++ [mro_class M (length M) cd]).
Proof.
  intros done V M cd (LV & LM & H) Hb.
  split; [rewrite !app_length; simpl; lia|]. split; [rewrite !app_length; simpl; lia|].
  intros c Hc. rewrite app_length in Hc. simpl in Hc. unfold vis_nth.
  destruct (Nat.lt_ge_cases c (length done)) as [Hlt|Hge].
  - (* an earlier class: nothing changes *)
    rewrite !app_nth1 by lia. destruct (H c Hlt) as (F & A & B).
    assert (F' : Forall (fun i => (i < length (done ++ [cd]))%nat) (nth c M [])).
    { rewrite Forall_forall in *. intros i Hi. rewrite app_length. specialize (F i Hi). simpl. lia. }
    split; [exact F'|].
    rewrite (flat_map_own_ext (fun i => fst (own_of (done ++ [cd]) i)) (fun i => fst (own_of done i))),
            (flat_map_own_ext (fun i => snd (own_of (done ++ [cd]) i)) (fun i => snd (own_of done i))).
    + split; assumption.
    + rewrite Forall_forall in *. intros i Hi. rewrite own_of_snoc; auto.
    + rewrite Forall_forall in *. intros i Hi. rewrite own_of_snoc; auto.
  - assert (c = length done) by lia. subst c.
    rewrite !app_nth2 by lia. rewrite LV, LM, !Nat.sub_diag. simpl nth.
    unfold mro_class, vis_class.
    destruct (c_bases cd) as [|b [|b2 r]] eqn:Eb; simpl in Hb; try lia; simpl flat_map.
    + rewrite !app_nil_r, own_of_last. rewrite app_length. simpl.
      split; [repeat constructor; lia|]. split; intro n; reflexivity.
    + rewrite !app_nil_r, own_of_last.
      destruct (Nat.lt_ge_cases b (length done)) as [Hbl|Hbg].
      * destruct (H b Hbl) as (F & A & B). fold (vis_nth V b). cbn [fst snd].
        assert (Eo1 : flat_map (fun i => fst (own_of (done ++ [cd]) i)) (nth b M []) =
                      flat_map (fun i => fst (own_of done i)) (nth b M []))
          by (apply flat_map_own_ext; rewrite Forall_forall in *; intros i Hi; rewrite own_of_snoc; auto).
        assert (Eo2 : flat_map (fun i => snd (own_of (done ++ [cd]) i)) (nth b M []) =
                      flat_map (fun i => snd (own_of done i)) (nth b M []))
          by (apply flat_map_own_ext; rewrite Forall_forall in *; intros i Hi; rewrite own_of_snoc; auto).
        rewrite Eo1, Eo2. split; [|split].
        -- constructor; [rewrite app_length; simpl; lia|].
           rewrite Forall_forall in *. intros i Hi. rewrite app_length. specialize (F i Hi). simpl. lia.
        -- intro n. rewrite !assoc_app, (A n). reflexivity.
        -- intro n.
           etransitivity; [exact (assoc_close (snd (own_tables (c_decls cd)) ++ snd (vis_nth V b)) n)|].
           rewrite assoc_close, !assoc_app, (B n), assoc_close.
           destruct (assoc n (snd (own_tables (c_decls cd)))); auto.
           destruct (assoc n (flat_map (fun i => snd (own_of done i)) (nth b M []))); auto.
           simpl. destruct n; auto.
      * (* dangling base index: an empty class *)
        unfold vis_nth. rewrite (nth_overflow V) by lia. rewrite (nth_overflow M) by lia. simpl. rewrite !app_nil_r.
        split; [repeat constructor; rewrite app_length; simpl; lia|]. split; intro n; reflexivity.
Qed.

Lemma SI_from : forall rest done V M, SI done V M -> single rest = true ->
  SI (done ++ rest) (visible_from V rest) (mros_from M rest).
Proof.
  induction rest as [|cd r IH]; intros done V M H Hs; simpl.
  - rewrite app_nil_r. exact H.
  - simpl in Hs. apply andb_true_iff in Hs. destruct Hs as [H1 H2]. apply Nat.leb_le in H1.
    replace (done ++ cd :: r) with ((done ++ [cd]) ++ r) by (rewrite <- app_assoc; reflexivity).
    apply IH; auto. apply SI_snoc; auto.
Qed.

(* in single-inheritance hierarchies the MRO reading and the code's base-order reading coincide *)
Lemma mro_rule_single : forall h c n, single h = true -> (c < length h)%nat ->
  class_rule (mro_vis h c) n = class_rule (vis_nth (visible h) c) n.
Proof.
  intros h c n Hs Hc.
  assert (S0 : SI [] [] []) by (split; [reflexivity|split; [reflexivity|intros c0 Hc0; simpl in Hc0; lia]]).
  pose proof (SI_from h [] [] [] S0 Hs) as (_ & _ & H). simpl in H.
  destruct (H c Hc) as (_ & A & B).
  rewrite mro_vis_unfold. apply class_rule_ext; simpl; intro k; symmetry; [apply A|apply B].
Qed.

Lemma single_roots_app : forall h, single h = true -> single (roots ++ h) = true.
Proof. intros h H. unfold single in *. rewrite forallb_app, H. reflexivity. Qed.

Lemma mro_spec_single : forall h c n, single h = true -> (c < length (roots ++ h))%nat ->
  mro_rule h c n = spec_rule h c n.
Proof. intros. unfold mro_rule, spec_rule. apply mro_rule_single; auto using single_roots_app. Qed.

(* the third listed finding: class A(HasTraits): pass; class K(A, HasStrictTraits): pass; K().ab = 5 *)
Lemma mro_refutes : exists h c ops,
  clean_run (snd (class_tables h c)) (init_state (fst (class_tables h c))) ops = true /\
  law_hist (mro_rule h c) 0 l_init
           (run (snd (class_tables h c)) (init_state (fst (class_tables h c))) ops) <> [].
Proof.
  exists [mkClass [] [0%nat]; mkClass [] [3%nat; 1%nat]], 4%nat, [OSet n_ab 5].
  vm_compute. split; [reflexivity|discriminate].
Qed.


Lemma law_tag2_nil : forall mr sr h i la lb, law_tag2 mr sr i la lb h = [] <-> law_hist2 mr i la lb h = [].
Proof.
  intros mr sr. induction h as [|[[w o] ob] r IH]; intros i la lb; [simpl; tauto|].
  cbn [law_tag2 law_hist2]. apply relabel_nil, IH.
Qed.

Lemma law_hist2_ext : forall (r1 r2 : name -> rule), (forall n, r1 n = r2 n) ->
  forall h i la lb, law_hist2 r1 i la lb h = law_hist2 r2 i la lb h.
Proof.
  intros r1 r2 He. induction h as [|[[w o] ob] r IH]; intros i la lb; simpl; auto.
  rewrite IH, (law_step_ext _ _ He), (law_next_ext _ _ He). reflexivity.
Qed.

Definition st_of (ctd : ctab) (x : inst) : state := mkState ctd (fst x) (snd x).

Definition clean_step2 (s : state2) (w : bool) (o : op) : bool :=
  let '(ctd, a, b) := s in clean_step (st_of ctd (if w then b else a)) o.
Fixpoint clean_run2 (pt : ptab) (s : state2) (ops : list (bool * op)) : bool :=
  match ops with
  | [] => true
  | (w, o) :: r => clean_step2 s w o && clean_run2 pt (fst (step2 pt s w o)) r
  end.

(* the other instance only sees the class dictionary grow *)
Lemma Inv_other : forall ct0 pt s' ls' ctd x lx,
  Inv ct0 pt s' ls' -> Inv ct0 pt (st_of ctd x) lx -> Inv ct0 pt (st_of (s_ctd s') x) lx.
Proof.
  intros ct0 pt s' ls' ctd x lx H1 H2. constructor; simpl.
  - apply (inv_itd _ _ _ _ H2).
  - apply (inv_od _ _ _ _ H2).
  - apply (inv_c1 _ _ _ _ H1).
  - apply (inv_c2 _ _ _ _ H1).
  - intros m v Hm. apply (inv_st _ _ _ _ H2 m v Hm).
  - destruct (inv_plain4 _ _ _ _ H1) as (P1 & P2 & _ & P4).
    destruct (inv_plain4 _ _ _ _ H2) as (_ & _ & P3 & _). simpl in P3.
    rewrite P1, P2, P3, P4. reflexivity.
Qed.

Lemma run2_law_inv : forall ct0 pt ops ctd a b la lb i,
  Inv ct0 pt (st_of ctd a) la -> Inv ct0 pt (st_of ctd b) lb ->
  clean_run2 pt (ctd, a, b) ops = true ->
  law_hist2 (model_rule ct0 pt) i la lb (run2 pt (ctd, a, b) ops) = [].
Proof.
  intros ct0 pt. induction ops as [|[w o] r IH]; intros ctd a b la lb i Ha Hb Hc; simpl; auto.
  simpl in Hc. apply andb_true_iff in Hc. destruct Hc as [Hc1 Hc2].
  destruct w; simpl in *.
  - (* the second instance acts *)
    destruct (step_ok ct0 pt (st_of ctd b) lb o Hb Hc1) as [Hl Hn].
    unfold st_of in *. destruct (step pt (mkState ctd (fst b) (snd b)) o) as [s' ob] eqn:E. simpl in *.
    rewrite Hl. simpl. apply IH; auto.
    + apply (Inv_other ct0 pt s' _ ctd a la Hn Ha).
    + destruct s'; exact Hn.
  - destruct (step_ok ct0 pt (st_of ctd a) la o Ha Hc1) as [Hl Hn].
    unfold st_of in *. destruct (step pt (mkState ctd (fst a) (snd a)) o) as [s' ob] eqn:E. simpl in *.
    rewrite Hl. simpl. apply IH; auto.
    + destruct s'; exact Hn.
    + apply (Inv_other ct0 pt s' _ ctd b lb Hn Hb).
Qed.

Lemma law_two_instances : forall h c ops i,
  plain_class h c = true ->
  clean_run2 (snd (class_tables h c)) (init_state2 (fst (class_tables h c))) ops = true ->
  law_hist2 (spec_rule h c) i l_init l_init
            (run2 (snd (class_tables h c)) (init_state2 (fst (class_tables h c))) ops) = [].
Proof.
  intros h c ops i Hp Hc. apply andb_true_iff in Hp. destruct Hp as [P1 P2].
  rewrite <- (law_hist2_ext _ _ (class_tables_rule h c)).
  apply run2_law_inv; auto; apply Inv_init; auto.
Qed.

(* with the second instance idle the two-instance run is the one-instance run *)
Lemma run2_single : forall pt ops ctd a b,
  map (fun x => (snd (fst x), snd x)) (run2 pt (ctd, a, b) (map (pair false) ops)) = run pt (st_of ctd a) ops.
Proof.
  intros pt. induction ops as [|o r IH]; intros ctd a b; simpl; auto.
  unfold st_of. destruct (step pt (mkState ctd (fst a) (snd a)) o) as [s' ob] eqn:E. simpl.
  f_equal. rewrite IH. unfold st_of. destruct s'; reflexivity.
Qed.

(* Mapped traits (Map): the shadow name comes and goes with the trait.
   Direct statements about Model.step, for every state (no invariant needed). *)

Lemma name_app_neq2 : forall (n suf : name), suf <> [] -> name_eqb n (n ++ suf) = false /\ name_eqb (n ++ suf) n = false.
Proof.
  intros n suf H. assert (n <> n ++ suf).
  { intro E. apply (f_equal (@length Z)) in E. rewrite app_length in E. destruct suf; [congruence|simpl in E; lia]. }
  split; apply name_eqb_neq; congruence.
Qed.

Lemma name_app_neq : forall (n : name) x, name_eqb n (n ++ [x]) = false.
Proof. intros n x. apply (name_app_neq2 n [x]). discriminate. Qed.

(* add_trait(name, Map(m)) installs the trait and, for name_, the shadow trait *)
Lemma add_mapped_installs : forall pt s n m d,
  let s' := fst (step pt s (OAdd n (PMap m d))) in
  assoc n (s_itd s') = Some (PMap m d) /\ assoc (n ++ [US]) (s_itd s') = Some (PShadow m) /\
  s_od s' = s_od s.
Proof.
  intros pt s n m d. simpl. rewrite !assoc_aset, name_eqb_refl, name_app_neq, name_eqb_refl. auto.
Qed.

(* remove_trait(name) of a mapped instance trait: the trait, its shadow trait, the value and
   the shadow value are all gone, so name and name_ are governed by the class-level rule again *)
Lemma remove_mapped_clears : forall pt s n m d,
  assoc n (s_itd s) = Some (PMap m d) ->
  (assoc (n ++ [US]) (s_itd s) <> None \/ amem (n ++ [US]) (s_ctd s) = true) ->
  let s' := fst (step pt s (ORem n)) in
  o_out (snd (step pt s (ORem n))) = Val 1 /\
  assoc n (s_itd s') = None /\ assoc (n ++ [US]) (s_itd s') = None /\
  assoc n (s_od s') = None /\ assoc (n ++ [US]) (s_od s') = None.
Proof.
  intros pt s n m d Hn Hs. simpl. rewrite Hn.
  change (fold_left rem1 (map fst (subs n (PMap m d))) s) with (rem1 s (n ++ [US])).
  assert (Ne : name_eqb (n ++ [US]) n = false) by (rewrite name_eqb_sym; apply name_app_neq).
  set (s1 := rem1 s (n ++ [US])).
  assert (F : assoc n (s_itd s1) = Some (PMap m d) /\ assoc (n ++ [US]) (s_itd s1) = None /\
              assoc (n ++ [US]) (s_od s1) = None).
  { unfold s1, rem1. destruct (assoc (n ++ [US]) (s_itd s)) as [q|] eqn:Eq; simpl.
    - rewrite !assoc_adel, Ne, name_eqb_refl. auto.
    - destruct Hs as [Hs|Hs]; [congruence|]. rewrite Hs. simpl.
      rewrite assoc_adel, name_eqb_refl. auto. }
  destruct F as (F1 & F2 & F3).
  unfold rem1 at 1 2 3 4 5. unfold amem. rewrite F1. simpl.
  rewrite !assoc_adel, name_eqb_refl, name_app_neq, F2, F3. auto.
Qed.

Lemma remove_mapped_restores_class_rule : forall ct0 pt s n m d,
  assoc n (s_itd s) = Some (PMap m d) ->
  (assoc (n ++ [US]) (s_itd s) <> None \/ amem (n ++ [US]) (s_ctd s) = true) ->
  let s' := fst (step pt s (ORem n)) in
  gov ct0 pt s' n = model_rule ct0 pt n /\ gov ct0 pt s' (n ++ [US]) = model_rule ct0 pt (n ++ [US]) /\
  assoc n (s_od s') = None /\ assoc (n ++ [US]) (s_od s') = None.
Proof.
  intros ct0 pt s n m d Hn Hs s'. destruct (remove_mapped_clears pt s n m d Hn Hs) as (_ & A & B & C & D).
  fold s' in A, B, C, D. unfold gov. rewrite A, B. auto.
Qed.

(* List traits (has_items): the name_items event trait comes and goes with the trait *)
Lemma add_list_installs : forall pt s n,
  let s' := fst (step pt s (OAdd n PList)) in
  assoc n (s_itd s') = Some PList /\
  assoc (n ++ items_suffix) (s_itd s') = Some (PEvent (Some VNoneOnly)) /\ s_od s' = s_od s.
Proof.
  intros pt s n. simpl. destruct (name_app_neq2 n items_suffix) as [N1 N2]; [discriminate|].
  rewrite !assoc_aset, name_eqb_refl, N1, name_eqb_refl. auto.
Qed.

Lemma remove_list_clears : forall pt s n,
  assoc n (s_itd s) = Some PList ->
  let s' := fst (step pt s (ORem n)) in
  o_out (snd (step pt s (ORem n))) = Val 1 /\
  assoc n (s_itd s') = None /\ assoc (n ++ items_suffix) (s_itd s') = None /\ assoc n (s_od s') = None.
Proof.
  intros pt s n Hn. simpl. rewrite Hn.
  change (fold_left rem1 (map fst (subs n PList)) s) with (rem1 s (n ++ items_suffix)).
  destruct (name_app_neq2 n items_suffix) as [N1 N2]; [discriminate|].
  set (s1 := rem1 s (n ++ items_suffix)).
  assert (F : assoc n (s_itd s1) = Some PList /\ assoc (n ++ items_suffix) (s_itd s1) = None).
  { unfold s1, rem1. destruct (assoc (n ++ items_suffix) (s_itd s)) as [q|] eqn:Eq; simpl.
    - rewrite !assoc_adel, N2, name_eqb_refl. auto.
    - destruct (amem (n ++ items_suffix) (s_ctd s)); simpl; auto. }
  destruct F as (F1 & F2).
  unfold rem1 at 1 2 3 4. unfold amem. rewrite F1. simpl.
  rewrite !assoc_adel, name_eqb_refl, N1, F2. auto.
Qed.
