(* C13 — add_class_trait: wildcards added at run time keep the prefix list
   sorted longest first, so the first match is still the longest matching wildcard. *)
From Coq Require Import ZArith List Bool Lia Sorted.
From TV Require Import Common.Harness C13.Model C13.Law C13.Corr C13.Proofs.
From TV Require C13.CorrT.
Import ListNotations.
Open Scope Z_scope.

(* _add_class_trait, wildcard branch (has_traits.py l.1163-1170): append, then sort *)
Definition add_wild (pt : ptab) (e : name * policy) : ptab := sort_len (pt ++ [e]).

Lemma add_class1_wildcard : forall ct pt n p, ends_us n = true -> amem (removelast n) pt = false ->
  add_class1 false (ct, pt) n p = Some (ct, add_wild pt (removelast n, p)) /\
  add_class1 true (ct, pt) n p = Some (ct, add_wild pt (removelast n, p)).
Proof. intros ct pt n p H1 H2. unfold add_class1. rewrite H1, H2. auto. Qed.

(* an existing definition: TraitError on the class itself, silently kept on subclasses *)
Lemma add_class1_existing : forall ct pt n p,
  (if ends_us n then amem (removelast n) pt else amem n ct) = true ->
  add_class1 false (ct, pt) n p = None /\ add_class1 true (ct, pt) n p = Some (ct, pt).
Proof. intros ct pt n p H. unfold add_class1. destruct (ends_us n); rewrite H; auto. Qed.

Lemma add_class1_explicit : forall ct pt n p, ends_us n = false -> amem n ct = false ->
  add_class1 false (ct, pt) n p = Some (aset n p ct, pt).
Proof. intros ct pt n p H1 H2. unfold add_class1. rewrite H1, H2. reflexivity. Qed.

Lemma add_class1_true_some : forall t n p, exists t', add_class1 true t n p = Some t'.
Proof.
  intros [ct pt] n p. unfold add_class1.
  destruct (ends_us n); [destruct (amem (removelast n) pt)|destruct (amem n ct)]; eauto.
Qed.

(* a call accepted on the class itself found the name undefined there, and is the subclass call *)
Lemma add_class1_false_true : forall t n p t', add_class1 false t n p = Some t' -> add_class1 true t n p = Some t'.
Proof.
  intros [ct pt] n p t'. unfold add_class1.
  destruct (ends_us n); [destruct (amem (removelast n) pt)|destruct (amem n ct)]; auto; discriminate.
Qed.
Lemma add_class1_false_absent : forall t n p t', add_class1 false t n p = Some t' ->
  (if ends_us n then amem (removelast n) (snd t) else amem n (fst t)) = false.
Proof.
  intros [ct pt] n p t'. unfold add_class1. cbn [fst snd].
  destruct (ends_us n); [destruct (amem (removelast n) pt)|destruct (amem n ct)]; auto; discriminate.
Qed.

(* the tables after a call: unchanged, a wildcard appended and the list re-sorted, or a name set *)
Lemma add_class1_cases : forall b t n p t', add_class1 b t n p = Some t' ->
  t' = t \/ t' = (fst t, add_wild (snd t) (removelast n, p)) \/ t' = (aset n p (fst t), snd t).
Proof.
  intros b [ct pt] n p t'. unfold add_class1.
  destruct (ends_us n); [destruct (amem (removelast n) pt)|destruct (amem n ct)]; destruct b;
    intro H; inversion H; auto.
Qed.

Lemma add_class1_sorted : forall b t n p t', StronglySorted len_ge (snd t) ->
  add_class1 b t n p = Some t' -> StronglySorted len_ge (snd t').
Proof.
  intros b t n p t' S H. destruct (add_class1_cases b t n p t' H) as [-> | [-> | ->]]; auto. apply sort_len_sorted.
Qed.

(* after ANY sequence of run-time wildcard additions the list is sorted longest first and the
   first match is the longest matching wildcard of all declarations, old and new, whatever the
   order in which they were added (specific then general, or general then specific) *)
Lemma runtime_wildcards_sorted : forall adds pt,
  StronglySorted len_ge pt ->
  let pt' := fold_left add_wild adds pt in
  StronglySorted len_ge pt' /\ tab_eq pt' (pt ++ adds) /\
  forall n, wild (first_match n pt') = wild (best n (pt ++ adds)).
Proof.
  assert (Core : forall adds pt, StronglySorted len_ge pt ->
            StronglySorted len_ge (fold_left add_wild adds pt) /\ tab_eq (fold_left add_wild adds pt) (pt ++ adds)).
  { induction adds as [|e r IH]; intros pt Hs; simpl.
    - rewrite app_nil_r. split; [exact Hs|intro; reflexivity].
    - destruct (IH (add_wild pt e) (sort_len_sorted _)) as [A B]. split; [exact A|].
      intro k. rewrite B. unfold add_wild.
      replace (pt ++ e :: r) with ((pt ++ [e]) ++ r) by (rewrite <- app_assoc; reflexivity).
      apply tab_eq_app. intro j. apply assoc_sort_len. }
  intros adds pt Hs. destruct (Core adds pt Hs) as [A B]. cbv zeta. repeat split; auto.
  intro n. apply first_match_best; auto.
Qed.

(* histories with class operations on the model (CorrT.step_t) *)
Fixpoint run_t (h : list classdef) (objs : list nat) (s : CorrT.tstate) (ops : list CorrT.top)
  : list (CorrT.top * obs) :=
  match ops with
  | [] => []
  | t :: r => let '(s', ob) := CorrT.step_t h objs s t in (t, ob) :: run_t h objs s' r
  end.
