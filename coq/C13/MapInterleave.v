(* C13 — the life of a mapped trait INTERLEAVED with operations on other names.
   Idea: erase the pair (name, name_) from the object and from the law's bookkeeping; operations on
   names far from the pair commute with the erasure, so the plain-trait invariant of Proofs.v is
   kept on the erased state, while MapProofs.pair_step handles the pair itself. *)
From Coq Require Import ZArith List Bool Lia.
From TV Require Import Common.Harness C13.Model C13.Law C13.Corr C13.Proofs C13.MapProofs.
Import ListNotations.
Open Scope Z_scope.

Section ListFacts.
  Context {A : Type}.
  Implicit Types l : list (name * A).

  Lemma aset_adel_comm : forall l a k v, name_eqb a k = false -> aset k v (adel a l) = adel a (aset k v l).
  Proof.
    induction l as [|[x w] r IH]; intros a k v H; simpl.
    - rewrite name_eqb_sym, H. reflexivity.
    - destruct (name_eqb x a) eqn:Ea; destruct (name_eqb x k) eqn:Ek; simpl; rewrite ?Ea, ?Ek; auto.
      + apply name_eqb_eq in Ea. apply name_eqb_eq in Ek. subst. rewrite name_eqb_refl in H. discriminate.
      + rewrite IH; auto.
  Qed.
  Lemma adel_adel_comm : forall l a b, adel a (adel b l) = adel b (adel a l).
  Proof.
    induction l as [|[x w] r IH]; intros a b; simpl; auto.
    destruct (name_eqb x b) eqn:Eb; destruct (name_eqb x a) eqn:Ea; simpl; rewrite ?Ea, ?Eb; auto.
    rewrite IH. reflexivity.
  Qed.
End ListFacts.

Section Erase.
  Variable n : name.
  Notation n_ := (n ++ [US]).

  Definition erase_l {A} (l : list (name * A)) : list (name * A) := adel n (adel n_ l).
  Definition erase (s : state) : state := mkState (s_ctd s) (erase_l (s_itd s)) (erase_l (s_od s)).
  Definition lerase (ls : lstate) : lstate := mkL (erase_l (l_itd ls)) (erase_l (l_od ls)).

  (* k is neither name nor name_ *)
  Definition off (k : name) : bool := negb (name_eqb n k) && negb (name_eqb n_ k).
  (* ... and neither are the names an operation on k reports: k_ and k[:-1] *)
  Definition far (k : name) : bool :=
    off k && off (k ++ [US]) && (if ends_us k then off (removelast k) else true).

  Lemma assoc_erase : forall {A} (l : list (name * A)) k, assoc k (erase_l l) = if off k then assoc k l else None.
  Proof.
    intros A l k. unfold erase_l, off. rewrite !assoc_adel.
    destruct (name_eqb n k); simpl; auto. destruct (name_eqb n_ k); reflexivity.
  Qed.
  Lemma off_split : forall k, off k = true -> name_eqb n k = false /\ name_eqb n_ k = false.
  Proof. intros k H. unfold off in H. apply andb_true_iff in H. destruct H as [A B]. apply negb_true_iff in A. apply negb_true_iff in B. auto. Qed.
  Lemma erase_aset : forall {A} (l : list (name * A)) k v, off k = true -> erase_l (aset k v l) = aset k v (erase_l l).
  Proof.
    intros A l k v H. destruct (off_split k H) as [H1 H2]. unfold erase_l.
    rewrite <- (aset_adel_comm l n_ k v H2), <- (aset_adel_comm _ n k v H1). reflexivity.
  Qed.
  Lemma erase_adel : forall {A} (l : list (name * A)) k, erase_l (adel k l) = adel k (erase_l l).
  Proof. intros A l k. unfold erase_l. rewrite (adel_adel_comm l n_ k), (adel_adel_comm _ n k). reflexivity. Qed.
  Lemma amem_erase : forall {A} (l : list (name * A)) k, off k = true -> amem k (erase_l l) = amem k l.
  Proof. intros A l k H. unfold amem. rewrite assoc_erase, H. reflexivity. Qed.
  Lemma erase_itd_off : forall s k, off k = true -> assoc k (s_itd (erase s)) = assoc k (s_itd s).
  Proof. intros s k H. unfold erase. cbn [s_itd]. rewrite assoc_erase, H. reflexivity. Qed.
  Lemma erase_od_off : forall s k, off k = true -> assoc k (s_od (erase s)) = assoc k (s_od s).
  Proof. intros s k H. unfold erase. cbn [s_od]. rewrite assoc_erase, H. reflexivity. Qed.
End Erase.

Section Commute.
  Variable n : name.
  Variable pt : ptab.
  Notation n_ := (n ++ [US]).
  Notation erase := (erase n).
  Notation erase_l := (erase_l n).
  Notation off := (off n).
  Notation far := (far n).

  Lemma far_split : forall k, far k = true ->
    off k = true /\ off (k ++ [US]) = true /\ (if ends_us k then off (removelast k) else true) = true.
  Proof.
    intros k H. unfold MapInterleave.far in H. apply andb_true_iff in H. destruct H as [H H3].
    apply andb_true_iff in H. destruct H as [H1 H2]. auto.
  Qed.

  Lemma out_far : forall s k x, far k = true -> out (erase s) k x = (erase s, snd (out s k x)).
  Proof.
    intros s k x H. destruct (far_split k H) as (H1 & H2 & H3). unfold out. cbn [snd].
    unfold MapInterleave.erase. cbn [s_od].
    rewrite (assoc_erase n (s_od s) k), (assoc_erase n (s_od s) (k ++ [US])), H1, H2.
    destruct (ends_us k); [rewrite (assoc_erase n (s_od s) (removelast k)), H3|]; reflexivity.
  Qed.
  Lemma out_far' : forall S S0 k x, far k = true -> S = erase S0 ->
    out S k x = (erase (fst (out S0 k x)), snd (out S0 k x)).
  Proof. intros S S0 k x H E. subst S. rewrite out_far by exact H. reflexivity. Qed.

  (* the two sides are states whose dictionaries differ by one aset / adel at a name off the pair, which
     commutes with the erasure (erase_aset, erase_adel) *)
  Ltac st H1 := unfold MapInterleave.erase, set_od; cbn [s_ctd s_itd s_od];
                rewrite ?erase_aset, ?erase_adel by exact H1; reflexivity.

  Lemma getattr_far : forall s k p, far k = true -> plainp p = true ->
    getattr (erase s) k p = (erase (fst (getattr s k p)), snd (getattr s k p)).
  Proof.
    intros s k p H Hp. destruct (far_split k H) as (H1 & _ & _).
    destruct p; try discriminate Hp; unfold getattr; (apply out_far'; [exact H|st H1]).
  Qed.

  Lemma setattr_far : forall s k p v, far k = true -> plainp p = true ->
    setattr (erase s) k p v = (erase (fst (setattr s k p v)), snd (setattr s k p v)).
  Proof.
    intros s k p v H Hp. destruct (far_split k H) as (H1 & _ & _).
    pose proof (erase_od_off n s k H1) as Ho.
    (* every test setattr makes reads k only, where both states agree (Ho); split them all: each leaf is
       an [out] on obj.__dict__ unchanged or aset at k *)
    destruct p as [ |d| |d|c|e|e d|m d|m| ]; try discriminate Hp; unfold setattr; rewrite ?Ho;
      repeat match goal with
             | |- context [if ?b then _ else _] => destruct b
             | |- context [match assoc k (s_od s) with _ => _ end] => destruct (assoc k (s_od s))
             | |- context [match validate ?a ?b with _ => _ end] => destruct (validate a b)
             | |- context [match ?o with Some _ => _ | None => _ end] => is_var o; destruct o
             end; (apply out_far'; [exact H|st H1]).
  Qed.

  Lemma delattr_far : forall s k p, far k = true -> plainp p = true ->
    delattr (erase s) k p = (erase (fst (delattr s k p)), snd (delattr s k p)).
  Proof.
    intros s k p H Hp. destruct (far_split k H) as (H1 & _ & _).
    assert (Ho : amem k (s_od (erase s)) = amem k (s_od s))
      by (unfold MapInterleave.erase; cbn [s_od]; apply amem_erase; exact H1).
    destruct p; try discriminate Hp; unfold delattr; rewrite ?Ho;
      try destruct (amem k (s_od s)); (apply out_far'; [exact H|st H1]).
  Qed.

  Lemma prefix_trait_far : forall s k b,
    prefix_trait pt (erase s) k b =
    match prefix_trait pt s k b with inl (p, s') => inl (p, erase s') | inr e => inr e end.
  Proof.
    intros s k b. unfold prefix_trait. destruct (dunder k); [destruct b; reflexivity|].
    destruct (first_match k pt) as [[q p]|]; reflexivity.
  Qed.
  (* every trait an operation on k can find is plain *)
  Definition plain_at (s : state) (k : name) : Prop :=
    (forall p, assoc k (s_itd s) = Some p -> plainp p = true) /\
    (forall p, assoc k (s_ctd s) = Some p -> plainp p = true) /\
    (forall q p, first_match k pt = Some (q, p) -> plainp p = true).

  Lemma prefix_plain : forall s k b p s', plain_at s k -> prefix_trait pt s k b = inl (p, s') -> plainp p = true.
  Proof.
    intros s k b p s' (_ & _ & H3). unfold prefix_trait. destruct (dunder k).
    - destruct b; [|discriminate]. intro E. inversion E. reflexivity.
    - destruct (first_match k pt) as [[q p1]|] eqn:Ef; [|discriminate]. intro E. inversion E; subst. eauto.
  Qed.

  Lemma lookup_set_far : forall s k, off k = true ->
    lookup_set pt (erase s) k =
    match lookup_set pt s k with inl (p, s') => inl (p, erase s') | inr e => inr e end.
  Proof.
    intros s k H. unfold lookup_set.
    rewrite (erase_itd_off n s k H). change (s_ctd (erase s)) with (s_ctd s).
    destruct (assoc k (s_itd s)); [reflexivity|].
    destruct (assoc k (s_ctd s)); [reflexivity|]. apply prefix_trait_far.
  Qed.
  Lemma lookup_set_plain : forall s k p s', plain_at s k -> lookup_set pt s k = inl (p, s') -> plainp p = true.
  Proof.
    intros s k p s' HP. pose proof HP as (H1 & H2 & _). unfold lookup_set.
    destruct (assoc k (s_itd s)) eqn:Ei; [intro E; inversion E; subst; auto|].
    destruct (assoc k (s_ctd s)) eqn:Ec; [intro E; inversion E; subst; auto|]. apply prefix_plain. exact HP.
  Qed.

  (* an operation on a name far from the pair, finding plain traits only, commutes with the erasure *)
  Lemma step_far : forall s o, far (op_name o) = true -> plain_at s (op_name o) ->
    (forall k q, o = OAdd k q -> plainp q = true) ->
    step pt (erase s) o = (erase (fst (step pt s o)), snd (step pt s o)).
  Proof.
    intros s o H HP Hq. destruct (far_split _ H) as (H1 & _ & _). pose proof HP as (Pi & Pc & Pp).
    destruct o as [k|k v|k|k q|k]; cbn [op_name] in *.
    - simpl step. unfold get_with.
      rewrite (erase_od_off n s k H1), (erase_itd_off n s k H1). change (s_ctd (erase s)) with (s_ctd s).
      destruct (assoc k (s_od s)) as [v|].
      { apply out_far'; [exact H|reflexivity]. }
      destruct (assoc k (s_itd s)) as [p|] eqn:Ei.
      { rewrite !getattr_m_plain by (apply Pi; reflexivity). apply getattr_far; auto. }
      destruct (assoc k (s_ctd s)) as [p|] eqn:Ec.
      { rewrite !getattr_m_plain by (apply Pc; reflexivity). apply getattr_far; auto. }
      rewrite prefix_trait_far.
      destruct (prefix_trait pt s k false) as [[p s']|e] eqn:Ep.
      + rewrite !getattr_m_plain by (eapply prefix_plain; eauto). apply getattr_far; auto. eapply prefix_plain; eauto.
      + apply out_far'; [exact H|reflexivity].
    - simpl step. rewrite lookup_set_far by exact H1.
      destruct (lookup_set pt s k) as [[p s']|e] eqn:El.
      + rewrite !setattr_m_plain by (eapply lookup_set_plain; eauto). apply setattr_far; auto.
        eapply lookup_set_plain; eauto.
      + apply out_far'; [exact H|reflexivity].
    - simpl step. rewrite lookup_set_far by exact H1.
      destruct (lookup_set pt s k) as [[p s']|e] eqn:El.
      + apply delattr_far; auto. eapply lookup_set_plain; eauto.
      + apply out_far'; [exact H|reflexivity].
    - pose proof (Hq k q eq_refl) as Hpq.
      pose proof (subs_plain k q Hpq) as Es.
      simpl step. rewrite Es. cbn [fold_left]. apply out_far'; [exact H|].
      unfold MapInterleave.erase. cbn [s_ctd s_itd s_od]. rewrite (erase_aset n (s_itd s) k q H1). reflexivity.
    - assert (R1 : forall S, rem1 (erase S) k = erase (rem1 S k)).
      { intros S. unfold rem1.
        rewrite (erase_itd_off n S k H1). change (s_ctd (erase S)) with (s_ctd S).
        destruct (assoc k (s_itd S)).
        - unfold MapInterleave.erase. cbn [s_ctd s_itd s_od]. rewrite !erase_adel. reflexivity.
        - destruct (amem k (s_ctd S)); [|reflexivity].
          unfold MapInterleave.erase, set_od. cbn [s_ctd s_itd s_od]. rewrite erase_adel. reflexivity. }
      simpl step. rewrite (assoc_erase n (s_itd s) k), H1.
      destruct (assoc k (s_itd s)) as [p|] eqn:Ei.
      + pose proof (subs_plain k p (Pi p eq_refl)) as Es.
        rewrite Es. cbn [map fold_left].
        replace (amem k (s_itd (erase s))) with (amem k (s_itd s))
          by (unfold MapInterleave.erase; cbn [s_itd]; symmetry; apply amem_erase; exact H1).
        apply out_far'; [exact H|]. apply R1.
      + destruct (assoc k (s_ctd s)) as [p|] eqn:Ec.
        * pose proof (subs_plain k p (Pc p eq_refl)) as Es.
          rewrite Es. cbn [map fold_left].
        replace (amem k (s_itd (erase s))) with (amem k (s_itd s))
          by (unfold MapInterleave.erase; cbn [s_itd]; symmetry; apply amem_erase; exact H1).
          apply out_far'; [exact H|]. apply R1.
        * apply out_far'; [exact H|reflexivity].
  Qed.
End Commute.

(* the law's bookkeeping commutes with the erasure, too *)
Section LawCommute.
  Variable n : name.
  Variable crule : name -> rule.
  Notation n_ := (n ++ [US]).
  Notation erase_l := (erase_l n).
  Notation lerase := (lerase n).
  Notation off := (off n).
  Notation far := (far n).

  Definition plainish (g : rule) : Prop := match g with RPol p => plainp p = true | _ => True end.

  Lemma demand_m_plainish : forall ls g sb o, plainish g -> demand_m crule ls g sb o = demand g sb o.
  Proof. intros ls g sb o H. destruct g as [p| |]; try reflexivity. simpl in H. destruct p; try discriminate H; reflexivity. Qed.

  Lemma governing_lerase : forall ls k, off k = true -> governing crule (lerase ls) k = governing crule ls k.
  Proof. intros ls k H. unfold governing, MapInterleave.lerase. cbn [l_itd]. rewrite (assoc_erase n (l_itd ls) k), H. reflexivity. Qed.
  Lemma found_lerase : forall ls k, off k = true -> found_trait crule (lerase ls) k = found_trait crule ls k.
  Proof. intros ls k H. unfold found_trait, MapInterleave.lerase. cbn [l_itd]. rewrite (assoc_erase n (l_itd ls) k), H. reflexivity. Qed.

  Lemma law_step_far : forall ls o ob, off (op_name o) = true -> plainish (governing crule ls (op_name o)) ->
    law_step crule (lerase ls) o ob = law_step crule ls o ob.
  Proof.
    intros ls o ob H Hg.
    assert (Ei : l_itd (lerase ls) = erase_l (l_itd ls)) by reflexivity.
    assert (Eo : l_od (lerase ls) = erase_l (l_od ls)) by reflexivity.
    unfold law_step. rewrite (governing_lerase ls _ H), Eo, (assoc_erase n (l_od ls) (op_name o)), H.
    rewrite !demand_m_plainish by exact Hg.
    destruct o; try reflexivity.
    cbn [op_name] in *. rewrite Ei, (amem_erase n (l_itd ls) _ H), (assoc_erase n (l_itd ls) _), H. reflexivity.
  Qed.

  Lemma erase_resync : forall a v (l : list (name * Z)), off a = true -> erase_l (resync a v l) = resync a v (erase_l l).
  Proof. intros a v l H. unfold resync. destruct v; [apply erase_aset; exact H|apply erase_adel]. Qed.

  Lemma law_next_far : forall ls o ob, far (op_name o) = true ->
    (forall k q, o = OAdd k q -> plainp q = true) ->
    (forall p, found_trait crule ls (op_name o) = Some p -> plainp p = true) ->
    lerase (law_next crule ls o ob) = law_next crule (lerase ls) o ob.
  Proof.
    intros ls o ob H Hq Hf.
    destruct (far_split n _ H) as (H1 & H2 & H3).
    unfold law_next. rewrite (found_lerase ls _ H1). unfold MapInterleave.lerase. cbn [l_itd l_od]. f_equal.
    - (* instance traits *)
      destruct o as [k|k v|k|k q|k]; try reflexivity; cbn [op_name] in *.
      + destruct (o_out ob); try reflexivity.
        pose proof (subs_plain k q (Hq k q eq_refl)) as Es.
        rewrite Es. cbn [fold_left]. apply erase_aset. exact H1.
      + destruct (o_out ob); try reflexivity. rewrite erase_adel. f_equal.
        destruct (found_trait crule ls k) as [p|] eqn:Ef; [|reflexivity].
        pose proof (subs_plain k p (Hf p eq_refl)) as Es.
        rewrite Es. reflexivity.
    - (* stored values *)
      assert (E3 : erase_l (if ends_us (op_name o)
                            then resync (removelast (op_name o)) (o_base ob)
                                   (resync (op_name o ++ [US]) (o_shadow ob) (resync (op_name o) (o_stored ob) (l_od ls)))
                            else resync (op_name o ++ [US]) (o_shadow ob) (resync (op_name o) (o_stored ob) (l_od ls))) =
                   (if ends_us (op_name o)
                    then resync (removelast (op_name o)) (o_base ob)
                           (resync (op_name o ++ [US]) (o_shadow ob) (resync (op_name o) (o_stored ob) (erase_l (l_od ls))))
                    else resync (op_name o ++ [US]) (o_shadow ob) (resync (op_name o) (o_stored ob) (erase_l (l_od ls))))).
      { destruct (ends_us (op_name o)); rewrite ?erase_resync by assumption; reflexivity. }
      destruct o as [k|k v|k|k q|k]; try exact E3. cbn [op_name] in *.
      destruct (o_out ob); try exact E3.
      destruct (found_trait crule ls k) as [p|] eqn:Ef; [|exact E3].
      pose proof (Hf p eq_refl) as Hp. destruct p; try discriminate Hp; exact E3.
  Qed.
End LawCommute.

Section Inter.
  Variable ct0 : ctab.
  Variable pt : ptab.
  Variable n : name.
  Variable m : list (Z * Z).
  Variable d wd : Z.
  Hypothesis d_key : zassoc d m = Some wd.
  Notation n_ := (n ++ [US]).
  Notation crule := (model_rule ct0 pt).
  Notation erase := (erase n).
  Notation erase_l := (erase_l n).
  Notation lerase := (lerase n).
  Notation off := (off n).
  Notation far := (far n).

  (* the invariant during a life: the object with the pair erased is in the plain invariant against the
     erased bookkeeping, the pair is installed, and the full bookkeeping agrees with the full object *)
  Definition K (s : state) (ls : lstate) : Prop :=
    Inv ct0 pt (erase s) (lerase ls) /\ Pair n m d s /\ Agree s ls.

  Lemma plain_erase : forall l, plain_tab l = true -> plain_tab (erase_l l) = true.
  Proof. intros l H. unfold MapInterleave.erase_l. apply plain_adel. apply plain_adel. exact H. Qed.

  (* forgetting two names keeps the plain-trait invariant *)
  Lemma Inv_erase : forall s ls, Inv ct0 pt s ls -> Inv ct0 pt (erase s) (lerase ls).
  Proof.
    intros s ls HI. destruct (inv_plain4 _ _ _ _ HI) as (P1 & P2 & P3 & P4).
    constructor; unfold MapInterleave.erase, MapInterleave.lerase; cbn [s_ctd s_itd s_od l_itd l_od].
    - rewrite (inv_itd _ _ _ _ HI). reflexivity.
    - intro k. rewrite !assoc_erase, (inv_od _ _ _ _ HI). reflexivity.
    - apply (inv_c1 _ _ _ _ HI).
    - apply (inv_c2 _ _ _ _ HI).
    - intros k v Hk. rewrite assoc_erase in Hk. destruct (off k) eqn:Ho; [|discriminate].
      unfold gov. cbn [s_itd]. rewrite assoc_erase, Ho. apply (inv_st _ _ _ _ HI _ _ Hk).
    - apply plain4; auto. apply plain_erase. exact P3.
  Qed.

  Lemma plain_at_K : forall s ls k, Inv ct0 pt (erase s) (lerase ls) -> off k = true -> plain_at pt s k.
  Proof.
    intros s ls k HI Ho. destruct (inv_plain4 _ _ _ _ HI) as (P1 & P2 & P3 & P4).
    unfold MapInterleave.erase in P3, P4. cbn [s_itd s_ctd] in P3, P4. repeat split.
    - intros p Hp. apply (plain_assoc _ k p P3). rewrite assoc_erase, Ho. exact Hp.
    - intros p Hp. apply (plain_assoc _ k p P4 Hp).
    - intros q p Hp. apply (plain_first_match _ _ _ _ P2 Hp).
  Qed.

  (* an operation on k that finds plain traits only touches nothing but k in itd and __dict__ *)
  Lemma step_far_frame : forall s o, plain_at pt s (op_name o) ->
    (forall k q, o = OAdd k q -> plainp q = true) ->
    forall a, name_eqb (op_name o) a = false ->
      assoc a (s_itd (fst (step pt s o))) = assoc a (s_itd s) /\
      assoc a (s_od (fst (step pt s o))) = assoc a (s_od s).
  Proof.
    intros s o HP Hq a Ha. pose proof HP as (Pi & Pc & Pp).
    assert (Hne : a <> op_name o) by (intro E; subst a; rewrite name_eqb_refl in Ha; discriminate).
    destruct o as [k|k v|k|k q|k]; cbn [op_name] in *.
    - split; [rewrite (step_itd_access pt s (OGet k) eq_refl); reflexivity|].
      simpl step. unfold get_with. destruct (assoc k (s_od s)); [reflexivity|].
      destruct (assoc k (s_itd s)) as [p|] eqn:Ei.
      { rewrite getattr_m_plain by (apply Pi; reflexivity). apply (handler_frame (OGet k) s p a eq_refl Hne). }
      destruct (assoc k (s_ctd s)) as [p|] eqn:Ec.
      { rewrite getattr_m_plain by (apply Pc; reflexivity). apply (handler_frame (OGet k) s p a eq_refl Hne). }
      destruct (prefix_trait pt s k false) as [[p s']|e] eqn:Ep; [|reflexivity].
      rewrite getattr_m_plain by (eapply prefix_plain; eauto).
      destruct (prefix_trait_keeps pt s k false p s' Ep) as [E _]. rewrite <- E.
      apply (handler_frame (OGet k) s' p a eq_refl Hne).
    - split; [rewrite (step_itd_access pt s (OSet k v) eq_refl); reflexivity|].
      simpl step. destruct (lookup_set pt s k) as [[p s']|e] eqn:El; [|reflexivity].
      rewrite setattr_m_plain by (eapply lookup_set_plain; eauto).
      destruct (lookup_set_keeps pt s k p s' El) as [E _]. rewrite <- E.
      apply (handler_frame (OSet k v) s' p a eq_refl Hne).
    - split; [rewrite (step_itd_access pt s (ODel k) eq_refl); reflexivity|].
      simpl step. destruct (lookup_set pt s k) as [[p s']|e] eqn:El; [|reflexivity].
      destruct (lookup_set_keeps pt s k p s' El) as [E _]. rewrite <- E.
      apply (handler_frame (ODel k) s' p a eq_refl Hne).
    - pose proof (Hq k q eq_refl) as Hpq.
      pose proof (subs_plain k q Hpq) as Es.
      simpl. rewrite Es. cbn [fold_left]. rewrite assoc_aset, Ha. auto.
    - simpl step.
      assert (R : forall S, assoc a (s_itd (rem1 S k)) = assoc a (s_itd S) /\ assoc a (s_od (rem1 S k)) = assoc a (s_od S)).
      { intro S. unfold rem1. destruct (assoc k (s_itd S)); simpl; [rewrite !assoc_adel, Ha; auto|].
        destruct (amem k (s_ctd S)); simpl; [rewrite assoc_adel, Ha; auto|auto]. }
      destruct (assoc k (s_itd s)) as [p|] eqn:Ei.
      + pose proof (subs_plain k p (Pi p eq_refl)) as Es.
        rewrite Es. cbn [map fold_left fst out]. apply R.
      + destruct (assoc k (s_ctd s)) as [p|] eqn:Ec; [|simpl; auto].
        pose proof (subs_plain k p (Pc p eq_refl)) as Es.
        rewrite Es. cbn [map fold_left fst out]. apply R.
  Qed.

  Lemma off_sym : forall k, off k = true -> name_eqb k n = false /\ name_eqb k n_ = false.
  Proof. intros k H. destruct (off_split n k H) as [A B]. rewrite (name_eqb_sym k n), (name_eqb_sym k n_). auto. Qed.

  Lemma K_far : forall s ls o, K s ls -> far (op_name o) = true -> clean_step s o = true ->
    law_step crule ls o (snd (step pt s o)) = [] /\ K (fst (step pt s o)) (law_next crule ls o (snd (step pt s o))).
  Proof.
    intros s ls o (HI & HP & HA) Hfar Hc.
    destruct (far_split n _ Hfar) as (H1 & H2 & H3). destruct (off_sym _ H1) as [N1 N2].
    pose proof (plain_at_K s ls _ HI H1) as PA.
    assert (Hq : forall k q, o = OAdd k q -> plainp q = true).
    { intros k q E. subst o. simpl in Hc. apply andb_true_iff in Hc. tauto. }
    assert (Hce : clean_step (erase s) o = true).
    { destruct o as [k|k v|k|k q|k]; auto. cbn [op_name] in *. simpl in *.
      unfold MapInterleave.erase. cbn [s_od]. rewrite (amem_erase n (s_od s) k H1). exact Hc. }
    pose proof (step_far n pt s o Hfar PA Hq) as Sfar.
    destruct (step_ok ct0 pt (erase s) (lerase ls) o HI Hce) as [Hl Hn]. rewrite Sfar in Hl, Hn. cbn [fst snd] in Hl, Hn.
    destruct (inv_plain4 _ _ _ _ HI) as (P1 & P2 & P3 & P4).
    assert (Hg : plainish (governing crule ls (op_name o))).
    { rewrite <- (governing_lerase n crule ls _ H1), (governing_gov ct0 pt _ _ _ HI).
      unfold plainish. destruct (gov ct0 pt (erase s) (op_name o)) as [p| |] eqn:Eg; auto.
      apply (gov_plain ct0 pt _ _ HI _ _ Eg). }
    assert (Hfd : forall p, found_trait crule ls (op_name o) = Some p -> plainp p = true).
    { intros p. rewrite <- (found_lerase n crule ls _ H1). unfold found_trait.
      rewrite (inv_itd _ _ _ _ HI). destruct (assoc (op_name o) (s_itd (erase s))) as [x|] eqn:Ei.
      - intro E. inversion E; subst. apply (plain_assoc _ _ _ P3 Ei).
      - destruct (crule (op_name o)) as [x| |] eqn:Er; try discriminate. intro E. inversion E; subst.
        apply (model_rule_plain ct0 pt P1 P2 (op_name o)). left. exact Er. }
    split; [rewrite <- (law_step_far n crule ls o _ H1 Hg); exact Hl|].
    pose proof HA as [Ai Ao]. pose proof HP as [Pn Pn_].
    split; [|split].
    - rewrite (law_next_far n crule ls o _ Hfar Hq Hfd). exact Hn.
    - destruct (step_far_frame s o PA Hq n N1) as [F1 _]. destruct (step_far_frame s o PA Hq n_ N2) as [F2 _].
      unfold Pair. rewrite F1, F2. auto.
    - destruct (step_out pt s o) as (s2 & x & E). rewrite E. cbn [fst snd].
      assert (Es2 : s2 = fst (step pt s o)) by (rewrite E; reflexivity).
      split.
      + (* instance traits *)
        unfold law_next, out. cbn [l_itd fst snd o_out]. rewrite Es2.
        destruct o as [k|k v|k|k q|k]; cbn [op_name] in *.
        * rewrite (step_itd_access pt s (OGet k) eq_refl). exact Ai.
        * rewrite (step_itd_access pt s (OSet k v) eq_refl). exact Ai.
        * rewrite (step_itd_access pt s (ODel k) eq_refl). exact Ai.
        * simpl in E. inversion E; subst x. rewrite Ai. reflexivity.
        * assert (Ex : exists z, x = Val z).
          { simpl in E. destruct (match assoc k (s_itd s) with Some p => Some p | None => assoc k (s_ctd s) end);
              unfold out in E; inversion E; eauto. }
          destruct Ex as [z ->].
          destruct PA as (Pi & Pc & _).
          assert (Lw : adel k (match found_trait crule ls k with
                               | Some p => fold_left (fun t a => adel a t) (map fst (subs k p)) (l_itd ls)
                               | None => l_itd ls end) = adel k (l_itd ls)).
          { destruct (found_trait crule ls k) as [p|] eqn:Ef; auto.
            pose proof (Hfd p eq_refl) as Hpp. destruct p; try discriminate Hpp; reflexivity. }
          rewrite Lw, Ai. simpl.
          destruct (assoc k (s_itd s)) as [p|] eqn:Ei.
          -- pose proof (subs_plain k p (Pi p eq_refl)) as Es.
             rewrite Es. cbn [map fold_left]. unfold rem1. rewrite Ei. reflexivity.
          -- destruct (assoc k (s_ctd s)) as [p|] eqn:Ec.
             ++ pose proof (subs_plain k p (Pc p eq_refl)) as Es.
                rewrite Es. cbn [map fold_left]. unfold rem1, amem. rewrite Ei, Ec. simpl. apply adel_absent. exact Ei.
             ++ simpl. apply adel_absent. exact Ei.
      + (* stored values *)
        intro a. unfold law_next, out. cbn [l_od fst snd o_out o_stored o_shadow o_base].
        assert (Fr : forall b, name_eqb (op_name o) b = false -> assoc b (s_od s2) = assoc b (s_od s)).
        { intros b Hb. rewrite Es2. apply (step_far_frame s o PA Hq b Hb). }
        pose proof (resync3_agree (l_od ls) (s_od s) (s_od s2) (op_name o) Ao (fun b B _ _ => Fr b B) a) as G.
        cbv zeta in G.
        destruct o as [k|k v|k|k q|k]; try exact G. cbn [op_name] in *.
        destruct x; try exact G. destruct (found_trait crule ls k) as [p|] eqn:Ef; [|exact G].
        pose proof (Hfd p eq_refl) as Hpp. destruct p; try discriminate Hpp; exact G.
  Qed.

  (* an operation on the pair itself: the erased state is untouched *)
  Lemma K_pair : forall s ls o, K s ls -> pair_op n o = true ->
    law_step crule ls o (snd (step pt s o)) = [] /\ K (fst (step pt s o)) (law_next crule ls o (snd (step pt s o))).
  Proof.
    intros s ls o (HI & HP & HA) Ho.
    destruct (pair_step crule pt n m d wd d_key s ls o HP HA Ho) as (Hl & HP' & HA').
    destruct (pair_step_rest pt n m d wd d_key s o HP Ho) as [Rc Ro].
    assert (Ha : is_access o = true) by (unfold pair_op in Ho; apply andb_true_iff in Ho; tauto).
    pose proof (step_itd_access pt s o Ha) as Ri.
    split; [exact Hl|]. split; [|split; assumption].
    destruct HA' as [Ai' Ao']. destruct (inv_plain4 _ _ _ _ HI) as (P1 & P2 & P3 & P4).
    set (s' := fst (step pt s o)) in *. set (ls' := law_next crule ls o (snd (step pt s o))) in *.
    constructor; unfold MapInterleave.erase, MapInterleave.lerase; cbn [s_ctd s_itd s_od l_itd l_od].
    - rewrite Ai'. reflexivity.
    - intro k. rewrite !assoc_erase, Ao'. reflexivity.
    - intros k p Hk. rewrite Rc. apply (inv_c1 _ _ _ _ HI _ _ Hk).
    - intros k p Hk. rewrite Rc in Hk. apply (inv_c2 _ _ _ _ HI _ _ Hk).
    - intros k v Hk. rewrite assoc_erase in Hk. destruct (off k) eqn:Hoff; [|discriminate].
      destruct (off_split n k Hoff) as [K1 K2]. rewrite (Ro k K1 K2) in Hk.
      unfold gov. cbn [s_itd]. rewrite Ri.
      pose proof (inv_st _ _ _ _ HI k v) as St. unfold gov, MapInterleave.erase in St. cbn [s_itd s_od] in St.
      apply St. rewrite assoc_erase, Hoff. exact Hk.
    - rewrite Ri, Rc. exact (inv_plain _ _ _ _ HI).
  Qed.

  (* add_trait(n, Map(m, d)) in a state of the plain invariant starts the interleaved life *)
  Lemma K_start : forall s ls, Inv ct0 pt s ls ->
    law_step crule ls (OAdd n (PMap m d)) (snd (step pt s (OAdd n (PMap m d)))) = [] /\
    K (fst (step pt s (OAdd n (PMap m d)))) (law_next crule ls (OAdd n (PMap m d)) (snd (step pt s (OAdd n (PMap m d))))).
  Proof.
    intros s ls HI. destruct (pair_add crule pt n m d s ls (Inv_Agree _ _ _ _ HI)) as (Hl & HP & HA).
    split; [exact Hl|]. split; [|split; assumption].
    pose proof (Inv_erase s ls HI) as HE. destruct HA as [Ai Ao].
    destruct (inv_plain4 _ _ _ _ HE) as (P1 & P2 & P3 & P4).
    set (s' := fst (step pt s (OAdd n (PMap m d)))) in *.
    set (ls' := law_next crule ls (OAdd n (PMap m d)) (snd (step pt s (OAdd n (PMap m d))))) in *.
    assert (Ec : s_ctd s' = s_ctd s) by reflexivity.
    assert (Eo : s_od s' = s_od s) by reflexivity.
    assert (Eitd : forall k, off k = true -> assoc k (s_itd s') = assoc k (s_itd s)).
    { intros k Hk. destruct (off_split n k Hk) as [K1 K2]. unfold s'. simpl. rewrite !assoc_aset, K1, K2. reflexivity. }
    constructor; unfold MapInterleave.erase, MapInterleave.lerase; cbn [s_ctd s_itd s_od l_itd l_od].
    - rewrite Ai. reflexivity.
    - intro k. rewrite !assoc_erase, Ao. reflexivity.
    - rewrite Ec. apply (inv_c1 _ _ _ _ HI).
    - rewrite Ec. apply (inv_c2 _ _ _ _ HI).
    - intros k v Hk. rewrite assoc_erase in Hk. destruct (off k) eqn:Hoff; [|discriminate].
      unfold gov. cbn [s_itd]. rewrite assoc_erase, Hoff, (Eitd k Hoff). rewrite Eo in Hk.
      apply (inv_st _ _ _ _ HI _ _ Hk).
    - apply plain4; [exact P1|exact P2| |rewrite Ec; exact P4].
      (* the erased instance-trait list has no mapped entry: the pair was erased *)
      apply (proj2 (plain_tab_In _)). intros k p Hin. unfold MapInterleave.erase_l in Hin.
      apply In_adel in Hin. destruct Hin as [Hin K1]. apply In_adel in Hin. destruct Hin as [Hin K2].
      unfold s' in Hin. simpl in Hin.
      apply In_aset in Hin. destruct Hin as [[E _]|Hin]; [contradiction|].
      apply In_aset in Hin. destruct Hin as [[E _]|Hin]; [contradiction|].
      destruct (inv_plain4 _ _ _ _ HI) as (_ & _ & Q3 & _). apply (proj1 (plain_tab_In _) Q3 _ _ Hin).
  Qed.

  (* remove_trait(n) ends it: the object is the erased object, in the plain invariant *)
  Lemma K_end : forall s ls, K s ls ->
    law_step crule ls (ORem n) (snd (step pt s (ORem n))) = [] /\
    Inv ct0 pt (fst (step pt s (ORem n))) (law_next crule ls (ORem n) (snd (step pt s (ORem n)))).
  Proof.
    intros s ls (HI & HP & HA). pose proof HP as [P1 P2].
    destruct (pair_rem crule pt n m d s ls HP HA) as [Hl [Ai' Ao']]. split; [exact Hl|].
    destruct (nn_ n) as [N1 N2].
    set (s' := fst (step pt s (ORem n))) in *. set (ls' := law_next crule ls (ORem n) (snd (step pt s (ORem n)))) in *.
    assert (Es : s' = erase s) by (unfold s'; rewrite (step_rem_n pt n m d s HP); reflexivity).
    assert (El : l_itd ls' = l_itd (lerase ls)).
    { rewrite Ai', Es. unfold MapInterleave.erase, MapInterleave.lerase. cbn [s_itd l_itd].
      destruct HA as [Ai _]. rewrite Ai. reflexivity. }
    assert (Hx : ls' = mkL (l_itd (lerase ls)) (l_od ls')) by (rewrite <- El; destruct ls'; reflexivity).
    rewrite Hx, Es. apply (Inv_od_ext ct0 pt (erase s) (l_itd (lerase ls)) (l_od (lerase ls)) (l_od ls')).
    - destruct (lerase ls) eqn:E. exact HI.
    - intro k. rewrite Ao', Es. symmetry. apply (inv_od _ _ _ _ HI).
  Qed.
End Inter.

(* Histories in which mapped traits live one at a time, interleaved with anything on far names *)

Definition life : Type := option (name * list (Z * Z) * Z).

Definition is_end (n : name) (o : op) : bool :=
  match o with ORem k => name_eqb k n | _ => false end.

Definition starts (o : op) : life :=
  match o with
  | OAdd k (PMap m d) => match zassoc d m with Some _ => Some (k, m, d) | None => None end
  | _ => None
  end.

(* the boolean hypothesis: outside a life, any clean operation or the add_trait of a mapped trait
   with a usable default; inside the life of (n, Map(m, d)): remove_trait(n) ends it, reads, writes
   and deletions of n / n_ are free, every other operation must be clean and on a name far from
   the pair *)
Fixpoint iclean (pt : ptab) (md : life) (s : state) (os : list op) : bool :=
  match os with
  | [] => true
  | o :: r =>
    let s' := fst (step pt s o) in
    match md with
    | Some (n, m, d) =>
        if is_end n o then iclean pt None s' r
        else (pair_op n o || (far n (op_name o) && clean_step s o)) && iclean pt md s' r
    | None =>
        match starts o with
        | Some l => iclean pt (Some l) s' r
        | None => clean_step s o && iclean pt None s' r
        end
    end
  end.

(* the invariant of interleaved histories: [Inv] outside a life, [K] inside the life md *)
Definition KI (ct0 : ctab) (pt : ptab) (md : life) (s : state) (ls : lstate) : Prop :=
  match md with
  | None => Inv ct0 pt s ls
  | Some (n, m, d) => K ct0 pt n m d s ls /\ exists wd, zassoc d m = Some wd
  end.

Lemma is_end_eq : forall n o, is_end n o = true -> o = ORem n.
Proof. intros n [k|k v|k|k q|k]; simpl; try discriminate. intro H. apply name_eqb_eq in H. subst. reflexivity. Qed.

Lemma starts_eq : forall o n m d, starts o = Some (n, m, d) ->
  o = OAdd n (PMap m d) /\ exists wd, zassoc d m = Some wd.
Proof.
  intros [k|k v|k|k q|k] n m d; simpl; try discriminate.
  destruct q; try discriminate. destruct (zassoc _ _) eqn:E; [|discriminate].
  intro H. inversion H. subst. split; [reflexivity|eauto].
Qed.


Theorem interleaved_lives : forall ct0 pt os md s ls i,
  KI ct0 pt md s ls -> iclean pt md s os = true ->
  law_hist (model_rule ct0 pt) i ls (run pt s os) = [].
Proof.
  intros ct0 pt. induction os as [|o r IH]; intros md s ls i HK Hc; [reflexivity|].
  assert (X : law_step (model_rule ct0 pt) ls o (snd (step pt s o)) = [] /\
              exists md', KI ct0 pt md' (fst (step pt s o)) (law_next (model_rule ct0 pt) ls o (snd (step pt s o))) /\
                          iclean pt md' (fst (step pt s o)) r = true).
  { cbn [iclean] in Hc. destruct md as [[[n m] d]|].
    - destruct HK as [HK [wd Hd]]. destruct (is_end n o) eqn:Ee.
      + apply is_end_eq in Ee. subst o. destruct (K_end ct0 pt n m d s ls HK) as [A B].
        split; [exact A|]. exists None. split; [exact B|exact Hc].
      + apply andb_true_iff in Hc. destruct Hc as [H1 H2]. apply orb_true_iff in H1. destruct H1 as [H1|H1].
        * destruct (K_pair ct0 pt n m d wd Hd s ls o HK H1) as [A B].
          split; [exact A|]. exists (Some (n, m, d)). split; [split; [exact B|eauto]|exact H2].
        * apply andb_true_iff in H1. destruct H1 as [H1 H3].
          destruct (K_far ct0 pt n m d s ls o HK H1 H3) as [A B].
          split; [exact A|]. exists (Some (n, m, d)). split; [split; [exact B|eauto]|exact H2].
    - destruct (starts o) as [[[n m] d]|] eqn:Es.
      + apply starts_eq in Es. destruct Es as [-> [wd Hd]].
        destruct (K_start ct0 pt n m d s ls HK) as [A B].
        split; [exact A|]. exists (Some (n, m, d)). split; [split; [exact B|eauto]|exact Hc].
      + apply andb_true_iff in Hc. destruct Hc as [H1 H2].
        destruct (step_ok ct0 pt s ls o HK H1) as [A B].
        split; [exact A|]. exists None. split; [exact B|exact H2]. }
  destruct X as [A [md' [B C]]].
  cbn [run]. destruct (step pt s o) as [s' ob]. cbn [fst snd law_hist] in *. rewrite A. cbn [map app].
  apply (IH md' s' _ _ B C).
Qed.

(* any class without Map/List declarations, either reading of
   "inherited" where they agree *)
Lemma interleaved_lives_spec : forall h c os i,
  plain_class h c = true ->
  let t := class_tables h c in
  iclean (snd t) None (init_state (fst t)) os = true ->
  law_hist (spec_rule h c) i l_init (run (snd t) (init_state (fst t)) os) = [].
Proof.
  intros h c os i Hp t H. apply andb_true_iff in Hp. destruct Hp as [P1 P2].
  rewrite <- (law_hist_ext _ _ (class_tables_rule h c)).
  apply (interleaved_lives (fst t) (snd t) os None _ _ i (Inv_init _ _ P1 P2) H).
Qed.

Lemma interleaved_lives_single : forall h c os i,
  single h = true -> (c < length (roots ++ h))%nat ->
  plain_class h c = true ->
  let t := class_tables h c in
  iclean (snd t) None (init_state (fst t)) os = true ->
  law_hist (mro_rule h c) i l_init (run (snd t) (init_state (fst t)) os) = [].
Proof.
  intros h c os i Hs Hc Hp t H.
  rewrite (law_hist_ext _ _ (fun k => mro_spec_single h c k Hs Hc)).
  apply interleaved_lives_spec; auto.
Qed.

(* the hypothesis contains the earlier ones: a clean plain phase, and a run of accesses of the pair
   inside its life, may stand in front of any interleaved history *)
Lemma iclean_plain_app : forall pt a b s, clean_run pt s a = true ->
  iclean pt None (final_state pt s a) b = true -> iclean pt None s (a ++ b) = true.
Proof.
  intros pt. induction a as [|o r IH]; intros b s H Hb; [exact Hb|].
  cbn [clean_run] in H. apply andb_true_iff in H. destruct H as [H1 H2]. cbn [app iclean final_state] in *.
  destruct (starts o) as [[[n m] d]|] eqn:E.
  - apply starts_eq in E. destruct E as [-> _]. discriminate H1.
  - rewrite H1. apply IH; assumption.
Qed.
Lemma iclean_pair_app : forall pt n m d a b s, forallb (pair_op n) a = true ->
  iclean pt (Some (n, m, d)) (final_state pt s a) b = true -> iclean pt (Some (n, m, d)) s (a ++ b) = true.
Proof.
  intros pt n m d. induction a as [|o r IH]; intros b s H Hb; [exact Hb|].
  cbn [forallb] in H. apply andb_true_iff in H. destruct H as [H1 H2]. cbn [app iclean final_state] in *.
  assert (E : is_end n o = false) by (destruct o; try reflexivity; discriminate H1).
  rewrite E, H1. apply IH; assumption.
Qed.

Lemma iclean_clean_run : forall pt os s, clean_run pt s os = true -> iclean pt None s os = true.
Proof. intros pt os s H. rewrite <- (app_nil_r os). apply iclean_plain_app; auto. Qed.

Lemma segs_iclean : forall pt gs b s, segs_ok pt s gs = true ->
  iclean pt None (final_state pt s (flat_map seg_ops gs)) b = true ->
  iclean pt None s (flat_map seg_ops gs ++ b) = true.
Proof.
  intros pt. induction gs as [|g r IH]; intros b s H Hb; [exact Hb|].
  cbn [segs_ok] in H. apply andb_true_iff in H. destruct H as [Hg Hr].
  cbn [flat_map] in *. rewrite final_state_app in Hb. rewrite <- app_assoc.
  specialize (IH b _ Hr Hb). destruct g as [ops|n m d ops]; cbn [seg_ok seg_ops] in *.
  - apply iclean_plain_app; assumption.
  - apply andb_true_iff in Hg. destruct Hg as [Hd Hf].
    cbn [app iclean starts final_state] in *. destruct (zassoc d m); [|discriminate Hd].
    rewrite final_state_app in IH. rewrite <- app_assoc. apply iclean_pair_app; [exact Hf|].
    cbn [app iclean is_end final_state] in *. rewrite name_eqb_refl. exact IH.
Qed.

(* plain phases and complete lives of mapped instance traits in any
   number and order, and possibly one more, unfinished life *)
Lemma law_alternating : forall h c gs i,
  plain_class h c = true ->
  let t := class_tables h c in
  segs_ok (snd t) (init_state (fst t)) gs = true ->
  law_hist (spec_rule h c) i l_init (run (snd t) (init_state (fst t)) (flat_map seg_ops gs)) = [] /\
  forall n m d wd ops, zassoc d m = Some wd -> forallb (pair_op n) ops = true ->
    law_hist (spec_rule h c) i l_init
             (run (snd t) (init_state (fst t)) (flat_map seg_ops gs ++ OAdd n (PMap m d) :: ops)) = [].
Proof.
  intros h c gs i Hp t Hok. split.
  - apply interleaved_lives_spec; [exact Hp|]. rewrite <- (app_nil_r (flat_map seg_ops gs)).
    apply segs_iclean; auto.
  - intros n m d wd ops Hd Hf. apply interleaved_lives_spec; [exact Hp|]. apply segs_iclean; [exact Hok|].
    cbn [iclean starts]. rewrite Hd, <- (app_nil_r ops). apply iclean_pair_app; auto.
Qed.

(* a clean plain history, then the life of a mapped trait, finished or not *)
Lemma plain_then_mapped_life_spec : forall h c pre n m d wd ops i,
  plain_class h c = true ->
  let t := class_tables h c in
  clean_run (snd t) (init_state (fst t)) pre = true ->
  zassoc d m = Some wd -> forallb (pair_op n) ops = true ->
  law_hist (spec_rule h c) i l_init (run (snd t) (init_state (fst t)) (pre ++ OAdd n (PMap m d) :: ops)) = [] /\
  law_hist (spec_rule h c) i l_init (run (snd t) (init_state (fst t)) (pre ++ OAdd n (PMap m d) :: ops ++ [ORem n])) = [].
Proof.
  intros h c pre n m d wd ops i Hp t Hc Hd Hf.
  split; (apply interleaved_lives_spec; [exact Hp|]); (apply iclean_plain_app; [exact Hc|]);
    cbn [iclean starts]; rewrite Hd.
  - rewrite <- (app_nil_r ops). apply iclean_pair_app; auto.
  - apply iclean_pair_app; [exact Hf|]. cbn [iclean is_end]. rewrite name_eqb_refl. reflexivity.
Qed.
