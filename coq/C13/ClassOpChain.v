(* C13 — the global class-operation theorem for single-inheritance hierarchies (the shape the
   generator produces): the reachability hypotheses hold by themselves, the remaining hypothesis
   is one boolean over the run. *)
From Coq Require Import ZArith List Bool Lia Sorted.
From TV Require Import Common.Harness C13.Model C13.Law C13.Corr C13.CorrT C13.Proofs C13.MapProofs C13.ClassOpProofs C13.ClassOpInd C13.ClassOpSub C13.ClassOpDag C13.ClassOpSubRun C13.ClassOpGlobal.
Import ListNotations.
Open Scope Z_scope.

(* every class has at most one base, declared before it *)
Definition chain (hh : list classdef) : Prop :=
  forall j, (j < length hh)%nat ->
    c_bases (nth j hh dcls) = [] \/ exists b, c_bases (nth j hh dcls) = [b] /\ (b < j)%nat.
Definition chainb (hh : list classdef) : bool :=
  forallb (fun j => match c_bases (nth j hh dcls) with [] => true | [b] => Nat.ltb b j | _ => false end)
          (seq 0 (length hh)).
Lemma chainb_chain : forall hh, chainb hh = true -> chain hh.
Proof.
  intros hh H j Hj. unfold chainb in H. rewrite forallb_forall in H.
  specialize (H j ltac:(apply in_seq; lia)). destruct (c_bases (nth j hh dcls)) as [|b [|b' r]]; auto; [|discriminate].
  right. exists b. split; [reflexivity|]. apply Nat.ltb_lt. exact H.
Qed.

Lemma Reach_ge : forall hh k n j, Reach hh k n j -> (k <= j)%nat.
Proof. intros hh k n j H. inversion H; lia. Qed.

Lemma chain_classes : forall hh0 H k n,
  chain hh0 -> length H = length hh0 ->
  (forall i, c_bases (nth i H dcls) = c_bases (nth i hh0 dcls)) ->
  forall c, (c < length hh0)%nat -> forall f, (c < f)%nat ->
    (is_desc hh0 f c k = true -> Reach H k n c) /\
    (is_desc hh0 f c k = false -> c <> k -> Unaff H k c).
Proof.
  intros hh0 H k n Hch HL Hb c. induction c as [c IH] using lt_wf_ind. intros Hc f Hf.
  destruct f as [|f']; [lia|]. cbn [is_desc]. fold dcls.
  destruct (Hch c Hc) as [E|[b [E Hbc]]]; rewrite E; cbn [existsb].
  - split; [discriminate|]. intros _ Hne.
    apply U_S; [exact Hne|lia|]. intros b Hin. rewrite Hb, E in Hin. contradiction.
  - rewrite orb_false_r.
    assert (Hbl : (b < length hh0)%nat) by lia.
    destruct (IH b Hbc Hbl f' ltac:(lia)) as [I1 I2].
    split.
    + intro Hd. apply orb_true_iff in Hd.
      assert (HRb : Reach H k n b).
      { destruct Hd as [Hd|Hd]; [apply Nat.eqb_eq in Hd; subst b; apply R0|apply I1; exact Hd]. }
      pose proof (Reach_ge _ _ _ _ HRb) as Hge.
      apply RS; [lia|lia| | |].
      * intros b' Hin. rewrite Hb, E in Hin. destruct Hin as [<-|[]]. split; [exact Hbc|left; exact HRb].
      * exists b. split; [rewrite Hb, E; left; reflexivity|exact HRb].
      * right. right. exists b. rewrite Hb, E. reflexivity.
    + intros Hd Hne. apply orb_false_iff in Hd. destruct Hd as [Hd1 Hd2]. apply Nat.eqb_neq in Hd1.
      apply U_S; [exact Hne|lia|]. intros b' Hin. rewrite Hb, E in Hin. destruct Hin as [<-|[]].
      split; [exact Hbc|]. apply I2; assumption.
Qed.

(* [tclean] without its reachability clauses, as a boolean *)
Definition tcleanb (hh0 : list classdef) (objs : list nat) (T : list (ctab * ptab)) (insts : list inst)
                   (H : list classdef) (t : top) : bool :=
  match t with
  | TObj i o => Nat.ltb i (length objs) && clean_step (ostate T (nth i objs O) (nth i insts ([], []))) o
  | TClass k n p =>
      Nat.ltb k (length T) && plainp p &&
      match add_class1 false (tabs_nth T k) n p with
      | None => true
      | Some _ =>
          forallb (fun c => negb (affected hh0 k c) ||
                            sub_clean (fst (vis_nth (visible H) c)) (ghost (tabs_nth T c)) (snd (tabs_nth T c)) n p)
                  (seq 0 (length T)) &&
          forallb (fun i => negb (affected hh0 k (nth i objs O)) ||
                            sub_clean (fst (vis_nth (visible H) (nth i objs O)))
                                      (ostate T (nth i objs O) (nth i insts ([], []))) (snd (tabs_nth T (nth i objs O))) n p)
                  (seq 0 (length objs))
      end
  end.

Fixpoint tokb (hh0 : list classdef) (objs : list nat) (st : tstate) (H : list classdef) (ts : list top) : bool :=
  match ts with
  | [] => true
  | t :: r =>
      tcleanb hh0 objs (fst st) (snd st) H t &&
      tokb hh0 objs (fst (step_t hh0 objs st t)) (next_Ht H t (snd (step_t hh0 objs st t))) r
  end.

Lemma tcleanb_tclean : forall hh0 objs T insts lss H C0 t,
  chain hh0 -> GI hh0 objs T insts lss H C0 ->
  tcleanb hh0 objs T insts H t = true -> tclean hh0 objs T insts H t.
Proof.
  intros hh0 objs T insts lss H C0 t Hch G Hc. destruct t as [i o|k n p]; cbn [tcleanb tclean] in *.
  - apply andb_true_iff in Hc. destruct Hc as [H1 H2]. apply Nat.ltb_lt in H1. auto.
  - apply andb_true_iff in Hc. destruct Hc as [Hc H3]. apply andb_true_iff in Hc. destruct Hc as [H1 H2].
    apply Nat.ltb_lt in H1. split; [exact H1|]. split; [exact H2|].
    destruct (add_class1 false (tabs_nth T k) n p); [|exact I].
    apply andb_true_iff in H3. destruct H3 as [F1 F2]. rewrite forallb_forall in F1, F2.
    destruct G as [LT LH Hb _ _ _ _ _].
    split; [|split].
    + intros c Hc Hne. rewrite LT in Hc.
      destruct (chain_classes hh0 H k n Hch LH Hb c Hc (length hh0) Hc) as [A B].
      split; [exact A|intro Hd; apply B; assumption].
    + intros c Hc Ha. specialize (F1 c ltac:(apply in_seq; lia)). rewrite Ha in F1. exact F1.
    + intros i Hi Ha. specialize (F2 i ltac:(apply in_seq; lia)). rewrite Ha in F2. exact F2.
Qed.

Lemma tokb_tok : forall hh0 objs ts T insts lss H C0,
  chain hh0 -> GI hh0 objs T insts lss H C0 -> tokb hh0 objs (T, insts) H ts = true ->
  tok hh0 objs (T, insts) H ts.
Proof.
  intros hh0 objs ts T insts lss H C0 Hch. revert T insts lss H C0.
  induction ts as [|t r IH]; intros T insts lss H C0 G Hok; [exact I|].
  cbn [tokb fst snd] in Hok. apply andb_true_iff in Hok. destruct Hok as [Hc Hr].
  pose proof (tcleanb_tclean hh0 objs T insts lss H C0 t Hch G Hc) as Hcl.
  cbn [tok fst snd]. split; [exact Hcl|].
  destruct t as [j o|k n p].
  - destruct Hcl as [Hj Hcs].
    destruct (gi_obj_step hh0 objs T insts lss H C0 j o G Hj Hcs) as [_ G'].
    destruct (step_t hh0 objs (T, insts) (TObj j o)) as [[T' insts'] ob] eqn:E. cbn [fst snd next_Ht] in *.
    apply (IH T' insts' _ H C0 G' Hr).
  - destruct (gi_cls_step hh0 objs T insts lss H C0 k n p G Hcl) as [C0' G'].
    destruct (step_t hh0 objs (T, insts) (TClass k n p)) as [[T' insts'] ob] eqn:E. cbn [fst snd next_Ht] in *.
    apply (IH T' insts' lss _ C0' G' Hr).
Qed.

Lemma chain_run_law : forall hh0 objs ts T insts lss H C0 i,
  chain hh0 -> GI hh0 objs T insts lss H C0 -> tokb hh0 objs (T, insts) H ts = true ->
  law_hist_ta objs H i lss (run_t hh0 objs (T, insts) ts) = [].
Proof.
  intros hh0 objs ts T insts lss H C0 i Hch G Hok.
  apply (global_run_law hh0 objs ts T insts lss H C0 i G).
  apply (tokb_tok hh0 objs ts T insts lss H C0 Hch G Hok).
Qed.

Lemma GI_init_b : forall hh objs,
  forallb plain_t (tables hh) = true -> forallb (fun c => Nat.ltb c (length hh)) objs = true ->
  GI hh objs (tables hh) (map (fun _ => ([], [])) objs) (map (fun _ => l_init) objs) hh
     (fun c => fst (tabs_nth (tables hh) c)).
Proof.
  intros hh objs HP Ho. rewrite forallb_forall in HP, Ho. apply GI_init.
  - intros c Hc. apply HP. unfold tabs_nth. apply nth_In. rewrite tables_length. exact Hc.
  - intros j Hj. apply Nat.ltb_lt, Ho, nth_In, Hj.
Qed.

(* every single-inheritance hierarchy with plain tables, any number of fresh objects of any of its
   classes, any history of object operations and add_class_trait calls on any classes: one boolean
   hypothesis over the run *)
Lemma chain_law : forall hh objs ts i,
  chainb hh = true ->
  forallb plain_t (tables hh) = true ->
  forallb (fun c => Nat.ltb c (length hh)) objs = true ->
  tokb hh objs (tables hh, map (fun _ => ([], [])) objs) hh ts = true ->
  law_hist_ta objs hh i (map (fun _ => l_init) objs)
              (run_t hh objs (tables hh, map (fun _ => ([], [])) objs) ts) = [].
Proof.
  intros hh objs ts i Hch HP Ho. apply chain_run_law with (1 := chainb_chain hh Hch) (2 := GI_init_b hh objs HP Ho).
Qed.

(* the stepwise hypothesis of the general theorem follows from the boolean one *)
Lemma tok_of_tokb_fresh : forall hh objs ts,
  chainb hh = true ->
  forallb plain_t (tables hh) = true ->
  forallb (fun c => Nat.ltb c (length hh)) objs = true ->
  tokb hh objs (tables hh, map (fun _ => ([], [])) objs) hh ts = true ->
  tok hh objs (tables hh, map (fun _ => ([], [])) objs) hh ts.
Proof.
  intros hh objs ts Hch HP Ho. apply tokb_tok with (1 := chainb_chain hh Hch) (2 := GI_init_b hh objs HP Ho).
Qed.
