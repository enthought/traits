(* C13 — state round trip of a trait definition (C13-u1), on_trait_change listeners
   attached and detached (C13-u2), access through a delegating attribute (C13-u3). *)
From Coq Require Import ZArith List Bool Lia.
From TV Require Import Common.Harness C13.Model C13.Law C13.Corr C13.CorrN C13.Proofs C13.ListenerInd.
Import ListNotations.
Open Scope Z_scope.

Lemma round_trip_id : forall p, round_trip p = p.
Proof. reflexivity. Qed.

Lemma round_trip_add : forall pt s n p, step pt s (OAdd n (round_trip p)) = step pt s (OAdd n p).
Proof. reflexivity. Qed.

Lemma round_trip_add_class : forall h T k n p, add_class h T k n (round_trip p) = add_class h T k n p.
Proof. reflexivity. Qed.

(* a copied ReadOnly definition is still write-once: in any state in which the instance trait of n is the
   round-tripped ReadOnly and a defined value is stored *)
Lemma round_trip_readonly_write_once : forall pt s n v w,
  assoc n (s_itd s) = Some (round_trip (PReadOnly VUndef)) -> assoc n (s_od s) = Some w -> Z.eqb w VUndef = false ->
  o_out (snd (step pt s (OSet n v))) = Raise TraitError /\ o_out (snd (step pt s (ODel n))) = Raise TraitError /\
  assoc n (s_od (fst (step pt s (OSet n v)))) = Some w.
Proof.
  intros pt s n v w Hi Ho Hw. unfold round_trip in Hi.
  simpl step. unfold lookup_set. rewrite Hi. cbn [setattr_m setattr delattr]. rewrite Ho, Hw. cbn. auto.
Qed.

Lemma via_is_the_delegates_access : forall pt s a t v,
  step pt s (via_get a t) = step pt s (OGet t) /\
  step pt s (via_set a t v) = step pt s (OSet t v) /\
  step pt s (via_del a t) = step pt s (ODel t).
Proof. intros. repeat split; reflexivity. Qed.

(* the write is governed by the DELEGATE's rule: undeclared on a strict delegate -> TraitError, nothing stored *)
Lemma via_strict_rejected : forall ct pt s ls a t v, Inv ct pt s ls -> gov ct pt s t = RPol PDisallow ->
  o_out (snd (step pt s (via_set a t v))) = Raise TraitError /\
  assoc t (s_od (fst (step pt s (via_set a t v)))) = assoc t (s_od s) /\
  (assoc t (s_od s) = None -> o_out (snd (step pt s (via_get a t))) = Raise AttributeError).
Proof.
  intros ct pt s ls a t v HI Hg. destruct (disallow_rejects ct pt s ls t v HI Hg) as (A & B & C & D).
  unfold via_set, via_get. auto.
Qed.

Lemma unlisten_changes_nothing : forall pt s n, fst (step_n pt s (NUnlisten n)) = s.
Proof. reflexivity. Qed.

Lemma listen_keeps_instance_trait : forall pt s n p,
  assoc n (s_itd s) = Some p -> fst (step_n pt s (NListen n)) = s /\ o_out (snd (step_n pt s (NListen n))) = Done.
Proof. intros pt s n p H. cbn [step_n]. unfold listen. rewrite H. split; reflexivity. Qed.

Lemma listen_clones_class_trait : forall pt s n p,
  assoc n (s_itd s) = None -> assoc n (s_ctd s) = Some p ->
  fst (step_n pt s (NListen n)) = mkState (s_ctd s) (aset n p (s_itd s)) (s_od s).
Proof. intros pt s n p H1 H2. cbn [step_n]. unfold listen. rewrite H1, H2. reflexivity. Qed.

(* the law's side: recording the clone changes the governing rule of no name *)
Lemma listen_next_neutral : forall mr ls n m, governing mr (listen_next mr ls n) m = governing mr ls m.
Proof.
  intros mr ls n m. unfold listen_next. destruct (amem n (l_itd ls)) eqn:Ea; [reflexivity|].
  destruct (mr n) as [p| |] eqn:Er; try reflexivity.
  unfold governing. cbn [l_itd]. rewrite assoc_aset. destruct (name_eqb n m) eqn:E; [|reflexivity].
  apply name_eqb_eq in E. subst m. unfold amem in Ea. destruct (assoc n (l_itd ls)); [discriminate|]. symmetry. exact Er.
Qed.

(* detaching never touches the bookkeeping: an instance trait added with add_trait is still there *)
Lemma unlisten_keeps_bookkeeping : forall mr ls n ob, law_next_n mr ls (NUnlisten n) ob = ls.
Proof. reflexivity. Qed.

Fixpoint run_n (pt : ptab) (s : state) (xs : list nop) : list (nop * obs) :=
  match xs with
  | [] => []
  | x :: r => let '(s', ob) := step_n pt s x in (x, ob) :: run_n pt s' r
  end.

(* excluded: finding 1 and Map/List add_trait (clean_step); listening to a __x__ name *)
Definition nclean (s : state) (x : nop) : bool :=
  match x with
  | NOp o => clean_step s o
  | NListen n => negb (dunder n)
  | NUnlisten _ => true
  end.
Fixpoint nclean_run (pt : ptab) (s : state) (xs : list nop) : bool :=
  match xs with
  | [] => true
  | x :: r => nclean s x && nclean_run pt (fst (step_n pt s x)) r
  end.

Section N.
  Variable ct0 : ctab.
  Variable pt : ptab.
  Notation crule := (model_rule ct0 pt).

  Lemma clone_ok : forall s ls n p, Inv ct0 pt s ls -> assoc n (s_itd s) = None -> model_rule ct0 pt n = RPol p ->
    plainp p = true ->
    Inv ct0 pt (mkState (s_ctd s) (aset n p (s_itd s)) (s_od s)) (mkL (aset n p (l_itd ls)) (l_od ls)).
  Proof.
    intros s ls n p HI Hi Hr Hp. apply Inv_set_itd; auto.
    unfold amem. destruct (assoc n (s_od s)) as [v|] eqn:Eo; [|apply orb_true_r].
    pose proof (inv_st _ _ _ _ HI n v Eo) as St. unfold gov in St. rewrite Hi, Hr in St. rewrite St. reflexivity.
  Qed.

  Lemma step_n_ok : forall s ls x, Inv ct0 pt s ls -> nclean s x = true ->
    law_step_n crule ls x (snd (step_n pt s x)) = [] /\
    Inv ct0 pt (fst (step_n pt s x)) (law_next_n crule ls x (snd (step_n pt s x))).
  Proof.
    intros s ls x HI Hc. destruct x as [o|n|n].
    - apply step_ok; assumption.
    - cbn [step_n law_step_n law_next_n nclean] in *. apply negb_true_iff in Hc.
      destruct (inv_plain4 _ _ _ _ HI) as (P1 & P2 & P3 & P4).
      unfold listen. rewrite (governing_gov ct0 pt s ls n HI). unfold gov.
      destruct (assoc n (s_itd s)) as [p|] eqn:Ei.
      + cbn. split; [reflexivity|]. unfold listen_next, amem. rewrite (inv_itd _ _ _ _ HI), Ei. exact HI.
      + assert (Ha : amem n (l_itd ls) = false) by (unfold amem; rewrite (inv_itd _ _ _ _ HI), Ei; reflexivity).
        destruct (assoc n (s_ctd s)) as [p|] eqn:Ec.
        * destruct (inv_c2 _ _ _ _ HI n p Ec) as [Hr|[Hr _]].
          -- rewrite Hr. cbn. split; [reflexivity|]. unfold listen_next. rewrite Ha, Hr.
             apply clone_ok; auto. apply (plain_assoc _ n p P4 Ec).
          -- apply model_rule_dunder in Hr. congruence.
        * destruct (prefix_trait pt s n false) as [[p s']|e] eqn:Ep.
          -- destruct (Inv_prefix_trait ct0 pt s ls n false p s' HI Ei Ec Ep) as (HI' & Hi' & Ho').
             destruct (prefix_trait_inl ct0 pt s ls n false p s' HI Ec Ep) as [[Hr|[Hr _]] _];
               [|apply model_rule_dunder in Hr; congruence].
             rewrite Hr. cbn. split; [reflexivity|]. unfold listen_next. rewrite Ha, Hr.
             apply clone_ok; auto; [rewrite Hi'; exact Ei|].
             apply (model_rule_plain ct0 pt P1 P2 n). left. exact Hr.
          -- cbn. split; [|exact HI].
             destruct (prefix_trait_inr ct0 pt s ls n false e HI Ec Ep) as [Hr|[_ Hr]];
               [|apply model_rule_dunder in Hr; congruence].
             rewrite Hr. reflexivity.
    - cbn. split; [reflexivity|exact HI].
  Qed.

  Lemma run_n_law : forall xs s ls i, Inv ct0 pt s ls -> nclean_run pt s xs = true ->
    law_hist_n crule i ls (run_n pt s xs) = [].
  Proof.
    induction xs as [|x r IH]; intros s ls i HI Hc; [reflexivity|].
    cbn [nclean_run] in Hc. apply andb_true_iff in Hc. destruct Hc as [H1 H2].
    destruct (step_n_ok s ls x HI H1) as [A B].
    cbn [run_n]. destruct (step_n pt s x) as [s' ob]. cbn [fst snd law_hist_n] in *.
    rewrite A. cbn [map app]. apply IH; auto.
  Qed.
End N.

Lemma law_step_n_ext : forall r1 r2 : name -> rule, (forall n, r1 n = r2 n) ->
  forall ls x ob, law_step_n r1 ls x ob = law_step_n r2 ls x ob.
Proof.
  intros r1 r2 E ls x ob. destruct x as [o|n|n]; cbn [law_step_n]; [apply law_step_ext; exact E| |reflexivity].
  unfold governing. rewrite (E n). reflexivity.
Qed.
Lemma law_next_n_ext : forall r1 r2 : name -> rule, (forall n, r1 n = r2 n) ->
  forall ls x ob, law_next_n r1 ls x ob = law_next_n r2 ls x ob.
Proof.
  intros r1 r2 E ls x ob. destruct x as [o|n|n]; cbn [law_next_n]; [apply law_next_ext; exact E| |reflexivity].
  unfold listen_next. rewrite (E n). reflexivity.
Qed.

(* every class without Map/List declarations, every history of get / set / del / add_trait /
   remove_trait / Listen / Unlisten on one object *)
Lemma law_listen_histories : forall h c xs i,
  plain_class h c = true ->
  let t := class_tables h c in
  nclean_run (snd t) (init_state (fst t)) xs = true ->
  law_hist_n (spec_rule h c) i l_init (run_n (snd t) (init_state (fst t)) xs) = [].
Proof.
  intros h c xs i Hp t Hc. apply andb_true_iff in Hp. destruct Hp as [P1 P2].
  assert (E : forall hist ls j, law_hist_n (model_rule (fst t) (snd t)) j ls hist = law_hist_n (spec_rule h c) j ls hist).
  { induction hist as [|[x ob] r IH]; intros ls j; [reflexivity|]. cbn [law_hist_n].
    rewrite IH, (law_step_n_ext _ _ (class_tables_rule h c)), (law_next_n_ext _ _ (class_tables_rule h c)). reflexivity. }
  rewrite <- E. apply run_n_law; auto. apply Inv_init; auto.
Qed.

(* the checker's re-labelled codes are empty exactly when the law is *)
Lemma law_tag_n_nil : forall mr sr h i ls, law_tag_n mr sr i ls h = [] <-> law_hist_n mr i ls h = [].
Proof.
  intros mr sr. induction h as [|[x ob] r IH]; intros i ls; [simpl; tauto|].
  cbn [law_tag_n law_hist_n]. apply relabel_nil, IH.
Qed.
