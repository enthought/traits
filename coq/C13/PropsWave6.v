(* C13 — property theorems on keyword-stem wildcards and on copies of an object; same conventions as Props.v. *)
From Coq Require Import ZArith List Bool Lia.
From TV Require Import Common.Harness C13.Model C13.Law C13.Corr C13.CorrC C13.Proofs C13.Wave6.
Import ListNotations.
Open Scope Z_scope.

(* ---- C13-w1: `is_ = Int`, `in_ = Str`, `from_ = ReadOnly` are wildcards like any other ---- *)
Theorem keyword_stem_wildcards_are_wildcards :
  forall ct pt n p, ends_us n = true -> own_step (ct, pt) (n, p) = (ct, aset (removelast n) p pt).
Proof. exact trailing_underscore_declares_a_wildcard. Qed.
Print Assumptions keyword_stem_wildcards_are_wildcards.

(* the demo: strict class with is_ = Int(7): is_r is an Int, "in" is undeclared *)
Example keyword_stem_wildcard_nontrivial :
  let h := [mkClass [([105; 115; 95], PTyped VInt 7)] [1%nat]] in
  let t := class_tables h 3 in
  let ops := [OGet [105; 115; 95; 114]; OSet [105; 115; 95; 114] 101; OSet [105; 115; 95; 114] 5; OGet [105; 115; 95; 114];
              OSet [105; 110] 1] in
  plain_class h 3 = true /\ clean_run (snd t) (init_state (fst t)) ops = true /\
  map (fun x => o_out (snd x)) (run (snd t) (init_state (fst t)) ops) =
  [Val 7; Raise TraitError; Done; Val 5; Raise TraitError].
Proof. vm_compute. repeat split; reflexivity. Qed.

(* ---- C13-w3: copy.copy / pickle round trip — the copy is governed by its own rules ---- *)
Theorem the_copy_has_no_instance_traits :
  forall ct0 pt ctd a b s2' st cp,
    clone ct0 pt (ctd, a, b) = (s2', Done, st, cp) -> fst (snd s2') = [].
Proof. exact copy_has_no_instance_traits. Qed.
Print Assumptions the_copy_has_no_instance_traits.

Theorem a_refused_copy_is_dropped :
  forall ct0 pt ctd a b s2' x st cp,
    clone ct0 pt (ctd, a, b) = (s2', Raise x, st, cp) -> snd s2' = b.
Proof. exact refused_copy_is_dropped. Qed.
Print Assumptions a_refused_copy_is_dropped.

Theorem restoring_never_adds_instance_traits :
  forall pt st s, s_itd (fst (restore pt s st)) = s_itd s.
Proof. exact restore_itd. Qed.
Print Assumptions restoring_never_adds_instance_traits.

Theorem a_copy_is_refused_only_by_an_assignment_its_own_rules_refuse :
  forall pt st s s' e, restore pt s st = (s', Some e) ->
    exists n v s1, In (n, v) st /\ o_out (snd (step pt s1 (OSet n v))) = Raise e.
Proof. exact restore_refusal. Qed.
Print Assumptions a_copy_is_refused_only_by_an_assignment_its_own_rules_refuse.

(* the demo of C13-w3: strict class with x = Int; add_trait("l", Str), l = "1": the copy is refused
   (TraitError: l is undeclared on the copy); after remove_trait("l") the copy is made, x is copied, and
   l is not readable on it *)
Example copy_of_a_strict_object_nontrivial :
  let t := class_tables [mkClass [([120], PTyped VInt 7)] [1%nat]] 3 in
  let s1 := fst (step2 (snd t) (fst (step2 (snd t) (fst (step2 (snd t) (init_state2 (fst t)) false (OSet [120] 1)))
                                       false (OAdd [108] (PTyped VStr 102)))) false (OSet [108] 101)) in
  let s2 := fst (step2 (snd t) s1 false (ORem [108])) in
  let r := clone (fst t) (snd t) s2 in
  (snd (fst (fst (clone (fst t) (snd t) s1))), snd (fst (clone (fst t) (snd t) s1))) =
    (Raise TraitError, [([120], 1); ([108], 101)]) /\
  (snd (fst (fst r)), snd (fst r), snd r) = (Done, [([120], 1)], [([120], Some 1)]) /\
  o_out (snd (step2 (snd t) (fst (fst (fst r))) true (OGet [108]))) = Raise AttributeError /\
  o_out (snd (step2 (snd t) (fst (fst (fst r))) true (OGet [120]))) = Val 1.
Proof. vm_compute. repeat split; reflexivity. Qed.
