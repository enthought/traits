(* C13 — the law on the life of a List instance trait: add_trait(n, List(Int)) installs the trait
   and the event trait of n_items; any history of reads, writes and deletes of n and n_items;
   remove_trait(n). *)
From Coq Require Import ZArith List Bool Lia.
From TV Require Import Common.Harness C13.Model C13.Law C13.Corr C13.Proofs C13.MapProofs.
Import ListNotations.
Open Scope Z_scope.

(* an access that leaves the instance traits alone and changes __dict__ at its own name only keeps
   the law's bookkeeping in agreement (any traits) *)
Lemma access_agree : forall (crule : name -> rule) pt s ls o,
  Agree s ls -> is_access o = true ->
  (forall a, name_eqb (op_name o) a = false -> assoc a (s_od (fst (step pt s o))) = assoc a (s_od s)) ->
  Agree (fst (step pt s o)) (law_next crule ls o (snd (step pt s o))).
Proof. intros crule pt s ls o HA Ha Fr. apply access_agree3; auto. Qed.

Section LL.
  Variable crule : name -> rule.
  Variable pt : ptab.
  Variable n : name.
  Notation ni := (n ++ items_suffix).

  (* the List trait and its items event are installed; nothing is stored under n_items *)
  Definition LPair (s : state) : Prop :=
    assoc n (s_itd s) = Some PList /\ assoc ni (s_itd s) = Some (PEvent (Some VNoneOnly)) /\
    assoc ni (s_od s) = None.
  Definition lpair_op (o : op) : bool :=
    is_access o && (name_eqb (op_name o) n || name_eqb (op_name o) ni).

  Lemma nni : name_eqb n ni = false /\ name_eqb ni n = false.
  Proof. apply name_app_neq2. discriminate. Qed.

  Lemma gov_l : forall s ls, LPair s -> Agree s ls -> governing crule ls n = RPol PList.
  Proof. intros s ls [H _] [A _]. unfold governing. rewrite A, H. reflexivity. Qed.
  Lemma gov_li : forall s ls, LPair s -> Agree s ls -> governing crule ls ni = RPol (PEvent (Some VNoneOnly)).
  Proof. intros s ls (_ & H & _) [A _]. unfold governing. rewrite A, H. reflexivity. Qed.

  (* what each access of the pair is shown to do: pass the law, change obj.__dict__ at its own name only,
     and leave nothing under n_items *)
  Definition LGood (s : state) (ls : lstate) (o : op) : Prop :=
    law_step crule ls o (snd (step pt s o)) = [] /\
    (forall a, name_eqb (op_name o) a = false -> assoc a (s_od (fst (step pt s o))) = assoc a (s_od s)) /\
    (op_name o = ni -> assoc ni (s_od (fst (step pt s o))) = None).

  Lemma n_not_ni : n = ni -> False.
  Proof. intro E. apply (f_equal (@length Z)) in E. rewrite app_length in E. simpl in E. lia. Qed.

  (* the law's step check on n / n_items with the governing policy put in; 10 * 6 and 10 * 5 are
     Law.kind_code of a typed trait and of an Event *)
  Lemma LS_l : forall s ls o ob, LPair s -> Agree s ls -> is_access o = true -> op_name o = n ->
    law_step crule ls o ob =
    let '(w, ws) := demand (RPol PList) (assoc n (s_od s)) o in
    chk (10 * 6 + 1) (class_ok w (o_out ob)) ++ chk (10 * 6 + 2) (value_ok w (o_out ob))
    ++ chk (10 * 6 + 3) (stored_ok ws (o_stored ob)).
  Proof.
    intros s ls o ob HP HA Ha Hn. pose proof HA as [Ai Ao]. unfold law_step. rewrite Hn, (gov_l s ls HP HA), Ao.
    destruct o; try discriminate Ha; reflexivity.
  Qed.
  Lemma LS_li : forall s ls o ob, LPair s -> Agree s ls -> is_access o = true -> op_name o = ni ->
    law_step crule ls o ob =
    let '(w, ws) := demand (RPol (PEvent (Some VNoneOnly))) None o in
    chk (10 * 5 + 1) (class_ok w (o_out ob)) ++ chk (10 * 5 + 2) (value_ok w (o_out ob))
    ++ chk (10 * 5 + 3) (stored_ok ws (o_stored ob)).
  Proof.
    intros s ls o ob HP HA Ha Hn. pose proof HA as [Ai Ao]. pose proof HP as (_ & _ & P3).
    unfold law_step. rewrite Hn, (gov_li s ls HP HA), Ao, P3.
    destruct o; try discriminate Ha; reflexivity.
  Qed.

  Lemma l_get_n : forall s ls, LPair s -> Agree s ls -> LGood s ls (OGet n).
  Proof.
    intros s ls HP HA. pose proof HP as (P1 & P2 & P3). unfold LGood. cbn [op_name].
    simpl step. unfold get_with. destruct (assoc n (s_od s)) as [v|] eqn:Eo.
    - split; [|split].
      + rewrite (LS_l s ls (OGet n) _ HP HA eq_refl eq_refl), Eo. cbn. rewrite Z.eqb_refl. reflexivity.
      + intros a _. reflexivity.
      + intro E. destruct (n_not_ni E).
    - rewrite P1. split; [|split].
      + rewrite (LS_l s ls (OGet n) _ HP HA eq_refl eq_refl), Eo. cbn. reflexivity.
      + intros a Ha. cbn. rewrite assoc_aset, Ha. reflexivity.
      + intro E. destruct (n_not_ni E).
  Qed.

  Lemma l_set_n : forall s ls v, LPair s -> Agree s ls -> LGood s ls (OSet n v).
  Proof.
    intros s ls v HP HA. pose proof HP as (P1 & P2 & P3). unfold LGood. cbn [op_name].
    simpl step. unfold lookup_set. rewrite P1. cbn [setattr_m setattr].
    destruct (Z.eqb v VUndef) eqn:Ev.
    - split; [|split].
      + rewrite (LS_l s ls (OSet n v) _ HP HA eq_refl eq_refl). cbn. rewrite Ev. cbn.
        rewrite assoc_aset, name_eqb_refl. cbn. rewrite Z.eqb_refl. reflexivity.
      + intros a Ha. cbn. rewrite assoc_aset, Ha. reflexivity.
      + intro E. destruct (n_not_ni E).
    - split; [|split].
      + rewrite (LS_l s ls (OSet n v) _ HP HA eq_refl eq_refl). cbn. rewrite Ev. cbn.
        destruct (assoc n (s_od s)); cbn; rewrite ?Z.eqb_refl; reflexivity.
      + intros a _. reflexivity.
      + intro E. destruct (n_not_ni E).
  Qed.

  Lemma l_del_n : forall s ls, LPair s -> Agree s ls -> LGood s ls (ODel n).
  Proof.
    intros s ls HP HA. pose proof HP as (P1 & P2 & P3). unfold LGood. cbn [op_name].
    simpl step. unfold lookup_set. rewrite P1. cbn [delattr].
    split; [|split].
    - rewrite (LS_l s ls (ODel n) _ HP HA eq_refl eq_refl). cbn. rewrite assoc_adel, name_eqb_refl. reflexivity.
    - intros a Ha. cbn. rewrite assoc_adel, Ha. reflexivity.
    - intro E. destruct (n_not_ni E).
  Qed.

  Lemma l_get_i : forall s ls, LPair s -> Agree s ls -> LGood s ls (OGet ni).
  Proof.
    intros s ls HP HA. pose proof HP as (P1 & P2 & P3). unfold LGood. cbn [op_name].
    simpl step. unfold get_with. rewrite P3, P2. cbn [getattr_m getattr0 getattr].
    split; [|split].
    - rewrite (LS_li s ls (OGet ni) _ HP HA eq_refl eq_refl). cbn. rewrite ?P3. reflexivity.
    - intros a _. reflexivity.
    - intros _. exact P3.
  Qed.

  Lemma l_set_i : forall s ls v, LPair s -> Agree s ls -> LGood s ls (OSet ni v).
  Proof.
    intros s ls v HP HA. pose proof HP as (P1 & P2 & P3). unfold LGood. cbn [op_name].
    simpl step. unfold lookup_set. rewrite P2. cbn [setattr_m setattr].
    destruct (validate VNoneOnly v) eqn:Ev.
    - split; [|split].
      + rewrite (LS_li s ls (OSet ni v) _ HP HA eq_refl eq_refl). cbn [demand]. rewrite Ev. cbn. rewrite ?P3. reflexivity.
      + intros a _. reflexivity.
      + intros _. exact P3.
    - split; [|split].
      + rewrite (LS_li s ls (OSet ni v) _ HP HA eq_refl eq_refl). cbn [demand]. rewrite Ev. cbn. rewrite ?P3. reflexivity.
      + intros a _. reflexivity.
      + intros _. exact P3.
  Qed.

  Lemma l_del_i : forall s ls, LPair s -> Agree s ls -> LGood s ls (ODel ni).
  Proof.
    intros s ls HP HA. pose proof HP as (P1 & P2 & P3). unfold LGood. cbn [op_name].
    simpl step. unfold lookup_set. rewrite P2. cbn [delattr].
    split; [|split].
    - rewrite (LS_li s ls (ODel ni) _ HP HA eq_refl eq_refl). cbn. rewrite ?P3. reflexivity.
    - intros a _. reflexivity.
    - intros _. exact P3.
  Qed.

  Lemma lpair_step : forall s ls o, LPair s -> Agree s ls -> lpair_op o = true ->
    law_step crule ls o (snd (step pt s o)) = [] /\ LPair (fst (step pt s o)) /\ Agree (fst (step pt s o)) (law_next crule ls o (snd (step pt s o))).
  Proof.
    intros s ls o HP HA Ho. unfold lpair_op in Ho. apply andb_true_iff in Ho. destruct Ho as [Ha Hn].
    assert (G : LGood s ls o).
    { apply orb_true_iff in Hn. destruct Hn as [Hn|Hn]; apply name_eqb_eq in Hn;
        destruct o as [k|k v|k|k q|k]; try discriminate Ha; cbn [op_name] in Hn; subst k.
      - apply l_get_n; auto.
      - apply l_set_n; auto.
      - apply l_del_n; auto.
      - apply l_get_i; auto.
      - apply l_set_i; auto.
      - apply l_del_i; auto. }
    destruct G as (G1 & G2 & G3). split; [exact G1|]. split.
    - pose proof HP as (P1 & P2 & P3). unfold LPair. rewrite (step_itd_access pt s o Ha).
      split; [exact P1|]. split; [exact P2|].
      destruct (name_eqb (op_name o) ni) eqn:E.
      + apply name_eqb_eq in E. apply G3. exact E.
      + rewrite (G2 ni E). exact P3.
    - apply access_agree; assumption.
  Qed.

  (* add_trait(n, List(Int)) when nothing is stored under n_items *)
  Lemma l_add : forall s ls, Agree s ls -> assoc ni (s_od s) = None ->
    law_step crule ls (OAdd n PList) (snd (step pt s (OAdd n PList))) = [] /\
    LPair (fst (step pt s (OAdd n PList))) /\
    Agree (fst (step pt s (OAdd n PList))) (law_next crule ls (OAdd n PList) (snd (step pt s (OAdd n PList)))).
  Proof.
    intros s ls [Ai Ao] Hni. destruct (add_list_installs pt s n) as (A & B & C).
    split; [reflexivity|]. split; [split; [exact A|split; [exact B|rewrite C; exact Hni]]|].
    unfold Agree, law_next. simpl step. unfold out.
    cbn [fst snd o_out o_stored o_shadow o_base l_itd l_od op_name s_itd s_od].
    split.
    - simpl. rewrite Ai. reflexivity.
    - apply (resync3_agree (l_od ls) (s_od s) (s_od s) n Ao). reflexivity.
  Qed.

  (* remove_trait(n): returns True, the trait, its items event and the value are gone *)
  Lemma l_rem : forall s ls, LPair s -> Agree s ls ->
    law_step crule ls (ORem n) (snd (step pt s (ORem n))) = [] /\
    Agree (fst (step pt s (ORem n))) (law_next crule ls (ORem n) (snd (step pt s (ORem n)))).
  Proof.
    intros s ls HP HA. pose proof HP as (P1 & P2 & P3). pose proof HA as [Ai Ao]. destruct nni as [N1 N2].
    assert (E : step pt s (ORem n) =
                out (mkState (s_ctd s) (adel n (adel ni (s_itd s))) (adel n (adel ni (s_od s)))) n (Val 1)).
    { assert (A1 : assoc n (adel ni (s_itd s)) = Some PList) by (rewrite assoc_adel, N2; exact P1).
      unfold step. rewrite P1. cbn [subs map fst fold_left].
      assert (R1 : rem1 s ni = mkState (s_ctd s) (adel ni (s_itd s)) (adel ni (s_od s))) by (unfold rem1; rewrite P2; reflexivity).
      rewrite R1. unfold rem1, amem. cbn [s_itd s_ctd s_od]. rewrite A1. reflexivity. }
    rewrite E. unfold out. cbn [fst snd].
    split.
    - unfold law_step. cbn [op_name o_out o_stored o_shadow s_od]. unfold amem. rewrite Ai, P1. cbn.
      rewrite assoc_adel, name_eqb_refl. reflexivity.
    - unfold Agree, law_next. cbn [op_name o_out o_stored o_shadow o_base l_itd l_od s_itd s_od].
      unfold found_trait. rewrite Ai, P1. cbn [subs map fst fold_left]. split; [reflexivity|].
      intro a. rewrite assoc_adel.
      assert (Fr : forall b, name_eqb n b = false -> assoc b (adel n (adel ni (s_od s))) = assoc b (s_od s)).
      { intros b Hb. rewrite !assoc_adel, Hb. destruct (name_eqb ni b) eqn:Eb; [|reflexivity].
        apply name_eqb_eq in Eb. subst b. symmetry. exact P3. }
      pose proof (resync3_agree (l_od ls) (s_od s) (adel n (adel ni (s_od s))) n Ao (fun b B _ _ => Fr b B) a) as G. cbv zeta in G.
      destruct (name_eqb ni a) eqn:Ea.
      + apply name_eqb_eq in Ea. subst a. rewrite !assoc_adel, N1, name_eqb_refl. reflexivity.
      + exact G.
  Qed.

  (* the whole life of a List instance trait, from any state whose bookkeeping agrees and that has
     nothing stored under n_items (a stale value there is finding 1 again) *)
  Lemma list_life : forall ops s ls i, Agree s ls -> assoc ni (s_od s) = None -> forallb lpair_op ops = true ->
    law_hist crule i ls (run pt s (OAdd n PList :: ops)) = [] /\
    law_hist crule i ls (run pt s (OAdd n PList :: ops ++ [ORem n])) = [].
  Proof.
    intros ops s ls i HA Hni Hf. destruct (l_add s ls HA Hni) as (A & B & C).
    cbn [run app]. destruct (step pt s (OAdd n PList)) as [s' ob].
    cbn [law_hist snd fst] in *. rewrite A. cbn [map app].
    apply (life_law crule pt LPair lpair_op (ORem n) lpair_step (fun s ls HP HA => proj1 (l_rem s ls HP HA))); auto.
  Qed.
End LL.

(* a fresh object of any class of any hierarchy, either reading of "inherited" *)
Lemma list_life_fresh : forall (crule : name -> rule) ct pt n ops i,
  forallb (lpair_op n) ops = true ->
  law_hist crule i l_init (run pt (init_state ct) (OAdd n PList :: ops)) = [] /\
  law_hist crule i l_init (run pt (init_state ct) (OAdd n PList :: ops ++ [ORem n])) = [].
Proof. intros. apply list_life; auto using Agree_init. Qed.

Lemma plain_then_list_life : forall ct0 pt pre n ops i,
  plain_tab ct0 = true -> plain_tab pt = true ->
  clean_run pt (init_state ct0) pre = true ->
  amem (n ++ items_suffix) (s_od (final_state pt (init_state ct0) pre)) = false ->
  forallb (lpair_op n) ops = true ->
  law_hist (model_rule ct0 pt) i l_init (run pt (init_state ct0) (pre ++ OAdd n PList :: ops)) = [] /\
  law_hist (model_rule ct0 pt) i l_init (run pt (init_state ct0) (pre ++ OAdd n PList :: ops ++ [ORem n])) = [].
Proof.
  intros ct0 pt pre n ops i P1 P2 Hc Hni Hf.
  pose proof (Inv_init ct0 pt P1 P2) as HI0.
  pose proof (run_law_inv ct0 pt pre _ _ i HI0 Hc) as Hpre.
  pose proof (run_Inv_final ct0 pt pre _ _ HI0 Hc) as HIf.
  pose proof (Inv_Agree _ _ _ _ HIf) as HA.
  assert (Hn : assoc (n ++ items_suffix) (s_od (final_state pt (init_state ct0) pre)) = None)
    by (unfold amem in Hni; destruct (assoc _ _); [discriminate|reflexivity]).
  destruct (list_life (model_rule ct0 pt) pt n ops _ _
              (i + Z.of_nat (length (run pt (init_state ct0) pre))) HA Hn Hf) as [A B].
  rewrite !run_app, !law_hist_app, Hpre. split; [exact A|exact B].
Qed.

Lemma plain_then_list_life_spec : forall h c pre n ops i,
  plain_class h c = true ->
  let t := class_tables h c in
  clean_run (snd t) (init_state (fst t)) pre = true ->
  amem (n ++ items_suffix) (s_od (final_state (snd t) (init_state (fst t)) pre)) = false ->
  forallb (lpair_op n) ops = true ->
  law_hist (spec_rule h c) i l_init (run (snd t) (init_state (fst t)) (pre ++ OAdd n PList :: ops)) = [] /\
  law_hist (spec_rule h c) i l_init (run (snd t) (init_state (fst t)) (pre ++ OAdd n PList :: ops ++ [ORem n])) = [].
Proof.
  intros h c pre n ops i Hp t Hc Hni Hf. apply andb_true_iff in Hp. destruct Hp as [P1 P2].
  rewrite <- !(law_hist_ext _ _ (class_tables_rule h c)).
  apply (plain_then_list_life (fst t) (snd t) pre n ops i); auto.
Qed.

(* the hypothesis on n_items is needed: a value stored there before add_trait is read back through
   the installed event trait (finding 1 again) *)
Lemma stale_items_value_refutes : exists (crule : name -> rule) ct pt n ops,
  forallb (lpair_op n) ops = true /\
  law_hist crule 0 l_init (run pt (init_state ct) (OSet (n ++ items_suffix) 5 :: OAdd n PList :: ops)) <> [].
Proof.
  exists (model_rule (fst (class_tables [] 0)) (snd (class_tables [] 0))),
         (fst (class_tables [] 0)), (snd (class_tables [] 0)), [97; 98], [OGet ([97; 98] ++ items_suffix)].
  vm_compute. split; [reflexivity|discriminate].
Qed.
