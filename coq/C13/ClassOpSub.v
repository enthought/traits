(* C13 — add_class_trait on a base class and its subclasses: the hierarchy with a declaration
   appended to one class ([app_decl]) seen class by class, and paths of single-base classes. *)
From Coq Require Import ZArith List Bool Lia Sorted.
From TV Require Import Common.Harness C13.Model C13.Law C13.Corr C13.Proofs C13.MapProofs C13.ClassOpProofs C13.ClassOpInd.
Import ListNotations.
Open Scope Z_scope.

Definition dcls : classdef := mkClass [] [].

Lemma split_at : forall (hh : list classdef) j, (j < length hh)%nat ->
  hh = firstn j hh ++ nth j hh dcls :: skipn (S j) hh /\ length (firstn j hh) = j.
Proof.
  induction hh as [|c r IH]; intros j H; simpl in H; [lia|].
  destruct j; simpl; [auto|]. destruct (IH j) as [E L]; [lia|]. split; [f_equal; exact E|f_equal; exact L].
Qed.

(* the declarative pair of class j only depends on the classes before it *)
Lemma visible_app_keeps : forall a b i, (i < length a)%nat ->
  vis_nth (visible (a ++ b)) i = vis_nth (visible a) i.
Proof.
  intros a b i H. unfold vis_nth, visible, visible_from. rewrite fold_left_app.
  fold (visible_from (fold_left (fun t c => t ++ [vis_class t c]) a []) b).
  apply visible_from_keeps. fold (visible_from [] a). rewrite visible_from_length. simpl. exact H.
Qed.

Lemma visible_nth : forall hh j, (j < length hh)%nat ->
  vis_nth (visible hh) j = vis_class (visible (firstn j hh)) (nth j hh dcls).
Proof.
  intros hh j H. destruct (split_at hh j H) as [E L].
  pose proof (visible_at (firstn j hh) (nth j hh dcls) (skipn (S j) hh)) as V. rewrite <- E, L in V. exact V.
Qed.

Lemma vis_class_closed : forall V cd, assoc [] (snd (vis_class V cd)) <> None.
Proof.
  intros V cd. unfold vis_class. cbn [snd]. unfold amem.
  destruct (assoc [] (snd (own_tables (c_decls cd)) ++ flat_map (fun b => snd (vis_nth V b)) (c_bases cd))) eqn:E.
  - rewrite E. discriminate.
  - rewrite assoc_app, E. simpl. discriminate.
Qed.

Lemma app_decl_nth : forall hh k d j, j <> k -> nth j (app_decl hh k d) dcls = nth j hh dcls.
Proof.
  intros hh k d j Hj. unfold app_decl. destruct (nth_error hh k) as [cd|]; auto.
  generalize (mkClass (c_decls cd ++ [d]) (c_bases cd)).
  revert k j Hj. induction hh as [|c r IH]; intros k j Hj x; simpl; auto.
  destruct k; destruct j; simpl; auto; try lia.
Qed.
Lemma app_decl_length : forall hh k d, length (app_decl hh k d) = length hh.
Proof.
  intros hh k d. unfold app_decl. destruct (nth_error hh k) as [cd|]; auto.
  generalize (mkClass (c_decls cd ++ [d]) (c_bases cd)). revert k.
  induction hh as [|c r IH]; intros k x; simpl; auto. destruct k; simpl; auto.
Qed.
Lemma app_decl_firstn : forall hh k d j, (j <= k)%nat -> firstn j (app_decl hh k d) = firstn j hh.
Proof.
  intros hh k d j Hj. unfold app_decl. destruct (nth_error hh k) as [cd|]; auto.
  generalize (mkClass (c_decls cd ++ [d]) (c_bases cd)). revert k j Hj.
  induction hh as [|c r IH]; intros k j Hj x; simpl; [destruct j; reflexivity|].
  destruct k; destruct j; simpl; auto; try lia. f_equal. apply IH. lia.
Qed.

Lemma app_decl_same : forall hh k d, (k < length hh)%nat ->
  nth k (app_decl hh k d) dcls = mkClass (c_decls (nth k hh dcls) ++ [d]) (c_bases (nth k hh dcls)).
Proof.
  intros hh k d Hk. destruct (split_at hh k Hk) as [E L].
  pose proof (app_decl_at (firstn k hh) (nth k hh dcls) (skipn (S k) hh) d) as A.
  rewrite <- E, L in A. rewrite A. rewrite app_nth2 by lia. rewrite L, Nat.sub_diag. reflexivity.
Qed.
Lemma app_decl_bases : forall hh k d i, c_bases (nth i (app_decl hh k d) dcls) = c_bases (nth i hh dcls).
Proof.
  intros hh k d i. destruct (Nat.eq_dec i k) as [->|Hne]; [|rewrite app_decl_nth by exact Hne; reflexivity].
  destruct (Nat.lt_ge_cases k (length hh)) as [Hk|Hk]; [rewrite app_decl_same by exact Hk; reflexivity|].
  unfold app_decl. rewrite (proj2 (nth_error_None hh k) Hk). reflexivity.
Qed.

(* a path of single-base classes from class k down to class j *)
Inductive Path (hh : list classdef) (k : nat) : nat -> Prop :=
| P0 : Path hh k k
| PS : forall b j, Path hh k b -> (b < j)%nat -> (j < length hh)%nat -> c_bases (nth j hh dcls) = [b] -> Path hh k j.

Lemma Path_ge : forall hh k j, Path hh k j -> (k <= j)%nat.
Proof. induction 1; lia. Qed.

Lemma Path_lt : forall hh k j, Path hh k j -> j <> k -> (j < length hh)%nat.
Proof. intros hh k j HP Hne. inversion HP; subst; [congruence|assumption]. Qed.

Lemma Path_app_decl : forall hh k d j, Path hh k j -> Path (app_decl hh k d) k j.
Proof.
  induction 1 as [|b j HP IH Hb Hj Hbases]; [constructor|].
  apply (PS _ _ b j); auto; [rewrite app_decl_length; exact Hj|].
  rewrite app_decl_bases. exact Hbases.
Qed.

Lemma vis_app_decl_k : forall hh k d, (k < length hh)%nat ->
  vis_nth (visible hh) k = vis_class (visible (firstn k hh)) (nth k hh dcls) /\
  vis_nth (visible (app_decl hh k d)) k =
    vis_class (visible (firstn k hh)) (mkClass (c_decls (nth k hh dcls) ++ [d]) (c_bases (nth k hh dcls))).
Proof.
  intros hh k d Hk. split; [apply visible_nth; exact Hk|].
  rewrite (visible_nth (app_decl hh k d) k) by (rewrite app_decl_length; exact Hk).
  rewrite app_decl_firstn by lia. rewrite app_decl_same by exact Hk. reflexivity.
Qed.
