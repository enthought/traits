(* C13 — the runs the checker evaluates for add_class_trait (CorrT.step_t): any number of live
   objects of any classes, object operations and add_class_trait calls on any classes, in any
   order.  One global invariant over the tables of all classes. *)
From Coq Require Import ZArith List Bool Lia Sorted.
From TV Require Import Common.Harness C13.Model C13.Law C13.Corr C13.CorrT C13.Proofs C13.MapProofs C13.ClassOpProofs C13.ClassOpInd C13.ClassOpSub C13.ClassOpDag C13.ClassOpSubRun.
Import ListNotations.
Open Scope Z_scope.

Lemma upd_length : forall {A} (l : list A) i x, length (upd l i x) = length l.
Proof. induction l as [|y r IH]; intros [|i] x; simpl; auto. Qed.
Lemma nth_upd_same : forall {A} (l : list A) i x d, (i < length l)%nat -> nth i (upd l i x) d = x.
Proof. induction l as [|y r IH]; intros [|i] x d H; simpl in *; try lia; auto; try (apply IH; lia). Qed.
Lemma nth_upd_other : forall {A} (l : list A) i j x d, i <> j -> nth j (upd l i x) d = nth j l d.
Proof.
  induction l as [|y r IH]; intros [|i] [|j] x d H; simpl; auto; try congruence; try (apply IH; congruence).
Qed.
Lemma nth_const_map : forall {A B} (l : list A) (x : B) i, nth i (map (fun _ => x) l) x = x.
Proof. induction l as [|a r IH]; intros x [|i]; simpl; auto. Qed.

(* a class read as an object with nothing stored: [Inv] of Proofs.v on it says that the class
   dictionary is the declared names plus sound cached resolutions *)
Definition ghost (t : ctab * ptab) : state := mkState (fst t) [] [].
Definition ostate (T : list (ctab * ptab)) (c : nat) (x : inst) : state := mkState (fst (tabs_nth T c)) (fst x) (snd x).
Definition affected (hh0 : list classdef) (k c : nat) : bool := Nat.eqb c k || is_desc hh0 (length hh0) c k.

(* C0 c: the declared names of class c, i.e. its dictionary without the cached resolutions; the
   tables (C0 c, prefix list) agree with the declarative pair of c in the hierarchy H as declared so far *)
Record GI (hh0 : list classdef) (objs : list nat) (T : list (ctab * ptab)) (insts : list inst)
          (lss : list lstate) (H : list classdef) (C0 : nat -> ctab) : Prop := mkGI {
  g_lenT : length T = length hh0;
  g_lenH : length H = length hh0;
  g_bases : forall i, c_bases (nth i H dcls) = c_bases (nth i hh0 dcls);
  g_lenI : length insts = length objs;
  g_lenL : length lss = length objs;
  g_objs : forall i, (i < length objs)%nat -> (nth i objs O < length T)%nat;
  g_cls : forall c, (c < length T)%nat ->
            Agr (C0 c, snd (tabs_nth T c)) (vis_nth (visible H) c) /\
            Inv (C0 c) (snd (tabs_nth T c)) (ghost (tabs_nth T c)) l_init;
  g_obj : forall i, (i < length objs)%nat ->
            Inv (C0 (nth i objs O)) (snd (tabs_nth T (nth i objs O)))
                (ostate T (nth i objs O) (nth i insts ([], []))) (nth i lss l_init)
}.

Lemma GI_init : forall hh objs,
  (forall c, (c < length hh)%nat -> plain_t (tabs_nth (tables hh) c) = true) ->
  (forall j, (j < length objs)%nat -> (nth j objs O < length hh)%nat) ->
  GI hh objs (tables hh) (map (fun _ => ([], [])) objs) (map (fun _ => l_init) objs) hh
     (fun c => fst (tabs_nth (tables hh) c)).
Proof.
  intros hh objs HP Ho. constructor; try reflexivity; try apply map_length.
  - apply tables_length.
  - intros j Hj. rewrite tables_length. apply Ho. exact Hj.
  - intros c Hc. rewrite tables_length in Hc. split; [|apply fresh_Inv, HP, Hc].
    cbn [snd]. rewrite <- surjective_pairing. apply Agr_tables.
  - intros j Hj. rewrite nth_const_map.
    replace (nth j (map (fun _ : nat => l_init) objs) l_init) with l_init by (symmetry; apply nth_const_map).
    apply fresh_Inv, HP, Ho, Hj.
Qed.

(* an object operation must be clean; a class call must carry a plain trait and, if accepted on k,
   find every other class either a descendant the model visits with [Reach], or no descendant with
   [Unaff], and meet none of [sub_clean]'s exclusions on the classes visited or their live objects *)
Definition tclean (hh0 : list classdef) (objs : list nat) (T : list (ctab * ptab)) (insts : list inst)
                  (H : list classdef) (t : top) : Prop :=
  match t with
  | TObj i o => (i < length objs)%nat /\ clean_step (ostate T (nth i objs O) (nth i insts ([], []))) o = true
  | TClass k n p =>
      (k < length T)%nat /\ plainp p = true /\
      match add_class1 false (tabs_nth T k) n p with
      | None => True
      | Some _ =>
          (forall c, (c < length T)%nat -> c <> k ->
             (is_desc hh0 (length hh0) c k = true -> Reach H k n c) /\
             (is_desc hh0 (length hh0) c k = false -> Unaff H k c)) /\
          (forall c, (c < length T)%nat -> affected hh0 k c = true ->
             sub_clean (fst (vis_nth (visible H) c)) (ghost (tabs_nth T c)) (snd (tabs_nth T c)) n p = true) /\
          (forall i, (i < length objs)%nat -> affected hh0 k (nth i objs O) = true ->
             sub_clean (fst (vis_nth (visible H) (nth i objs O)))
                       (ostate T (nth i objs O) (nth i insts ([], []))) (snd (tabs_nth T (nth i objs O))) n p = true)
      end
  end.

Lemma gi_obj_step : forall hh0 objs T insts lss H C0 i o,
  GI hh0 objs T insts lss H C0 -> (i < length objs)%nat ->
  clean_step (ostate T (nth i objs O) (nth i insts ([], []))) o = true ->
  let c := nth i objs O in
  let rl := class_rule (vis_nth (visible H) c) in
  let r := step_t hh0 objs (T, insts) (TObj i o) in
  law_step rl (nth i lss l_init) o (snd r) = [] /\
  GI hh0 objs (fst (fst r)) (snd (fst r)) (upd lss i (law_next rl (nth i lss l_init) o (snd r))) H C0.
Proof.
  intros hh0 objs T insts lss H C0 i o [LT LH Hb LI LL Ho Hcls Hobj] Hi Hc c rl r. subst r. cbn [step_t]. fold c.
  pose proof (Ho i Hi) as HcT. fold c in HcT.
  destruct (Hcls c HcT) as [HA HG].
  pose proof (Hobj i Hi) as HI. fold c in HI.
  destruct (obj_step_ok (C0 c) (snd (tabs_nth T c)) _ _ _ o HA HI Hc) as [Hl Hn]. fold rl in Hl, Hn.
  unfold ostate in Hl, Hn, HI.
  destruct (step (snd (tabs_nth T c)) (mkState (fst (tabs_nth T c)) (fst (nth i insts ([], []))) (snd (nth i insts ([], [])))) o)
    as [s' ob] eqn:E. cbn [fst snd] in *.
  split; [exact Hl|].
  assert (Tc : tabs_nth (set_ctab T c (s_ctd s')) c = (s_ctd s', snd (tabs_nth T c))) by (apply set_ctab_nth; exact HcT).
  assert (To : forall c', c' <> c -> tabs_nth (set_ctab T c (s_ctd s')) c' = tabs_nth T c')
    by (intros c' Hne; apply set_ctab_other; congruence).
  constructor; rewrite ?upd_length, ?set_ctab_length by exact HcT; try assumption.
  - (* the classes: class c has a longer cache *)
    intros c' Hc'. destruct (Nat.eq_dec c' c) as [->|Hne]; [|rewrite (To c' Hne); apply (Hcls c' Hc')].
    rewrite Tc. cbn [fst snd]. split; [exact HA|].
    apply (Inv_other (C0 c) (snd (tabs_nth T c)) s' _ (fst (tabs_nth T c)) ([], []) l_init Hn HG).
  - (* the objects: object i has moved; the other objects of class c see the longer cache *)
    intros j Hj. set (cj := nth j objs O).
    destruct (Nat.eq_dec j i) as [->|Hji].
    + subst cj. fold c. rewrite !nth_upd_same by (rewrite ?LI, ?LL; exact Hi).
      unfold ostate. rewrite Tc. cbn [fst snd]. destruct s'; exact Hn.
    + rewrite !nth_upd_other by congruence.
      pose proof (Hobj j Hj) as HJ. fold cj in HJ. unfold ostate in *.
      destruct (Nat.eq_dec cj c) as [Ec|Hne]; [|rewrite (To cj Hne); exact HJ].
      rewrite Ec in *. rewrite Tc. cbn [fst snd].
      apply (Inv_other (C0 c) (snd (tabs_nth T c)) s' _ (fst (tabs_nth T c)) (nth j insts ([], [])) _ Hn HJ).
Qed.

Lemma add_class_all_at : forall hh T k n p T' c, (c < length T)%nat -> add_class hh T k n p = (T', Done) ->
  if affected hh k c then add_class1 true (tabs_nth T c) n p = Some (tabs_nth T' c)
  else tabs_nth T' c = tabs_nth T c.
Proof.
  intros hh T k n p T' c Hc H. unfold affected. destruct (Nat.eqb c k) eqn:Ek; cbn [orb].
  { apply Nat.eqb_eq in Ek. apply (add_class_desc_at hh T k n p T' c (or_introl Ek) Hc H). }
  destruct (is_desc hh (length hh) c k) eqn:Ed; [apply (add_class_desc_at hh T k n p T' c (or_intror Ed) Hc H)|].
  unfold add_class in H. destruct (add_class1 false (tabs_nth T k) n p); inversion H; subst; clear H.
  unfold tabs_nth at 1. rewrite map_idx_nth with (d := (([], []) : ctab * ptab)) by exact Hc.
  cbn [Nat.add]. rewrite Ek, Ed. reflexivity.
Qed.

(* a live state on the tables of a class the call visits (s: an object of class c, or its ghost) *)
Lemma affected_step : forall hh0 T k n p T' c C v v' s ls,
  add_class hh0 T k n p = (T', Done) -> (c < length T)%nat -> affected hh0 k c = true ->
  plainp p = true -> Ext v v' n p -> Agr (C, snd (tabs_nth T c)) v ->
  s_ctd s = fst (tabs_nth T c) -> Inv C (snd (tabs_nth T c)) s ls ->
  sub_clean (fst v) s (snd (tabs_nth T c)) n p = true ->
  Agr (new_ct0 C (fst (tabs_nth T c)) n p, snd (tabs_nth T' c)) v' /\
  Inv (new_ct0 C (fst (tabs_nth T c)) n p) (snd (tabs_nth T' c)) (mkState (fst (tabs_nth T' c)) (s_itd s) (s_od s)) ls.
Proof.
  intros hh0 T k n p T' c C v v' s ls E Hc Ha Hp HE HA Hs HI Hcn.
  pose proof (add_class_all_at hh0 T k n p T' c Hc E) as AT. rewrite Ha in AT.
  destruct (sub_step_ok C (snd (tabs_nth T c)) s ls v v' n p HI HA HE Hp Hcn) as [A2 I2].
  assert (AT' : add_class1 true (s_ctd s, snd (tabs_nth T c)) n p = Some (tabs_nth T' c))
    by (rewrite Hs, <- surjective_pairing; exact AT).
  rewrite (sub_add_eq s _ n p _ AT') in A2, I2. cbn [fst snd] in A2, I2. rewrite <- Hs. split; assumption.
Qed.

(* the classes the model visits are the ones [tclean] asks to be reachable *)
Lemma affected_reach : forall hh0 H k n (L : nat),
  (forall c, (c < L)%nat -> c <> k ->
     (is_desc hh0 (length hh0) c k = true -> Reach H k n c) /\
     (is_desc hh0 (length hh0) c k = false -> Unaff H k c)) ->
  forall c, (c < L)%nat -> if affected hh0 k c then Reach H k n c else Unaff H k c.
Proof.
  intros hh0 H k n L Hr c Hc. unfold affected. destruct (Nat.eqb c k) eqn:Ek; cbn [orb].
  - apply Nat.eqb_eq in Ek. subst c. apply R0.
  - apply Nat.eqb_neq in Ek. destruct (Hr c Hc Ek) as [H1 H2].
    destruct (is_desc hh0 (length hh0) c k); [apply H1|apply H2]; reflexivity.
Qed.

Definition C0_next (hh0 : list classdef) (T : list (ctab * ptab)) (k : nat) (n : name) (p : policy)
                   (C0 : nat -> ctab) : nat -> ctab :=
  fun c => if affected hh0 k c then new_ct0 (C0 c) (fst (tabs_nth T c)) n p else C0 c.

Lemma gi_cls_step : forall hh0 objs T insts lss H C0 k n p,
  GI hh0 objs T insts lss H C0 -> tclean hh0 objs T insts H (TClass k n p) ->
  let r := step_t hh0 objs (T, insts) (TClass k n p) in
  exists C0', GI hh0 objs (fst (fst r)) (snd (fst r)) lss
                 (match o_out (snd r) with Done => app_decl H k (n, p) | _ => H end) C0'.
Proof.
  intros hh0 objs T insts lss H C0 k n p G (Hk & Hp & Hcl) r. subst r. cbn [step_t].
  destruct (add_class hh0 T k n p) as [T' out] eqn:E. cbn [fst snd o_out].
  destruct (add_class_at hh0 T k n p T' out Hk E) as [HL Hc].
  destruct (add_class1 false (tabs_nth T k) n p) as [tk|] eqn:E1.
  2:{ destruct Hc as [-> ->]. exists C0. exact G. }
  destruct Hc as [-> _]. destruct Hcl as (Hreach & Hgh & Hob).
  exists (C0_next hh0 T k n p C0).
  destruct G as [LT LH Hb LI LL Ho Hcls Hobj].
  assert (HkH : (k < length H)%nat) by (rewrite LH, <- LT; exact Hk).
  destruct (Hcls k Hk) as [Ak Gk].
  assert (Habs : vis_has (vis_nth (visible H) k) n = false).
  { apply (live_absent _ _ _ _ _ n p tk Gk Ak). cbn [ghost s_ctd]. rewrite <- surjective_pairing. exact E1. }
  (* a class c: visited, with its declarative pair extended, or left alone with the same pair *)
  assert (CLS : forall c, (c < length T)%nat ->
            if affected hh0 k c
            then Ext (vis_nth (visible H) c) (vis_nth (visible (app_decl H k (n, p))) c) n p
            else vis_nth (visible (app_decl H k (n, p))) c = vis_nth (visible H) c /\ tabs_nth T' c = tabs_nth T c).
  { intros c Hc. pose proof (affected_reach hh0 H k n _ Hreach c Hc) as HR.
    pose proof (add_class_all_at hh0 T k n p T' c Hc E) as AT.
    destruct (affected hh0 k c); [apply (Ext_reach H k n p HkH Hp Habs c HR)|].
    split; [apply unaff_vis; assumption|exact AT]. }
  constructor; rewrite ?HL, ?app_decl_length; try assumption.
  - intro i. rewrite app_decl_bases. apply Hb.
  - intros c Hc. destruct (Hcls c Hc) as [HA HG]. specialize (CLS c Hc). unfold C0_next.
    destruct (affected hh0 k c) eqn:Ea; [|destruct CLS as [-> ->]; split; assumption].
    apply (affected_step hh0 T k n p T' c _ _ _ (ghost (tabs_nth T c)) l_init E Hc Ea Hp CLS HA eq_refl HG (Hgh c Hc Ea)).
  - intros i Hi. pose proof (Ho i Hi) as Hc. set (c := nth i objs O) in *.
    pose proof (Hobj i Hi) as HI. fold c in HI. specialize (CLS c Hc). unfold C0_next.
    destruct (affected hh0 k c) eqn:Ea; [|destruct CLS as [_ AT]; unfold ostate in *; rewrite AT; exact HI].
    apply (affected_step hh0 T k n p T' c _ _ _ (ostate T c (nth i insts ([], []))) (nth i lss l_init)
             E Hc Ea Hp CLS (proj1 (Hcls c Hc)) eq_refl HI (Hob i Hi Ea)).
Qed.

Definition next_Ht (H : list classdef) (t : top) (ob : obs) : list classdef :=
  match t, o_out ob with TClass k n p, Done => app_decl H k (n, p) | _, _ => H end.

Fixpoint tok (hh0 : list classdef) (objs : list nat) (st : tstate) (H : list classdef) (ts : list top) : Prop :=
  match ts with
  | [] => True
  | t :: r =>
      tclean hh0 objs (fst st) (snd st) H t /\
      tok hh0 objs (fst (step_t hh0 objs st t)) (next_Ht H t (snd (step_t hh0 objs st t))) r
  end.

Lemma global_run_law : forall hh0 objs ts T insts lss H C0 i,
  GI hh0 objs T insts lss H C0 -> tok hh0 objs (T, insts) H ts ->
  law_hist_ta objs H i lss (run_t hh0 objs (T, insts) ts) = [].
Proof.
  intros hh0 objs. induction ts as [|t r IH]; intros T insts lss H C0 i G Hok; [reflexivity|].
  cbn [tok fst snd] in Hok. destruct Hok as [Hc Hr].
  destruct t as [j o|k n p].
  - destruct Hc as [Hj Hc].
    destruct (gi_obj_step hh0 objs T insts lss H C0 j o G Hj Hc) as [Hl G'].
    cbn [run_t]. destruct (step_t hh0 objs (T, insts) (TObj j o)) as [[T' insts'] ob] eqn:E.
    cbn [fst snd law_hist_ta next_Ht] in *. rewrite Hl. cbn [map app].
    apply (IH T' insts' _ H C0 _ G' Hr).
  - destruct (gi_cls_step hh0 objs T insts lss H C0 k n p G Hc) as [C0' G'].
    cbn [run_t]. destruct (step_t hh0 objs (T, insts) (TClass k n p)) as [[T' insts'] ob] eqn:E.
    cbn [fst snd law_hist_ta next_Ht] in *.
    apply (IH T' insts' lss _ C0' _ G' Hr).
Qed.
