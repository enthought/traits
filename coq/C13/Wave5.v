(* C13 — the ABC variants of the root classes (C13-v1), class-body default values for
   inherited traits (C13-v2), names a class owns through a List declaration (C13-v3). *)
From Coq Require Import ZArith List Bool Lia.
From TV Require Import Common.Harness C13.Model C13.Law C13.Corr C13.CorrT C13.Proofs.
Import ListNotations.
Open Scope Z_scope.

(* ABCHasTraits(HasTraits) declares nothing, ABCHasStrictTraits(ABCHasTraits) declares _ = Disallow:
   as user classes 3 and 4.  Their declarative tables are those of HasTraits and HasStrictTraits. *)
Definition abc_classes : list classdef := [mkClass [] [0%nat]; mkClass [([95], PDisallow)] [3%nat]].

Lemma abc_tables : vis_nth (visible (roots ++ abc_classes)) 3 = vis_nth (visible roots) 0 /\
                   vis_nth (visible (roots ++ abc_classes)) 4 = vis_nth (visible roots) 1.
Proof. vm_compute. split; reflexivity. Qed.

Lemma abc_strict_rule : forall n, spec_rule abc_classes 4 n = spec_rule [] 1 n.
Proof. intro n. unfold spec_rule. rewrite app_nil_r. rewrite (proj2 abc_tables). reflexivity. Qed.

Lemma abc_plain_rule : forall n, spec_rule abc_classes 3 n = spec_rule [] 0 n.
Proof. intro n. unfold spec_rule. rewrite app_nil_r. rewrite (proj1 abc_tables). reflexivity. Qed.

Lemma redefault_keeps_readonly : forall d v, redefault (PReadOnly d) v = PReadOnly v.
Proof. reflexivity. Qed.
Lemma redefault_keeps_validator : forall k d v, redefault (PTyped k d) v = PTyped k v.
Proof. reflexivity. Qed.

(* a ReadOnly re-defaulted in a class body is never assignable (the default is the defining value) *)
Lemma redefault_readonly_rejects : forall pt s n d v w,
  assoc n (s_itd s) = None -> assoc n (s_ctd s) = Some (redefault (PReadOnly d) v) -> Z.eqb v VUndef = false ->
  o_out (snd (step pt s (OSet n w))) = Raise TraitError.
Proof.
  intros pt s n d v w Hi Hc Hv. cbn [redefault] in Hc. simpl step. unfold lookup_set. rewrite Hi, Hc.
  cbn [setattr_m setattr]. rewrite Hv. reflexivity.
Qed.

(* a name the class owns — here name_items of a List declared in the body — is an existing definition
   for _add_class_trait: rejected on the class itself, kept on a subclass *)
Lemma owned_name_blocks_add_class_trait : forall ct pt m p, ends_us m = false -> amem m ct = true ->
  add_class1 false (ct, pt) m p = None /\ add_class1 true (ct, pt) m p = Some (ct, pt).
Proof. intros ct pt m p He Ha. unfold add_class1. rewrite He, Ha. split; reflexivity. Qed.

Lemma list_declaration_owns_items : forall n, ends_us n = false ->
  amem (n ++ items_suffix) (fst (own_tables [(n, PList)])) = true.
Proof.
  intros n He. unfold own_tables. cbn [fold_left own_step]. rewrite He. cbn [subs fold_left fst snd aset].
  unfold amem. destruct (name_eqb n (n ++ items_suffix)) eqn:E; cbn [assoc]; rewrite ?E, ?name_eqb_refl; reflexivity.
Qed.
