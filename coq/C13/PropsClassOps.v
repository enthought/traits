(* C13 — property theorems: add_class_trait histories, and the life of a mapped trait interleaved
   with other names.  Each Theorem is closed by [exact] of a lemma of the proof files or by a one- to
   three-line instance of one, and followed by Print Assumptions; the Examples are closed by evaluation. *)
From Coq Require Import ZArith List Bool Lia.
From TV Require Import Common.Harness C13.Model C13.Law C13.Corr C13.Proofs C13.MapProofs C13.ListenerProofs C13.ClassOpProofs C13.ListenerInd C13.ClassOpInd C13.ClassOpSub C13.MapInterleave C13.ClassOpDag C13.ClassOpSubRun C13.ClassOpGlobal C13.ClassOpChain C13.ListLife C13.ListenerInd2 C13.ClassOpTie.
Import ListNotations.
Open Scope Z_scope.


(* add_class_trait, inductively.  ANY class of ANY hierarchy (hh = pre ++ cd :: post, k = its
   position; ancestors arbitrary, multiple inheritance included), tables without Map/List;
   ANY sequence of add_class_trait(name, trait) calls on that class — accepted or rejected
   (already defined), explicit names and wildcards in any order, plain traits — [class_phase];
   then EVERY clean history on a fresh instance: the law holds with the class-level rule computed
   from the hierarchy WITH the accepted run-time declarations appended to the class body
   ([snd (class_phase ...)], the checker's CorrT.add_decl: [runtime_declarations_bookkeeping]).
   Behind it: [add_class_trait_is_a_declaration] — one accepted call keeps the class's tables in
   agreement (dictionaries equal, prefix list sorted longest first) with the declarative tables
   of the class body extended by that declaration. *)
Theorem law_holds_after_runtime_declarations :
  forall pre cd post adds ops i,
    let hh := pre ++ cd :: post in
    let k := length pre in
    plain_t (tabs_nth (tables hh) k) = true ->
    forallb (fun e => plainp (snd e)) adds = true ->
    let ph := class_phase hh k (tables hh) hh adds in
    let t := tabs_nth (fst ph) k in
    clean_run (snd t) (init_state (fst t)) ops = true ->
    law_hist (class_rule (vis_nth (visible (snd ph)) k)) i l_init (run (snd t) (init_state (fst t)) ops) = [].
Proof.
  intros pre cd post adds ops i hh k HP.
  exact (path_runtime_declarations hh k k adds ops i (P0 hh k) (mid_lt pre cd post) HP HP).
Qed.
Print Assumptions law_holds_after_runtime_declarations.

(* the same for the runs the checker evaluates (CorrT.step_t on the tables of all classes) *)
Theorem law_holds_on_class_operation_runs :
  forall pre cd post adds ops i,
    let hh := pre ++ cd :: post in
    let k := length pre in
    plain_t (tabs_nth (tables hh) k) = true ->
    forallb (fun e => plainp (snd e)) adds = true ->
    let t := tabs_nth (fst (class_phase hh k (tables hh) hh adds)) k in
    clean_run (snd t) (init_state (fst t)) ops = true ->
    law_hist_ta [k] hh i [l_init]
      (run_t hh [k] (tables hh, [([], [])])
             (map (fun e => C13.CorrT.TClass k (fst e) (snd e)) adds ++ map (C13.CorrT.TObj 0) ops)) = [].
Proof. intros pre cd post adds ops i. exact (class_ops_run _ _ adds ops i (mid_lt pre cd post)). Qed.
Print Assumptions law_holds_on_class_operation_runs.

Theorem add_class_trait_is_a_declaration :
  forall V cd t n p t', plainp p = true ->
    Agr t (vis_class V cd) -> add_class1 false t n p = Some t' ->
    Agr t' (vis_class V (mkClass (c_decls cd ++ [(n, p)]) (c_bases cd))).
Proof. exact Agr_add. Qed.
Print Assumptions add_class_trait_is_a_declaration.

Theorem runtime_declarations_bookkeeping :
  forall h k n p, (3 <= k)%nat -> app_decl (roots ++ h) k (n, p) = roots ++ C13.CorrT.add_decl h k n p.
Proof. exact app_decl_roots. Qed.
Print Assumptions runtime_declarations_bookkeeping.

(* the two cached-name findings: when the name was touched (resolved, cached) BEFORE the matching
   add_class_trait the law fails on the model too — which is why the theorem above has the class
   operations before the first use of the instance *)
Theorem runtime_wildcard_after_use_refuted :
  let hh := roots ++ [mkClass [] [0%nat]] in
  law_hist_ta [3%nat] hh 0 [l_init]
    (run_t hh [3%nat] (tables hh, [([], [])])
       [C13.CorrT.TObj 0 (OGet n_cax); C13.CorrT.TClass 3 [99; 95] (PTyped VInt 7); C13.CorrT.TObj 0 (OGet n_cax)]) <> [].
Proof. exact cached_wildcard_refutes. Qed.
Print Assumptions runtime_wildcard_after_use_refuted.

Theorem runtime_class_trait_after_use_refuted :
  let hh := roots ++ [mkClass [] [0%nat]; mkClass [] [3%nat]] in
  law_hist_ta [4%nat] hh 0 [l_init]
    (run_t hh [4%nat] (tables hh, [([], [])])
       [C13.CorrT.TObj 0 (OGet n_zz); C13.CorrT.TClass 3 n_zz (PTyped VStr 102); C13.CorrT.TObj 0 (OGet n_zz)]) <> [].
Proof. exact cached_class_trait_refutes. Qed.
Print Assumptions runtime_class_trait_after_use_refuted.

(* Non-vacuity: strict class B(A) in a hierarchy with a sibling; on B: cab_ = Int accepted, c_ = Str
   accepted, c_ again rejected, explicit cq = ReadOnly accepted, a wildcard declared in the body rejected;
   then a history: cabx is an Int, cx a Str, cq write-once, cz still rejected by the strict default *)
Example runtime_declarations_nontrivial :
  let pre := roots ++ [mkClass [([100; 95], PEvent None)] [1%nat]] in
  let cd := mkClass [([101; 95], PAny 5)] [3%nat] in
  let post := [mkClass [] [3%nat]] in
  let adds := [([99; 97; 98; 95], PTyped VInt 7); ([99; 95], PTyped VStr 102); ([99; 95], PDisallow);
               ([99; 113], PReadOnly VUndef); ([101; 95], PDisallow)] in
  let hh := pre ++ cd :: post in
  let ph := class_phase hh 4 (tables hh) hh adds in
  let t := tabs_nth (fst ph) 4 in
  let ops := [OGet [99; 97; 98; 120]; OSet [99; 97; 98; 120] 101; OGet [99; 120]; OSet [99; 113] 1; OSet [99; 113] 2;
              OGet [122]; OSet [100; 120] 1; OGet [101; 120]] in
  plain_t (tabs_nth (tables hh) 4) = true /\
  clean_run (snd t) (init_state (fst t)) ops = true /\
  map (fun e => length (c_decls e)) (snd ph) = [3; 1; 2; 1; 4; 0]%nat /\
  map (fun x => o_out (snd x)) (run (snd t) (init_state (fst t)) ops) =
  [Val 7; Raise TraitError; Val 102; Done; Raise TraitError; Raise AttributeError; Done; Val 5].
Proof. vm_compute. repeat split; reflexivity. Qed.


(* add_class_trait on the object's own class INTERLEAVED with the object's operations, any order and
   number ([orun]: the object and the prefix list of its class; [law_hist_o]: the law with the
   class-level rule recomputed from the hierarchy after every accepted call).  Hypothesis
   [oclean_run] (boolean, evaluated along the run): finding 1, Map/List traits, and the cached-name
   finding are excluded — an accepted run-time wildcard must not match a name already cached in the
   class dictionary or stored in the object unless that name is declared, governed by an instance
   trait, or a __x__ name; an accepted explicit name must not already hold a value unless its trait
   stores values.  ([runtime_wildcard_after_use_refuted] shows the exclusion is needed.) *)
Theorem law_holds_on_interleaved_class_operations :
  forall pre cd post xs i,
    let hh := pre ++ cd :: post in
    let k := length pre in
    let t := tabs_nth (tables hh) k in
    plain_t t = true ->
    oclean_run k (init_state (fst t), snd t) hh xs = true ->
    law_hist_o k hh i l_init (orun (init_state (fst t), snd t) xs) = [].
Proof. intros pre cd post xs i. exact (interleaved_class_ops _ _ xs i (mid_lt pre cd post)). Qed.
Print Assumptions law_holds_on_interleaved_class_operations.

(* Non-vacuity: HasTraits-derived class with a declared wildcard; use; add a longer and a shorter wildcard;
   use names matching both / one; add an explicit write-once name; a rejected repetition; a late
   wildcard for names not touched so far; uses in between *)
Example interleaved_class_operations_nontrivial :
  let hh := roots ++ [mkClass [([100; 95], PTyped VInt 7)] [0%nat]] in
  let t := tabs_nth (tables hh) 3 in
  let xs := [OObj (OSet [122] 1); OObj (OGet [100; 120]); OCls [99; 97; 98; 95] (PTyped VInt 7);
             OCls [99; 95] (PTyped VStr 102); OObj (OGet [99; 97; 98; 120]); OObj (OSet [99; 97; 98; 121] 101);
             OObj (OGet [99; 120]); OCls [99; 113] (PReadOnly VUndef); OObj (OSet [99; 113] 1); OObj (OSet [99; 113] 2);
             OCls [99; 95] PDisallow; OObj (OGet [122]); OCls [101; 95] (PEvent None); OObj (OGet [101; 120])] in
  plain_t t = true /\
  oclean_run 3 (init_state (fst t), snd t) hh xs = true /\
  map (fun x => o_out (snd x)) (orun (init_state (fst t), snd t) xs) =
  [Done; Val 7; Done; Done; Val 7; Raise TraitError; Val 102; Done; Done; Raise TraitError; Raise TraitError;
   Val 1; Done; Raise AttributeError].
Proof. vm_compute. repeat split; reflexivity. Qed.

(* ... and the same for the runs the checker evaluates (CorrT.step_t on the tables of all classes) *)
Theorem law_holds_on_interleaved_class_operation_runs :
  forall pre cd post xs i,
    let hh := pre ++ cd :: post in
    let k := length pre in
    let t := tabs_nth (tables hh) k in
    plain_t t = true ->
    oclean_run k (init_state (fst t), snd t) hh xs = true ->
    law_hist_ta [k] hh i [l_init] (run_t hh [k] (tables hh, [([], [])]) (map (top_of k) xs)) = [].
Proof. intros pre cd post xs i. exact (interleaved_class_ops_run _ _ xs i (mid_lt pre cd post)). Qed.
Print Assumptions law_holds_on_interleaved_class_operation_runs.

(* Subclasses.  [Ext v v' n p]: the declarative tables v' are v with the declaration (n -> p) added
   if absent (explicit name or wildcard).  An accepted add_class_trait extends the declarative
   tables of the class itself; the extension is inherited through the body of every class that has
   that class as its single base; and _add_class_trait(is_subclass=True) keeps a subclass's model
   tables in agreement with the extended declarative tables. *)
Theorem accepted_add_class_trait_extends_the_class :
  forall V cd n p, plainp p = true ->
    (if ends_us n then amem (removelast n) (snd (vis_class V cd)) else amem n (fst (vis_class V cd))) = false ->
    Ext (vis_class V cd) (vis_class V (mkClass (c_decls cd ++ [(n, p)]) (c_bases cd))) n p.
Proof. exact Ext_own. Qed.
Print Assumptions accepted_add_class_trait_extends_the_class.

Theorem runtime_declaration_is_inherited_by_single_base_subclass :
  forall V V' cd b n p, c_bases cd = [b] ->
    Ext (vis_nth V b) (vis_nth V' b) n p -> assoc [] (snd (vis_nth V b)) <> None ->
    Ext (vis_class V cd) (vis_class V' cd) n p.
Proof. exact Ext_inherit. Qed.
Print Assumptions runtime_declaration_is_inherited_by_single_base_subclass.

Theorem add_class_trait_on_subclass_agrees_with_inherited_declaration :
  forall t v v' n p t', plainp p = true ->
    Agr t v -> Ext v v' n p -> add_class1 true t n p = Some t' -> Agr t' v'.
Proof. exact Agr_add_sub. Qed.
Print Assumptions add_class_trait_on_subclass_agrees_with_inherited_declaration.

(* ... and the hierarchy-level theorem.  [Path hh k j]: class j is reached from class k through
   classes that each have exactly one base (any hierarchy around them).  Any sequence of
   add_class_trait calls on the BASE class k (accepted or rejected, explicit names and wildcards),
   then every clean history on a fresh instance of the SUBCLASS j: the law holds with the rule of j
   computed from the hierarchy with the accepted declarations appended to the body of k, i.e.
   inherited by j unless j or a class in between defines the name itself. *)
Theorem law_holds_for_subclass_instances_after_runtime_declarations :
  forall hh k j adds ops i,
    Path hh k j -> j <> k ->
    plain_t (tabs_nth (tables hh) k) = true -> plain_t (tabs_nth (tables hh) j) = true ->
    forallb (fun e => plainp (snd e)) adds = true ->
    let ph := class_phase hh k (tables hh) hh adds in
    let t := tabs_nth (fst ph) j in
    clean_run (snd t) (init_state (fst t)) ops = true ->
    law_hist (class_rule (vis_nth (visible (snd ph)) j)) i l_init (run (snd t) (init_state (fst t)) ops) = [].
Proof.
  intros hh k j adds ops i HP Hne.
  exact (path_runtime_declarations hh k j adds ops i HP (Path_lt hh k j HP Hne)).
Qed.
Print Assumptions law_holds_for_subclass_instances_after_runtime_declarations.

Theorem runtime_declaration_reaches_the_whole_single_base_path :
  forall hh k n p, (k < length hh)%nat -> plainp p = true ->
    (if ends_us n then amem (removelast n) (snd (vis_nth (visible hh) k)) else amem n (fst (vis_nth (visible hh) k))) = false ->
    forall j, Path hh k j -> Ext (vis_nth (visible hh) j) (vis_nth (visible (app_decl hh k (n, p))) j) n p.
Proof. intros hh k n p Hk Hp Habs j HP. apply (Ext_reach hh k n p Hk Hp Habs j), Path_Reach, HP. Qed.
Print Assumptions runtime_declaration_reaches_the_whole_single_base_path.

(* Non-vacuity (the second half of the C13-t2 demo, one level deeper): Base(HasStrictTraits) declares
   tr_ = ReadOnly; Derived(Base); Leaf(Derived) declares z = Any(5).  On Base at run time: t_ = Int (accepted),
   tr_ = Disallow (rejected), tq = Constant(3) (accepted), z = Event (accepted on Base, kept out of Leaf).
   On a Leaf instance: trx is still write-once, tc is an Int, tq the constant, z Leaf's own, w rejected. *)
Example subclass_runtime_declarations_nontrivial :
  let hh := roots ++ [mkClass [([116; 114; 95], PReadOnly VUndef)] [1%nat]; mkClass [] [3%nat]; mkClass [([122], PAny 5)] [4%nat]] in
  let adds := [([116; 95], PTyped VInt 7); ([116; 114; 95], PDisallow); ([116; 113], PConstant 3); ([122], PEvent None)] in
  let ph := class_phase hh 3 (tables hh) hh adds in
  let t := tabs_nth (fst ph) 5 in
  let ops := [OSet [116; 114; 120] 101; OSet [116; 114; 120] 102; OGet [116; 114; 120]; OGet [116; 99]; OSet [116; 99] 101;
              OGet [116; 113]; OGet [122]; OGet [119]] in
  Path hh 3 5 /\
  plain_t (tabs_nth (tables hh) 3) = true /\ plain_t (tabs_nth (tables hh) 5) = true /\
  clean_run (snd t) (init_state (fst t)) ops = true /\
  map (fun e => length (c_decls e)) (snd ph) = [3; 1; 2; 4; 0; 1]%nat /\
  map (fun x => o_out (snd x)) (run (snd t) (init_state (fst t)) ops) =
  [Done; Raise TraitError; Val 101; Val 7; Raise TraitError; Val 3; Val 5; Raise AttributeError].
Proof.
  split.
  - apply (PS _ _ 4%nat 5%nat); [apply (PS _ _ 3%nat 4%nat); [constructor| | |]| | |]; simpl; try lia; reflexivity.
  - vm_compute. repeat split; reflexivity.
Qed.

(* The life of a mapped trait interleaved with operations on other names
   (coq/C13/MapInterleave.v).  The hypothesis is one boolean over the run, [iclean]: outside a
   life any clean operation, or add_trait(n, Map(m, d)) with d a key of m, which opens a life;
   inside the life of n: remove_trait(n) closes it, get/set/del of n and n_ are unrestricted,
   and every other operation (get, set, del, add_trait of a plain trait, remove_trait) must be
   clean and on a name k "far" from the pair: k, k_ and (when k ends in _) k without its last
   character are all different from n and n_.  Lives may follow each other in any number, each
   with its own n, m, d. *)

Theorem law_holds_on_mapped_lives_interleaved_with_other_names :
  forall (h : list classdef) (c : nat) (os : list op) (i : Z),
    plain_class h c = true ->
    let t := class_tables h c in
    iclean (snd t) None (init_state (fst t)) os = true ->
    law_hist (spec_rule h c) i l_init (run (snd t) (init_state (fst t)) os) = [].
Proof. exact interleaved_lives_spec. Qed.
Print Assumptions law_holds_on_mapped_lives_interleaved_with_other_names.

(* the same under the MRO reading the checker uses, for single-inheritance hierarchies *)
Theorem law_holds_on_interleaved_mapped_lives_under_mro_reading :
  forall (h : list classdef) (c : nat) (os : list op) (i : Z),
    single h = true -> (c < length (roots ++ h))%nat ->
    plain_class h c = true ->
    let t := class_tables h c in
    iclean (snd t) None (init_state (fst t)) os = true ->
    law_hist (mro_rule h c) i l_init (run (snd t) (init_state (fst t)) os) = [].
Proof. exact interleaved_lives_single. Qed.
Print Assumptions law_holds_on_interleaved_mapped_lives_under_mro_reading.

(* the general form: from any state of the invariant (outside a life: the plain invariant; inside
   the life of n: the plain invariant of the object with n and n_ erased, the pair installed, the
   law's bookkeeping in agreement) *)
Theorem law_holds_on_interleaved_mapped_lives_from_any_invariant_state :
  forall ct0 pt (os : list op) (md : life) s ls (i : Z),
    KI ct0 pt md s ls -> iclean pt md s os = true ->
    law_hist (model_rule ct0 pt) i ls (run pt s os) = [].
Proof. exact interleaved_lives. Qed.
Print Assumptions law_holds_on_interleaved_mapped_lives_from_any_invariant_state.

(* the hypothesis is a generalisation: every clean history on plain traits satisfies it *)
Theorem clean_histories_are_interleaved_histories :
  forall pt os s, clean_run pt s os = true -> iclean pt None s os = true.
Proof. exact iclean_clean_run. Qed.
Print Assumptions clean_histories_are_interleaved_histories.

(* the step behind it: during the life of n, a clean operation on a far name passes the
   law's step check and preserves the in-life invariant *)
Theorem far_operation_during_a_mapped_life_obeys_the_law :
  forall ct0 pt n m d s ls o,
    K ct0 pt n m d s ls -> far n (op_name o) = true -> clean_step s o = true ->
    law_step (model_rule ct0 pt) ls o (snd (step pt s o)) = [] /\
    K ct0 pt n m d (fst (step pt s o)) (law_next (model_rule ct0 pt) ls o (snd (step pt s o))).
Proof. exact K_far. Qed.
Print Assumptions far_operation_during_a_mapped_life_obeys_the_law.

(* and the reason: on a far name whose traits are plain the model's step commutes with erasing
   the pair from the object, and so does the law's bookkeeping *)
Theorem far_step_commutes_with_erasing_the_pair :
  forall n pt s o,
    far n (op_name o) = true -> plain_at pt s (op_name o) ->
    (forall k q, o = OAdd k q -> plainp q = true) ->
    step pt (MapInterleave.erase n s) o = (MapInterleave.erase n (fst (step pt s o)), snd (step pt s o)).
Proof. exact step_far. Qed.
Print Assumptions far_step_commutes_with_erasing_the_pair.

Theorem far_law_update_commutes_with_erasing_the_pair :
  forall n (crule : name -> rule) ls o ob,
    far n (op_name o) = true ->
    (forall k q, o = OAdd k q -> plainp q = true) ->
    (forall p, found_trait crule ls (op_name o) = Some p -> plainp p = true) ->
    lerase n (law_next crule ls o ob) = law_next crule (lerase n ls) o ob.
Proof. exact law_next_far. Qed.
Print Assumptions far_law_update_commutes_with_erasing_the_pair.

(* opening and closing a life between states of the two invariants *)
Theorem add_trait_of_a_mapped_trait_opens_a_life :
  forall ct0 pt n m d s ls, Inv ct0 pt s ls ->
    law_step (model_rule ct0 pt) ls (OAdd n (PMap m d)) (snd (step pt s (OAdd n (PMap m d)))) = [] /\
    K ct0 pt n m d (fst (step pt s (OAdd n (PMap m d))))
      (law_next (model_rule ct0 pt) ls (OAdd n (PMap m d)) (snd (step pt s (OAdd n (PMap m d))))).
Proof. exact K_start. Qed.
Print Assumptions add_trait_of_a_mapped_trait_opens_a_life.

Theorem remove_trait_closes_a_life_into_the_plain_invariant :
  forall ct0 pt n m d s ls, K ct0 pt n m d s ls ->
    law_step (model_rule ct0 pt) ls (ORem n) (snd (step pt s (ORem n))) = [] /\
    Inv ct0 pt (fst (step pt s (ORem n))) (law_next (model_rule ct0 pt) ls (ORem n) (snd (step pt s (ORem n)))).
Proof. exact K_end. Qed.
Print Assumptions remove_trait_closes_a_life_into_the_plain_invariant.

(* Non-vacuity: strict class with the wildcard a_; during the life of "ab" (Map({1: 11, 2: 12}))
   the object gets add_trait("c"), writes, reads and deletes of "c", add_trait("d", Int),
   remove_trait("c"); then remove_trait("ab"); then a life of "c" during which "ab" is used. *)
Example interleaved_lives_nontrivial :
  let t := class_tables [mkClass [([97; 95], PTyped VInt 7)] [1%nat]] 3 in
  let os := [OSet [99] 4; OAdd [99] (PAny 5); OSet [99] 6;
             OAdd [97; 98] (PMap [(1, 11); (2, 12)] 1);
             OGet [97; 98; 95]; OSet [99] 7; OSet [97; 98] 2; OAdd [100] (PTyped VInt 0);
             OGet [100]; OSet [100] 101; ODel [99]; OGet [97; 98; 95]; OGet [99; 95]; ORem [99]; OGet [99];
             OSet [97; 98] 5; OSet [97; 98; 95] 9; ODel [97; 98];
             ORem [97; 98];
             OGet [97; 98]; OSet [97; 98; 95] 3;
             OAdd [99] (PMap [(2, 3); (6, 5)] 6);
             OSet [97; 98] 1; OGet [99; 95]; OGet [97; 98; 95]; OSet [99] 2; ODel [100]; OGet [99; 95];
             ORem [99]; OGet [99]] in
  iclean (snd t) None (init_state (fst t)) os = true /\
  length (run (snd t) (init_state (fst t)) os) = 30%nat.
Proof. vm_compute. split; reflexivity. Qed.

(* add_class_trait on a base class and instances of subclasses
   with SEVERAL bases (multiple inheritance, diamonds, mixins; coq/C13/ClassOpDag.v).
   [Reach hh k n j]: class j descends from class k; every base of every class on the way either
   descends from k in the same manner or has no ancestor k at all ([Unaff]); and at every class on
   the way the name n is new (absent from the class's declarative pair), or defined in the class's
   own body, or the class has exactly one base (so single-inheritance chains always qualify).  [phase_ok] asks this for each ACCEPTED call, in the hierarchy as declared so far. *)

Theorem law_holds_for_multiple_inheritance_subclass_instances_after_runtime_declarations :
  forall hh k j adds ops i,
    (k < j)%nat -> (j < length hh)%nat ->
    phase_ok hh k j (tables hh) hh adds ->
    plain_t (tabs_nth (tables hh) k) = true -> plain_t (tabs_nth (tables hh) j) = true ->
    forallb (fun e => plainp (snd e)) adds = true ->
    let ph := class_phase hh k (tables hh) hh adds in
    let t := tabs_nth (fst ph) j in
    clean_run (snd t) (init_state (fst t)) ops = true ->
    law_hist (class_rule (vis_nth (visible (snd ph)) j)) i l_init (run (snd t) (init_state (fst t)) ops) = [].
Proof. intros hh k j adds ops i Hkj. exact (dag_runtime_declarations hh k j adds ops i (Nat.lt_le_incl _ _ Hkj)). Qed.
Print Assumptions law_holds_for_multiple_inheritance_subclass_instances_after_runtime_declarations.

(* the declarative side: one class with any number of bases ... *)
Theorem runtime_declaration_is_inherited_through_several_bases :
  forall V V' cd n p,
    (forall b, In b (c_bases cd) -> Ext (vis_nth V b) (vis_nth V' b) n p \/ vis_nth V b = vis_nth V' b) ->
    (exists b, In b (c_bases cd) /\ Ext (vis_nth V b) (vis_nth V' b) n p) ->
    vis_has (vis_class V cd) n = false \/ own_has cd n = true ->
    Ext (vis_class V cd) (vis_class V' cd) n p.
Proof. exact Ext_multi. Qed.
Print Assumptions runtime_declaration_is_inherited_through_several_bases.

(* ... the whole set of descendants ... *)
Theorem runtime_declaration_reaches_every_descendant :
  forall hh k n p, (k < length hh)%nat -> plainp p = true ->
    (if ends_us n then amem (removelast n) (snd (vis_nth (visible hh) k)) else amem n (fst (vis_nth (visible hh) k))) = false ->
    forall j, Reach hh k n j -> Ext (vis_nth (visible hh) j) (vis_nth (visible (app_decl hh k (n, p))) j) n p.
Proof. exact Ext_reach. Qed.
Print Assumptions runtime_declaration_reaches_every_descendant.

(* ... and the classes that do not descend from k keep their declarative pair *)
Theorem runtime_declaration_leaves_unrelated_classes_alone :
  forall hh k d, (k < length hh)%nat ->
    forall j, Unaff hh k j -> vis_nth (visible (app_decl hh k d)) j = vis_nth (visible hh) j.
Proof. exact unaff_vis. Qed.
Print Assumptions runtime_declaration_leaves_unrelated_classes_alone.
