(* C13 — a trait_added listener that declares traits lazily (C13-n2):
   direct statements about Model.step_l. *)
From Coq Require Import ZArith List Bool Lia.
From TV Require Import Common.Harness C13.Model C13.Law C13.Corr C13.Proofs.
From TV Require C13.CorrL.
Import ListNotations.
Open Scope Z_scope.

(* without a listener step_l is step: everything proved of step applies *)
Lemma step_l_nil : forall pt s o, step_l [] pt s o = step pt s o.
Proof. reflexivity. Qed.

(* names the listener does not cover, and names already known to the object or its class *)
Lemma step_l_not_covered : forall lst pt s o, listener lst (op_name o) = None -> step_l lst pt s o = step pt s o.
Proof. intros lst pt s o H. unfold step_l. rewrite H. reflexivity. Qed.
Lemma step_l_known : forall lst pt s o,
  amem (op_name o) (s_itd s) || amem (op_name o) (s_ctd s) = true -> step_l lst pt s o = step pt s o.
Proof. intros lst pt s o H. unfold step_l. destruct (listener lst (op_name o)); auto. rewrite H. reflexivity. Qed.

Section First.
  Variable lst : list (name * policy).
  Variable pt : ptab.
  Variable s : state.
  Variable n : name.
  Variable lp : policy.
  Hypothesis covered : listener lst n = Some lp.
  Hypothesis fresh_i : assoc n (s_itd s) = None.
  Hypothesis fresh_c : assoc n (s_ctd s) = None.

  (* the state in which the access continues: resolved trait cached, listener's trait installed *)
  Definition after_listener (s' : state) : state := mkState (s_ctd s') (aset n lp (s_itd s')) (s_od s').

  Lemma name_unknown : amem n (s_itd s) || amem n (s_ctd s) = false.
  Proof. unfold amem. rewrite fresh_i, fresh_c. reflexivity. Qed.

  (* first touch = assignment: it is the assignment under the listener's instance trait *)
  Lemma first_set : forall v p s', prefix_trait pt s n true = inl (p, s') ->
    step_l lst pt s (OSet n v) = setattr_m pt (after_listener s') n lp v.
  Proof.
    intros v p s' H. unfold step_l. cbn [op_name]. rewrite covered, name_unknown, H.
    simpl step. unfold lookup_set. cbn [s_itd after_listener]. rewrite assoc_aset, name_eqb_refl. reflexivity.
  Qed.
  Lemma first_del : forall p s', prefix_trait pt s n true = inl (p, s') ->
    step_l lst pt s (ODel n) = delattr (after_listener s') n lp.
  Proof.
    intros p s' H. unfold step_l. cbn [op_name]. rewrite covered, name_unknown, H.
    simpl step. unfold lookup_set. cbn [s_itd]. rewrite assoc_aset, name_eqb_refl. reflexivity.
  Qed.
  (* first touch = read (nothing stored): the read under the listener's instance trait *)
  Lemma first_get : forall p s', assoc n (s_od s) = None -> prefix_trait pt s n false = inl (p, s') ->
    s_od s' = s_od s ->
    step_l lst pt s (OGet n) = getattr_m pt (after_listener s') n lp.
  Proof.
    intros p s' Ho H Hod. unfold step_l. cbn [op_name]. unfold amem at 3. rewrite covered, name_unknown, Ho, H.
    assert (Ho' : assoc n (s_od s') = None) by (rewrite Hod; exact Ho).
    simpl step. unfold get_with. cbn [s_od s_itd]. rewrite Ho', assoc_aset, name_eqb_refl. reflexivity.
  Qed.

  (* the demo of C13-n2, for every class, object state and undeclared name:
     an invalid first write is rejected by the Int / typed trait the listener installs *)
  Lemma first_write_invalid_rejected : forall k d v p s',
    lp = PTyped k d -> prefix_trait pt s n true = inl (p, s') -> v <> VUndef -> validate k v = None ->
    o_out (snd (step_l lst pt s (OSet n v))) = Raise TraitError /\
    assoc n (s_itd (fst (step_l lst pt s (OSet n v)))) = Some lp /\
    assoc n (s_od (fst (step_l lst pt s (OSet n v)))) = assoc n (s_od s).
  Proof.
    intros k d v p s' El H Hv Hk. rewrite (first_set v p s' H). unfold after_listener. rewrite El. cbn [setattr_m setattr].
    apply Z.eqb_neq in Hv. rewrite Hv, Hk. cbn. rewrite assoc_aset, name_eqb_refl.
    rewrite (proj1 (prefix_trait_keeps _ _ _ _ _ _ H)). auto.
  Qed.
  (* a Constant installed by the listener is not overwritten by the first write *)
  Lemma first_write_to_constant_rejected : forall c v p s',
    lp = PConstant c -> prefix_trait pt s n true = inl (p, s') ->
    o_out (snd (step_l lst pt s (OSet n v))) = Raise TraitError /\
    assoc n (s_od (fst (step_l lst pt s (OSet n v)))) = assoc n (s_od s).
  Proof.
    intros c v p s' El H. rewrite (first_set v p s' H). unfold after_listener. rewrite El. cbn.
    rewrite (proj1 (prefix_trait_keeps _ _ _ _ _ _ H)). auto.
  Qed.
  (* a first read yields the default / the constant of the listener's trait *)
  Lemma first_read_is_listener_default : forall p s', assoc n (s_od s) = None ->
    prefix_trait pt s n false = inl (p, s') ->
    (forall k d, lp = PTyped k d -> o_out (snd (step_l lst pt s (OGet n))) = Val d) /\
    (forall c, lp = PConstant c -> o_out (snd (step_l lst pt s (OGet n))) = Val c).
  Proof.
    intros p s' Ho H. rewrite (first_get p s' Ho H (proj1 (prefix_trait_keeps _ _ _ _ _ _ H))).
    unfold after_listener. split; intros ? ? E || intros ? E; rewrite E; reflexivity.
  Qed.
End First.

Fixpoint run_l (lst : list (name * policy)) (pt : ptab) (s : state) (ops : list op) : list (op * obs) :=
  match ops with
  | [] => []
  | o :: r => let '(s', ob) := step_l lst pt s o in (o, ob) :: run_l lst pt s' r
  end.

(* without a listener the law for listener classes adopts nothing *)
Lemma adopt_nil : forall ls n k b, C13.CorrL.adopt [] ls n k b = ls.
Proof. reflexivity. Qed.
