(* C13 — the class-operation theorems in the checker's own terms: CorrT.law_codes on the model's
   runs.  CorrT.law_tag_t judges by mro_rule on the user classes with CorrT.add_decl; on
   single-inheritance hierarchies it is empty exactly when law_hist_ta on roots ++ h is. *)
From Coq Require Import ZArith List Bool Lia Sorted.
From TV Require Import Common.Harness C13.Model C13.Law C13.Corr C13.CorrT C13.Proofs C13.MapProofs C13.ClassOpProofs C13.ClassOpInd C13.ClassOpSub C13.ClassOpDag C13.ClassOpSubRun C13.ClassOpGlobal C13.ClassOpChain.
Import ListNotations.
Open Scope Z_scope.

Lemma forallb_upd : forall {A} (f : A -> bool) l i x, forallb f l = true -> f x = true -> forallb f (upd l i x) = true.
Proof.
  induction l as [|y r IH]; intros [|i] x H Hx; simpl in *; auto; apply andb_true_iff in H; destruct H as [H1 H2];
    apply andb_true_iff; auto.
Qed.

Lemma single_add_decl : forall h k n p, single h = true -> single (add_decl h k n p) = true.
Proof.
  intros h k n p H. unfold add_decl. destruct (nth_error h (k - length roots)) as [cd|] eqn:E; [|exact H].
  destruct (Nat.leb (length roots) k); [|exact H].
  unfold single in *. apply forallb_upd; [exact H|]. cbn [c_bases].
  rewrite forallb_forall in H. apply (H cd). apply (nth_error_In _ _ E).
Qed.

Lemma length_add_decl : forall h k n p, length (add_decl h k n p) = length h.
Proof.
  intros h k n p. unfold add_decl. destruct (nth_error h (k - length roots)); [|reflexivity].
  destruct (Nat.leb (length roots) k); [apply upd_length|reflexivity].
Qed.

(* class calls only on user classes: index at least 3 = length roots (the roots are never extended) *)
Fixpoint user_calls (hist : list (top * obs)) : bool :=
  match hist with
  | [] => true
  | (TClass k _ _, _) :: r => Nat.leb 3 k && user_calls r
  | _ :: r => user_calls r
  end.

Lemma law_tag_t_ta : forall hist objs h i lss,
  single h = true -> forallb (fun k => Nat.ltb k (length (roots ++ h))) objs = true ->
  user_calls hist = true ->
  law_tag_t objs h i lss hist = [] <-> law_hist_ta objs (roots ++ h) i lss hist = [].
Proof.
  induction hist as [|[t ob] r IH]; intros objs h i lss Hs Ho Hu; [simpl; tauto|].
  destruct t as [j o|k n p].
  - cbn [law_tag_t law_hist_ta]. cbn [user_calls] in Hu.
    set (k := nth j objs O).
    assert (Hk : (k < length (roots ++ h))%nat).
    { destruct (nth_in_or_default j objs O) as [Hin|Hd].
      - rewrite forallb_forall in Ho. apply Nat.ltb_lt. apply (Ho _ Hin).
      - unfold k. rewrite Hd. rewrite app_length. simpl. lia. }
    assert (E : forall m, mro_rule h k m = class_rule (vis_nth (visible (roots ++ h)) k) m)
      by (intro m; apply (mro_spec_single h k m Hs Hk)).
    rewrite <- (law_step_ext _ _ E), <- (law_next_ext _ _ E).
    destruct (law_step (mro_rule h k) (nth j lss l_init) o ob) as [|z l] eqn:El.
    + simpl. apply IH; auto.
    + split; intro H; exfalso.
      * destruct (rule_eqb (mro_rule h k (op_name o)) (spec_rule h k (op_name o))); simpl in H; discriminate.
      * simpl in H. discriminate.
  - cbn [law_tag_t law_hist_ta]. cbn [user_calls] in Hu. apply andb_true_iff in Hu. destruct Hu as [H3 Hu].
    apply Nat.leb_le in H3.
    destruct (o_out ob); try (apply IH; auto).
    rewrite (app_decl_roots h k n p H3). apply IH; auto.
    + apply single_add_decl. exact Hs.
    + rewrite app_length, length_add_decl, <- app_length. exact Ho.
Qed.

Lemma run_t_user_calls : forall hh objs ts st,
  forallb (fun t => match t with TClass k _ _ => Nat.leb 3 k | _ => true end) ts = true ->
  user_calls (run_t hh objs st ts) = true.
Proof.
  intros hh objs. induction ts as [|t r IH]; intros st H; [reflexivity|].
  simpl in H. apply andb_true_iff in H. destruct H as [H1 H2].
  cbn [run_t]. destruct (step_t hh objs st t) as [st' ob]. destruct t; cbn [user_calls]; [apply IH; exact H2|].
  apply andb_true_iff. split; [exact H1|apply IH; exact H2].
Qed.

(* the checker's law function on the model's runs: single-inheritance user classes h, any number of
   fresh objects of any classes, object operations and add_class_trait calls on any user classes *)
Lemma checker_law_codes_on_model_runs : forall h objs ts,
  single h = true -> chainb (roots ++ h) = true ->
  forallb plain_t (tables (roots ++ h)) = true ->
  forallb (fun c => Nat.ltb c (length (roots ++ h))) objs = true ->
  forallb (fun t => match t with TClass k _ _ => Nat.leb 3 k | _ => true end) ts = true ->
  tokb (roots ++ h) objs (tables (roots ++ h), map (fun _ => ([], [])) objs) (roots ++ h) ts = true ->
  law_codes (h, objs, run_t (roots ++ h) objs (tables (roots ++ h), map (fun _ => ([], [])) objs) ts) = [].
Proof.
  intros h objs ts Hs Hch HP Ho Hu Hok. unfold law_codes.
  apply (law_tag_t_ta _ objs h 0 _ Hs Ho (run_t_user_calls _ _ ts _ Hu)).
  apply chain_law; assumption.
Qed.
