(* C13 — the law on every history of a class with a trait_added listener (Model.step_l),
   by induction with the plain-trait invariant of Proofs.v. *)
From Coq Require Import ZArith List Bool Lia.
From TV Require Import Common.Harness C13.Model C13.Law C13.Corr C13.Proofs C13.ListenerProofs.
From TV Require C13.CorrL.
Import ListNotations.
Open Scope Z_scope.

Notation inst_code := C13.CorrL.inst_code.
Notation inst_kind := C13.CorrL.inst_kind.
Notation adopt := C13.CorrL.adopt.
Notation is_access_op := C13.CorrL.is_access_op.

(* one object: the history with the code of the instance trait of the name after each step *)
Fixpoint run_lk (lst : list (name * policy)) (pt : ptab) (s : state) (ops : list op) : list (op * obs * option Z) :=
  match ops with
  | [] => []
  | o :: r => let '(s', ob) := step_l lst pt s o in
              (o, ob, inst_kind (s_itd s') (op_name o)) :: run_lk lst pt s' r
  end.

(* the law for listener classes (CorrL.law_tag_l without the re-labelling), one object *)
Fixpoint law_hist_l (lst : list (name * policy)) (crule : name -> rule) (i : Z) (ls : lstate)
                    (h : list (op * obs * option Z)) : list Z :=
  match h with
  | [] => []
  | (o, ob, k) :: r =>
      let me := if is_access_op o then adopt lst ls (op_name o) k true else ls in
      let nxt := adopt lst (law_next crule me o ob) (op_name o) k false in
      map (fun c => 100 * i + c) (law_step crule me o ob) ++ law_hist_l lst crule (i + 1) nxt r
  end.

Lemma vkind_eqb_eq : forall a b, vkind_eqb a b = true -> a = b.
Proof. intros [] []; simpl; congruence. Qed.
Lemma policy_eqb_plain_eq : forall q p, plainp q = true -> policy_eqb q p = true -> q = p.
Proof.
  intros q p Hq H. destruct q as [ |d| |d|c|k|k d|m d|m| ]; try discriminate Hq;
    destruct p as [ |e| |e|c2|k2|k2 e|m2 e|m2| ]; try destruct k; try destruct k2;
    simpl in H; try discriminate H; auto;
    try (apply Z.eqb_eq in H; congruence);
    try (apply vkind_eqb_eq in H; congruence);
    try (apply andb_true_iff in H; destruct H as [H1 H2]; try discriminate H1; apply Z.eqb_eq in H2; congruence).
Qed.

Section LInd.
  Variable ct0 : ctab.
  Variable pt : ptab.
  Variable lst : list (name * policy).
  Hypothesis lst_plain : forall n lp, listener lst n = Some lp -> plainp lp = true.
  Notation crule := (model_rule ct0 pt).
  Notation Inv := (Inv ct0 pt).

  (* excluded: the first listed finding (a value-less trait over a stored value), also for the
     trait the listener installs; and an add_trait whose trait the listener replaces by another one
     that the observation (handler class + default) cannot tell from it *)
  Definition lclean (s : state) (o : op) : bool :=
    clean_step s o &&
    match listener lst (op_name o) with
    | None => true
    | Some lp =>
        if amem (op_name o) (s_itd s) || amem (op_name o) (s_ctd s) then true
        else (storing (RPol lp) || negb (amem (op_name o) (s_od s))) &&
             match o with
             | OAdd _ q => policy_eqb q lp || negb (Z.eqb (inst_code q) (inst_code lp))
             | _ => true
             end
    end.
  Fixpoint lclean_run (s : state) (ops : list op) : bool :=
    match ops with
    | [] => true
    | o :: r => lclean s o && lclean_run (fst (step_l lst pt s o)) r
    end.

  Lemma inst_kind_aset : forall itd n p, inst_kind (aset n p itd) n = Some (inst_code p).
  Proof. intros. unfold C13.CorrL.inst_kind. rewrite assoc_aset, name_eqb_refl. reflexivity. Qed.

  Lemma adopt_same : forall ls n k, k = inst_kind (l_itd ls) n -> adopt lst ls n k false = ls.
  Proof.
    intros ls n k E. unfold C13.CorrL.adopt. destruct (listener lst n) as [lp|]; auto.
    destruct k as [kk|]; auto. rewrite <- E. simpl. rewrite Z.eqb_refl. simpl.
    rewrite andb_false_r. reflexivity.
  Qed.
  Lemma adopt_absent_none : forall ls n, adopt lst ls n None true = ls.
  Proof. intros. unfold C13.CorrL.adopt. destruct (listener lst n); reflexivity. Qed.
  Lemma adopt_present : forall ls n k, amem n (l_itd ls) = true -> adopt lst ls n k true = ls.
  Proof.
    intros ls n k H. unfold C13.CorrL.adopt. destruct (listener lst n); auto. destruct k; auto.
    rewrite H. simpl. rewrite andb_false_r. reflexivity.
  Qed.

  (* caching the resolved trait keeps the invariant *)
  Lemma Inv_prefix_trait : forall s ls n b p s', Inv s ls ->
    assoc n (s_itd s) = None -> assoc n (s_ctd s) = None ->
    prefix_trait pt s n b = inl (p, s') -> Inv s' ls /\ s_itd s' = s_itd s /\ s_od s' = s_od s.
  Proof.
    intros s ls n b p s' HI Hi Hc H. destruct (prefix_trait_inl ct0 pt s ls n b p s' HI Hc H) as [_ Hx].
    split; [eapply Inv_ctd_ext; eauto|]. destruct Hx as (A & B & _). auto.
  Qed.

  Lemma aset_same : forall (l : list (name * policy)) n v, assoc n l = Some v -> aset n v l = l.
  Proof.
    induction l as [|[k w] r IH]; intros n v H; simpl in *; [discriminate|].
    destruct (name_eqb k n) eqn:E; [inversion H; reflexivity|]. rewrite IH; auto.
  Qed.

  (* one step of a listener class passes the law and keeps [Inv], with the bookkeeping adopting the listener's
     trait where the observed instance-trait code shows it (before an access, after any step) *)
  Definition Lgood (s : state) (ls : lstate) (o : op) : Prop :=
    let s' := fst (step_l lst pt s o) in
    let ob := snd (step_l lst pt s o) in
    let k := inst_kind (s_itd s') (op_name o) in
    let me := if is_access_op o then adopt lst ls (op_name o) k true else ls in
    law_step crule me o ob = [] /\ Inv s' (adopt lst (law_next crule me o ob) (op_name o) k false).

  (* the listener is not called: the plain step *)
  Lemma Lgood_plain : forall s ls o, step_l lst pt s o = step pt s o -> Inv s ls -> clean_step s o = true ->
    Lgood s ls o.
  Proof.
    intros s ls o E HI Hc. unfold Lgood. rewrite E.
    destruct (step_ok ct0 pt s ls o HI Hc) as [Hl Hn].
    assert (Eme : (if is_access_op o then adopt lst ls (op_name o) (inst_kind (s_itd (fst (step pt s o))) (op_name o)) true
                   else ls) = ls).
    { destruct (is_access_op o) eqn:Ea; auto.
      assert (Ha : is_access o = true) by (destruct o; try discriminate Ea; reflexivity).
      rewrite (step_itd_access pt s o Ha). unfold C13.CorrL.inst_kind.
      destruct (assoc (op_name o) (s_itd s)) as [p|] eqn:Ei.
      - apply adopt_present. unfold amem. rewrite (inv_itd _ _ _ _ HI), Ei. reflexivity.
      - apply adopt_absent_none. }
    rewrite Eme. split; auto. rewrite adopt_same; auto. rewrite (inv_itd _ _ _ _ Hn). reflexivity.
  Qed.

  (* first touch of a covered name by get / set / del: resolution, listener, access *)
  Lemma Lgood_fire : forall s ls o lp b p s1, Inv s ls -> is_access o = true ->
    listener lst (op_name o) = Some lp ->
    assoc (op_name o) (s_itd s) = None -> assoc (op_name o) (s_ctd s) = None ->
    storing (RPol lp) || negb (amem (op_name o) (s_od s)) = true ->
    prefix_trait pt s (op_name o) b = inl (p, s1) ->
    step_l lst pt s o = step pt (mkState (s_ctd s1) (aset (op_name o) lp (s_itd s1)) (s_od s1)) o ->
    Lgood s ls o.
  Proof.
    intros s ls o lp b p s1 HI Ha Hcov Hi Hc Hst Hp E. unfold Lgood. rewrite E.
    destruct (Inv_prefix_trait s ls _ b p s1 HI Hi Hc Hp) as (HI1 & Ei1 & Eo1).
    assert (Hst1 : storing (RPol lp) || negb (amem (op_name o) (s_od s1)) = true) by (rewrite Eo1; exact Hst).
    pose proof (Inv_set_itd ct0 pt s1 ls (op_name o) lp HI1 (lst_plain _ _ Hcov) Hst1) as HI2.
    set (s2 := mkState (s_ctd s1) (aset (op_name o) lp (s_itd s1)) (s_od s1)) in *.
    set (me2 := mkL (aset (op_name o) lp (l_itd ls)) (l_od ls)) in *.
    assert (Hc2 : clean_step s2 o = true) by (destruct o; try discriminate Ha; reflexivity).
    destruct (step_ok ct0 pt s2 me2 o HI2 Hc2) as [Hl Hn].
    assert (Ek : inst_kind (s_itd (fst (step pt s2 o))) (op_name o) = Some (inst_code lp)).
    { rewrite (step_itd_access pt s2 o Ha). unfold s2. simpl. apply inst_kind_aset. }
    rewrite Ek.
    assert (Eme : (if is_access_op o then adopt lst ls (op_name o) (Some (inst_code lp)) true else ls) = me2).
    { assert (Ea : is_access_op o = true) by (destruct o; try discriminate Ha; reflexivity). rewrite Ea.
      unfold C13.CorrL.adopt. rewrite Hcov, Z.eqb_refl. unfold amem. rewrite (inv_itd _ _ _ _ HI), Hi. simpl.
      unfold me2. rewrite (inv_itd _ _ _ _ HI). reflexivity. }
    rewrite Eme. split; auto. rewrite adopt_same; auto.
    rewrite (inv_itd _ _ _ _ Hn), Ek. reflexivity.
  Qed.

  (* first touch of a covered name by add_trait: the listener's trait replaces the one just added *)
  Lemma Lgood_add : forall s ls n q lp, Inv s ls -> clean_step s (OAdd n q) = true ->
    listener lst n = Some lp -> assoc n (s_itd s) = None -> assoc n (s_ctd s) = None ->
    storing (RPol lp) || negb (amem n (s_od s)) = true ->
    policy_eqb q lp || negb (Z.eqb (inst_code q) (inst_code lp)) = true ->
    Lgood s ls (OAdd n q).
  Proof.
    intros s ls n q lp HI Hc Hcov Hi Hcc Hst Hq. unfold Lgood.
    assert (E : step_l lst pt s (OAdd n q) =
                (mkState (s_ctd (fst (step pt s (OAdd n q)))) (aset n lp (s_itd (fst (step pt s (OAdd n q)))))
                         (s_od (fst (step pt s (OAdd n q)))), snd (step pt s (OAdd n q)))).
    { unfold step_l. cbn [op_name]. unfold amem. rewrite Hcov, Hi, Hcc. simpl orb. cbv iota.
      destruct (step pt s (OAdd n q)); reflexivity. }
    rewrite E. cbn [fst snd s_itd op_name is_access_op C13.CorrL.is_access_op].
    destruct (step_ok ct0 pt s ls (OAdd n q) HI Hc) as [Hl Hn].
    set (s1 := fst (step pt s (OAdd n q))) in *. set (ob := snd (step pt s (OAdd n q))) in *.
    set (l1 := law_next crule ls (OAdd n q) ob) in *.
    assert (Hod : s_od s1 = s_od s) by reflexivity.
    assert (Hst1 : storing (RPol lp) || negb (amem n (s_od s1)) = true) by (rewrite Hod; exact Hst).
    pose proof (Inv_set_itd ct0 pt s1 l1 n lp Hn (lst_plain _ _ Hcov) Hst1) as HI2.
    split; [exact Hl|].
    assert (Hq1 : assoc n (s_itd s1) = Some q).
    { simpl in Hc. apply andb_true_iff in Hc. destruct Hc as [Hpq _].
      unfold s1. simpl. rewrite assoc_aset, name_eqb_refl. reflexivity. }
    assert (Hl1 : assoc n (l_itd l1) = Some q) by (rewrite (inv_itd _ _ _ _ Hn); exact Hq1).
    assert (Hpq : plainp q = true) by (simpl in Hc; apply andb_true_iff in Hc; tauto).
    clearbody l1.
    assert (Ead : adopt lst l1 n (inst_kind (aset n lp (s_itd s1)) n) false = mkL (aset n lp (l_itd l1)) (l_od l1)).
    { rewrite inst_kind_aset. unfold C13.CorrL.adopt. rewrite Hcov, Z.eqb_refl.
      unfold C13.CorrL.inst_kind. rewrite Hl1. simpl.
      destruct (Z.eqb (inst_code q) (inst_code lp)) eqn:Ec; simpl; [|reflexivity].
      (* same observation: then the traits are the same *)
      rewrite ?Ec in Hq. simpl in Hq. rewrite orb_false_r in Hq.
      apply (policy_eqb_plain_eq q lp Hpq) in Hq. rewrite Hq in Hl1.
      rewrite (aset_same (l_itd l1) n lp Hl1). destruct l1; reflexivity. }
    rewrite Ead. exact HI2.
  Qed.

  Lemma step_l_ok : forall s ls o, Inv s ls -> lclean s o = true -> Lgood s ls o.
  Proof.
    intros s ls o HI Hl. unfold lclean in Hl. apply andb_true_iff in Hl. destruct Hl as [Hc Hl].
    destruct (listener lst (op_name o)) as [lp|] eqn:Hcov.
    2: { apply Lgood_plain; auto. apply step_l_not_covered; auto. }
    destruct (amem (op_name o) (s_itd s) || amem (op_name o) (s_ctd s)) eqn:Hk.
    { apply Lgood_plain; auto. apply step_l_known; auto. }
    apply andb_true_iff in Hl. destruct Hl as [Hst Hq].
    apply orb_false_iff in Hk. destruct Hk as [Hk1 Hk2]. unfold amem in Hk1, Hk2.
    assert (Hi : assoc (op_name o) (s_itd s) = None) by (destruct (assoc (op_name o) (s_itd s)); [discriminate|reflexivity]).
    assert (Hcc : assoc (op_name o) (s_ctd s) = None) by (destruct (assoc (op_name o) (s_ctd s)); [discriminate|reflexivity]).
    assert (Unk : amem (op_name o) (s_itd s) || amem (op_name o) (s_ctd s) = false)
      by (unfold amem; rewrite Hi, Hcc; reflexivity).
    destruct o as [n|n v|n|n q|n]; cbn [op_name] in *.
    - destruct (amem n (s_od s)) eqn:Eo.
      + apply Lgood_plain; auto. unfold step_l. cbn [op_name]. rewrite Hcov, Unk, Eo. reflexivity.
      + destruct (prefix_trait pt s n false) as [[p s1]|e] eqn:Ep.
        * apply (Lgood_fire s ls (OGet n) lp false p s1); auto; try (cbn [op_name]; rewrite ?Eo; exact Hst).
          unfold step_l. cbn [op_name]. rewrite Hcov, Unk, Eo, Ep. reflexivity.
        * apply Lgood_plain; auto. unfold step_l. cbn [op_name]. rewrite Hcov, Unk, Eo, Ep. reflexivity.
    - destruct (prefix_trait pt s n true) as [[p s1]|e] eqn:Ep.
      + apply (Lgood_fire s ls (OSet n v) lp true p s1); auto.
        unfold step_l. cbn [op_name]. rewrite Hcov, Unk, Ep. reflexivity.
      + apply Lgood_plain; auto. unfold step_l. cbn [op_name]. rewrite Hcov, Unk, Ep. reflexivity.
    - destruct (prefix_trait pt s n true) as [[p s1]|e] eqn:Ep.
      + apply (Lgood_fire s ls (ODel n) lp true p s1); auto.
        unfold step_l. cbn [op_name]. rewrite Hcov, Unk, Ep. reflexivity.
      + apply Lgood_plain; auto. unfold step_l. cbn [op_name]. rewrite Hcov, Unk, Ep. reflexivity.
    - apply (Lgood_add s ls n q lp); auto.
    - apply Lgood_plain; auto. unfold step_l. cbn [op_name]. rewrite Hcov, Unk. reflexivity.
  Qed.

  Lemma run_lk_law : forall ops s ls i, Inv s ls -> lclean_run s ops = true ->
    law_hist_l lst crule i ls (run_lk lst pt s ops) = [].
  Proof.
    induction ops as [|o r IH]; intros s ls i HI Hc; [reflexivity|].
    simpl in Hc. apply andb_true_iff in Hc. destruct Hc as [H1 H2].
    destruct (step_l_ok s ls o HI H1) as [A B].
    cbn [run_lk]. destruct (step_l lst pt s o) as [s' ob]. cbn [fst snd law_hist_l] in *.
    rewrite A. cbn [map app]. apply IH; auto.
  Qed.
End LInd.

(* every class without Map/List declarations, every listener table of plain traits, every history *)
Lemma law_listener_histories : forall h c lst ops i,
  plain_class h c = true ->
  (forall n lp, listener lst n = Some lp -> plainp lp = true) ->
  let t := class_tables h c in
  lclean_run (snd t) lst (init_state (fst t)) ops = true ->
  law_hist_l lst (spec_rule h c) i l_init (run_lk lst (snd t) (init_state (fst t)) ops) = [].
Proof.
  intros h c lst ops i Hp Hl t Hc. apply andb_true_iff in Hp. destruct Hp as [P1 P2].
  assert (E : forall hist ls j, law_hist_l lst (model_rule (fst t) (snd t)) j ls hist = law_hist_l lst (spec_rule h c) j ls hist).
  { induction hist as [|[[o ob] k] r IH]; intros ls j; [reflexivity|]. cbn [law_hist_l].
    rewrite IH, (law_step_ext _ _ (class_tables_rule h c)), (law_next_ext _ _ (class_tables_rule h c)). reflexivity. }
  rewrite <- E. apply (run_lk_law (fst t) (snd t) lst Hl); auto. apply Inv_init; auto.
Qed.

(* the checker's law_codes for listener classes re-labels failures only *)
Lemma law_tag_l_single : forall lst mr sr h i la lb,
  C13.CorrL.law_tag_l lst mr sr i la lb (map (fun x => (false, fst (fst x), snd (fst x), snd x)) h) = [] <->
  law_hist_l lst mr i la h = [].
Proof.
  intros lst mr sr. induction h as [|[[o ob] k] r IH]; intros i la lb; [simpl; tauto|].
  cbn [map fst snd C13.CorrL.law_tag_l law_hist_l]. apply relabel_nil, IH.
Qed.
