(* C13 — wildcards whose stem is a Python keyword (C13-w1), copies of an object (C13-w3). *)
From Coq Require Import ZArith List Bool Lia.
From TV Require Import Common.Harness C13.Model C13.Law C13.Corr C13.CorrC C13.Proofs.
Import ListNotations.
Open Scope Z_scope.

(* a class-body name ending in '_' declares a wildcard, whatever its stem *)
Lemma trailing_underscore_declares_a_wildcard : forall ct pt n p, ends_us n = true ->
  own_step (ct, pt) (n, p) = (ct, aset (removelast n) p pt).
Proof. intros ct pt n p H. unfold own_step. rewrite H. reflexivity. Qed.

Lemma restore_itd : forall pt st s, s_itd (fst (restore pt s st)) = s_itd s.
Proof.
  intros pt. induction st as [|[n v] r IH]; intros s; [reflexivity|].
  cbn [restore]. pose proof (step_itd_access pt s (OSet n v) eq_refl) as H.
  destruct (step pt s (OSet n v)) as [s' ob]. cbn [fst] in H.
  destruct (o_out ob); cbn [fst]; try (rewrite IH; exact H); exact H.
Qed.

(* the copy has no instance traits: every name of it is governed by the class-level rule *)
Lemma copy_has_no_instance_traits : forall ct0 pt ctd a b s2' st cp,
  clone ct0 pt (ctd, a, b) = (s2', Done, st, cp) -> fst (snd s2') = [].
Proof.
  intros ct0 pt ctd a b s2' st cp. unfold clone.
  destruct (read_state pt (mkState ctd (fst a) (snd a)) (clone_names ct0 (mkState ctd (fst a) (snd a)))) as [sa' st'] eqn:E1.
  pose proof (restore_itd pt st' (mkState (s_ctd sa') [] [])) as H.
  destruct (restore pt (mkState (s_ctd sa') [] []) st') as [sb' e] eqn:E2. cbn [fst s_itd] in H.
  destruct e as [x|]; intro E; inversion E; subst. cbn [snd fst]. exact H.
Qed.

(* a refused copy leaves the second instance as it was *)
Lemma refused_copy_is_dropped : forall ct0 pt ctd a b s2' x st cp,
  clone ct0 pt (ctd, a, b) = (s2', Raise x, st, cp) -> snd s2' = b.
Proof.
  intros ct0 pt ctd a b s2' x st cp. unfold clone.
  destruct (read_state pt (mkState ctd (fst a) (snd a)) (clone_names ct0 (mkState ctd (fst a) (snd a)))) as [sa' st'].
  destruct (restore pt (mkState (s_ctd sa') [] []) st') as [sb' e].
  destruct e as [y|]; intro E; inversion E; subst. reflexivity.
Qed.

(* a refused copy: one of the assignments of the state raises that exception in some state *)
Lemma restore_refusal : forall pt st s s' e, restore pt s st = (s', Some e) ->
  exists n v s1, In (n, v) st /\ o_out (snd (step pt s1 (OSet n v))) = Raise e.
Proof.
  intros pt. induction st as [|[n v] r IH]; intros s s' e H; [discriminate|].
  cbn [restore] in H. destruct (step pt s (OSet n v)) as [s1 ob] eqn:E.
  destruct (o_out ob) as [x| |x] eqn:Eo.
  - destruct (IH _ _ _ H) as (n' & v' & s2 & Hin & Ho). exists n', v', s2. split; [right; exact Hin|exact Ho].
  - destruct (IH _ _ _ H) as (n' & v' & s2 & Hin & Ho). exists n', v', s2. split; [right; exact Hin|exact Ho].
  - inversion H; subst. exists n, v, s. split; [left; reflexivity|]. rewrite E. exact Eo.
Qed.
