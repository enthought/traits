(* C13 — property theorems on: the state round trip of a trait definition, on_trait_change listeners attached and
   detached, access through a delegating attribute, the ABC variants of the root classes, class-body defaults,
   names owned through a List declaration; same conventions as Props.v. *)
From Coq Require Import ZArith List Bool Lia.
From TV Require Import Common.Harness C13.Model C13.Law C13.Corr C13.CorrN C13.CorrT C13.Proofs C13.MapProofs C13.ClassOpProofs C13.Wave4 C13.Wave5.
Import ListNotations.
Open Scope Z_scope.

(* ---- C13-u1: a definition that went through __getstate__/__setstate__ (copy, deepcopy, pickle) ---- *)
Theorem round_tripped_definition_is_the_same_definition : forall p, round_trip p = p.
Proof. exact round_trip_id. Qed.
Print Assumptions round_tripped_definition_is_the_same_definition.

Theorem add_trait_of_a_round_tripped_definition_governs_like_the_original :
  forall pt s n p, step pt s (OAdd n (round_trip p)) = step pt s (OAdd n p).
Proof. exact round_trip_add. Qed.
Print Assumptions add_trait_of_a_round_tripped_definition_governs_like_the_original.

Theorem add_class_trait_of_a_round_tripped_definition_governs_like_the_original :
  forall h T k n p, add_class h T k n (round_trip p) = add_class h T k n p.
Proof. exact round_trip_add_class. Qed.
Print Assumptions add_class_trait_of_a_round_tripped_definition_governs_like_the_original.

Theorem round_tripped_readonly_is_still_write_once :
  forall pt s n v w,
    assoc n (s_itd s) = Some (round_trip (PReadOnly VUndef)) -> assoc n (s_od s) = Some w -> Z.eqb w VUndef = false ->
    o_out (snd (step pt s (OSet n v))) = Raise TraitError /\ o_out (snd (step pt s (ODel n))) = Raise TraitError /\
    assoc n (s_od (fst (step pt s (OSet n v)))) = Some w.
Proof. exact round_trip_readonly_write_once. Qed.
Print Assumptions round_tripped_readonly_is_still_write_once.

(* ---- C13-u3: access through a delegating attribute (DelegatesTo, modify semantics, one link) ---- *)
Theorem access_through_a_delegating_attribute_is_the_delegates_access :
  forall pt s a t v,
    step pt s (via_get a t) = step pt s (OGet t) /\
    step pt s (via_set a t v) = step pt s (OSet t v) /\
    step pt s (via_del a t) = step pt s (ODel t).
Proof. exact via_is_the_delegates_access. Qed.
Print Assumptions access_through_a_delegating_attribute_is_the_delegates_access.

Theorem write_through_delegation_is_governed_by_the_delegates_rule :
  forall ct pt s ls a t v, Inv ct pt s ls -> gov ct pt s t = RPol PDisallow ->
    o_out (snd (step pt s (via_set a t v))) = Raise TraitError /\
    assoc t (s_od (fst (step pt s (via_set a t v)))) = assoc t (s_od s) /\
    (assoc t (s_od s) = None -> o_out (snd (step pt s (via_get a t))) = Raise AttributeError).
Proof. exact via_strict_rejected. Qed.
Print Assumptions write_through_delegation_is_governed_by_the_delegates_rule.

(* the demo of C13-u3 on the model: strict class, s = Int, t_ = Str; writes through delegating
   attributes d, e, f to s, h (undeclared) and tn (wildcard): the history is covered by the main
   theorem law_holds_on_every_history (it is a clean history of the delegate) *)
Example delegated_writes_nontrivial :
  let t := class_tables [mkClass [([115], PTyped VInt 1); ([116; 95], PTyped VStr 102)] [1%nat]] 3 in
  let ds := [via_set [100] [115] 3; OGet [115]; via_set [101] [104] 9; OGet [104]; via_set [102] [116; 110] 5;
             via_set [102] [116; 110] 101; OGet [116; 110]] in
  plain_class [mkClass [([115], PTyped VInt 1); ([116; 95], PTyped VStr 102)] [1%nat]] 3 = true /\
  clean_run (snd t) (init_state (fst t)) ds = true /\
  map (fun x => o_out (snd x)) (run (snd t) (init_state (fst t)) ds) =
  [Done; Val 3; Raise TraitError; Raise AttributeError; Raise TraitError; Done; Val 101].
Proof. vm_compute. repeat split; reflexivity. Qed.

(* ---- C13-u2: on_trait_change(handler, name) and its removal are policy-neutral ---- *)
Theorem detaching_a_listener_changes_nothing :
  forall pt s n, fst (step_n pt s (NUnlisten n)) = s.
Proof. exact unlisten_changes_nothing. Qed.
Print Assumptions detaching_a_listener_changes_nothing.

Theorem attaching_a_listener_keeps_an_added_instance_trait :
  forall pt s n p, assoc n (s_itd s) = Some p ->
    fst (step_n pt s (NListen n)) = s /\ o_out (snd (step_n pt s (NListen n))) = Done.
Proof. exact listen_keeps_instance_trait. Qed.
Print Assumptions attaching_a_listener_keeps_an_added_instance_trait.

Theorem attaching_a_listener_clones_the_class_trait :
  forall pt s n p, assoc n (s_itd s) = None -> assoc n (s_ctd s) = Some p ->
    fst (step_n pt s (NListen n)) = mkState (s_ctd s) (aset n p (s_itd s)) (s_od s).
Proof. exact listen_clones_class_trait. Qed.
Print Assumptions attaching_a_listener_clones_the_class_trait.

Theorem listening_changes_the_governing_rule_of_no_name :
  forall mr ls n m, governing mr (listen_next mr ls n) m = governing mr ls m.
Proof. exact listen_next_neutral. Qed.
Print Assumptions listening_changes_the_governing_rule_of_no_name.

Theorem detaching_keeps_the_instance_traits_of_the_law :
  forall mr ls n ob, law_next_n mr ls (NUnlisten n) ob = ls.
Proof. exact unlisten_keeps_bookkeeping. Qed.
Print Assumptions detaching_keeps_the_instance_traits_of_the_law.

(* inductively: every class without Map/List declarations, every history of get / set / del /
   add_trait / remove_trait / Listen / Unlisten on one object; [nclean_run]: finding 1, Map/List
   add_trait, and listening to a __x__ name are excluded *)
Theorem law_holds_on_every_history_with_listeners_attached_and_detached :
  forall h c xs i,
    plain_class h c = true ->
    let t := class_tables h c in
    nclean_run (snd t) (init_state (fst t)) xs = true ->
    law_hist_n (spec_rule h c) i l_init (run_n (snd t) (init_state (fst t)) xs) = [].
Proof. exact law_listen_histories. Qed.
Print Assumptions law_holds_on_every_history_with_listeners_attached_and_detached.

Theorem listen_step_preserves_the_invariant :
  forall ct0 pt s ls x, Inv ct0 pt s ls -> nclean s x = true ->
    law_step_n (model_rule ct0 pt) ls x (snd (step_n pt s x)) = [] /\
    Inv ct0 pt (fst (step_n pt s x)) (law_next_n (model_rule ct0 pt) ls x (snd (step_n pt s x))).
Proof. exact step_n_ok. Qed.
Print Assumptions listen_step_preserves_the_invariant.

Theorem listener_case_law_codes_relabelling_is_faithful :
  forall mr sr h i ls, law_tag_n mr sr i ls h = [] <-> law_hist_n mr i ls h = [].
Proof. exact law_tag_n_nil. Qed.
Print Assumptions listener_case_law_codes_relabelling_is_faithful.

(* Non-vacuity (the demo of C13-u2 and more): strict class with ab = Int(7), b_ = Any; a copied
   ReadOnly added to c, assigned, listener attached and detached: still write-once; listener on the
   class trait ab (clone: remove_trait then reports an instance trait), on an undeclared name *)
Example listen_history_nontrivial :
  let t := class_tables [mkClass [([97; 98], PTyped VInt 7); ([98; 95], PAny 5)] [1%nat]] 3 in
  let xs := [NOp (OAdd [99] (round_trip (PReadOnly VUndef))); NOp (OSet [99] 1); NListen [99]; NUnlisten [99];
             NOp (OSet [99] 2); NOp (OGet [99]);
             NListen [97; 98]; NOp (OGet [97; 98]); NOp (OSet [97; 98] 5); NUnlisten [97; 98]; NOp (OSet [97; 98] 101);
             NOp (ORem [97; 98]); NOp (OGet [97; 98]);
             NListen [122; 122]; NOp (OSet [122; 122] 1); NUnlisten [113]; NOp (ORem [122; 122]); NOp (ORem [122; 122]);
             NOp (ORem [99]); NOp (OSet [99] 1)] in
  nclean_run (snd t) (init_state (fst t)) xs = true /\
  map (fun x => o_out (snd x)) (run_n (snd t) (init_state (fst t)) xs) =
  [Done; Done; Done; Done; Raise TraitError; Val 1; Done; Val 7; Done; Done; Raise TraitError; Val 1; Val 7; Done;
   Raise TraitError; Done; Val 1; Val 0; Val 1; Raise TraitError].
Proof. vm_compute. split; reflexivity. Qed.

(* ---- C13-v1: the ABC variants of the root classes are classes like any other: ABCHasTraits declares
   nothing over HasTraits, ABCHasStrictTraits declares _ = Disallow over it; their rule is the rule
   of HasTraits / HasStrictTraits for every name (so strict_class_default_is_disallow applies) ---- *)
Theorem abc_strict_class_is_governed_like_the_strict_class :
  forall n, spec_rule abc_classes 4 n = spec_rule [] 1 n.
Proof. exact abc_strict_rule. Qed.
Print Assumptions abc_strict_class_is_governed_like_the_strict_class.

Theorem abc_plain_class_is_governed_like_the_plain_class :
  forall n, spec_rule abc_classes 3 n = spec_rule [] 0 n.
Proof. exact abc_plain_rule. Qed.
Print Assumptions abc_plain_class_is_governed_like_the_plain_class.

(* a subclass of ABCHasStrictTraits: an undeclared (misspelled) name is refused, a declared one typed *)
Example abc_strict_subclass_nontrivial :
  let h := abc_classes ++ [mkClass [([97; 98], PTyped VInt 7)] [4%nat]] in
  let t := class_tables h 5 in
  let ops := [OSet [98; 97] 101; OGet [98; 97]; OSet [97; 98] 5; OGet [97; 98]; OSet [97; 98] 101; OSet [95; 120] 1] in
  plain_class h 5 = true /\ clean_run (snd t) (init_state (fst t)) ops = true /\
  map (fun x => o_out (snd x)) (run (snd t) (init_state (fst t)) ops) =
  [Raise TraitError; Raise AttributeError; Done; Val 5; Raise TraitError; Raise TraitError].
Proof. vm_compute. repeat split; reflexivity. Qed.

(* ---- C13-v2: a class-body default value for an inherited trait keeps the trait's kind ---- *)
Theorem class_body_default_keeps_readonly : forall d v, redefault (PReadOnly d) v = PReadOnly v.
Proof. exact redefault_keeps_readonly. Qed.
Print Assumptions class_body_default_keeps_readonly.

Theorem class_body_default_keeps_the_validator : forall k d v, redefault (PTyped k d) v = PTyped k v.
Proof. exact redefault_keeps_validator. Qed.
Print Assumptions class_body_default_keeps_the_validator.

Theorem redefaulted_readonly_is_never_assignable :
  forall pt s n d v w,
    assoc n (s_itd s) = None -> assoc n (s_ctd s) = Some (redefault (PReadOnly d) v) -> Z.eqb v VUndef = false ->
    o_out (snd (step pt s (OSet n w))) = Raise TraitError.
Proof. exact redefault_readonly_rejects. Qed.
Print Assumptions redefaulted_readonly_is_never_assignable.

(* the demo of C13-v2: A.x = ReadOnly, B.x = Int(7), C(A, B): x = 5 *)
Example class_body_default_nontrivial :
  let h := [mkClass [([120], PReadOnly VUndef)] [0%nat]; mkClass [([120], PTyped VInt 7)] [0%nat];
            mkClass [([120], redefault (PReadOnly VUndef) 5)] [3%nat; 4%nat]] in
  let t := class_tables h 5 in
  let ops := [OGet [120]; OSet [120] 1; OGet [120]; ODel [120]] in
  plain_class h 5 = true /\ clean_run (snd t) (init_state (fst t)) ops = true /\
  map (fun x => o_out (snd x)) (run (snd t) (init_state (fst t)) ops) =
  [Val 5; Raise TraitError; Val 5; Raise TraitError].
Proof. vm_compute. repeat split; reflexivity. Qed.

(* ---- C13-v3: names a class owns through a List declaration are definitions for add_class_trait ---- *)
Theorem owned_name_is_an_existing_definition_for_add_class_trait :
  forall ct pt m p, ends_us m = false -> amem m ct = true ->
    add_class1 false (ct, pt) m p = None /\ add_class1 true (ct, pt) m p = Some (ct, pt).
Proof. exact owned_name_blocks_add_class_trait. Qed.
Print Assumptions owned_name_is_an_existing_definition_for_add_class_trait.

Theorem list_declaration_owns_its_items_name :
  forall n, ends_us n = false -> amem (n ++ items_suffix) (fst (own_tables [(n, PList)])) = true.
Proof. exact list_declaration_owns_items. Qed.
Print Assumptions list_declaration_owns_its_items_name.

(* the demo of C13-v3 on the model: class 3 plain, class 4(3) declares ab = List: add_class_trait of
   ab_items on class 3 leaves class 4 alone, on class 4 it raises *)
Example owned_items_name_nontrivial :
  let hh := roots ++ [mkClass [] [0%nat]; mkClass [([97; 98], PList)] [3%nat]] in
  let n := [97; 98] ++ items_suffix in
  let r1 := add_class hh (tables hh) 3 n (PTyped VInt 7) in
  snd r1 = Done /\ tabs_nth (fst r1) 4 = tabs_nth (tables hh) 4 /\
  snd (add_class hh (fst r1) 4 n (PTyped VInt 7)) = Raise TraitError /\
  assoc n (fst (tabs_nth (fst r1) 4)) = Some (PEvent (Some VNoneOnly)) /\
  assoc n (fst (tabs_nth (fst r1) 3)) = Some (PTyped VInt 7).
Proof. vm_compute. repeat split; reflexivity. Qed.
