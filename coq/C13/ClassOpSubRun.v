(* C13 — add_class_trait calls interleaved, in any order and number, with the operations of a live
   instance: of the class itself, and of a subclass (single or multiple inheritance). *)
From Coq Require Import ZArith List Bool Lia Sorted.
From TV Require Import Common.Harness C13.Model C13.Law C13.Corr C13.Proofs C13.MapProofs C13.ClassOpProofs C13.ClassOpInd C13.ClassOpSub C13.ClassOpDag.
Import ListNotations.
Open Scope Z_scope.

(* _add_class_trait(is_subclass=True) on the class of a live object *)
Definition sub_add (s : state) (pt : ptab) (n : name) (p : policy) : state * ptab :=
  match add_class1 true (s_ctd s, pt) n p with
  | Some t' => (mkState (fst t') (s_itd s) (s_od s), snd t')
  | None => (s, pt)
  end.

Lemma sub_add_eq : forall s pt n p t', add_class1 true (s_ctd s, pt) n p = Some t' ->
  sub_add s pt n p = (mkState (fst t') (s_itd s) (s_od s), snd t').
Proof. intros s pt n p t' H. unfold sub_add. rewrite H. reflexivity. Qed.

(* what the call must not meet on the object (the two cached-name findings, finding 1) *)
Definition sub_clean (D : ctab) (s : state) (pt : ptab) (n : name) (p : policy) : bool :=
  if ends_us n then
    amem (removelast n) pt ||
    (forallb (fun e => wcond D (removelast n) (fst e)) (s_ctd s) &&
     forallb (fun e => amem (fst e) (s_itd s) || wcond D (removelast n) (fst e)) (s_od s))
  else
    if amem n (s_ctd s) then amem n D
    else amem n (s_itd s) || storing (RPol p) || negb (amem n (s_od s)).

Lemma ExtD_present : forall l l' n p, amem n l = true -> ExtD l l' n p -> tab_eq l l'.
Proof.
  intros l l' n p H E. apply (ExtD_tab_eq n p l l l l'); [intro; reflexivity|apply ExtD_refl, H|exact E].
Qed.

(* the declared dictionary after an inherited run-time declaration *)
Definition new_ct0 (ct0 ctd : ctab) (n : name) (p : policy) : ctab :=
  if ends_us n then ct0 else if amem n ctd then ct0 else aset n p ct0.

(* what the object has only cached is not declared *)
Lemma Inv_ctd_absent : forall ct0 pt s ls n, Inv ct0 pt s ls -> amem n (s_ctd s) = false -> amem n ct0 = false.
Proof.
  intros ct0 pt s ls n HI H. unfold amem in *. destruct (assoc n ct0) eqn:E0; [|reflexivity].
  rewrite (inv_c1 _ _ _ _ HI _ _ E0) in H. discriminate.
Qed.

(* an inherited run-time declaration arriving on the class of a live object *)
Lemma sub_step_ok : forall ct0 pt s ls v v' n p,
  Inv ct0 pt s ls -> Agr (ct0, pt) v -> Ext v v' n p -> plainp p = true ->
  sub_clean (fst v) s pt n p = true ->
  Agr (new_ct0 ct0 (s_ctd s) n p, snd (sub_add s pt n p)) v' /\
  Inv (new_ct0 ct0 (s_ctd s) n p) (snd (sub_add s pt n p)) (fst (sub_add s pt n p)) ls.
Proof.
  intros ct0 pt s ls v v' n p HI HA HE Hp Hc.
  pose proof HA as (A & B & S). cbn [fst snd] in A, B, S.
  unfold sub_clean in Hc. unfold new_ct0, sub_add. split.
  - (* the declared tables receive the same call; a name that is only cached is excluded *)
    apply (Agr_add_sub (ct0, pt) v v' n p _ Hp HA HE). unfold add_class1.
    destruct (ends_us n); [destruct (amem (removelast n) pt); reflexivity|].
    destruct (amem n (s_ctd s)) eqn:Em; [rewrite (tab_eq_amem _ _ n A), Hc; reflexivity|].
    rewrite (Inv_ctd_absent _ _ _ _ n HI Em). reflexivity.
  - assert (Es : mkState (s_ctd s) (s_itd s) (s_od s) = s) by (destruct s; reflexivity).
    unfold add_class1.
    destruct (ends_us n); [destruct (amem (removelast n) pt)|destruct (amem n (s_ctd s)) eqn:Em];
      cbn [fst snd]; rewrite ?Es; try exact HI.
    + simpl in Hc. apply andb_true_iff in Hc. destruct Hc as [Hc1 Hc2].
      apply (Inv_add_wild ct0 pt (fst v) s ls (removelast n) p HI S Hp A Hc1 Hc2).
    + apply (Inv_add_explicit ct0 pt s ls n p HI (amem_false _ _ Em) Hp Hc).
Qed.

(* a call accepted on the tables of a live object found the name absent from the declarative pair *)
Lemma live_absent : forall ct0 pt s ls v n p t',
  Inv ct0 pt s ls -> Agr (ct0, pt) v -> add_class1 false (s_ctd s, pt) n p = Some t' -> vis_has v n = false.
Proof.
  intros ct0 pt s ls v n p t' HI (A & B & _) H. apply add_class1_false_absent in H. unfold vis_has. cbn [fst snd] in *.
  destruct (ends_us n); [rewrite <- (tab_eq_amem _ _ _ B); exact H|].
  rewrite <- (tab_eq_amem _ _ _ A). apply (Inv_ctd_absent _ _ _ _ n HI H).
Qed.

(* the hierarchy the law reads after a step: an accepted call is a declaration of class k *)
Definition next_H (k : nat) (H : list classdef) (x : oop) (ob : obs) : list classdef :=
  match x, o_out ob with OCls n p, Done => app_decl H k (n, p) | _, _ => H end.

(* the invariant of a run of [ostep]: class k exists and, for some dictionary ct0 of declared names
   (the object's s_ctd is ct0 plus the resolutions cached so far), the tables (ct0, prefix list)
   agree with the declarative pair of k in H and the object satisfies [Inv] of Proofs.v for them *)
Definition J (k : nat) (sp : state * ptab) (ls : lstate) (H : list classdef) : Prop :=
  (k < length H)%nat /\
  exists ct0, Agr (ct0, snd sp) (vis_nth (visible H) k) /\ Inv ct0 (snd sp) (fst sp) ls.

Lemma ostep_ok : forall k sp ls H x i, J k sp ls H -> oclean k sp H x = true ->
  law_hist_o k H i ls [(x, snd (ostep sp x))] = [] /\
  J k (fst (ostep sp x))
    (match x with OObj o => law_next (class_rule (vis_nth (visible H) k)) ls o (snd (ostep sp x)) | OCls _ _ => ls end)
    (next_H k H x (snd (ostep sp x))).
Proof.
  intros k [s pt] ls H x i (Hk & ct0 & HA & HI) Hc. unfold next_H. cbn [fst snd] in *.
  destruct x as [o|n p].
  - destruct (obj_step_ok ct0 pt _ s ls o HA HI Hc) as [Hl Hn].
    cbn [ostep fst snd]. destruct (step pt s o) as [s' ob]. cbn [fst snd law_hist_o] in *.
    rewrite Hl. split; [reflexivity|]. split; [exact Hk|]. exists ct0. auto.
  - cbn [law_hist_o]. split; [reflexivity|].
    unfold oclean in Hc. cbn [fst snd] in Hc. apply andb_true_iff in Hc. destruct Hc as [Hp Hc].
    cbn [ostep fst snd].
    destruct (add_class1 false (s_ctd s, pt) n p) as [t'|] eqn:E1; cbn [fst snd o_out].
    2:{ split; [exact Hk|]. exists ct0. auto. }
    (* accepted: it is the subclass call on the object's own tables, and extends the class itself *)
    pose proof (live_absent ct0 pt s ls _ n p t' HI HA E1) as Habs.
    assert (Hsc : sub_clean (fst (vis_nth (visible H) k)) s pt n p = true).
    { apply add_class1_false_absent in E1. cbn [fst snd] in E1. unfold sub_clean.
      destruct (ends_us n); [exact Hc|]. rewrite E1 in *. exact Hc. }
    destruct (sub_step_ok ct0 pt s ls _ _ n p HI HA (Ext_reach H k n p Hk Hp Habs k (R0 _ _ _)) Hp Hsc) as [A2 I2].
    rewrite (sub_add_eq s pt n p t' (add_class1_false_true _ _ _ _ E1)) in A2, I2. cbn [fst snd] in A2, I2.
    split; [rewrite app_decl_length; exact Hk|]. eexists. split; eassumption.
Qed.

Lemma orun_law : forall k xs sp ls H i, J k sp ls H -> oclean_run k sp H xs = true ->
  law_hist_o k H i ls (orun sp xs) = [].
Proof.
  intro k. induction xs as [|x r IH]; intros sp ls H i HJ Hc; [reflexivity|].
  cbn [oclean_run] in Hc. apply andb_true_iff in Hc. destruct Hc as [H1 H2].
  destruct (ostep_ok k sp ls H x i HJ H1) as [A B].
  cbn [orun]. remember (ostep sp x) as res eqn:E in *. destruct res as [sp' ob]. cbn [fst snd] in *.
  destruct x as [o|n p]; cbn [law_hist_o] in *.
  - rewrite app_nil_r in A. rewrite A. cbn [app]. apply IH; [exact B|exact H2].
  - rewrite <- E in H2. apply IH; [exact B|exact H2].
Qed.

(* add_class_trait calls on the object's own class interleaved with its operations in any order and
   number *)
Lemma interleaved_class_ops : forall hh k xs i, (k < length hh)%nat ->
  let t := tabs_nth (tables hh) k in
  plain_t t = true ->
  oclean_run k (init_state (fst t), snd t) hh xs = true ->
  law_hist_o k hh i l_init (orun (init_state (fst t), snd t) xs) = [].
Proof.
  intros hh k xs i Hk t HP Hc. apply (orun_law k xs _ _ _ i); [|exact Hc].
  split; [exact Hk|]. exists (fst t). cbn [fst snd]. split; [|apply fresh_Inv, HP].
  rewrite <- surjective_pairing. apply Agr_tables.
Qed.

(* ... and for the runs the checker evaluates: CorrT.step_t on the tables of all classes *)
Lemma interleaved_class_ops_run : forall hh k xs i, (k < length hh)%nat ->
  let t := tabs_nth (tables hh) k in
  plain_t t = true ->
  oclean_run k (init_state (fst t), snd t) hh xs = true ->
  law_hist_ta [k] hh i [l_init] (run_t hh [k] (tables hh, [([], [])]) (map (top_of k) xs)) = [].
Proof.
  intros hh k xs i Hk t HP Hc. rewrite run_t_orun by (rewrite tables_length; exact Hk).
  apply (interleaved_class_ops hh k xs i Hk HP Hc).
Qed.

(* the object of class j with (the prefix list of) its class, and the tables of the base class k *)
Definition sstep (sp : state * ptab) (tk : ctab * ptab) (x : oop) : (state * ptab) * (ctab * ptab) * obs :=
  match x with
  | OObj o => let '(s', ob) := step (snd sp) (fst sp) o in ((s', snd sp), tk, ob)
  | OCls n p =>
      match add_class1 false tk n p with
      | Some tk' => (sub_add (fst sp) (snd sp) n p, tk', mkObs Done None None None)
      | None => (sp, tk, mkObs (Raise TraitError) None None None)
      end
  end.
Fixpoint srun (sp : state * ptab) (tk : ctab * ptab) (xs : list oop) : list (oop * obs) :=
  match xs with
  | [] => []
  | x :: r => let '(sp', tk', ob) := sstep sp tk x in (x, ob) :: srun sp' tk' r
  end.

(* this is Model.add_class seen from the two classes *)
Lemma sstep_is_add_class : forall hh T k j n p T' out,
  (k < length T)%nat -> (j < length T)%nat -> j <> k -> is_desc hh (length hh) j k = true ->
  add_class hh T k n p = (T', out) ->
  let s := mkState (fst (tabs_nth T j)) [] [] in
  let r := sstep (s, snd (tabs_nth T j)) (tabs_nth T k) (OCls n p) in
  o_out (snd r) = out /\ snd (fst r) = tabs_nth T' k /\
  (s_ctd (fst (fst (fst r))), snd (fst (fst r))) = tabs_nth T' j.
Proof.
  intros hh T k j n p T' out Hk Hj Hne HD E s r. subst r s. cbn [sstep].
  destruct (add_class_at hh T k n p T' out Hk E) as [HL Hc].
  destruct (add_class1 false (tabs_nth T k) n p) as [tk|] eqn:E1.
  - destruct Hc as [-> Htk]. cbn [fst snd o_out]. split; [reflexivity|]. split; [symmetry; exact Htk|].
    pose proof (add_class_desc_at hh T k n p T' j (or_intror HD) Hj E) as Es.
    unfold sub_add. cbn [s_ctd s_itd s_od]. rewrite <- surjective_pairing, Es. cbn [fst snd s_ctd].
    symmetry. apply surjective_pairing.
  - destruct Hc as [-> ->]. cbn [fst snd o_out s_ctd]. split; [reflexivity|]. split; [reflexivity|].
    symmetry. apply surjective_pairing.
Qed.

Fixpoint law_hist_s (k j : nat) (H : list classdef) (i : Z) (ls : lstate) (hist : list (oop * obs)) : list Z :=
  match hist with
  | [] => []
  | (OObj o, ob) :: r =>
      let rl := class_rule (vis_nth (visible H) j) in
      map (fun c => 100 * i + c) (law_step rl ls o ob) ++ law_hist_s k j H (i + 1) (law_next rl ls o ob) r
  | (OCls n p, ob) :: r =>
      law_hist_s k j (match o_out ob with Done => app_decl H k (n, p) | _ => H end) (i + 1) ls r
  end.

(* the boolean hypothesis on one step: finding 1, Map/List, and the cached-name findings seen from
   the subclass are excluded *)
Definition sclean (j : nat) (sp : state * ptab) (tk : ctab * ptab) (H : list classdef) (x : oop) : bool :=
  match x with
  | OObj o => clean_step (fst sp) o
  | OCls n p =>
      plainp p &&
      match add_class1 false tk n p with
      | Some _ => sub_clean (fst (vis_nth (visible H) j)) (fst sp) (snd sp) n p
      | None => true
      end
  end.

(* ... and along a run, with reachability of j for the name of every accepted call *)
Fixpoint sok (k j : nat) (sp : state * ptab) (tk : ctab * ptab) (H : list classdef) (xs : list oop) : Prop :=
  match xs with
  | [] => True
  | x :: r =>
      sclean j sp tk H x = true /\
      match x, o_out (snd (sstep sp tk x)) with OCls n p, Done => Reach H k n j | _, _ => True end /\
      sok k j (fst (fst (sstep sp tk x))) (snd (fst (sstep sp tk x))) (next_H k H x (snd (sstep sp tk x))) r
  end.

(* the invariant of a run of [sstep]: [J] for the object of class j, and the tables of the base class
   k (no object of k runs, so they hold no cached resolution) agree with the declarative pair of k *)
Definition J2 (k j : nat) (sp : state * ptab) (tk : ctab * ptab) (ls : lstate) (H : list classdef) : Prop :=
  (k < j)%nat /\ (j < length H)%nat /\ Agr tk (vis_nth (visible H) k) /\
  exists ct0, Agr (ct0, snd sp) (vis_nth (visible H) j) /\ Inv ct0 (snd sp) (fst sp) ls.

Lemma sstep_ok : forall k j sp tk ls H x i, J2 k j sp tk ls H -> sclean j sp tk H x = true ->
  match x, o_out (snd (sstep sp tk x)) with OCls n p, Done => Reach H k n j | _, _ => True end ->
  law_hist_s k j H i ls [(x, snd (sstep sp tk x))] = [] /\
  J2 k j (fst (fst (sstep sp tk x))) (snd (fst (sstep sp tk x)))
     (match x with OObj o => law_next (class_rule (vis_nth (visible H) j)) ls o (snd (sstep sp tk x)) | OCls _ _ => ls end)
     (next_H k H x (snd (sstep sp tk x))).
Proof.
  intros k j [s pt] tk ls H x i (Hkj & Hj & Ak & ct0 & HA & HI) Hc HR. cbn [fst snd] in *.
  destruct x as [o|n p].
  - destruct (obj_step_ok ct0 pt _ s ls o HA HI Hc) as [Hl Hn].
    cbn [sstep fst snd]. destruct (step pt s o) as [s' ob]. cbn [fst snd law_hist_s next_H] in *.
    rewrite Hl. split; [reflexivity|]. repeat (split; [assumption|]). exists ct0. split; assumption.
  - cbn [law_hist_s]. split; [reflexivity|].
    unfold sclean in Hc. cbn [fst snd] in Hc. apply andb_true_iff in Hc. destruct Hc as [Hp Hc].
    cbn [sstep fst snd] in *.
    destruct (add_class1 false tk n p) as [tk'|] eqn:E1; cbn [fst snd o_out next_H] in *.
    2:{ repeat (split; [assumption|]). exists ct0. split; assumption. }
    assert (Hk : (k < length H)%nat) by lia.
    pose proof (Ext_reach H k n p Hk Hp (Agr_absent tk _ n p tk' Ak E1)) as HE.
    destruct (sub_step_ok ct0 pt s ls _ _ n p HI HA (HE j HR) Hp Hc) as [A2 I2].
    split; [exact Hkj|]. split; [rewrite app_decl_length; exact Hj|]. split.
    + apply (Agr_add_sub tk _ _ n p tk' Hp Ak (HE k (R0 _ _ _))), add_class1_false_true, E1.
    + eexists. split; eassumption.
Qed.

Lemma srun_law : forall k j xs sp tk ls H i, J2 k j sp tk ls H -> sok k j sp tk H xs ->
  law_hist_s k j H i ls (srun sp tk xs) = [].
Proof.
  intros k j. induction xs as [|x r IH]; intros sp tk ls H i HJ Hok; [reflexivity|].
  cbn [sok] in Hok. destruct Hok as (H1 & H2 & H3).
  destruct (sstep_ok k j sp tk ls H x i HJ H1 H2) as [A B].
  cbn [srun]. remember (sstep sp tk x) as res eqn:E in *. destruct res as [[sp' tk'] ob]. cbn [fst snd] in *.
  destruct x as [o|n p]; cbn [law_hist_s next_H] in *.
  - rewrite app_nil_r in A. rewrite A. cbn [app]. apply IH; [exact B|exact H3].
  - apply IH; [exact B|exact H3].
Qed.

(* add_class_trait calls on a base class k interleaved in any order and number with the operations
   of a fresh instance of a subclass j (any hierarchy) *)
Lemma interleaved_base_class_ops : forall hh k j xs i,
  (k < j)%nat -> (j < length hh)%nat ->
  let tk := tabs_nth (tables hh) k in
  let tj := tabs_nth (tables hh) j in
  plain_t tj = true ->
  sok k j (init_state (fst tj), snd tj) tk hh xs ->
  law_hist_s k j hh i l_init (srun (init_state (fst tj), snd tj) tk xs) = [].
Proof.
  intros hh k j xs i Hkj Hj tk tj HP Hok. apply (srun_law k j xs _ _ _ _ i); [|exact Hok].
  split; [exact Hkj|]. split; [exact Hj|]. split; [apply Agr_tables|].
  exists (fst tj). cbn [fst snd]. split; [|apply fresh_Inv, HP].
  rewrite <- surjective_pairing. apply Agr_tables.
Qed.

Lemma run_t_srun : forall hh0 k j, j <> k -> is_desc hh0 (length hh0) j k = true ->
  forall xs T itd od H i ls, (k < length T)%nat -> (j < length T)%nat ->
  law_hist_ta [j] H i [ls] (run_t hh0 [j] (T, [(itd, od)]) (map (top_of k) xs)) =
  law_hist_s k j H i ls (srun (mkState (fst (tabs_nth T j)) itd od, snd (tabs_nth T j)) (tabs_nth T k) xs).
Proof.
  intros hh0 k j Hne HD. induction xs as [|x r IH]; intros T itd od H i ls Hk Hj; [reflexivity|].
  destruct x as [o|n p]; cbn [map top_of run_t srun sstep fst snd].
  - unfold C13.CorrT.step_t. cbn [nth fst snd].
    destruct (step (snd (tabs_nth T j)) (mkState (fst (tabs_nth T j)) itd od) o) as [s' ob] eqn:E.
    cbn [law_hist_ta law_hist_s nth C13.CorrT.upd fst snd].
    rewrite (IH (set_ctab T j (s_ctd s')) (s_itd s') (s_od s')) by (rewrite set_ctab_length; auto).
    rewrite (set_ctab_nth T j (s_ctd s') Hj), (set_ctab_other T j k (s_ctd s') Hne). cbn [fst snd].
    destruct s'; reflexivity.
  - unfold C13.CorrT.step_t. destruct (add_class hh0 T k n p) as [T' out] eqn:E.
    destruct (add_class_at hh0 T k n p T' out Hk E) as [HL Hc].
    destruct (add_class1 false (tabs_nth T k) n p) as [tk|] eqn:E1.
    + destruct Hc as [-> Htk]. cbn [law_hist_ta law_hist_s o_out fst snd].
      pose proof (add_class_desc_at hh0 T k n p T' j (or_intror HD) Hj E) as Es.
      rewrite (IH T' itd od) by lia. rewrite Htk.
      unfold sub_add. cbn [s_ctd s_itd s_od]. rewrite <- surjective_pairing, Es. reflexivity.
    + destruct Hc as [-> ->]. cbn [law_hist_ta law_hist_s o_out]. rewrite (IH T itd od) by lia. reflexivity.
Qed.

Lemma interleaved_base_class_ops_run : forall hh k j xs i,
  (k < j)%nat -> (j < length hh)%nat -> is_desc hh (length hh) j k = true ->
  let tk := tabs_nth (tables hh) k in
  let tj := tabs_nth (tables hh) j in
  plain_t tj = true ->
  sok k j (init_state (fst tj), snd tj) tk hh xs ->
  law_hist_ta [j] hh i [l_init] (run_t hh [j] (tables hh, [([], [])]) (map (top_of k) xs)) = [].
Proof.
  intros hh k j xs i Hkj Hj HD tk tj HP Hok.
  rewrite (run_t_srun hh k j ltac:(lia) HD) by (rewrite tables_length; lia).
  apply (interleaved_base_class_ops hh k j xs i Hkj Hj HP Hok).
Qed.
