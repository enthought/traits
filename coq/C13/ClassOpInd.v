(* C13 — add_class_trait: declarations added to a class at run time are governed exactly like the
   declarations of its body.  The declarative side of one call ([Ext]: a table pair extended by a
   declaration that was absent), the model side ([add_class1] extends the tables it is applied to),
   the bookkeeping of the hierarchy ([app_decl], [class_phase]), what a declaration arriving on the
   class of a live object must not meet ([Inv_add_explicit], [Inv_add_wild]), and the runs of CorrT
   with one object read as runs of that object ([orun]). *)
From Coq Require Import ZArith List Bool Lia Sorted.
From TV Require Import Common.Harness C13.Model C13.Law C13.Corr C13.Proofs C13.MapProofs C13.ClassOpProofs.
From TV Require C13.CorrT.
Import ListNotations.
Open Scope Z_scope.

Notation TObj := C13.CorrT.TObj.
Notation TClass := C13.CorrT.TClass.
Notation step_t := C13.CorrT.step_t.
Notation add_decl := C13.CorrT.add_decl.

(* tables that agree with a declarative (visible) pair implement its rule *)
Lemma agree_rule : forall (t v : ctab * ptab) m,
  tab_eq (fst t) (fst v) -> tab_eq (snd t) (snd v) -> StronglySorted len_ge (snd t) ->
  model_rule (fst t) (snd t) m = class_rule v m.
Proof.
  intros t v m A B S. unfold model_rule, class_rule. rewrite (A m).
  destruct (assoc m (fst v)); auto. destruct (dunder m); auto.
  pose proof (first_match_best m _ _ S B) as E. unfold wild in E.
  destruct (first_match m (snd t)) as [[? ?]|]; destruct (best m (snd v)) as [[? ?]|]; auto.
Qed.

Definition Agr (t v : ctab * ptab) : Prop :=
  tab_eq (fst t) (fst v) /\ tab_eq (snd t) (snd v) /\ StronglySorted len_ge (snd t).

Lemma Agr_tables : forall hh c, Agr (tabs_nth (tables hh) c) (vis_nth (visible hh) c).
Proof. intros hh c. exact (proj2 (agree_all hh) c). Qed.

Definition plain_t (t : ctab * ptab) : bool := plain_tab (fst t) && plain_tab (snd t).

Lemma Agr_law : forall t v ops i, Agr t v -> plain_t t = true ->
  clean_run (snd t) (init_state (fst t)) ops = true ->
  law_hist (class_rule v) i l_init (run (snd t) (init_state (fst t)) ops) = [].
Proof.
  intros t v ops i (A & B & S) Pl Hc. apply andb_true_iff in Pl. destruct Pl as [P1 P2].
  rewrite <- (law_hist_ext (model_rule _ _) _ (fun m => agree_rule _ _ m A B S)).
  apply run_law; auto.
Qed.

Lemma fresh_Inv : forall t, plain_t t = true -> Inv (fst t) (snd t) (init_state (fst t)) l_init.
Proof. intros t Pl. apply andb_true_iff in Pl. destruct Pl as [P1 P2]. apply Inv_init; assumption. Qed.

Lemma plain_sort_len : forall l, plain_tab l = true -> plain_tab (sort_len l) = true.
Proof.
  intros l H. apply plain_tab_In. intros k p Hi. apply (proj1 (sort_len_In _ _)) in Hi.
  apply (proj1 (plain_tab_In l) H _ _ Hi).
Qed.
Lemma plain_app1 : forall l e, plain_tab l = true -> plainp (snd e) = true -> plain_tab (l ++ [e]) = true.
Proof. intros l e H He. unfold plain_tab. rewrite forallb_app. simpl. rewrite He. unfold plain_tab in H. rewrite H. reflexivity. Qed.

Lemma plain_add_class1 : forall b t n p t', plain_t t = true -> plainp p = true ->
  add_class1 b t n p = Some t' -> plain_t t' = true.
Proof.
  intros b t n p t' Ht Hp H. pose proof Ht as Ht'. apply andb_true_iff in Ht'. destruct Ht' as [H1 H2].
  destruct (add_class1_cases b t n p t' H) as [-> | [-> | ->]]; [exact Ht| |]; apply andb_true_iff; split; cbn [fst snd]; auto.
  - apply plain_sort_len, plain_app1; auto.
  - apply plain_aset; auto.
Qed.

Lemma mid_lt : forall {A} (pre : list A) x post, (length pre < length (pre ++ x :: post))%nat.
Proof. intros. rewrite app_length. simpl. lia. Qed.

Lemma own_tables_snoc : forall l d, own_tables (l ++ [d]) = own_step (own_tables l) d.
Proof. intros. unfold own_tables. rewrite fold_left_app. reflexivity. Qed.

Lemma assoc_aset_app : forall (O B : list (name * policy)) n p m,
  assoc m (aset n p O ++ B) = if name_eqb n m then Some p else assoc m (O ++ B).
Proof. intros. rewrite !assoc_app, assoc_aset. destruct (name_eqb n m); reflexivity. Qed.

Lemma amem_false : forall (l : list (name * policy)) n, amem n l = false -> assoc n l = None.
Proof. intros l n. unfold amem. destruct (assoc n l); [discriminate|reflexivity]. Qed.

Lemma tab_eq_amem : forall a b n, tab_eq a b -> amem n a = amem n b.
Proof. intros a b n E. unfold amem. rewrite (E n). reflexivity. Qed.

Lemma tab_eq_app_r : forall a b c, tab_eq b c -> tab_eq (a ++ b) (a ++ c).
Proof. intros a b c H m. rewrite !assoc_app, (H m). reflexivity. Qed.

Lemma tab_eq_close : forall a b, tab_eq a b -> tab_eq (close a) (close b).
Proof. intros a b H m. rewrite !assoc_close, (H m). reflexivity. Qed.

Lemma close_absent : forall l q, amem q (close l) = false -> assoc q l = None /\ q <> [].
Proof.
  intros l q H. apply amem_false in H. rewrite assoc_close in H.
  destruct (assoc q l); [discriminate|]. destruct q; [discriminate|]. split; [reflexivity|discriminate].
Qed.

(* tables_from and visible_from both grow a list class after class *)
Section Grow.
  Context {A B : Type} (f : list B -> A -> B) (d : B).
  Let grow (T : list B) (h : list A) : list B := fold_left (fun t c => t ++ [f t c]) h T.

  Lemma grow_length : forall h T, length (grow T h) = (length T + length h)%nat.
  Proof.
    induction h as [|c r IH]; intro T; simpl; [lia|]. rewrite IH, app_length. simpl. lia.
  Qed.
  Lemma grow_keeps : forall h T i, (i < length T)%nat -> nth i (grow T h) d = nth i T d.
  Proof.
    induction h as [|c r IH]; intros T i Hi; simpl; auto.
    rewrite IH by (rewrite app_length; simpl; lia). apply app_nth1. exact Hi.
  Qed.
  Lemma grow_at : forall pre c post T,
    nth (length T + length pre) (grow T (pre ++ c :: post)) d = f (grow T pre) c.
  Proof.
    intros pre c post T. unfold grow. rewrite fold_left_app. cbn [fold_left].
    fold (grow T pre). fold (grow (grow T pre ++ [f (grow T pre) c]) post).
    pose proof (grow_length pre T) as L.
    rewrite grow_keeps by (rewrite app_length; simpl; lia).
    rewrite app_nth2 by lia. rewrite L, Nat.sub_diag. reflexivity.
  Qed.
End Grow.

Lemma visible_from_length : forall h V, length (visible_from V h) = (length V + length h)%nat.
Proof. exact (grow_length vis_class). Qed.
Lemma visible_from_keeps : forall h V i, (i < length V)%nat ->
  nth i (visible_from V h) ([], []) = nth i V ([], []).
Proof. exact (grow_keeps vis_class ([], [])). Qed.
Lemma visible_at : forall pre cd post,
  vis_nth (visible (pre ++ cd :: post)) (length pre) = vis_class (visible pre) cd.
Proof. intros pre cd post. exact (grow_at vis_class ([], []) pre cd post []). Qed.

Lemma tables_from_length : forall h T, length (tables_from T h) = (length T + length h)%nat.
Proof. exact (grow_length build_class). Qed.
Lemma tables_from_keeps : forall h T i, (i < length T)%nat ->
  nth i (tables_from T h) ([], []) = nth i T ([], []).
Proof. exact (grow_keeps build_class ([], [])). Qed.
Lemma tables_at : forall pre cd post,
  tabs_nth (tables (pre ++ cd :: post)) (length pre) = build_class (tables pre) cd.
Proof. intros pre cd post. exact (grow_at build_class ([], []) pre cd post []). Qed.
Lemma tables_length : forall hh, length (tables hh) = length hh.
Proof. intro hh. exact (tables_from_length hh []). Qed.

Lemma map_idx_nth : forall {A B} (f : nat -> A -> B) l i0 k d d',
  (k < length l)%nat -> nth k (map_idx f i0 l) d' = f (i0 + k)%nat (nth k l d).
Proof.
  induction l as [|x r IH]; intros i0 k d d' Hk; simpl in Hk; [lia|].
  destruct k; simpl.
  - rewrite Nat.add_0_r. reflexivity.
  - rewrite (IH (S i0) k d d') by lia. f_equal. lia.
Qed.
Lemma map_idx_length : forall {A B} (f : nat -> A -> B) l i0, length (map_idx f i0 l) = length l.
Proof. induction l; intros; simpl; auto. Qed.

Lemma add_class_at : forall hh T k n p T' out, (k < length T)%nat -> add_class hh T k n p = (T', out) ->
  length T' = length T /\
  match add_class1 false (tabs_nth T k) n p with
  | Some tk => out = Done /\ tabs_nth T' k = tk
  | None => out = Raise TraitError /\ T' = T
  end.
Proof.
  intros hh T k n p T' out Hk H. unfold add_class in H.
  destruct (add_class1 false (tabs_nth T k) n p) as [tk|]; inversion H; subst; clear H.
  - split; [apply map_idx_length|]. split; auto. unfold tabs_nth.
    rewrite map_idx_nth with (d := (@nil (name * policy), @nil (name * policy))) by exact Hk.
    simpl. rewrite Nat.eqb_refl. reflexivity.
  - auto.
Qed.

(* the hierarchy with the declaration d appended to the body of class k *)
Definition app_decl (hh : list classdef) (k : nat) (d : name * policy) : list classdef :=
  match nth_error hh k with
  | Some cd => C13.CorrT.upd hh k (mkClass (c_decls cd ++ [d]) (c_bases cd))
  | None => hh
  end.

Lemma upd_at : forall {A} (pre : list A) x y post, C13.CorrT.upd (pre ++ x :: post) (length pre) y = pre ++ y :: post.
Proof. induction pre as [|a r IH]; intros; simpl; [reflexivity|]. rewrite IH. reflexivity. Qed.
Lemma app_decl_at : forall pre cd post d,
  app_decl (pre ++ cd :: post) (length pre) d = pre ++ mkClass (c_decls cd ++ [d]) (c_bases cd) :: post.
Proof.
  intros. unfold app_decl. rewrite nth_error_app2 by lia. rewrite Nat.sub_diag. simpl. apply upd_at.
Qed.

(* the checker's bookkeeping of run-time declarations (CorrT.add_decl on the user classes) is
   [app_decl] on the whole hierarchy; 3 = length roots, the user classes come after the roots *)
Lemma app_decl_roots : forall h k n p, (3 <= k)%nat ->
  app_decl (roots ++ h) k (n, p) = roots ++ C13.CorrT.add_decl h k n p.
Proof.
  intros h k n p Hk. destruct k as [|[|[|j]]]; try lia. unfold app_decl, C13.CorrT.add_decl, roots.
  cbn [app nth_error length Nat.sub Nat.leb]. rewrite ?Nat.sub_0_r. destruct (nth_error h j); [|reflexivity].
  cbn [C13.CorrT.upd app]. reflexivity.
Qed.

(* the dictionary l' is l with (n -> p) added if n is absent *)
Definition ExtD (l l' : list (name * policy)) (n : name) (p : policy) : Prop :=
  forall m, assoc m l' = match assoc m l with
                         | Some x => Some x
                         | None => if name_eqb n m then Some p else None
                         end.
Definition Ext (v v' : ctab * ptab) (n : name) (p : policy) : Prop :=
  if ends_us n then tab_eq (fst v) (fst v') /\ ExtD (snd v) (snd v') (removelast n) p
  else ExtD (fst v) (fst v') n p /\ tab_eq (snd v) (snd v').

Section ExtD.
  Variable n : name.
  Variable p : policy.

  Lemma ExtD_refl : forall l, amem n l = true -> ExtD l l n p.
  Proof.
    intros l H m. destruct (assoc m l) eqn:Em; [reflexivity|].
    destruct (name_eqb n m) eqn:En; [|reflexivity]. apply name_eqb_eq in En. subst m.
    unfold amem in H. rewrite Em in H. discriminate.
  Qed.

  Lemma ExtD_tab_eq : forall a a' b b', tab_eq a b -> ExtD a a' n p -> ExtD b b' n p -> tab_eq a' b'.
  Proof. intros a a' b b' E Ha Hb m. rewrite (Ha m), (Hb m), (E m). reflexivity. Qed.

  Lemma ExtD_aset_app : forall O B, assoc n (O ++ B) = None -> ExtD (O ++ B) (aset n p O ++ B) n p.
  Proof.
    intros O B H m. rewrite assoc_aset_app. destruct (name_eqb n m) eqn:E.
    - apply name_eqb_eq in E. subst m. rewrite H. reflexivity.
    - destruct (assoc m (O ++ B)); reflexivity.
  Qed.
  Lemma ExtD_aset : forall l, assoc n l = None -> ExtD l (aset n p l) n p.
  Proof. intros l H. pose proof (ExtD_aset_app l []) as X. rewrite !app_nil_r in X. exact (X H). Qed.
  Lemma ExtD_snoc : forall l, assoc n l = None -> ExtD l (l ++ [(n, p)]) n p.
  Proof.
    intros l H m. rewrite assoc_app. cbn [assoc]. destruct (assoc m l); [reflexivity|].
    destruct (name_eqb n m); reflexivity.
  Qed.

  Lemma ExtD_app : forall O B B', ExtD B B' n p -> ExtD (O ++ B) (O ++ B') n p.
  Proof. intros O B B' H m. rewrite !assoc_app, (H m). destruct (assoc m O); reflexivity. Qed.
  Lemma ExtD_own : forall O B B', amem n O = true ->
    (forall m, name_eqb n m = false -> assoc m B' = assoc m B) -> ExtD (O ++ B) (O ++ B') n p.
  Proof.
    intros O B B' Ho H m. rewrite !assoc_app. destruct (assoc m O) eqn:Em; [reflexivity|].
    destruct (name_eqb n m) eqn:E; [|rewrite (H m E); destruct (assoc m B); reflexivity].
    apply name_eqb_eq in E. subst m. unfold amem in Ho. rewrite Em in Ho. discriminate.
  Qed.

  (* under the closing default "" -> Python: the added prefix is not "" unless "" was there *)
  Lemma ExtD_close : forall l l', ExtD l l' n p -> (assoc n l = None -> n <> []) -> ExtD (close l) (close l') n p.
  Proof.
    intros l l' H Hn m. rewrite !assoc_close, (H m). destruct (assoc m l) eqn:Em; [reflexivity|].
    destruct (name_eqb n m) eqn:E; [|destruct (assoc m [([], PPython)]); reflexivity].
    apply name_eqb_eq in E. subst m. destruct n; [contradiction (Hn Em eq_refl)|reflexivity].
  Qed.
End ExtD.

(* concatenated base tables: each base is extended or untouched *)
Section Cat.
  Variable n : name.
  Variable p : policy.
  Variables f f' : nat -> list (name * policy).

  Lemma cat_other : forall bs m, name_eqb n m = false ->
    (forall b, In b bs -> ExtD (f b) (f' b) n p \/ f b = f' b) ->
    assoc m (flat_map f' bs) = assoc m (flat_map f bs).
  Proof.
    induction bs as [|a r IH]; intros m Hm H; [reflexivity|].
    cbn [flat_map]. rewrite !assoc_app. rewrite (IH m Hm) by (intros b Hb; apply H; right; exact Hb).
    destruct (H a (or_introl eq_refl)) as [E|E].
    - rewrite (E m), Hm. destruct (assoc m (f a)); reflexivity.
    - rewrite E. reflexivity.
  Qed.

  Lemma cat_eq : forall bs, (forall b, In b bs -> tab_eq (f b) (f' b)) -> tab_eq (flat_map f bs) (flat_map f' bs).
  Proof.
    induction bs as [|a r IH]; intros H m; [reflexivity|].
    cbn [flat_map]. rewrite !assoc_app, (H a (or_introl eq_refl) m).
    rewrite (IH (fun b Hb => H b (or_intror Hb)) m). reflexivity.
  Qed.

  Lemma cat_new : forall bs, assoc n (flat_map f bs) = None ->
    (forall b, In b bs -> ExtD (f b) (f' b) n p \/ f b = f' b) ->
    (exists b, In b bs /\ ExtD (f b) (f' b) n p) ->
    assoc n (flat_map f' bs) = Some p.
  Proof.
    induction bs as [|a r IH]; intros Hn H [b [Hb He]]; [contradiction|].
    cbn [flat_map] in *. rewrite assoc_app in Hn. rewrite assoc_app.
    destruct (assoc n (f a)) eqn:Ea; [discriminate|].
    assert (X : ExtD (f a) (f' a) n p -> assoc n (f' a) = Some p).
    { intro E. rewrite (E n), Ea, name_eqb_refl. reflexivity. }
    destruct Hb as [<-|Hb]; [rewrite (X He); reflexivity|].
    destruct (H a (or_introl eq_refl)) as [E|E]; [rewrite (X E); reflexivity|].
    rewrite <- E, Ea. apply IH; [exact Hn|intros c Hc; apply H; right; exact Hc|exists b; split; assumption].
  Qed.

  (* the name is new to the class, or defined in its own body O *)
  Lemma ExtD_bases : forall O bs,
    (forall b, In b bs -> ExtD (f b) (f' b) n p \/ f b = f' b) ->
    (exists b, In b bs /\ ExtD (f b) (f' b) n p) ->
    assoc n (O ++ flat_map f bs) = None \/ amem n O = true ->
    ExtD (O ++ flat_map f bs) (O ++ flat_map f' bs) n p.
  Proof.
    intros O bs H Hex [Hn|Ho]; [|apply ExtD_own; [exact Ho|intros m Hm; apply cat_other; assumption]].
    rewrite assoc_app in Hn. destruct (assoc n O) eqn:Eo; [discriminate|].
    apply ExtD_app. intro m. destruct (name_eqb n m) eqn:E.
    - apply name_eqb_eq in E. subst m. rewrite Hn. apply cat_new; assumption.
    - rewrite (cat_other bs m E H). destruct (assoc m (flat_map f bs)); reflexivity.
  Qed.
End Cat.

(* an accepted call on the class itself extends its declarative pair *)
Lemma Ext_own : forall V cd n p, plainp p = true ->
  (if ends_us n then amem (removelast n) (snd (vis_class V cd)) else amem n (fst (vis_class V cd))) = false ->
  Ext (vis_class V cd) (vis_class V (mkClass (c_decls cd ++ [(n, p)]) (c_bases cd))) n p.
Proof.
  intros V cd n p Hp Hab. unfold Ext, vis_class in *. cbn [c_decls c_bases fst snd] in *.
  rewrite own_tables_snoc. destruct (own_tables (c_decls cd)) as [O W]. unfold own_step.
  assert (Hs : subs n p = []) by (destruct p; try discriminate Hp; reflexivity).
  destruct (ends_us n); cbn [fst snd] in *.
  - split; [intro; reflexivity|]. destruct (close_absent _ _ Hab) as [H0 Hq].
    apply ExtD_close; [apply ExtD_aset_app; exact H0|intros _; exact Hq].
  - rewrite Hs. cbn [fold_left]. split; [|intro; reflexivity].
    apply ExtD_aset_app, amem_false, Hab.
Qed.

(* ... and the extension is inherited through the body of a class with that single base *)
Lemma Ext_inherit : forall V V' cd b n p, c_bases cd = [b] ->
  Ext (vis_nth V b) (vis_nth V' b) n p -> assoc [] (snd (vis_nth V b)) <> None ->
  Ext (vis_class V cd) (vis_class V' cd) n p.
Proof.
  intros V V' cd b n p Hb HE Hcl. unfold Ext, vis_class in *. rewrite Hb. cbn [flat_map]. rewrite !app_nil_r.
  destruct (own_tables (c_decls cd)) as [O W]. cbn [fst snd].
  destruct (ends_us n); destruct HE as [E1 E2]; split.
  - apply tab_eq_app_r, E1.
  - apply ExtD_close; [apply ExtD_app, E2|].
    (* the added wildcard is not "", because the base's list is closed *)
    intros H0 Hq. rewrite Hq, assoc_app in H0. destruct (assoc [] W); [discriminate|contradiction].
  - apply ExtD_app, E1.
  - apply tab_eq_close, tab_eq_app_r, E2.
Qed.

Lemma add_class1_Ext : forall t n p t', add_class1 true t n p = Some t' -> Ext t t' n p.
Proof.
  intros [ct pt] n p t'. unfold add_class1, Ext.
  destruct (ends_us n); [destruct (amem (removelast n) pt) eqn:Em|destruct (amem n ct) eqn:Em];
    intro H; inversion H; subst t'; cbn [fst snd]; split; try (intro; reflexivity).
  - apply ExtD_refl, Em.
  - intro m. rewrite assoc_sort_len. apply ExtD_snoc, amem_false, Em.
  - apply ExtD_refl, Em.
  - apply ExtD_aset, amem_false, Em.
Qed.

(* _add_class_trait(is_subclass=True) on tables that agree with the declarative pair v gives tables
   that agree with v extended by the inherited declaration *)
Lemma Agr_add_sub : forall t v v' n p t', plainp p = true ->
  Agr t v -> Ext v v' n p -> add_class1 true t n p = Some t' -> Agr t' v'.
Proof.
  intros t v v' n p t' _ (A & B & S) HE H. pose proof (add_class1_Ext _ _ _ _ H) as HT.
  split; [|split; [|apply (add_class1_sorted true t n p t' S H)]]; unfold Ext in *;
    destruct (ends_us n); destruct HE as [E1 E2]; destruct HT as [T1 T2].
  - intro m. rewrite <- (T1 m), (A m). apply E1.
  - apply (ExtD_tab_eq _ _ _ _ _ _ A T1 E1).
  - apply (ExtD_tab_eq _ _ _ _ _ _ B T2 E2).
  - intro m. rewrite <- (T2 m), (B m). apply E2.
Qed.

Lemma Agr_absent : forall t v n p t', Agr t v -> add_class1 false t n p = Some t' ->
  (if ends_us n then amem (removelast n) (snd v) else amem n (fst v)) = false.
Proof.
  intros t v n p t' (A & B & _) H. apply add_class1_false_absent in H.
  destruct (ends_us n); [rewrite <- (tab_eq_amem _ _ _ B)|rewrite <- (tab_eq_amem _ _ _ A)]; exact H.
Qed.

(* one accepted add_class_trait on the class itself = the declaration appended to the class body *)
Lemma Agr_add : forall V cd t n p t', plainp p = true ->
  Agr t (vis_class V cd) -> add_class1 false t n p = Some t' ->
  Agr t' (vis_class V (mkClass (c_decls cd ++ [(n, p)]) (c_bases cd))).
Proof.
  intros V cd t n p t' Hp HA H.
  apply (Agr_add_sub t _ _ n p t' Hp HA); [|apply add_class1_false_true, H].
  apply Ext_own; [exact Hp|apply (Agr_absent t _ n p t' HA H)].
Qed.

(* a sequence of add_class_trait calls on class k: the model's tables and the hierarchy the law
   computes its rule from *)
Fixpoint class_phase (hh0 : list classdef) (k : nat) (T : list (ctab * ptab)) (H : list classdef)
                     (adds : list (name * policy)) : list (ctab * ptab) * list classdef :=
  match adds with
  | [] => (T, H)
  | (n, p) :: r =>
      let '(T', out) := add_class hh0 T k n p in
      class_phase hh0 k T' (match out with Done => app_decl H k (n, p) | _ => H end) r
  end.

Lemma class_phase_length : forall hh0 k adds T H, length (fst (class_phase hh0 k T H adds)) = length T.
Proof.
  intros hh0 k. induction adds as [|[n p] r IH]; intros T H; [reflexivity|]. cbn [class_phase].
  destruct (add_class hh0 T k n p) as [T' out] eqn:E. rewrite IH.
  unfold add_class in E. destruct (add_class1 false (tabs_nth T k) n p); inversion E; subst; auto.
  apply map_idx_length.
Qed.

(* the law on the runs the checker evaluates (CorrT.step_t) *)
Fixpoint law_hist_ta (objs : list nat) (H : list classdef) (i : Z) (lss : list lstate)
                     (hist : list (C13.CorrT.top * obs)) : list Z :=
  match hist with
  | [] => []
  | (C13.CorrT.TObj j o, ob) :: r =>
      let me := nth j lss l_init in
      let rl := class_rule (vis_nth (visible H) (nth j objs O)) in
      map (fun c => 100 * i + c) (law_step rl me o ob)
      ++ law_hist_ta objs H (i + 1) (C13.CorrT.upd lss j (law_next rl me o ob)) r
  | (C13.CorrT.TClass k n p, ob) :: r =>
      law_hist_ta objs (match o_out ob with Done => app_decl H k (n, p) | _ => H end) (i + 1) lss r
  end.

(* the class operations of a run: no law codes, the tables and the hierarchy of [class_phase] *)
Lemma run_t_class_phase : forall hh0 k adds T H insts rest i lss,
  law_hist_ta [k] H i lss (run_t hh0 [k] (T, insts) (map (fun e => C13.CorrT.TClass k (fst e) (snd e)) adds ++ rest)) =
  law_hist_ta [k] (snd (class_phase hh0 k T H adds)) (i + Z.of_nat (length adds)) lss
              (run_t hh0 [k] (fst (class_phase hh0 k T H adds), insts) rest).
Proof.
  intros hh0 k. induction adds as [|[n p] r IH]; intros T H insts rest i lss.
  - simpl. rewrite Z.add_0_r. reflexivity.
  - cbn [map app run_t class_phase fst snd]. unfold C13.CorrT.step_t at 1.
    destruct (add_class hh0 T k n p) as [T' out] eqn:E. cbn [law_hist_ta o_out].
    rewrite IH. replace (i + 1 + Z.of_nat (length r)) with (i + Z.of_nat (length ((n, p) :: r)))
      by (simpl length; lia). reflexivity.
Qed.

Lemma set_ctab_length : forall T k c, (k < length T)%nat -> length (set_ctab T k c) = length T.
Proof.
  unfold set_ctab. induction T as [|[c0 p0] r IH]; intros k c H; simpl in H; [lia|].
  destruct k; simpl; auto. rewrite IH by lia. reflexivity.
Qed.
Lemma set_ctab_other : forall T j k c, j <> k -> tabs_nth (set_ctab T j c) k = tabs_nth T k.
Proof.
  unfold set_ctab, tabs_nth. induction T as [|[c0 p0] r IH]; intros j k c H.
  - destruct j; destruct k; reflexivity.
  - destruct j; destruct k; simpl; auto; try congruence; try (apply IH; congruence).
Qed.

(* the two listed findings: with a name touched (hence cached) before the matching add_class_trait
   the law fails on the model too *)
Definition n_cax : name := [99; 97; 120].
Definition n_zz : name := [122; 122].
Lemma cached_wildcard_refutes :
  let hh := roots ++ [mkClass [] [0%nat]] in
  law_hist_ta [3%nat] hh 0 [l_init]
    (run_t hh [3%nat] (tables hh, [([], [])])
       [C13.CorrT.TObj 0 (OGet n_cax); C13.CorrT.TClass 3 [99; 95] (PTyped VInt 7); C13.CorrT.TObj 0 (OGet n_cax)]) <> [].
Proof. vm_compute. discriminate. Qed.
Lemma cached_class_trait_refutes :
  let hh := roots ++ [mkClass [] [0%nat]; mkClass [] [3%nat]] in
  law_hist_ta [4%nat] hh 0 [l_init]
    (run_t hh [4%nat] (tables hh, [([], [])])
       [C13.CorrT.TObj 0 (OGet n_zz); C13.CorrT.TClass 3 n_zz (PTyped VStr 102); C13.CorrT.TObj 0 (OGet n_zz)]) <> [].
Proof. vm_compute. discriminate. Qed.

(* a declaration arriving on the class of a LIVE object: what keeps the invariant of Proofs.v *)

Lemma best_app_nomatch : forall m l e, is_prefix (fst e) m = false -> best m (l ++ [e]) = best m l.
Proof.
  intros m l [q p] H. simpl in H. induction l as [|[k v] r IH]; simpl.
  - rewrite H. reflexivity.
  - rewrite IH. reflexivity.
Qed.

(* a name the new wildcard cannot change the rule of: declared, __x__, or not matched *)
Definition wcond (ct0 : ctab) (q m : name) : bool := amem m ct0 || dunder m || negb (is_prefix q m).

Lemma wcond_ext : forall a b q m, tab_eq a b -> wcond a q m = wcond b q m.
Proof. intros a b q m E. unfold wcond, amem. rewrite (E m). reflexivity. Qed.

Lemma model_rule_add_wild : forall ct0 pt q p m, StronglySorted len_ge pt -> wcond ct0 q m = true ->
  model_rule ct0 (sort_len (pt ++ [(q, p)])) m = model_rule ct0 pt m.
Proof.
  intros ct0 pt q p m S H. unfold model_rule, wcond, amem in *.
  destruct (assoc m ct0); auto. destruct (dunder m); auto. simpl in H. apply negb_true_iff in H.
  pose proof (first_match_best m (sort_len (pt ++ [(q, p)])) (pt ++ [(q, p)]) (sort_len_sorted _)
                (fun k => assoc_sort_len _ k)) as E1.
  pose proof (first_match_best m pt pt S (fun k => eq_refl)) as E2.
  rewrite (best_app_nomatch m pt (q, p) H) in E1. unfold wild in E1, E2.
  destruct (first_match m (sort_len (pt ++ [(q, p)]))) as [[? ?]|]; destruct (first_match m pt) as [[? ?]|];
    destruct (best m pt) as [[? ?]|]; congruence.
Qed.

Section Own.
  Variable ct0 : ctab.
  Variable pt : ptab.

  Lemma Inv_add_explicit : forall s ls n p, Inv ct0 pt s ls -> assoc n (s_ctd s) = None -> plainp p = true ->
    amem n (s_itd s) || storing (RPol p) || negb (amem n (s_od s)) = true ->
    Inv (aset n p ct0) pt (mkState (aset n p (s_ctd s)) (s_itd s) (s_od s)) ls.
  Proof.
    intros s ls n p HI Hn Hp Hs. destruct (inv_plain4 _ _ _ _ HI) as (P1 & P2 & P3 & P4).
    destruct HI as [I1 I2 I3 I4 I5 _].
    assert (MR : forall m, name_eqb n m = false -> model_rule (aset n p ct0) pt m = model_rule ct0 pt m)
      by (intros m E; unfold model_rule; rewrite assoc_aset, E; reflexivity).
    assert (MN : model_rule (aset n p ct0) pt n = RPol p)
      by (unfold model_rule; rewrite assoc_aset, name_eqb_refl; reflexivity).
    constructor; simpl; try assumption.
    - intros m x. rewrite !assoc_aset. destruct (name_eqb n m); auto.
    - intros m x. rewrite assoc_aset. destruct (name_eqb n m) eqn:E.
      + apply name_eqb_eq in E. subst m. intro Hx. inversion Hx; subst. left. exact MN.
      + intro Hx. rewrite (MR m E). apply (I4 _ _ Hx).
    - (* a value stored under n before the call: the new trait must store, or an instance trait governs *)
      intros m v Hm. pose proof (I5 _ _ Hm) as H. unfold gov in *. simpl.
      destruct (assoc m (s_itd s)) as [x|] eqn:Ei; [exact H|].
      destruct (name_eqb n m) eqn:E; [|rewrite (MR m E); exact H].
      apply name_eqb_eq in E. subst m. unfold amem in Hs. rewrite Ei, Hm in Hs. simpl in Hs.
      rewrite orb_false_r in Hs. rewrite MN. exact Hs.
    - apply plain4; auto; apply plain_aset; auto.
  Qed.

  (* D: any dictionary equal to the declared one, e.g. the declarative one *)
  Lemma Inv_add_wild : forall D s ls q p, Inv ct0 pt s ls -> StronglySorted len_ge pt -> plainp p = true ->
    tab_eq ct0 D ->
    forallb (fun e => wcond D q (fst e)) (s_ctd s) = true ->
    forallb (fun e => amem (fst e) (s_itd s) || wcond D q (fst e)) (s_od s) = true ->
    Inv ct0 (sort_len (pt ++ [(q, p)])) s ls.
  Proof.
    intros D s ls q p HI S Hp E Hc Ho. destruct (inv_plain4 _ _ _ _ HI) as (P1 & P2 & P3 & P4).
    destruct HI as [I1 I2 I3 I4 I5 _]. rewrite forallb_forall in Hc, Ho.
    assert (W : forall m, wcond D q m = true -> model_rule ct0 (sort_len (pt ++ [(q, p)])) m = model_rule ct0 pt m)
      by (intros m Hm; apply model_rule_add_wild; [exact S|rewrite (wcond_ext _ _ q m E); exact Hm]).
    constructor; try assumption.
    - intros m x Hx. rewrite (W m (Hc _ (assoc_In _ _ _ Hx))). apply (I4 _ _ Hx).
    - intros m v Hm. pose proof (I5 _ _ Hm) as H. unfold gov in *.
      destruct (assoc m (s_itd s)) as [x|] eqn:Ei; auto.
      pose proof (Ho _ (assoc_In _ _ _ Hm)) as Hw. unfold amem in Hw. simpl in Hw. rewrite Ei in Hw. simpl in Hw.
      rewrite (W m Hw). exact H.
    - apply plain4; auto. apply plain_sort_len. apply plain_app1; auto.
  Qed.
End Own.

Lemma obj_step_ok : forall ct0 pt v s ls o, Agr (ct0, pt) v -> Inv ct0 pt s ls -> clean_step s o = true ->
  law_step (class_rule v) ls o (snd (step pt s o)) = [] /\
  Inv ct0 pt (fst (step pt s o)) (law_next (class_rule v) ls o (snd (step pt s o))).
Proof.
  intros ct0 pt v s ls o (A & B & S) HI Hc.
  assert (RL : forall m, model_rule ct0 pt m = class_rule v m) by (intro m; apply (agree_rule (ct0, pt) _ m A B S)).
  rewrite <- (law_step_ext _ _ RL), <- (law_next_ext _ _ RL). apply step_ok; assumption.
Qed.

(* add_class_trait on the object's own class INTERLEAVED with its operations *)

Inductive oop := OObj (o : op) | OCls (n : name) (p : policy).

(* the object and (the prefix list of) its class; the class dictionary is s_ctd of the object *)
Definition ostep (sp : state * ptab) (x : oop) : (state * ptab) * obs :=
  match x with
  | OObj o => let '(s', ob) := step (snd sp) (fst sp) o in ((s', snd sp), ob)
  | OCls n p =>
      match add_class1 false (s_ctd (fst sp), snd sp) n p with
      | Some t' => ((mkState (fst t') (s_itd (fst sp)) (s_od (fst sp)), snd t'), mkObs Done None None None)
      | None => (sp, mkObs (Raise TraitError) None None None)
      end
  end.
Fixpoint orun (sp : state * ptab) (xs : list oop) : list (oop * obs) :=
  match xs with
  | [] => []
  | x :: r => let '(sp', ob) := ostep sp x in (x, ob) :: orun sp' r
  end.

Fixpoint law_hist_o (k : nat) (H : list classdef) (i : Z) (ls : lstate) (hist : list (oop * obs)) : list Z :=
  match hist with
  | [] => []
  | (OObj o, ob) :: r =>
      let rl := class_rule (vis_nth (visible H) k) in
      map (fun c => 100 * i + c) (law_step rl ls o ob) ++ law_hist_o k H (i + 1) (law_next rl ls o ob) r
  | (OCls n p, ob) :: r =>
      law_hist_o k (match o_out ob with Done => app_decl H k (n, p) | _ => H end) (i + 1) ls r
  end.

(* excluded: finding 1; Map/List traits; and the cached-name finding — a wildcard accepted at run
   time must not match a name that is already resolved (cached in the class dictionary) or stored,
   unless that name is declared, an instance trait governs it, or it is a __x__ name; an explicit
   name accepted at run time must not have a value stored under it already unless its trait stores *)
Definition oclean (k : nat) (sp : state * ptab) (H : list classdef) (x : oop) : bool :=
  let D := fst (vis_nth (visible H) k) in
  let s := fst sp in
  match x with
  | OObj o => clean_step s o
  | OCls n p =>
      plainp p &&
      if ends_us n then
        amem (removelast n) (snd sp) ||
        (forallb (fun e => wcond D (removelast n) (fst e)) (s_ctd s) &&
         forallb (fun e => amem (fst e) (s_itd s) || wcond D (removelast n) (fst e)) (s_od s))
      else
        amem n (s_ctd s) || (amem n (s_itd s) || storing (RPol p) || negb (amem n (s_od s)))
  end.
Fixpoint oclean_run (k : nat) (sp : state * ptab) (H : list classdef) (xs : list oop) : bool :=
  match xs with
  | [] => true
  | x :: r => oclean k sp H x &&
              oclean_run k (fst (ostep sp x))
                (match x, o_out (snd (ostep sp x)) with OCls n p, Done => app_decl H k (n, p) | _, _ => H end) r
  end.

(* the runs the checker evaluates with one object of class k and class calls on class k *)
Definition top_of (k : nat) (x : oop) : C13.CorrT.top :=
  match x with OObj o => C13.CorrT.TObj 0 o | OCls n p => C13.CorrT.TClass k n p end.

Lemma run_t_orun : forall hh0 k xs T itd od H i ls, (k < length T)%nat ->
  law_hist_ta [k] H i [ls] (run_t hh0 [k] (T, [(itd, od)]) (map (top_of k) xs)) =
  law_hist_o k H i ls (orun (mkState (fst (tabs_nth T k)) itd od, snd (tabs_nth T k)) xs).
Proof.
  intros hh0 k. induction xs as [|x r IH]; intros T itd od H i ls Hk; [reflexivity|].
  destruct x as [o|n p]; cbn [map top_of run_t orun ostep fst snd].
  - unfold C13.CorrT.step_t. cbn [nth fst snd].
    destruct (step (snd (tabs_nth T k)) (mkState (fst (tabs_nth T k)) itd od) o) as [s' ob] eqn:E.
    cbn [law_hist_ta law_hist_o nth C13.CorrT.upd fst snd].
    rewrite (IH (set_ctab T k (s_ctd s')) (s_itd s') (s_od s')) by (rewrite set_ctab_length; auto).
    rewrite (set_ctab_nth T k (s_ctd s') Hk). cbn [fst snd]. destruct s'; reflexivity.
  - unfold C13.CorrT.step_t. destruct (add_class hh0 T k n p) as [T' out] eqn:E.
    destruct (add_class_at hh0 T k n p T' out Hk E) as [HL Hc].
    cbn [s_ctd s_itd s_od].
    replace (fst (tabs_nth T k), snd (tabs_nth T k)) with (tabs_nth T k) by (destruct (tabs_nth T k); reflexivity).
    destruct (add_class1 false (tabs_nth T k) n p) as [tk|] eqn:E1.
    + destruct Hc as [-> Htk]. cbn [law_hist_ta law_hist_o o_out fst snd].
      rewrite (IH T' itd od) by lia. rewrite Htk. reflexivity.
    + destruct Hc as [-> ->]. cbn [law_hist_ta law_hist_o o_out]. rewrite (IH T itd od) by lia. reflexivity.
Qed.

(* object operations only: Model.run on the tables of the object's class *)
Lemma orun_objs : forall k H ops sp i ls,
  law_hist_o k H i ls (orun sp (map OObj ops)) =
  law_hist (class_rule (vis_nth (visible H) k)) i ls (run (snd sp) (fst sp) ops).
Proof.
  intros k H. induction ops as [|o r IH]; intros [s pt] i ls; [reflexivity|].
  cbn [map orun ostep run fst snd]. destruct (step pt s o) as [s' ob]. cbn [law_hist_o law_hist].
  rewrite IH. reflexivity.
Qed.
Lemma run_t_object : forall hh0 H k ops T itd od i ls, (k < length T)%nat ->
  law_hist_ta [k] H i [ls] (run_t hh0 [k] (T, [(itd, od)]) (map (C13.CorrT.TObj 0) ops)) =
  law_hist (class_rule (vis_nth (visible H) k)) i ls
           (run (snd (tabs_nth T k)) (mkState (fst (tabs_nth T k)) itd od) ops).
Proof.
  intros hh0 H k ops T itd od i ls Hk.
  rewrite <- (orun_objs k H ops (mkState (fst (tabs_nth T k)) itd od, snd (tabs_nth T k))).
  rewrite <- (run_t_orun hh0) by exact Hk. rewrite map_map. reflexivity.
Qed.
