(* C13 — property theorems only: each is a lemma of the proof files (Proofs, MapProofs, MapInterleave,
   ListenerProofs, ListenerInd, ClassOpProofs), by [exact] or in two or three tactics from a more general one,
   and is followed by Print Assumptions; the Examples are closed by evaluation.

   Vocabulary (Proofs.v): [model_rule ct pt] is the class-level rule an object implements
   whose class has __class_traits__ = ct and the sorted __prefix_traits__ = pt;
   [gov ct pt s n] is the rule governing name n in object state s (instance trait first);
   [Inv ct pt s ls] is the invariant of all states reached by histories that avoid the
   listed finding ([clean_run]: no add_trait of a value-less policy over a value already in
   obj.__dict__) and use plain traits only ([plain_class], [clean_run]: no mapped trait, i.e.
   no Map whose shadow attribute name_ is written behind the scenes), see
   [reachable_states_satisfy_invariant].  Mapped traits are modelled (Model.step: add_trait
   installs the shadow trait, Map.post_setattr assigns name_, remove_trait removes both), checked
   against the implementation by the correspondence and the law, and covered by the direct
   theorems [add_mapped_trait_installs_shadow], [remove_mapped_trait_clears_derived_name],
   [remove_trait_restores_class_rule_for_derived_names]. *)
From Coq Require Import ZArith List Bool Lia.
From TV Require Import Common.Harness C13.Model C13.Law C13.Corr C13.Proofs C13.MapProofs C13.ListenerProofs C13.ClassOpProofs C13.ListenerInd C13.MapInterleave.
Import ListNotations.
Open Scope Z_scope.

(* The whole law holds at every step of every history of get / set / del / add_trait /
   remove_trait, for every class hierarchy (any depth, any base lists, any declarations),
   every class of it and all names — with the class-level rule computed DECLARATIVELY
   (own, then the direct bases in order, each with what it inherited; longest matching
   wildcard) and the model running the sorted tables of update_traits_class_dict with its
   caching.  [spec_rule] reads "inherited" as the code does; the law that is evaluated on
   the implementation uses [mro_rule] ("inherited" along the MRO): see the next theorems. *)
Theorem law_holds_on_every_history :
  forall (h : list classdef) (c : nat) (ops : list op) (i : Z),
    plain_class h c = true ->
    clean_run (snd (class_tables h c)) (init_state (fst (class_tables h c))) ops = true ->
    law_hist (spec_rule h c) i l_init
             (run (snd (class_tables h c)) (init_state (fst (class_tables h c))) ops) = [].
Proof. exact law_all_histories. Qed.
Print Assumptions law_holds_on_every_history.

(* The law as evaluated on the implementation ("inherited" = along the C3 method resolution
   order): it holds wherever the two readings of "inherited" give the same rule ... *)
Theorem law_holds_under_mro_reading :
  forall (h : list classdef) (c : nat) (ops : list op) (i : Z),
    (forall n, mro_rule h c n = spec_rule h c n) ->
    plain_class h c = true ->
    clean_run (snd (class_tables h c)) (init_state (fst (class_tables h c))) ops = true ->
    law_hist (mro_rule h c) i l_init
             (run (snd (class_tables h c)) (init_state (fst (class_tables h c))) ops) = [].
Proof. intros h c ops i He Hp Hc. rewrite (law_hist_ext _ _ He). apply law_all_histories; auto. Qed.
Print Assumptions law_holds_under_mro_reading.

(* ... which is the case for every class of every single-inheritance hierarchy (any depth) *)
Theorem mro_and_base_order_agree_on_single_inheritance :
  forall (h : list classdef) (c : nat) (n : name),
    single h = true -> (c < length (roots ++ h))%nat -> mro_rule h c n = spec_rule h c n.
Proof. exact mro_spec_single. Qed.
Print Assumptions mro_and_base_order_agree_on_single_inheritance.

Theorem law_holds_on_single_inheritance_hierarchies :
  forall (h : list classdef) (c : nat) (ops : list op) (i : Z),
    single h = true -> (c < length (roots ++ h))%nat ->
    plain_class h c = true ->
    clean_run (snd (class_tables h c)) (init_state (fst (class_tables h c))) ops = true ->
    law_hist (mro_rule h c) i l_init
             (run (snd (class_tables h c)) (init_state (fst (class_tables h c))) ops) = [].
Proof. intros. apply law_holds_under_mro_reading; auto. intro n. apply mro_spec_single; auto. Qed.
Print Assumptions law_holds_on_single_inheritance_hierarchies.

(* ... and fails in diamonds (listed finding): class A(HasTraits): pass;
   class K(A, HasStrictTraits): pass; K().ab = 5 is accepted *)
Theorem inheritance_not_by_mro_refuted : exists h c ops,
  clean_run (snd (class_tables h c)) (init_state (fst (class_tables h c))) ops = true /\
  law_hist (mro_rule h c) 0 l_init
           (run (snd (class_tables h c)) (init_state (fst (class_tables h c))) ops) <> [].
Proof. exact mro_refutes. Qed.
Print Assumptions inheritance_not_by_mro_refuted.

(* the checker's [law_codes] only re-labels failures: it is empty exactly when [law_hist] is *)
Theorem law_codes_relabelling_is_faithful :
  forall mr sr h i ls, law_tag mr sr i ls h = [] <-> law_hist mr i ls h = [].
Proof. exact law_tag_nil. Qed.
Print Assumptions law_codes_relabelling_is_faithful.

(* ... and the hypothesis [clean_run] cannot be dropped: o.ab = 5; o.add_trait('ab', Event()); o.ab *)
Theorem law_without_clean_hypothesis_refuted : exists ops,
  law_hist (spec_rule [mkClass [] [0%nat]] 3) 0 l_init
    (run (snd (class_tables [mkClass [] [0%nat]] 3)) (init_state (fst (class_tables [mkClass [] [0%nat]] 3))) ops)
  <> [].
Proof. exact stale_value_refutes. Qed.
Print Assumptions law_without_clean_hypothesis_refuted.

(* instance trait, else class trait (own or inherited), else __x__ case, else the wildcard
   with the longest matching prefix: the built tables agree with the declarative rule *)
Theorem resolve_order :
  forall (h : list classdef) (c : nat) (n : name),
    model_rule (fst (class_tables h c)) (snd (class_tables h c)) n = spec_rule h c n.
Proof. exact class_tables_rule. Qed.
Print Assumptions resolve_order.

(* the sorted-by-length lemma: in prefix_list.sort(key=len, reverse=True) the first
   matching prefix is a matching prefix of maximal length, for every list of wildcards *)
Theorem first_match_is_longest :
  forall (n : name) (l : ptab) (q : name) (p : policy),
    first_match n (sort_len l) = Some (q, p) ->
    In (q, p) l /\ is_prefix q n = true /\
    forall q' p', In (q', p') l -> is_prefix q' n = true -> (length q' <= length q)%nat.
Proof. exact first_match_sort_longest. Qed.
Print Assumptions first_match_is_longest.

(* the law's own wildcard choice is what the property says: a matching prefix of maximal
   length (the earliest declaration among equals), or none matches *)
Theorem best_is_longest_match :
  forall (n : name) (l : ptab),
    match best n l with
    | Some (q, p) => assoc q l = Some p /\ is_prefix q n = true /\
                     forall q' p', In (q', p') l -> is_prefix q' n = true -> (length q' <= length q)%nat
    | None => forall q' p', In (q', p') l -> is_prefix q' n = false
    end.
Proof. exact best_spec. Qed.
Print Assumptions best_is_longest_match.

Theorem reachable_states_satisfy_invariant :
  forall (ct : ctab) (pt : ptab) (ops : list op) (s : state) (ls : lstate),
    Inv ct pt s ls -> clean_run pt s ops = true -> exists ls', Inv ct pt (final_state pt s ops) ls'.
Proof. exact final_Inv. Qed.
Print Assumptions reachable_states_satisfy_invariant.

Theorem fresh_object_satisfies_invariant :
  forall ct pt, plain_tab ct = true -> plain_tab pt = true -> Inv ct pt (init_state ct) l_init.
Proof. exact Inv_init. Qed.
Print Assumptions fresh_object_satisfies_invariant.

(* a name governed by Disallow (the class default of HasStrictTraits) cannot be read, written or deleted *)
Theorem strict_undeclared_rejected :
  forall ct pt s ls n v, Inv ct pt s ls -> gov ct pt s n = RPol PDisallow ->
    (assoc n (s_od s) = None -> o_out (snd (step pt s (OGet n))) = Raise AttributeError) /\
    o_out (snd (step pt s (OSet n v))) = Raise TraitError /\
    o_out (snd (step pt s (ODel n))) = Raise TraitError /\
    assoc n (s_od (fst (step pt s (OSet n v)))) = assoc n (s_od s).
Proof. exact disallow_rejects. Qed.
Print Assumptions strict_undeclared_rejected.

Theorem strict_class_default_is_disallow :
  forall n, name_eqb n_trait_added n = false -> name_eqb n_trait_modified n = false ->
    dunder n = false -> is_prefix n_traits_cache_ n = false ->
    spec_rule [] 1 n = RPol PDisallow.
Proof. exact strict_default. Qed.
Print Assumptions strict_class_default_is_disallow.

Theorem plain_class_default_is_python :
  forall n, name_eqb n_trait_added n = false -> name_eqb n_trait_modified n = false ->
    dunder n = false -> is_prefix n_traits_cache_ n = false ->
    spec_rule [] 0 n = RPol PPython.
Proof. exact plain_default. Qed.
Print Assumptions plain_class_default_is_python.

(* ReadOnly: the first assignment defines the value, is read back, and every later
   assignment or delete is rejected and leaves the value *)
Theorem readonly_exactly_one_defining_assignment :
  forall ct pt s ls n v w, Inv ct pt s ls -> gov ct pt s n = RPol (PReadOnly VUndef) ->
    defined (assoc n (s_od s)) = false -> v <> VUndef ->
    let s1 := fst (step pt s (OSet n v)) in
    o_out (snd (step pt s (OSet n v))) = Done /\
    o_out (snd (step pt s1 (OGet n))) = Val v /\
    o_out (snd (step pt s1 (OSet n w))) = Raise TraitError /\
    o_out (snd (step pt s1 (ODel n))) = Raise TraitError /\
    assoc n (s_od (fst (step pt s1 (OSet n w)))) = Some v.
Proof. exact readonly_once. Qed.
Print Assumptions readonly_exactly_one_defining_assignment.

Theorem constant_never_changes :
  forall ct pt s ls n c v, Inv ct pt s ls -> gov ct pt s n = RPol (PConstant c) ->
    (assoc n (s_od s) = None -> o_out (snd (step pt s (OGet n))) = Val c) /\
    o_out (snd (step pt s (OSet n v))) = Raise TraitError /\
    o_out (snd (step pt s (ODel n))) = Raise TraitError /\
    assoc n (s_od (fst (step pt s (OSet n v)))) = assoc n (s_od s) /\
    assoc n (s_od (fst (step pt s (ODel n)))) = assoc n (s_od s).
Proof. exact constant_fixed. Qed.
Print Assumptions constant_never_changes.

Theorem event_write_only :
  forall ct pt s ls n v, Inv ct pt s ls -> gov ct pt s n = RPol (PEvent None) ->
    o_out (snd (step pt s (OSet n v))) = Done /\
    (assoc n (s_od s) = None -> o_out (snd (step pt s (OGet n))) = Raise AttributeError) /\
    assoc n (s_od (fst (step pt s (OSet n v)))) = assoc n (s_od s).
Proof. exact event_is_write_only. Qed.
Print Assumptions event_write_only.

(* a typed trait (Int, Str, CInt, ... any validator [VFun f]) accepts exactly what its own
   validator accepts and stores the validated value *)
Theorem typed_names_validate :
  forall ct pt s ls n k d v, Inv ct pt s ls -> gov ct pt s n = RPol (PTyped k d) -> v <> VUndef ->
    let s1 := fst (step pt s (OSet n v)) in
    match validate k v with
    | Some w => o_out (snd (step pt s (OSet n v))) = Done /\ o_out (snd (step pt s1 (OGet n))) = Val w
    | None => o_out (snd (step pt s (OSet n v))) = Raise TraitError /\ assoc n (s_od s1) = assoc n (s_od s)
    end.
Proof. exact typed_validates. Qed.
Print Assumptions typed_names_validate.

Theorem readonly_with_default_never_assignable :
  forall ct pt s ls n d v, Inv ct pt s ls -> gov ct pt s n = RPol (PReadOnly d) -> d <> VUndef ->
    (assoc n (s_od s) = None -> o_out (snd (step pt s (OGet n))) = Val d) /\
    o_out (snd (step pt s (OSet n v))) = Raise TraitError /\
    o_out (snd (step pt s (ODel n))) = Raise TraitError /\
    assoc n (s_od (fst (step pt s (OSet n v)))) = assoc n (s_od s).
Proof. exact readonly_default_fixed. Qed.
Print Assumptions readonly_with_default_never_assignable.

Theorem typed_event_write_only :
  forall ct pt s ls n k v, Inv ct pt s ls -> gov ct pt s n = RPol (PEvent (Some k)) ->
    o_out (snd (step pt s (OSet n v))) = (match validate k v with Some _ => Done | None => Raise TraitError end) /\
    (assoc n (s_od s) = None -> o_out (snd (step pt s (OGet n))) = Raise AttributeError) /\
    assoc n (s_od (fst (step pt s (OSet n v)))) = assoc n (s_od s).
Proof. exact event_typed. Qed.
Print Assumptions typed_event_write_only.

(* in reachable states nothing is stored under Disallow / Constant / Event, so the
   side conditions [assoc n (s_od s) = None] above always hold there *)
Theorem nothing_stored_under_valueless_policy :
  forall ct pt s ls n, Inv ct pt s ls -> storing (gov ct pt s n) = false -> assoc n (s_od s) = None.
Proof. exact nothing_stored. Qed.
Print Assumptions nothing_stored_under_valueless_policy.

Theorem remove_trait_restores_class_rule :
  forall ct pt s ls n, Inv ct pt s ls ->
    let s1 := fst (step pt s (ORem n)) in
    gov ct pt s1 n = model_rule ct pt n /\
    (forall m, m <> n -> gov ct pt s1 m = gov ct pt s m) /\
    (assoc n (s_itd s) <> None -> assoc n (s_od s1) = None /\ o_out (snd (step pt s (ORem n))) = Val 1) /\
    exists ls1, Inv ct pt s1 ls1.
Proof. exact remove_restores. Qed.
Print Assumptions remove_trait_restores_class_rule.

Theorem add_trait_governs :
  forall ct pt s n p, gov ct pt (fst (step pt s (OAdd n p))) n = RPol p.
Proof. exact add_governs. Qed.
Print Assumptions add_trait_governs.

Theorem access_never_changes_the_governing_trait :
  forall ct pt s o m, is_access o = true -> gov ct pt (fst (step pt s o)) m = gov ct pt s m.
Proof. exact gov_access_stable. Qed.
Print Assumptions access_never_changes_the_governing_trait.

(* HasPrivateTraits: names starting with '_' are untyped (Any, default None), all others rejected *)
Theorem private_names_untyped :
  forall n, name_eqb n_trait_added n = false -> name_eqb n_trait_modified n = false ->
    dunder n = false -> is_prefix n_traits_cache_ n = false ->
    spec_rule [] 2 n = if is_prefix [US] n then RPol (PAny VNone) else RPol PDisallow.
Proof. exact private_default. Qed.
Print Assumptions private_names_untyped.

Theorem untyped_names_accept_any_value :
  forall ct pt s ls n v d, Inv ct pt s ls ->
    (gov ct pt s n = RPol (PAny d) \/ gov ct pt s n = RPol PPython \/ gov ct pt s n = RDunder) ->
    let s1 := fst (step pt s (OSet n v)) in
    o_out (snd (step pt s (OSet n v))) = Done /\ o_out (snd (step pt s1 (OGet n))) = Val v.
Proof. exact untyped_accepts. Qed.
Print Assumptions untyped_names_accept_any_value.

(* Two instances of one class share the class dictionary with its cached resolutions and
   nothing else: after any (clean) history on a first instance, every history on a fresh
   second instance still satisfies the law. *)
Theorem second_instance_shares_only_the_cache :
  forall (h : list classdef) (c : nat) (pre ops : list op) (i : Z),
    plain_class h c = true ->
    let t := class_tables h c in
    clean_run (snd t) (init_state (fst t)) pre = true ->
    let s2 := mkState (s_ctd (final_state (snd t) (init_state (fst t)) pre)) [] [] in
    clean_run (snd t) s2 ops = true ->
    law_hist (spec_rule h c) i l_init (run (snd t) s2 ops) = [].
Proof. exact law_second_instance. Qed.
Print Assumptions second_instance_shares_only_the_cache.

Theorem second_instance_tables :
  forall h c pre, (c < length (tables h))%nat ->
    tabs_nth (staged_tables h c pre []) c =
    (s_ctd (final_state (snd (tabs_nth (tables h) c)) (init_state (fst (tabs_nth (tables h) c))) pre),
     snd (tabs_nth (tables h) c)).
Proof. exact staged_same_class. Qed.
Print Assumptions second_instance_tables.

(* classes created before any instance is used get the plain tables (the case the main theorem covers) *)
Theorem classes_created_before_use_are_plain :
  forall h1 k h2, staged_tables h1 k [] h2 = tables (h1 ++ h2).
Proof. exact staged_no_pre. Qed.
Print Assumptions classes_created_before_use_are_plain.

(* ... and a class created AFTER an instance of its base was used violates the law (listed finding):
   class A(HasTraits): a_ = Int;  A().ab = 1;  class B(A): a_ = Str;  B().ab = "s1" *)
Theorem late_class_inherits_cache_refuted : exists h1 k pre h2 c ops,
  let t := tabs_nth (staged_tables (roots ++ h1) k pre h2) c in
  clean_run (snd t) (init_state (fst t)) ops = true /\
  law_hist (spec_rule (h1 ++ h2) c) 0 l_init (run (snd t) (init_state (fst t)) ops) <> [].
Proof. exact late_class_refutes. Qed.
Print Assumptions late_class_inherits_cache_refuted.

(* Two instances of one class with their operations interleaved in any order: each instance
   obeys the law on its own — instance traits and stored values of one never govern the
   other, the shared class dictionary (with the cached resolutions) never changes a rule. *)
Theorem two_interleaved_instances_obey_the_law :
  forall (h : list classdef) (c : nat) (ops : list (bool * op)) (i : Z),
    plain_class h c = true ->
    clean_run2 (snd (class_tables h c)) (init_state2 (fst (class_tables h c))) ops = true ->
    law_hist2 (spec_rule h c) i l_init l_init
              (run2 (snd (class_tables h c)) (init_state2 (fst (class_tables h c))) ops) = [].
Proof. exact law_two_instances. Qed.
Print Assumptions two_interleaved_instances_obey_the_law.

Theorem two_instance_run_extends_the_single_run :
  forall pt ops ctd a b,
    map (fun x => (snd (fst x), snd x)) (run2 pt (ctd, a, b) (map (pair false) ops)) = run pt (st_of ctd a) ops.
Proof. exact run2_single. Qed.
Print Assumptions two_instance_run_extends_the_single_run.

Theorem law_codes_relabelling_is_faithful_for_two_instances :
  forall mr sr h i la lb, law_tag2 mr sr i la lb h = [] <-> law_hist2 mr i la lb h = [].
Proof. exact law_tag2_nil. Qed.
Print Assumptions law_codes_relabelling_is_faithful_for_two_instances.

(* mapped traits (Map): statements about Model.step in every state, no invariant *)
Theorem add_mapped_trait_installs_shadow :
  forall pt s n m d,
    let s' := fst (step pt s (OAdd n (PMap m d))) in
    assoc n (s_itd s') = Some (PMap m d) /\ assoc (n ++ [US]) (s_itd s') = Some (PShadow m) /\
    s_od s' = s_od s.
Proof. exact add_mapped_installs. Qed.
Print Assumptions add_mapped_trait_installs_shadow.

(* remove_trait(name) of a mapped instance trait removes the trait, the shadow trait of name_,
   the value and the shadow value (C13-m3 leaves the shadow value behind) *)
Theorem remove_mapped_trait_clears_derived_name :
  forall pt s n m d,
    assoc n (s_itd s) = Some (PMap m d) ->
    (assoc (n ++ [US]) (s_itd s) <> None \/ amem (n ++ [US]) (s_ctd s) = true) ->
    let s' := fst (step pt s (ORem n)) in
    o_out (snd (step pt s (ORem n))) = Val 1 /\
    assoc n (s_itd s') = None /\ assoc (n ++ [US]) (s_itd s') = None /\
    assoc n (s_od s') = None /\ assoc (n ++ [US]) (s_od s') = None.
Proof. exact remove_mapped_clears. Qed.
Print Assumptions remove_mapped_trait_clears_derived_name.

(* ... hence name and name_ are governed by the class-level rule again and nothing stale is stored *)
Theorem remove_trait_restores_class_rule_for_derived_names :
  forall ct pt s n m d,
    assoc n (s_itd s) = Some (PMap m d) ->
    (assoc (n ++ [US]) (s_itd s) <> None \/ amem (n ++ [US]) (s_ctd s) = true) ->
    let s' := fst (step pt s (ORem n)) in
    gov ct pt s' n = model_rule ct pt n /\ gov ct pt s' (n ++ [US]) = model_rule ct pt (n ++ [US]) /\
    assoc n (s_od s') = None /\ assoc (n ++ [US]) (s_od s') = None.
Proof. exact remove_mapped_restores_class_rule. Qed.
Print Assumptions remove_trait_restores_class_rule_for_derived_names.

(* List traits (has_items): the event trait of name_items is installed by add_trait and removed,
   with the trait and its value, by remove_trait *)
Theorem add_list_trait_installs_items_event :
  forall pt s n,
    let s' := fst (step pt s (OAdd n PList)) in
    assoc n (s_itd s') = Some PList /\
    assoc (n ++ items_suffix) (s_itd s') = Some (PEvent (Some VNoneOnly)) /\ s_od s' = s_od s.
Proof. exact add_list_installs. Qed.
Print Assumptions add_list_trait_installs_items_event.

Theorem remove_list_trait_clears_items_event :
  forall pt s n,
    assoc n (s_itd s) = Some PList ->
    let s' := fst (step pt s (ORem n)) in
    o_out (snd (step pt s (ORem n))) = Val 1 /\
    assoc n (s_itd s') = None /\ assoc (n ++ items_suffix) (s_itd s') = None /\ assoc n (s_od s') = None.
Proof. exact remove_list_clears. Qed.
Print Assumptions remove_list_trait_clears_items_event.

(* the law on histories WITH a mapped trait (MapProofs.v, MapInterleave.v):
   [pair_op n o]: o is a get / set / del of name n or of its shadow name n_;
   [Agree s ls]: the law's bookkeeping (instance traits, stored values) agrees with the object. *)

(* From ANY object state whose bookkeeping agrees, under ANY class-level rule and class tables:
   add_trait(n, Map(m, default d)) (d a key of m) followed by any history of get / set / del on n
   and n_, with or without a final remove_trait(n), satisfies the whole law (Map.post_setattr's
   write of n_, materialised defaults, the shadow's mapped default, clause 93 on removal). *)
Theorem law_holds_on_the_life_of_a_mapped_trait :
  forall (crule : name -> rule) pt n m d wd, zassoc d m = Some wd ->
  forall ops s ls i, Agree s ls -> forallb (pair_op n) ops = true ->
    law_hist crule i ls (run pt s (OAdd n (PMap m d) :: ops)) = [] /\
    law_hist crule i ls (run pt s (OAdd n (PMap m d) :: ops ++ [ORem n])) = [].
Proof. exact mapped_life. Qed.
Print Assumptions law_holds_on_the_life_of_a_mapped_trait.

(* every single get / set / del on n or n_ while the pair is installed: the law's step check
   passes, the pair stays, the bookkeeping agrees again *)
Theorem mapped_pair_step_obeys_the_law :
  forall (crule : name -> rule) pt n m d wd, zassoc d m = Some wd ->
  forall s ls o, Pair n m d s -> Agree s ls -> pair_op n o = true -> Good crule pt n m d s ls o.
Proof. exact pair_step. Qed.
Print Assumptions mapped_pair_step_obeys_the_law.

(* a fresh object of any class (hence either reading of "inherited", any hierarchy) *)
Theorem law_holds_on_mapped_trait_of_a_fresh_object :
  forall (crule : name -> rule) ct pt n m d wd ops i,
    zassoc d m = Some wd -> forallb (pair_op n) ops = true ->
    law_hist crule i l_init (run pt (init_state ct) (OAdd n (PMap m d) :: ops)) = [] /\
    law_hist crule i l_init (run pt (init_state ct) (OAdd n (PMap m d) :: ops ++ [ORem n])) = [].
Proof. intros. eapply mapped_life; eauto using Agree_init. Qed.
Print Assumptions law_holds_on_mapped_trait_of_a_fresh_object.

(* every class without Map/List declarations, any clean history on plain
   traits, THEN the life of a mapped instance trait *)
Theorem law_holds_on_histories_with_mapped_traits :
  forall (h : list classdef) (c : nat) (pre : list op) n m d wd (ops : list op) (i : Z),
    plain_class h c = true ->
    let t := class_tables h c in
    clean_run (snd t) (init_state (fst t)) pre = true ->
    zassoc d m = Some wd -> forallb (pair_op n) ops = true ->
    law_hist (spec_rule h c) i l_init
             (run (snd t) (init_state (fst t)) (pre ++ OAdd n (PMap m d) :: ops)) = [] /\
    law_hist (spec_rule h c) i l_init
             (run (snd t) (init_state (fst t)) (pre ++ OAdd n (PMap m d) :: ops ++ [ORem n])) = [].
Proof. exact plain_then_mapped_life_spec. Qed.
Print Assumptions law_holds_on_histories_with_mapped_traits.

(* plain phases ([SPlain ops], clean) and complete lives of mapped instance traits
   ([SMap n m d ops] = add_trait(n, Map(m, d)); get/set/del on n, n_; remove_trait(n)) alternate in
   any number and order, possibly followed by one more life that is not finished; [segs_ok] is the
   boolean hypothesis (each plain phase clean in the state it starts from, each default a key,
   each life touching only its own two names) *)
Theorem law_holds_on_alternating_plain_and_mapped_phases :
  forall (h : list classdef) (c : nat) (gs : list seg) (i : Z),
    plain_class h c = true ->
    let t := class_tables h c in
    segs_ok (snd t) (init_state (fst t)) gs = true ->
    law_hist (spec_rule h c) i l_init (run (snd t) (init_state (fst t)) (flat_map seg_ops gs)) = [] /\
    forall n m d wd ops, zassoc d m = Some wd -> forallb (pair_op n) ops = true ->
      law_hist (spec_rule h c) i l_init
               (run (snd t) (init_state (fst t)) (flat_map seg_ops gs ++ OAdd n (PMap m d) :: ops)) = [].
Proof. exact law_alternating. Qed.
Print Assumptions law_holds_on_alternating_plain_and_mapped_phases.

(* a state that differs from a state of the plain-trait invariant by an installed pair and the values of
   its two names ([During]) satisfies that invariant again after remove_trait *)
Theorem plain_invariant_holds_again_after_remove_trait :
  forall ct pt n m d s0 ls0 s ls, Inv ct pt s0 ls0 -> During n m d s0 s -> Agree s ls ->
    Inv ct pt (fst (step pt s (ORem n))) (law_next (model_rule ct pt) ls (ORem n) (snd (step pt s (ORem n)))).
Proof. exact Inv_after_life. Qed.
Print Assumptions plain_invariant_holds_again_after_remove_trait.

Example alternating_phases_nontrivial :
  let t := class_tables [mkClass [([97; 95], PTyped VInt 7)] [1%nat]] 3 in
  segs_ok (snd t) (init_state (fst t))
    [ SPlain [OSet [97; 98; 95] 5; OAdd [98] (PAny 5); OSet [98] 6];
      SMap [97; 98] [(1, 11); (2, 12)] 1 [OGet [97; 98; 95]; OSet [97; 98] 2; OGet [97; 98; 95]; OSet [97; 98] 5];
      SPlain [OGet [97; 98; 95]; OSet [97; 98; 95] 3; OGet [98]; ORem [98]; OGet [98]];
      SMap [98] [(2, 3); (6, 5)] 6 [OGet [98; 95]; ODel [98]; OSet [98; 95] 9; OGet [98]] ] = true.
Proof. vm_compute. reflexivity. Qed.

(* Non-vacuity of law_holds_on_histories_with_mapped_traits: strict class with a wildcard covering ab_; a plain
   prefix; add_trait("ab", Map({1: 11, 2: 12})); reads, assignments (valid, invalid, to the shadow),
   deletes; remove_trait *)
Example mapped_theorem_nontrivial :
  let t := class_tables [mkClass [([97; 95], PTyped VInt 7)] [1%nat]] 3 in
  let pre := [OSet [97; 98; 95] 5; OGet [98]; OAdd [98] (PAny 5); OSet [98] 6] in
  let ops := [OGet [97; 98; 95]; OGet [97; 98]; OSet [97; 98] 2; OGet [97; 98; 95]; OSet [97; 98] 5;
              OSet [97; 98; 95] 9; OSet [97; 98] 2; ODel [97; 98]; ODel [97; 98; 95]; OGet [97; 98; 95]] in
  plain_class [mkClass [([97; 95], PTyped VInt 7)] [1%nat]] 3 = true /\
  clean_run (snd t) (init_state (fst t)) pre = true /\
  forallb (pair_op [97; 98]) ops = true /\
  map (fun p => o_out (snd p))
      (run (snd t) (init_state (fst t)) (pre ++ OAdd [97; 98] (PMap [(1, 11); (2, 12)] 1) :: ops ++ [ORem [97; 98]])) =
  [Done; Raise AttributeError; Done; Done;
   Done; Val 5; Val 1; Done; Val 12; Raise TraitError; Done; Done; Done; Done; Val 11; Val 1].
Proof. vm_compute. repeat split; reflexivity. Qed.

(* on plain traits Model.step is the plain look-up + handlers the invariant proofs reason about *)
Theorem model_step_on_plain_traits :
  forall ct pt s ls o, Inv ct pt s ls -> clean_step s o = true -> step pt s o = step_p pt s o.
Proof. exact step_plain_eq. Qed.
Print Assumptions model_step_on_plain_traits.

(* Non-vacuity: a hierarchy with overlapping wildcards in two bases under a strict and a
   private root; a clean history with an instance trait shadowing and being removed, a
   ReadOnly defined once, a Constant, an Event; outcomes of every class occur. *)
Definition ex_h : list classdef :=
  [ mkClass [([97; 95], PTyped VInt 7); ([97; 98; 95], PEvent None)] [1%nat];              (* 3: a_ = Int, ab_ = Event; strict *)
    mkClass [([97; 95], PTyped VStr 102); ([98], PConstant 3)] [2%nat];                (* 4: a_ = Str, b = Constant; private *)
    mkClass [([98; 98], PReadOnly VUndef)] [3%nat; 4%nat] ].                                  (* 5(3,4): bb = ReadOnly *)
Definition ex_ops : list op :=
  [ OSet [97; 97] 5; OSet [97; 97] 101; OGet [97; 98; 98]; OSet [97; 98; 98] 1; OGet [98]; OSet [98] 4;
    OSet [98; 98] 1; OSet [98; 98] 2; OGet [98; 98]; OGet [99]; OSet [99] 1; OSet [95; 99] 101; OGet [95; 99];
    OAdd [99] (PAny 5); OSet [99] 6; OGet [99]; ORem [99]; OGet [99] ].
Example history_nontrivial :
  let t := class_tables ex_h 5 in
  plain_class ex_h 5 = true /\
  clean_run (snd t) (init_state (fst t)) ex_ops = true /\
  map (fun p => o_out (snd p)) (run (snd t) (init_state (fst t)) ex_ops) =
  [ Done; Raise TraitError; Raise AttributeError; Done; Val 3; Raise TraitError;
    Done; Raise TraitError; Val 1; Raise AttributeError; Raise TraitError; Done; Val 101;
    Done; Done; Val 6; Val 1; Raise AttributeError ].
Proof. vm_compute. repeat split; reflexivity. Qed.

(* Non-vacuity for mapped traits: strict class; add_trait("ab", Map({1: 11, 2: 12})), read, assign,
   remove_trait: ab_ reads 11, 12, then AttributeError again (the demo of C13-m3) *)
Example mapped_history :
  let t := class_tables [mkClass [] [1%nat]] 3 in
  map (fun p => o_out (snd p))
      (run (snd t) (init_state (fst t))
           [OGet [97; 98; 95]; OAdd [97; 98] (PMap [(1, 11); (2, 12)] 1); OGet [97; 98]; OGet [97; 98; 95];
            OSet [97; 98] 2; OGet [97; 98; 95]; OSet [97; 98] 5; ORem [97; 98]; OGet [97; 98; 95]; OSet [97; 98; 95] 1]) =
  [Raise AttributeError; Done; Val 1; Val 11; Done; Val 12; Raise TraitError; Val 1;
   Raise AttributeError; Raise TraitError].
Proof. vm_compute. reflexivity. Qed.


(* a trait_added listener that declares traits lazily (Model.step_l; C13-n2) *)

(* without a listener, for names it does not cover, and for names already known to the object or
   cached in its class, step_l is step: all theorems above apply unchanged *)
Theorem step_l_without_listener_is_step : forall pt s o, step_l [] pt s o = step pt s o.
Proof. exact step_l_nil. Qed.
Print Assumptions step_l_without_listener_is_step.

Theorem listener_not_called_for_known_names :
  forall lst pt s o,
    amem (op_name o) (s_itd s) || amem (op_name o) (s_ctd s) = true -> step_l lst pt s o = step pt s o.
Proof. exact step_l_known. Qed.
Print Assumptions listener_not_called_for_known_names.

(* The instance trait a trait_added listener installs on the first touch of an undeclared name
   governs that very access: the first assignment IS the assignment under the listener's trait
   (in the state with the resolved trait cached and the listener's trait installed) ... *)
Theorem trait_added_listener_trait_governs_first_access :
  forall lst pt s n lp, listener lst n = Some lp ->
    assoc n (s_itd s) = None -> assoc n (s_ctd s) = None ->
    forall v p s', prefix_trait pt s n true = inl (p, s') ->
      step_l lst pt s (OSet n v) = setattr_m pt (after_listener n lp s') n lp v.
Proof. exact first_set. Qed.
Print Assumptions trait_added_listener_trait_governs_first_access.

(* ... so an invalid first write is rejected by the typed trait the listener installs, *)
Theorem first_write_of_invalid_value_is_rejected :
  forall lst pt s n lp, listener lst n = Some lp ->
    assoc n (s_itd s) = None -> assoc n (s_ctd s) = None ->
    forall k d v p s', lp = PTyped k d -> prefix_trait pt s n true = inl (p, s') ->
      v <> VUndef -> validate k v = None ->
      o_out (snd (step_l lst pt s (OSet n v))) = Raise TraitError /\
      assoc n (s_itd (fst (step_l lst pt s (OSet n v)))) = Some lp /\
      assoc n (s_od (fst (step_l lst pt s (OSet n v)))) = assoc n (s_od s).
Proof. exact first_write_invalid_rejected. Qed.
Print Assumptions first_write_of_invalid_value_is_rejected.

(* a Constant installed by the listener is not overwritten by the first write, *)
Theorem first_write_to_listener_constant_is_rejected :
  forall lst pt s n lp, listener lst n = Some lp ->
    assoc n (s_itd s) = None -> assoc n (s_ctd s) = None ->
    forall c v p s', lp = PConstant c -> prefix_trait pt s n true = inl (p, s') ->
      o_out (snd (step_l lst pt s (OSet n v))) = Raise TraitError /\
      assoc n (s_od (fst (step_l lst pt s (OSet n v)))) = assoc n (s_od s).
Proof. exact first_write_to_constant_rejected. Qed.
Print Assumptions first_write_to_listener_constant_is_rejected.

(* and a first read yields the listener trait's default / constant *)
Theorem first_read_yields_listener_default :
  forall lst pt s n lp, listener lst n = Some lp ->
    assoc n (s_itd s) = None -> assoc n (s_ctd s) = None ->
    forall p s', assoc n (s_od s) = None -> prefix_trait pt s n false = inl (p, s') ->
      (forall k d, lp = PTyped k d -> o_out (snd (step_l lst pt s (OGet n))) = Val d) /\
      (forall c, lp = PConstant c -> o_out (snd (step_l lst pt s (OGet n))) = Val c).
Proof. exact first_read_is_listener_default. Qed.
Print Assumptions first_read_yields_listener_default.

(* the demo of C13-n2 on the model: class LazySchema(HasTraits), 'n_*' -> Int(7), 'k_*' -> Constant(42) *)
Example lazy_schema_demo :
  let t := class_tables [mkClass [] [0%nat]] 3 in
  let lst := [([110; 95], PTyped VInt 7); ([107; 95], PConstant 42)] in
  map (fun p => o_out (snd p))
      (run_l lst (snd t) (init_state (fst t))
             [OSet [110; 95; 98] 101; OGet [110; 95; 98]; OSet [107; 95; 99] 1; OGet [107; 95; 99];
              OGet [110; 95; 100]; OSet [119] 101; OGet [119]]) =
  [Raise TraitError; Val 7; Raise TraitError; Val 42; Val 7; Done; Val 101].
Proof. vm_compute. reflexivity. Qed.


(* add_class_trait: declarations added at run time (Model.add_class; C13-t2) *)

(* After ANY sequence of wildcards added at run time (each one appended and the list re-sorted,
   has_traits.py l.1163-1170), in any order — specific then general or general then specific —
   the prefix list is sorted longest first and the first match is the longest matching wildcard
   of ALL declarations, those of the class body and those added later. *)
Theorem runtime_wildcards_keep_longest_first :
  forall (adds : list (name * policy)) (pt : ptab),
    Sorted.StronglySorted len_ge pt ->
    let pt' := fold_left add_wild adds pt in
    Sorted.StronglySorted len_ge pt' /\ tab_eq pt' (pt ++ adds) /\
    forall n, wild (first_match n pt') = wild (best n (pt ++ adds)).
Proof. exact runtime_wildcards_sorted. Qed.
Print Assumptions runtime_wildcards_keep_longest_first.

Theorem add_class_trait_wildcard_is_append_and_sort :
  forall ct pt n p, ends_us n = true -> amem (removelast n) pt = false ->
    add_class1 false (ct, pt) n p = Some (ct, add_wild pt (removelast n, p)) /\
    add_class1 true (ct, pt) n p = Some (ct, add_wild pt (removelast n, p)).
Proof. exact add_class1_wildcard. Qed.
Print Assumptions add_class_trait_wildcard_is_append_and_sort.

Theorem add_class_trait_keeps_existing_definitions :
  forall ct pt n p,
    (if ends_us n then amem (removelast n) pt else amem n ct) = true ->
    add_class1 false (ct, pt) n p = None /\ add_class1 true (ct, pt) n p = Some (ct, pt).
Proof. exact add_class1_existing. Qed.
Print Assumptions add_class_trait_keeps_existing_definitions.

(* the demo of C13-t2 on the model: class A(HasTraits); class B(A); instances of both;
   A.add_class_trait("cab_", Int(7)) then A.add_class_trait("c_", Str("2")): cabx is an Int on both *)
Example runtime_wildcards_demo :
  let h := roots ++ [mkClass [] [0%nat]; mkClass [] [3%nat]] in
  map (fun p => o_out (snd p))
      (run_t h [3%nat; 4%nat] (tables h, [([], []); ([], [])])
         [CorrT.TClass 3 [99; 97; 98; 95] (PTyped VInt 7); CorrT.TClass 3 [99; 95] (PTyped VStr 102);
          CorrT.TObj 0 (OGet [99; 97; 98; 120]); CorrT.TObj 0 (OSet [99; 97; 98; 120] 101);
          CorrT.TObj 0 (OGet [99; 120]); CorrT.TObj 1 (OSet [99; 97; 98; 121] 101);
          CorrT.TObj 1 (OGet [99; 97; 98; 121]); CorrT.TClass 3 [99; 95] PDisallow]) =
  [Done; Done; Val 7; Raise TraitError; Val 102; Raise TraitError; Val 7; Raise TraitError].
Proof. vm_compute. reflexivity. Qed.


(* The law on EVERY history of a class with a trait_added listener (Model.step_l), by induction:
   every hierarchy and class without Map/List declarations, every listener table of plain traits
   (prefix -> policy), every history of get / set / del / add_trait / remove_trait on one object.
   [law_hist_l] is the law the checker evaluates for listener classes (CorrL.law_tag_l without the
   re-labelling, [listener_law_codes_relabelling_is_faithful]); [run_lk] records after each step
   the instance trait of the name as the driver does.  Hypothesis [lclean_run]: the first listed
   finding excluded (no value-less trait — added by add_trait or by the listener — over a value
   already stored), no Map/List add_trait, and an add_trait whose trait the listener replaces is
   either the same trait or distinguishable from it by the observation (handler class, default). *)
Theorem law_holds_on_every_listener_history :
  forall (h : list classdef) (c : nat) (lst : list (name * policy)) (ops : list op) (i : Z),
    plain_class h c = true ->
    (forall n lp, listener lst n = Some lp -> plainp lp = true) ->
    let t := class_tables h c in
    lclean_run (snd t) lst (init_state (fst t)) ops = true ->
    law_hist_l lst (spec_rule h c) i l_init (run_lk lst (snd t) (init_state (fst t)) ops) = [].
Proof. exact law_listener_histories. Qed.
Print Assumptions law_holds_on_every_listener_history.

Theorem listener_law_codes_relabelling_is_faithful :
  forall lst mr sr h i la lb,
    C13.CorrL.law_tag_l lst mr sr i la lb (map (fun x => (false, fst (fst x), snd (fst x), snd x)) h) = [] <->
    law_hist_l lst mr i la h = [].
Proof. exact law_tag_l_single. Qed.
Print Assumptions listener_law_codes_relabelling_is_faithful.

(* Non-vacuity: strict class with a wildcard; listener n_* -> Int(7), k_* -> Constant(42), e_* -> Event;
   first touches by invalid write, write to the Constant, read, delete, add_trait (replaced by the
   listener's trait), later accesses, remove_trait and a second first touch *)
Example listener_history_nontrivial :
  let t := class_tables [mkClass [([97; 95], PTyped VStr 102)] [1%nat]] 3 in
  let lst := [([110; 95], PTyped VInt 7); ([107; 95], PConstant 42); ([101; 95], PEvent None)] in
  let ops := [OSet [110; 95; 98] 101; OGet [110; 95; 98]; OSet [107; 95; 99] 1; OGet [107; 95; 99]; OGet [110; 95; 100];
              ODel [110; 95; 101]; OAdd [110; 95; 102] (PTyped VStr 102); OSet [110; 95; 102] 101; OSet [110; 95; 102] 5;
              OSet [101; 95; 97] 3; OGet [101; 95; 97]; ORem [110; 95; 98]; OGet [110; 95; 98]; OSet [97; 98] 101; OGet [122]] in
  lclean_run (snd t) lst (init_state (fst t)) ops = true /\
  map (fun x => o_out (snd (fst x))) (run_lk lst (snd t) (init_state (fst t)) ops) =
  [Raise TraitError; Val 7; Raise TraitError; Val 42; Val 7; Done; Done; Raise TraitError; Done;
   Done; Raise AttributeError; Val 1; Raise AttributeError; Done; Raise AttributeError].
Proof. vm_compute. split; reflexivity. Qed.
