(* C13 — the law on every interleaving of the histories of TWO instances of a class with a
   trait_added listener (Model.step2_l, the runs of CorrL). *)
From Coq Require Import ZArith List Bool Lia.
From TV Require Import Common.Harness C13.Model C13.Law C13.Corr C13.Proofs C13.ListenerProofs C13.ListenerInd.
From TV Require C13.CorrL.
Import ListNotations.
Open Scope Z_scope.

Fixpoint run2_lk (lst : list (name * policy)) (pt : ptab) (s : state2) (ops : list (bool * op))
  : list (bool * op * obs * option Z) :=
  match ops with
  | [] => []
  | (w, o) :: r =>
      let '(s', ob) := step2_l lst pt s w o in
      let '(_, a, b) := s' in
      (w, o, ob, inst_kind (fst (if w then b else a)) (op_name o)) :: run2_lk lst pt s' r
  end.

(* CorrL.law_tag_l without the re-labelling *)
Fixpoint law_hist2_l (lst : list (name * policy)) (crule : name -> rule) (i : Z) (la lb : lstate)
                     (h : list (bool * op * obs * option Z)) : list Z :=
  match h with
  | [] => []
  | (w, o, ob, k) :: r =>
      let me0 := if w then lb else la in
      let me := if is_access_op o then adopt lst me0 (op_name o) k true else me0 in
      let nxt := adopt lst (law_next crule me o ob) (op_name o) k false in
      map (fun c => 100 * i + c) (law_step crule me o ob)
      ++ law_hist2_l lst crule (i + 1) (if w then la else nxt) (if w then nxt else lb) r
  end.

Lemma law_tag_l_nil : forall lst mr sr h i la lb,
  C13.CorrL.law_tag_l lst mr sr i la lb h = [] <-> law_hist2_l lst mr i la lb h = [].
Proof.
  intros lst mr sr. induction h as [|[[[w o] ob] k] r IH]; intros i la lb; [simpl; tauto|].
  cbn [C13.CorrL.law_tag_l law_hist2_l]. apply relabel_nil, IH.
Qed.

Fixpoint lclean_run2 (pt : ptab) (lst : list (name * policy)) (s : state2) (ops : list (bool * op)) : bool :=
  match ops with
  | [] => true
  | (w, o) :: r =>
      (let '(ctd, a, b) := s in lclean lst (st_of ctd (if w then b else a)) o)
      && lclean_run2 pt lst (fst (step2_l lst pt s w o)) r
  end.

Lemma law_hist2_l_ext : forall lst (r1 r2 : name -> rule), (forall n, r1 n = r2 n) ->
  forall h i la lb, law_hist2_l lst r1 i la lb h = law_hist2_l lst r2 i la lb h.
Proof.
  intros lst r1 r2 E. induction h as [|[[[w o] ob] k] r IH]; intros i la lb; [reflexivity|].
  cbn [law_hist2_l]. rewrite IH, (law_step_ext _ _ E), (law_next_ext _ _ E). reflexivity.
Qed.

Lemma run2_lk_law : forall ct0 pt lst,
  (forall n lp, listener lst n = Some lp -> plainp lp = true) ->
  forall ops ctd a b la lb i,
  Inv ct0 pt (st_of ctd a) la -> Inv ct0 pt (st_of ctd b) lb ->
  lclean_run2 pt lst (ctd, a, b) ops = true ->
  law_hist2_l lst (model_rule ct0 pt) i la lb (run2_lk lst pt (ctd, a, b) ops) = [].
Proof.
  intros ct0 pt lst Hl. induction ops as [|[w o] r IH]; intros ctd a b la lb i Ha Hb Hc; [reflexivity|].
  cbn [lclean_run2] in Hc. apply andb_true_iff in Hc. destruct Hc as [Hc1 Hc2].
  cbn [run2_lk]. unfold step2_l in *.
  destruct w.
  - destruct (step_l_ok ct0 pt lst Hl (st_of ctd b) lb o Hb Hc1) as [A B]. unfold st_of in *.
    destruct (step_l lst pt (mkState ctd (fst b) (snd b)) o) as [s' ob] eqn:E.
    cbn [fst snd law_hist2_l] in *. rewrite A. cbn [map app].
    apply IH; auto.
    + apply (Inv_other ct0 pt s' _ ctd a la B Ha).
    + unfold st_of. cbn [fst snd]. destruct s'; exact B.
  - destruct (step_l_ok ct0 pt lst Hl (st_of ctd a) la o Ha Hc1) as [A B]. unfold st_of in *.
    destruct (step_l lst pt (mkState ctd (fst a) (snd a)) o) as [s' ob] eqn:E.
    cbn [fst snd law_hist2_l] in *. rewrite A. cbn [map app].
    apply IH; auto.
    + unfold st_of. cbn [fst snd]. destruct s'; exact B.
    + apply (Inv_other ct0 pt s' _ ctd b lb B Hb).
Qed.

(* every class without Map/List declarations, every listener table of plain traits, every
   interleaving of the histories of two instances *)
Lemma law_listener_two_instances : forall h c lst ops i,
  plain_class h c = true ->
  (forall n lp, listener lst n = Some lp -> plainp lp = true) ->
  let t := class_tables h c in
  lclean_run2 (snd t) lst (init_state2 (fst t)) ops = true ->
  law_hist2_l lst (spec_rule h c) i l_init l_init (run2_lk lst (snd t) (init_state2 (fst t)) ops) = [].
Proof.
  intros h c lst ops i Hp Hl t Hc. apply andb_true_iff in Hp. destruct Hp as [P1 P2].
  rewrite <- (law_hist2_l_ext lst _ _ (class_tables_rule h c)).
  apply (run2_lk_law (fst t) (snd t) lst Hl); auto; apply Inv_init; auto.
Qed.
