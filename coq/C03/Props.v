(* C03 — the property theorems, each resting on a lemma of Proofs.v (the witnesses give their instance first) and
   followed by Print Assumptions; then two Examples that show the hypotheses can be met.  E ranges over every environment (class table, str()/bytes()/
   re/adapt answers), d over every trait description, v over every value of Common/PyVal.pv. *)
From Coq Require Import ZArith List Bool.
From TV Require Import Common.PyVal Common.Harness C03.Model C03.Law C03.Proofs.
Import ListNotations.
Open Scope Z_scope.

(* Main statement: for every trait type with a fast descriptor (alone, as Tuple with any member
   descriptions, or as compound of any alternatives) the compiled path and the Python path have the
   same accept set, yield structurally equal values of the same exact type, and a Python TraitError
   is a compiled TraitError.  [benign] excludes exactly four recorded findings (tuple-subclass
   instances F4, a cast alternative whose Python validate lets an exception of the value's own protocol escape — the residue of F17,
   Instance(C, allow_none=False) with None an instance of C F18, adapt='default' inside a compound
   F21), asks the class table not to declare subclasses of bool, and keeps transparent proxies away
   from the validators whose compiled form is an exact type check. *)
Theorem fast_eq_slow :
  forall E d v, wf_desc d = true -> c03_scope d = true -> benign E d v = true ->
    agrees (c_validate E d v) (py_validate E d v) = true.
Proof. exact c_agrees_py. Qed.
Print Assumptions fast_eq_slow.

(* without the hypothesis the statement is false of the faithful model: the findings *)
Theorem fast_eq_slow_refuted_tuple_subclass :
  exists E d v, wf_desc d = true /\ c03_scope d = true /\ agrees (c_validate E d v) (py_validate E d v) = false.
Proof. exists E0, (DTuple [DInt; DInt]), (PTupleSub [PInt 1; PInt 2]). exact refuted_tuple_subclass. Qed.
Print Assumptions fast_eq_slow_refuted_tuple_subclass.

Theorem fast_eq_slow_refuted_cast_escape :
  exists E d v, wf_desc d = true /\ c03_scope d = true /\ agrees (c_validate E d v) (py_validate E d v) = false.
Proof.
  exists (mkEnv [(20, 20)] 110 [] []), (DCompound [DCast CTInt; DInstance cIDXOBJ false false]), (PIndexObj (Raises EOtherError)).
  exact refuted_cast_escape.
Qed.
Print Assumptions fast_eq_slow_refuted_cast_escape.

Theorem fast_eq_slow_refuted_adapt_default :   (* F21 *)
  exists E d v, wf_desc d = true /\ c03_scope d = true /\ agrees (c_validate E d v) (py_validate E d v) = false.
Proof.
  exists (mkEnv [(3, 3); (6, 6); (100, 100)] 110 [(1, PInt 5, PStr [53])] []),
         (DCompound [DAdapt 100 2 false (PStr [78; 111; 110; 101]); DCast CTStr]), (PInt 5).
  exact refuted_adapt_default.
Qed.
Print Assumptions fast_eq_slow_refuted_adapt_default.

Theorem fast_eq_slow_refuted_none_instance :
  exists E d v, wf_desc d = true /\ c03_scope d = true /\ agrees (c_validate E d v) (py_validate E d v) = false.
Proof. exists E0, (DInstance 0 false false), PNone. exact refuted_none_instance. Qed.
Print Assumptions fast_eq_slow_refuted_none_instance.

(* the copy of every validator inside the switch of validate_trait_complex decides like the
   stand-alone validate_trait_* function *)
Theorem case_eq_standalone :
  forall E a v, alt_ok a = true -> is_fast a = true -> c_case E a v = c_validate E a v.
Proof. exact c_case_eq_c_validate. Qed.
Print Assumptions case_eq_standalone.

(* a compound yields the outcome of the first non-rejecting alternative of the effective order
   (fast alternatives in declaration order, then the slow ones), each validated alone *)
Theorem compound_first_accepting :
  forall E ds v, forallb alt_ok ds = true ->
    c_validate E (DCompound ds) v = first_outcome (map (fun d => c_validate E d v) (effective_order ds)).
Proof. exact compound_first_outcome. Qed.
Print Assumptions compound_first_accepting.

Theorem compound_eq_single :
  forall E ds v w, forallb alt_ok ds = true -> c_validate E (DCompound ds) v = Accept w ->
    exists pre a post, effective_order ds = pre ++ a :: post /\ c_validate E a v = Accept w
                       /\ Forall (fun b => c_validate E b v = Reject) pre.
Proof. exact compound_accept_single. Qed.
Print Assumptions compound_eq_single.

Theorem compound_rejects_iff_all_reject :
  forall E ds v, forallb alt_ok ds = true ->
    (c_validate E (DCompound ds) v = Reject <-> Forall (fun b => c_validate E b v = Reject) (effective_order ds)).
Proof. exact compound_reject_iff. Qed.
Print Assumptions compound_rejects_iff_all_reject.

(* the law's clause (declaration order) holds whenever no slow alternative is declared before a fast one *)
Theorem compound_declaration_order :
  forall E ds v, forallb alt_ok ds = true -> order_preserved ds = true ->
    compound_ok (c_validate E (DCompound ds) v) (map (fun d => c_validate E d v) ds) = true.
Proof. exact compound_ok_declared_order. Qed.
Print Assumptions compound_declaration_order.

Theorem compound_declaration_order_refuted :   (* F5: Either(String(maxlen=5), CInt) <- "12" *)
  exists E ds v, wf_desc (DCompound ds) = true /\
    compound_ok (c_validate E (DCompound ds) v) (map (fun d => c_validate E d v) ds) = false.
Proof. exists E0, [DString 0 5 None; DCast CTInt], (PStr [49; 50]). exact refuted_declaration_order. Qed.
Print Assumptions compound_declaration_order_refuted.

(* the law that is evaluated on the implementation's outcomes holds, all four clauses, on the model's
   own outcomes (compiled path, Python path, every declared alternative alone) *)
Theorem law_holds_on_model :
  forall E d v, wf_desc d = true -> c03_scope d = true -> benign E d v = true ->
    (forall ds, d = DCompound ds -> order_preserved ds = true) ->
    law_obs (c_validate E d v, Some (py_validate E d v),
             match d with DCompound ds => Some (map (fun a => c_validate E a v) ds) | _ => None end) = [].
Proof. exact law_obs_model. Qed.
Print Assumptions law_holds_on_model.

(* Tuple: accepted iff it is a tuple of the right length whose members are accepted one by one by
   the member traits; the result is the value itself when no member changed, else the exact tuple
   of the member results *)
Theorem tuple_members_pointwise :
  forall E d ds v w,
    c_validate E (DTuple (d :: ds)) v = Accept w <->
    exists vs ws, tuple_items v = Some vs /\ length (d :: ds) = length vs
                  /\ zipw (c_validate E) (d :: ds) vs = map Accept ws
                  /\ w = (if pvs_eqb ws vs then v else PTuple ws).
Proof. exact tuple_accept_pointwise. Qed.
Print Assumptions tuple_members_pointwise.

(* float Range: the C test (reference of translator T2) and the Python test are the declared criterion *)
Theorem in_float_range_meets_spec :
  forall v low high mask, (in_float_range v low high mask =? 1) = in_range_spec v low high mask.
Proof. exact in_float_range_spec. Qed.
Print Assumptions in_float_range_meets_spec.

Theorem range_c_eq_py :
  forall v low high mask, (in_float_range v low high mask =? 1) = py_float_in_range v low high mask.
Proof. exact range_c_eq_py_model. Qed.
Print Assumptions range_c_eq_py.

(* Non-vacuity: a compound with a Tuple, an exclusive float Range, an Instance and a slow String
   alternative meets wf/scope/benign on values that are converted, rejected (NaN) and accepted. *)
Example hypotheses_nonvacuous :
  let d := DCompound [DTuple [DInt; DCast CTFloat]; DRangeF (Some (FFin false 0)) (Some (FFin false 1000)) 1;
                      DInstance 100 false false; DString 0 5 None] in
  wf_desc d = true /\ c03_scope d = true /\ bool_final E0 = true
  /\ benign E0 d (PTuple [PIntSub 3; PBool true]) = true
  /\ c_validate E0 d (PTuple [PIntSub 3; PBool true]) = Accept (PTuple [PInt 3; PFloat (FFin false 1000)])
  /\ benign E0 d (PFloat FNaN) = true /\ c_validate E0 d (PFloat FNaN) = Reject
  /\ c_validate E0 d (PStr [97]) = Accept (PStr [97])
  /\ c_validate E0 d (PObj 101 1) = Accept (PObj 101 1).
Proof. exact benign_compound_example. Qed.

(* fast_eq_slow covers compounds with container alternatives: an Either of a Tuple, a List of Either(Int, Str) and a
   validated tuple meets wf / scope / benign; both paths convert the items alike *)
Example container_members_nonvacuous :
  let d := DCompound [DTuple [DInt; DList DFloat 0 3]; DList (DCompound [DInt; DStr]) 1 4; DVTuple [DInt; DInt] None] in
  let v := PList [PBool true; PStr [97]; PIntSub 3] in
  wf_desc d = true /\ c03_scope d = true /\ benign E0 d v = true /\
  c_validate E0 d v = Accept (PList [PInt 1; PStr [97]; PInt 3]) /\
  py_validate E0 d v = Accept (PList [PInt 1; PStr [97]; PInt 3]) /\
  c_validate E0 d (PTuple [PInt 1; PList [PInt 2; PBool false]]) = Accept (PTuple [PInt 1; PList [PFloat (FFin false 2000); PFloat (FFin false 0)]]).
Proof. vm_compute. repeat split. Qed.
