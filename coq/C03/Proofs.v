(* C03/Proofs.v — lemmas behind C03/Props.v: the range tests against their criterion, structural equality of values,
   the switch of validate_trait_complex against the stand-alone validators, compounds as the first non-rejecting
   alternative of the effective order, and the compiled path against the Python path under [benign]. *)
From Coq Require Import ZArith List Bool Lia.
From TV Require Import Common.PyVal Common.Harness C03.Model C03.Law.
Import ListNotations.
Open Scope Z_scope.

(* case analysis on every comparison of two integer variables, then lia: the range tests and their criterion are
   boolean combinations of the same comparisons *)
Ltac zcmp :=
  repeat match goal with
         | |- context [Z.ltb ?a ?b] => is_var a; is_var b; destruct (Z.ltb_spec a b)
         | |- context [Z.eqb ?a ?b] => is_var a; is_var b; destruct (Z.eqb_spec a b)
         | |- context [Z.leb ?a ?b] => is_var a; is_var b; destruct (Z.leb_spec a b)
         | |- context [Z.gtb ?a ?b] => is_var a; is_var b; rewrite (Z.gtb_ltb a b)
         | |- context [Z.geb ?a ?b] => is_var a; is_var b; rewrite (Z.geb_leb a b)
         end; cbn; try reflexivity; try lia.

Lemma in_float_range_spec v low high mask :
  (in_float_range v low high mask =? 1) = in_range_spec v low high mask.
Proof.
  unfold in_float_range, in_range_spec, fl_ge, fl_gt, fl_le.
  destruct (Z.land mask 1 =? 0), (Z.land mask 2 =? 0); cbn [negb];
  destruct low as [[| |nl l|]|], high as [[| |nh h|]|], v as [| |nv x|]; cbn; try reflexivity; zcmp.
Qed.

Lemma py_float_in_range_spec v low high mask :
  py_float_in_range v low high mask = in_range_spec v low high mask.
Proof.
  unfold py_float_in_range, in_range_spec, fl_ge, fl_gt, fl_le.
  destruct (Z.land mask 1 =? 0), (Z.land mask 2 =? 0); cbn [negb];
  destruct low as [[| |nl l|]|], high as [[| |nh h|]|], v as [| |nv x|]; cbn; try reflexivity; zcmp.
Qed.

Lemma py_int_in_range_spec v low high mask :
  py_int_in_range v low high mask = int_range_spec v low high mask.
Proof.
  unfold py_int_in_range, int_range_spec.
  destruct (Z.land mask 1 =? 0), (Z.land mask 2 =? 0); cbn [negb];
  destruct low as [l|], high as [h|]; cbn; try reflexivity; zcmp.
Qed.

Lemma range_c_eq_py_model v low high mask :
  (in_float_range v low high mask =? 1) = py_float_in_range v low high mask.
Proof. now rewrite in_float_range_spec, py_float_in_range_spec. Qed.

Lemma fl_same_true a b : fl_same a b = true -> a = b.
Proof.
  destruct a, b; cbn; try discriminate; try reflexivity.
  intros H. apply andb_prop in H as [H1 H2].
  apply Bool.eqb_prop in H1. apply Z.eqb_eq in H2. now subst.
Qed.
Lemma fl_same_refl a : fl_same a a = true.
Proof. destruct a; cbn; try reflexivity. now rewrite Bool.eqb_reflx, Z.eqb_refl. Qed.

Lemma zlist_eqb_true a : forall b, zlist_eqb a b = true -> a = b.
Proof.
  unfold zlist_eqb. induction a as [|x a IH]; intros [|y b]; try discriminate; try reflexivity.
  intros H. apply andb_prop in H as [H1 H2]. apply Z.eqb_eq in H1. subst. f_equal. now apply IH.
Qed.
Lemma zlist_eqb_refl a : zlist_eqb a a = true.
Proof. unfold zlist_eqb. induction a; cbn; [reflexivity|]. now rewrite Z.eqb_refl. Qed.

Lemma exn_eqb_true a b : exn_eqb a b = true -> a = b.
Proof. destruct a, b; cbn; try discriminate; reflexivity. Qed.
Lemma exn_eqb_refl a : exn_eqb a a = true.
Proof. now destruct a. Qed.

Lemma conv_eqb_true {A} (eqb : A -> A -> bool) :
  (forall x y, eqb x y = true -> x = y) -> forall a b, conv_eqb eqb a b = true -> a = b.
Proof.
  intros H [x|e] [y|f]; cbn; try discriminate; intros E.
  - f_equal. now apply H.
  - f_equal. now apply exn_eqb_true.
Qed.
Lemma conv_eqb_refl {A} (eqb : A -> A -> bool) :
  (forall x, eqb x x = true) -> forall a, conv_eqb eqb a a = true.
Proof. intros H [x|e]; cbn; [apply H | apply exn_eqb_refl]. Qed.

Lemma pv_eqb_true : forall a b, pv_eqb a b = true -> a = b.
Proof.
  fix IH 1.
  assert (L : forall l m, pvs_eqb l m = true -> l = m).
  { fix IHl 1. intros [|x l] [|y m]; try discriminate; try reflexivity.
    intros H. apply andb_prop in H as [H1 H2]. f_equal; [now apply IH | now apply IHl]. }
  assert (LP : forall l m,
             (fix gop (l m : list (pv * pv)) : bool :=
                match l, m with
                | [], [] => true
                | (k, x) :: l', (k', y) :: m' => pv_eqb k k' && pv_eqb x y && gop l' m'
                | _, _ => false
                end) l m = true -> l = m).
  { fix IHl 1. intros [|[k x] l] [|[k' y] m]; try discriminate; try reflexivity.
    intros H. apply andb_prop in H as [H1 H3]. apply andb_prop in H1 as [H1 H2].
    f_equal; [f_equal; now apply IH | now apply IHl]. }
  intros a b; destruct a, b; try discriminate; cbn; try reflexivity; intros H;
    try (apply LP in H; now subst);
    try (apply Z.eqb_eq in H; now subst);
    try (apply Bool.eqb_prop in H; now subst);
    try (apply fl_same_true in H; now subst);
    try (apply zlist_eqb_true in H; now subst);
    try (apply L in H; now subst).
  - apply andb_prop in H as [H1 H2]. apply fl_same_true in H1, H2. now subst.
  - apply andb_prop in H as [H1 H2]. apply Z.eqb_eq in H1, H2. now subst.
  - apply andb_prop in H as [H1 H2]. apply Z.eqb_eq in H1. apply fl_same_true in H2. now subst.
  - f_equal. revert H. apply conv_eqb_true. intros x y. apply Z.eqb_eq.
  - f_equal. revert H. apply conv_eqb_true. apply fl_same_true.
  - f_equal. revert H. apply conv_eqb_true. intros [x1 x2] [y1 y2]; cbn. intros H.
    apply andb_prop in H as [H1 H2]. apply fl_same_true in H1, H2. now subst.
  - apply andb_prop in H as [H1 H2]. apply Z.eqb_eq in H1, H2. now subst.
  - apply andb_prop in H as [H1 H3]. apply andb_prop in H1 as [H1 H2].
    apply Z.eqb_eq in H1, H3. apply zlist_eqb_true in H2. now subst.
  - apply andb_prop in H as [H1 H2]. apply Z.eqb_eq in H1, H2. now subst.
Qed.

Lemma pv_eqb_refl : forall a, pv_eqb a a = true.
Proof.
  fix IH 1.
  assert (L : forall l, pvs_eqb l l = true).
  { fix IHl 1. intros [|x l]; [reflexivity|]. cbn. now rewrite IH, IHl. }
  assert (LP : forall l,
             (fix gop (l m : list (pv * pv)) : bool :=
                match l, m with
                | [], [] => true
                | (k, x) :: l', (k', y) :: m' => pv_eqb k k' && pv_eqb x y && gop l' m'
                | _, _ => false
                end) l l = true).
  { fix IHl 1. intros [|[k x] l]; [reflexivity|]. now rewrite !IH, IHl. }
  intros a; destruct a; cbn; try reflexivity; try apply LP;
    try apply Z.eqb_refl; try apply Bool.eqb_reflx; try apply fl_same_refl; try apply zlist_eqb_refl; try apply L.
  - now rewrite !fl_same_refl.
  - now rewrite !Z.eqb_refl.
  - now rewrite Z.eqb_refl, fl_same_refl.
  - apply conv_eqb_refl. apply Z.eqb_refl.
  - apply conv_eqb_refl. apply fl_same_refl.
  - apply conv_eqb_refl. intros [x y]; cbn. now rewrite !fl_same_refl.
  - now rewrite !Z.eqb_refl.
  - now rewrite !Z.eqb_refl, zlist_eqb_refl.
  - now rewrite !Z.eqb_refl.
Qed.

Lemma pvs_eqb_true : forall l m, pvs_eqb l m = true -> l = m.
Proof.
  induction l as [|x l IH]; intros [|y m]; cbn; try discriminate; try reflexivity.
  intros H. apply andb_prop in H as [H1 H2]. apply pv_eqb_true in H1. subst. f_equal. now apply IH.
Qed.
Lemma pvs_eqb_refl : forall l, pvs_eqb l l = true.
Proof. induction l; cbn; [reflexivity|]. now rewrite pv_eqb_refl. Qed.

Lemma vres_eqb_refl r : vres_eqb r r = true.
Proof. destruct r; cbn; [apply pv_eqb_refl | reflexivity | apply exn_eqb_refl]. Qed.

(* what TraitCompound.set_validate can put in the fast list *)
Definition alt_ok (a : desc) : bool :=
  match a with DAny | DModule | DProperty _ => false | _ => true end.

(* destructs the tests of both sides one after the other, closing each branch by computation: for two functions that
   are copies of one another case by case (c_case / c_validate / py_validate on the same description) *)
Ltac dm :=
  repeat (match goal with
          | |- context [if ?b then _ else _] => destruct b eqn:?
          | |- context [match ?x with _ => _ end] => destruct x eqn:?
          end; cbn in *; try reflexivity; try discriminate; try congruence).

Lemma c_case_eq_c_validate E a v :
  alt_ok a = true -> is_fast a = true -> c_case E a v = c_validate E a v.
Proof.
  destruct a; intros Hok Hf; try discriminate; try reflexivity;
    cbn [c_case c_validate]; unfold c_coerce, c_adapt, of_conv; cbn; try (destruct ds; [discriminate | reflexivity]); dm.
Qed.

Definition effective_order (ds : list desc) : list desc := filter is_fast ds ++ filter is_slow ds.

Lemma first_sel_filter sel f ds : first_sel sel f ds = first_outcome (map f (filter sel ds)).
Proof.
  induction ds as [|d r IH]; cbn; [reflexivity|].
  destruct (sel d); cbn; [|exact IH]. destruct (f d); [reflexivity | exact IH | reflexivity].
Qed.

Lemma first_outcome_app a b :
  first_outcome (a ++ b) = match first_outcome a with Reject => first_outcome b | x => x end.
Proof. induction a as [|[w| |e] a IH]; cbn; try reflexivity. exact IH. Qed.

Lemma first_sel_none sel f ds : existsb sel ds = false -> first_sel sel f ds = Reject.
Proof.
  induction ds as [|d r IH]; cbn; [reflexivity|]. intros H. apply orb_false_iff in H as [H1 H2].
  rewrite H1. now apply IH.
Qed.

Lemma slow_alt_c_eq_py E a v :
  alt_ok a = true -> is_fast a = false -> c_validate E a v = py_validate E a v.
Proof.
  destruct a; intros Hok Hf; try discriminate; try reflexivity.
  - destruct ds; [reflexivity | discriminate].
  - cbn [is_fast] in Hf. cbn [c_validate py_validate]. now rewrite !(first_sel_none is_fast _ ds Hf).
Qed.

Lemma map_ext_filter {A B} (p : A -> bool) (f g : A -> B) l :
  (forall x, In x l -> p x = true -> f x = g x) -> map f (filter p l) = map g (filter p l).
Proof.
  induction l as [|x l IH]; cbn; intros H; [reflexivity|].
  destruct (p x) eqn:Hp; cbn.
  - f_equal; [apply H; auto | apply IH; intros; apply H; auto].
  - apply IH; intros; apply H; auto.
Qed.

Lemma compound_first_outcome E ds v :
  forallb alt_ok ds = true ->
  c_validate E (DCompound ds) v = first_outcome (map (fun d => c_validate E d v) (effective_order ds)).
Proof.
  intros Hok. cbn [c_validate]. unfold effective_order.
  rewrite map_app, first_outcome_app, !first_sel_filter.
  rewrite forallb_forall in Hok.
  rewrite (map_ext_filter is_fast (fun a => c_case E a v) (fun d => c_validate E d v)).
  2:{ intros x Hin Hf. apply c_case_eq_c_validate; auto. }
  rewrite (map_ext_filter is_slow (fun a => py_validate E a v) (fun d => c_validate E d v)).
  2:{ intros x Hin Hs. symmetry. apply slow_alt_c_eq_py; auto.
      unfold is_slow in Hs. now destruct (is_fast x). }
  reflexivity.
Qed.

Lemma first_outcome_map_accept {A} (f : A -> vres) l w :
  first_outcome (map f l) = Accept w ->
  exists pre a post, l = pre ++ a :: post /\ f a = Accept w /\ Forall (fun b => f b = Reject) pre.
Proof.
  induction l as [|a l IH]; cbn; [discriminate|]. destruct (f a) as [x| |e] eqn:Hf; try discriminate.
  - intros H; inversion H; subst. exists [], a, l. repeat split; auto.
  - intros H. destruct (IH H) as (pre & b & post & -> & Hb & HF).
    exists (a :: pre), b, post. repeat split; auto.
Qed.

Lemma first_outcome_accept rs w :
  first_outcome rs = Accept w ->
  exists pre post, rs = pre ++ Accept w :: post /\ Forall (fun r => r = Reject) pre.
Proof.
  rewrite <- (map_id rs) at 1. intros H.
  destruct (first_outcome_map_accept _ _ _ H) as (pre & a & post & -> & -> & HF). now exists pre, post.
Qed.

Lemma first_outcome_reject rs :
  first_outcome rs = Reject <-> Forall (fun r => r = Reject) rs.
Proof.
  induction rs as [|[x| |e] rs IH]; cbn.
  - split; [constructor | reflexivity].
  - split; [discriminate | intros H; inversion H; discriminate].
  - rewrite IH. split; [intros; constructor; auto | intros H; now inversion H].
  - split; [discriminate | intros H; inversion H; discriminate].
Qed.

Lemma filter_all {A} (p : A -> bool) l : forallb p l = true -> filter p l = l.
Proof.
  induction l as [|x l IH]; cbn; [reflexivity|]. intros H. apply andb_prop in H as [H1 H2].
  rewrite H1. f_equal. now apply IH.
Qed.
Lemma filter_none {A} (p : A -> bool) l : forallb (fun x => negb (p x)) l = true -> filter p l = [].
Proof.
  induction l as [|x l IH]; cbn; [reflexivity|]. intros H. apply andb_prop in H as [H1 H2].
  destruct (p x); [discriminate|]. now apply IH.
Qed.

(* when no slow alternative is declared before a fast one the effective order IS the declaration order *)
Fixpoint order_preserved (ds : list desc) : bool :=
  match ds with
  | [] => true
  | d :: r => (is_fast d || forallb is_slow r) && order_preserved r
  end.

Lemma effective_order_preserved ds : order_preserved ds = true -> effective_order ds = ds.
Proof.
  unfold effective_order. induction ds as [|d r IH]; cbn; [reflexivity|].
  intros H. apply andb_prop in H as [H1 H2]. specialize (IH H2).
  unfold is_slow at 1. destruct (is_fast d) eqn:Hf; cbn.
  - f_equal. exact IH.
  - cbn in H1. rewrite (filter_none is_fast r) by exact H1. cbn. f_equal.
    rewrite (filter_all is_slow r) by exact H1. reflexivity.
Qed.

Lemma compound_ok_first c rs : c = first_outcome rs -> compound_ok c rs = true.
Proof.
  intros ->. unfold compound_ok. destruct (first_outcome rs); cbn; auto using pv_eqb_refl.
Qed.

Lemma compound_ok_declared_order E ds v :
  forallb alt_ok ds = true -> order_preserved ds = true ->
  compound_ok (c_validate E (DCompound ds) v) (map (fun d => c_validate E d v) ds) = true.
Proof.
  intros Hok Hord. apply compound_ok_first.
  rewrite compound_first_outcome by exact Hok.
  now rewrite effective_order_preserved.
Qed.

Definition zipw (rec : desc -> pv -> vres) (ds : list desc) (vs : list pv) : list vres :=
  map (fun p => rec (fst p) (snd p)) (combine ds vs).

Lemma members_ok rec : forall ds vs ws,
  members rec ds vs = TOk ws <-> (length ds = length vs /\ zipw rec ds vs = map Accept ws).
Proof.
  unfold zipw. induction ds as [|d ds IH]; intros [|v vs] ws; cbn;
    try (split; [discriminate | intros [H _]; discriminate]).
  - split; [intros [= <-]; now split | intros [_ H]; now destruct ws].
  - specialize (IH vs). destruct (rec d v) as [w| |e];
      [|split; [discriminate | intros [_ H]; now destruct ws]..].
    split.
    + destruct (members rec ds vs) as [ws'| |e]; try discriminate. intros [= <-].
      destruct (proj1 (IH ws') eq_refl) as [Hl Hz]. cbn. now rewrite Hl, Hz.
    + intros [[= Hl] Hz]. destruct ws as [|w0 ws]; [discriminate|]. injection Hz as <- Hz.
      now rewrite (proj2 (IH ws) (conj Hl Hz)).
Qed.

(* validate_trait_tuple_check accepts exactly when the item loop does *)
Lemma tuple_check_accept cv ds v w :
  tuple_check cv ds v = Accept w <->
  exists vs ws, tuple_items v = Some vs /\ members cv ds vs = TOk ws /\ w = (if pvs_eqb ws vs then v else PTuple ws).
Proof.
  unfold tuple_check. split.
  - destruct (tuple_items v) as [vs|]; [|discriminate]. destruct (Nat.eqb _ _); [|discriminate].
    destruct (members cv ds vs) as [ws| |e] eqn:Hm; try discriminate.
    destruct (pvs_eqb ws vs) eqn:He; intros [= <-]; exists vs, ws; rewrite He; auto.
  - intros (vs & ws & -> & Hm & ->). rewrite Hm. apply members_ok in Hm as [-> _]. rewrite Nat.eqb_refl.
    now destruct (pvs_eqb ws vs).
Qed.

Lemma tuple_accept_pointwise E d ds v w :
  c_validate E (DTuple (d :: ds)) v = Accept w <->
  exists vs ws, tuple_items v = Some vs /\ length (d :: ds) = length vs
                /\ zipw (c_validate E) (d :: ds) vs = map Accept ws
                /\ w = (if pvs_eqb ws vs then v else PTuple ws).
Proof.
  cbn [c_validate]. rewrite tuple_check_accept.
  split; intros (vs & ws & H); exists vs, ws; rewrite members_ok in *; tauto.
Qed.

(* the class table does not make anything but bool a subclass of bool *)
Definition bool_final (E : env) : bool :=
  forallb (fun p => implb (snd p =? cBOOL) (fst p =? cBOOL)) (e_sub E).
(* the Python cast validator does not let a non-TraitError escape on v (excludes the residue of finding F17) *)
Definition cast_no_escape (E : env) (v : pv) (a : desc) : bool :=
  match a with
  | DCast _ => match py_validate E a v with Propagate _ => false | _ => true end
  | _ => true
  end.
(* Instance(C, allow_none=False) where None is an instance of C (excludes finding F18) *)
Definition none_ok (E : env) (a : desc) : bool :=
  match a with DInstance cls false _ => negb (issub E cNONE cls) | _ => true end.
(* a transparent proxy (its __class__ lies about its type) meets a validator whose compiled form uses the exact
   PyObject_TypeCheck where the Python form uses isinstance: Str, Bytes, Bool, This, Instance of a built-in type *)
Definition uses_typecheck (a : desc) : bool :=
  match a with
  | DStr | DBytes | DBool | DModule | DSelf _ => true
  | DInstance _ _ tc => tc
  | _ => false
  end.
Definition proxy_ok (a : desc) (v : pv) : bool := negb (is_proxy v) || negb (uses_typecheck a).
(* adapt='default': the default the compiled path falls back to is the Instance's own (excludes finding F21) *)
Definition adapt_ok (a : desc) : bool :=
  match a with DAdapt _ mode _ dflt => (mode =? 0) || (mode =? 1) || pv_eqb dflt PNone | _ => true end.
(* the alternatives of a compound, through nested compounds *)
Fixpoint alt_benign (E : env) (v : pv) (a : desc) : bool :=
  match a with
  | DCompound ds => forallb (alt_benign E v) ds
  | _ => cast_no_escape E v a && none_ok E a && proxy_ok a v && adapt_ok a
  end.
Definition benign (E : env) (d : desc) (v : pv) : bool :=
  bool_final E && no_tuplesub v && none_ok E d && proxy_ok d v && adapt_ok d &&
  match d with
  | DCompound ds => forallb (alt_benign E v) ds
  | _ => true
  end.

Lemma class_bool v : class_of v = cBOOL -> exists b, v = PBool b.
Proof.
  destruct v; cbn; try discriminate; try (intros _; eauto; fail).
  - destruct ((14 <=? k) && (k <=? 16)) eqn:H; [|discriminate]. intros ->. discriminate.
  - destruct ((17 <=? k) && (k <=? 18)) eqn:H; [|discriminate]. intros ->. discriminate.
  - destruct (100 <=? cls) eqn:H; [|discriminate]. intros ->. discriminate.
  - destruct (n =? 0); discriminate.
Qed.

Lemma typecheck_bool E v :
  bool_final E = true -> typecheck E v cBOOL = true -> exists b, v = PBool b.
Proof.
  unfold bool_final, typecheck, issub. rewrite forallb_forall, existsb_exists.
  intros HF ([a b] & Hin & H). cbn in H. apply andb_prop in H as [H1 H2].
  specialize (HF _ Hin). cbn in HF. rewrite H2 in HF. cbn in HF.
  apply Z.eqb_eq in H1, HF. subst. now apply class_bool.
Qed.

Lemma notproxy_isinstance E v c : is_proxy v = false -> isinstance E v c = typecheck E v c.
Proof. unfold isinstance, typecheck. destruct v; cbn; try discriminate; intros _; apply orb_false_r. Qed.

Lemma typecheck_isinstance E v c : typecheck E v c = true -> isinstance E v c = true.
Proof. unfold isinstance, typecheck. intros ->. reflexivity. Qed.

Lemma proxy_ok_notproxy a v : proxy_ok a v = true -> uses_typecheck a = true -> is_proxy v = false.
Proof. unfold proxy_ok. intros H Hu. rewrite Hu in H. cbn in H. rewrite orb_false_r in H. now apply negb_true_iff. Qed.

Lemma exact_class_cast E t v : class_of v = cast_cls t -> cast_fn E t v = Returns v.
Proof.
  destruct t, v; cbn; try discriminate; try reflexivity;
    try (destruct ((14 <=? k) && (k <=? 16)); discriminate);
    try (destruct ((17 <=? k) && (k <=? 18)); discriminate);
    try (destruct (100 <=? cls); discriminate);
    try (destruct (n =? 0); discriminate).
  all: try (intros H; destruct ((14 <=? k) && (k <=? 16)) eqn:G; [subst; discriminate | discriminate]).
  all: try (intros H; destruct ((17 <=? k) && (k <=? 18)) eqn:G; [subst; discriminate | discriminate]).
  all: try (intros H; destruct (100 <=? cls) eqn:G; [subst; discriminate | discriminate]).
  all: try (intros _; now destruct b).
Qed.

Lemma dict_get_existsb m v :
  (match dict_get m v with Some _ => true | None => false end) = existsb (fun kv => py_eq v (fst kv)) m.
Proof.
  induction m as [|[k x] m IH]; cbn; [reflexivity|]. destruct (py_eq v k); cbn; [reflexivity | exact IH].
Qed.

Lemma pv_eqb_none v : pv_eqb v PNone = true <-> v = PNone.
Proof. split; [apply pv_eqb_true | intros ->; reflexivity]. Qed.

Lemma tuple_items_exact v vs : no_tuplesub v = true -> tuple_items v = Some vs -> v = PTuple vs.
Proof. destruct v; cbn; try discriminate. intros _ H; now inversion H. Qed.

Lemma leaf_eq E a v :
  alt_ok a = true -> is_fast a = true -> bool_final E = true -> no_tuplesub v = true ->
  cast_no_escape E v a = true -> none_ok E a = true -> proxy_ok a v = true -> adapt_ok a = true ->
  (forall ds, a <> DCompound ds) ->
  c_case E a v = py_validate E a v.
Proof.
  intros Hok Hf HB HT HC HN HP HA Hnc.
  destruct a; cbn in Hok, Hf; try discriminate; try (exfalso; eapply Hnc; reflexivity).
  - (* DInt *) cbn. dm.
  - (* DFloat *) cbn. dm.
  - (* DComplex *) cbn. dm.
  - (* DStr: no proxy (proxy_ok) *) cbn. now rewrite (notproxy_isinstance E v _ (proxy_ok_notproxy _ _ HP eq_refl)).
  - (* DBytes: proxy_ok *) cbn. now rewrite (notproxy_isinstance E v _ (proxy_ok_notproxy _ _ HP eq_refl)).
  - (* DBool: proxy_ok, bool_final *) cbn. rewrite !(notproxy_isinstance E v _ (proxy_ok_notproxy _ _ HP eq_refl)).
    destruct (typecheck E v cBOOL) eqn:H1; cbn.
    + destruct (typecheck_bool E v HB H1) as [b ->]. reflexivity.
    + reflexivity.
  - (* DCast: cast_no_escape *) cbn in HC. cbn [c_case py_validate] in *.
    destruct (class_of v =? cast_cls t) eqn:Hc.
    + apply Z.eqb_eq in Hc. now rewrite (exact_class_cast E t v Hc).
    + destruct (cast_fn E t v) as [w|e]; [reflexivity|]. destruct t, e; cbn in *; try reflexivity; discriminate.
  - (* DRangeF *) cbn. destruct (as_float v) as [[]|[]]; try reflexivity.
    now rewrite range_c_eq_py_model.
  - (* DEnum *) reflexivity.
  - (* DMap *) cbn. destruct (hashable v); [|reflexivity].
    rewrite <- dict_get_existsb. now destruct (dict_get m v).
  - (* DTuple: no_tuplesub *) destruct ds as [|d0 ds]; [discriminate|]. cbn [c_case py_validate]. unfold tuple_check.
    destruct (tuple_items v) as [vs|] eqn:Hv; [|reflexivity].
    rewrite (Nat.eqb_sym (length vs)).
    destruct (Nat.eqb (length (d0 :: ds)) (length vs)); [|reflexivity].
    destruct (members (c_validate E) (d0 :: ds) vs) as [ws| |e]; try reflexivity.
    destruct (pvs_eqb ws vs) eqn:He; [|reflexivity].
    apply pvs_eqb_true in He. subst. now rewrite (tuple_items_exact v vs HT Hv).
  - (* DInstance: proxy_ok, none_ok *) assert (Hinst : (if tc then typecheck E v cls else isinstance E v cls) = isinstance E v cls).
    { destruct tc; [|reflexivity]. symmetry. apply notproxy_isinstance. apply (proxy_ok_notproxy _ _ HP). reflexivity. }
    cbn [c_case py_validate]. cbv zeta. rewrite Hinst. cbn in HN. destruct allow_none.
    + destruct (pv_eqb v PNone) eqn:Hn.
      * apply pv_eqb_none in Hn. now subst.
      * destruct v; try reflexivity. discriminate.
    + destruct v; try reflexivity. unfold isinstance. cbn.
      apply negb_true_iff in HN. fold cNONE. now rewrite HN.
  - (* DAdapt: adapt_ok *) cbn in HA. cbn [c_case py_validate].
    destruct v; try reflexivity; destruct (mode =? 0) eqn:H0; try reflexivity;
      destruct (oracle E (100 + cls) _); try reflexivity;
      match goal with |- context [isinstance E ?x cls] => destruct (isinstance E x cls) end; try reflexivity;
      destruct (mode =? 1) eqn:H1; try reflexivity;
      cbn in HA; apply pv_eqb_true in HA; now subst.
  - (* DSelf: proxy_ok *) cbn. rewrite (notproxy_isinstance E v _ (proxy_ok_notproxy _ _ HP eq_refl)).
    destruct allow_none, (pv_eqb v PNone), (typecheck E v (e_self E)); reflexivity.
  - (* DCallable *) cbn. destruct v; cbn; try reflexivity; now destruct allow_none.
Qed.

Lemma wf_compound_alts ds : wf_desc (DCompound ds) = true -> forallb alt_ok ds = true.
Proof.
  cbn. intros H. apply andb_prop in H as [H _]. apply andb_prop in H as [_ H]. exact H.
Qed.

(* the immediate sub-descriptions, and induction through the nested lists *)
Definition children (d : desc) : list desc :=
  match d with
  | DTuple ds | DCompound ds | DUnion ds | DVTuple ds _ => ds
  | DProperty d' | DList d' _ _ => [d']
  | DDict kd vd => [kd; vd]
  | _ => []
  end.

Lemma desc_nested_ind (P : desc -> Prop) : (forall d, Forall P (children d) -> P d) -> forall d, P d.
Proof.
  intros H. fix IH 1. intros d. apply H.
  assert (L : forall ds, Forall P ds) by (fix IHl 1; intros [|a ds]; constructor; [apply IH | apply IHl]).
  destruct d; cbn [children]; auto.
Qed.

Lemma first_sel_ext sel f g ds :
  (forall a, In a ds -> sel a = true -> f a = g a) -> first_sel sel f ds = first_sel sel g ds.
Proof.
  induction ds as [|d r IH]; cbn; intros H; [reflexivity|].
  destruct (sel d) eqn:Hs.
  - rewrite (H d (or_introl eq_refl) Hs). rewrite IH; [reflexivity|]. intros a Ha. apply H. now right.
  - apply IH. intros a Ha. apply H. now right.
Qed.

Definition alt_eq_at (E : env) (v : pv) (a : desc) : Prop :=
  wf_desc a = true -> alt_ok a = true -> is_fast a = true -> alt_benign E v a = true ->
  c_case E a v = py_validate E a v.

Lemma first_sel_fast_eq E v ds :
  Forall (alt_eq_at E v) ds -> wf_desc (DCompound ds) = true -> forallb (alt_benign E v) ds = true ->
  first_sel is_fast (fun a => c_case E a v) ds = first_sel is_fast (fun a => py_validate E a v) ds.
Proof.
  intros H Hwf Hb. apply first_sel_ext. intros a Hin Hf.
  pose proof (wf_compound_alts ds Hwf) as Hok. cbn [wf_desc] in Hwf.
  apply andb_prop in Hwf as [Hwf _]. apply andb_prop in Hwf as [Hwf _].
  rewrite Forall_forall in H. rewrite forallb_forall in Hwf, Hok, Hb. apply H; auto.
Qed.

Lemma alt_eq E v : bool_final E = true -> no_tuplesub v = true -> forall a, alt_eq_at E v a.
Proof.
  intros HB HT a. induction a as [a IH] using desc_nested_ind. intros Hwf Hok Hf Hb.
  assert (Hleaf : (forall ds, a <> DCompound ds) -> c_case E a v = py_validate E a v).
  { intros Hnc.
    assert (Hb' : cast_no_escape E v a && none_ok E a && proxy_ok a v && adapt_ok a = true)
      by (destruct a; try exact Hb; now elim (Hnc ds)).
    apply andb_prop in Hb' as [Hb' Had]. apply andb_prop in Hb' as [Hb' Hpx]. apply andb_prop in Hb' as [Hc Hn].
    now apply leaf_eq. }
  destruct a; try (apply Hleaf; discriminate).
  (* a nested compound is decided like the outer one *)
  cbn [c_case py_validate]. now rewrite (first_sel_fast_eq E v ds IH Hwf Hb).
Qed.

Lemma agrees_refl r : agrees r r = true.
Proof.
  unfold agrees, same_accept_set, same_value_and_type, reject_implies_reject.
  destruct r; cbn; auto. now rewrite pv_eqb_refl.
Qed.

(* every description in scope but a stand-alone cast is decided alike by the two paths *)
Lemma fast_eq_slow_eq E d v :
  wf_desc d = true -> c03_scope d = true -> benign E d v = true -> (forall t, d <> DCast t) ->
  c_validate E d v = py_validate E d v.
Proof.
  intros Hwf Hs Hb Hnc. unfold benign in Hb.
  apply andb_prop in Hb as [Hb Hcomp]. apply andb_prop in Hb as [Hb HA]. apply andb_prop in Hb as [Hb HP].
  apply andb_prop in Hb as [Hb HN]. apply andb_prop in Hb as [HB HT].
  destruct d; try discriminate Hs; try (now elim (Hnc t)).
  all: try (rewrite <- c_case_eq_c_validate by (try reflexivity; exact Hs);
            apply leaf_eq; try reflexivity; try assumption; discriminate).
  cbn [c_validate py_validate]. rewrite (first_sel_fast_eq E v ds); auto.
  apply Forall_forall. intros a _. now apply alt_eq.
Qed.

(* stand-alone, the compiled path turns every failure of the cast into TraitError *)
Lemma cast_agrees E t v : agrees (c_validate E (DCast t) v) (py_validate E (DCast t) v) = true.
Proof.
  cbn [c_validate py_validate]. destruct (class_of v =? cast_cls t) eqn:Hc.
  - apply Z.eqb_eq in Hc. rewrite (exact_class_cast E t v Hc). apply agrees_refl.
  - destruct (cast_fn E t v) as [w|e]; [apply agrees_refl | destruct t, e; reflexivity].
Qed.

Lemma c_agrees_py E d v :
  wf_desc d = true -> c03_scope d = true -> benign E d v = true ->
  agrees (c_validate E d v) (py_validate E d v) = true.
Proof.
  intros Hwf Hs Hb.
  assert (Hd : (exists t, d = DCast t) \/ forall t, d <> DCast t) by (destruct d; eauto; right; discriminate).
  destruct Hd as [[t ->]|Hd]; [apply cast_agrees | rewrite fast_eq_slow_eq by assumption; apply agrees_refl].
Qed.

Lemma compound_accept_single E ds v w :
  forallb alt_ok ds = true -> c_validate E (DCompound ds) v = Accept w ->
  exists pre a post, effective_order ds = pre ++ a :: post /\ c_validate E a v = Accept w
                     /\ Forall (fun b => c_validate E b v = Reject) pre.
Proof.
  intros Hok. rewrite compound_first_outcome by exact Hok. apply first_outcome_map_accept.
Qed.

Lemma compound_reject_iff E ds v :
  forallb alt_ok ds = true ->
  (c_validate E (DCompound ds) v = Reject <-> Forall (fun b => c_validate E b v = Reject) (effective_order ds)).
Proof.
  intros Hok. rewrite compound_first_outcome by exact Hok. rewrite first_outcome_reject.
  rewrite Forall_map. reflexivity.
Qed.

Definition E0 : env :=
  mkEnv [(0,0); (1,0); (1,1); (2,2); (2,3); (3,3); (4,4); (6,6); (8,8); (13,8); (13,13); (100,100); (101,100); (101,101)]
        110 [] [].

Lemma refuted_tuple_subclass :   (* F4 *)
  let d := DTuple [DInt; DInt] in let v := PTupleSub [PInt 1; PInt 2] in
  wf_desc d = true /\ c03_scope d = true /\ agrees (c_validate E0 d v) (py_validate E0 d v) = false.
Proof. vm_compute. repeat split. Qed.

Lemma refuted_cast_escape :    (* residue of F17: an exception of the value's own __index__ other than
                                  TypeError/ValueError/OverflowError is swallowed by the compiled compound only *)
  let d := DCompound [DCast CTInt; DInstance cIDXOBJ false false] in let v := PIndexObj (Raises EOtherError) in
  wf_desc d = true /\ c03_scope d = true /\
  agrees (c_validate (mkEnv [(20, 20)] 110 [] []) d v) (py_validate (mkEnv [(20, 20)] 110 [] []) d v) = false.
Proof. vm_compute. repeat split. Qed.

Lemma refuted_adapt_default :    (* F21 *)
  let E := mkEnv [(3, 3); (6, 6); (100, 100)] 110 [(1, PInt 5, PStr [53])] [] in
  let d := DCompound [DAdapt 100 2 false (PStr [78; 111; 110; 101]); DCast CTStr] in let v := PInt 5 in
  wf_desc d = true /\ c03_scope d = true /\ agrees (c_validate E d v) (py_validate E d v) = false.
Proof. vm_compute. repeat split. Qed.

Lemma refuted_none_instance :    (* F18 *)
  let d := DInstance 0 false false in let v := PNone in
  wf_desc d = true /\ c03_scope d = true /\ agrees (c_validate E0 d v) (py_validate E0 d v) = false.
Proof. vm_compute. repeat split. Qed.

Lemma refuted_declaration_order : (* F5 *)
  let ds := [DString 0 5 None; DCast CTInt] in let v := PStr [49; 50] in
  wf_desc (DCompound ds) = true /\
  compound_ok (c_validate E0 (DCompound ds) v) (map (fun d => c_validate E0 d v) ds) = false.
Proof. vm_compute. repeat split. Qed.

Lemma benign_compound_example :
  let d := DCompound [DTuple [DInt; DCast CTFloat]; DRangeF (Some (FFin false 0)) (Some (FFin false 1000)) 1;
                      DInstance 100 false false; DString 0 5 None] in
  wf_desc d = true /\ c03_scope d = true /\ bool_final E0 = true
  /\ benign E0 d (PTuple [PIntSub 3; PBool true]) = true
  /\ c_validate E0 d (PTuple [PIntSub 3; PBool true]) = Accept (PTuple [PInt 3; PFloat (FFin false 1000)])
  /\ benign E0 d (PFloat FNaN) = true /\ c_validate E0 d (PFloat FNaN) = Reject
  /\ c_validate E0 d (PStr [97]) = Accept (PStr [97])
  /\ c_validate E0 d (PObj 101 1) = Accept (PObj 101 1).
Proof. vm_compute. repeat split. Qed.

Lemma law_obs_model E d v :
  wf_desc d = true -> c03_scope d = true -> benign E d v = true ->
  (forall ds, d = DCompound ds -> order_preserved ds = true) ->
  law_obs (c_validate E d v, Some (py_validate E d v),
           match d with DCompound ds => Some (map (fun a => c_validate E a v) ds) | _ => None end) = [].
Proof.
  intros Hwf Hs Hb Hord. pose proof (c_agrees_py E d v Hwf Hs Hb) as Ha.
  unfold agrees in Ha. apply andb_prop in Ha as [Ha H3]. apply andb_prop in Ha as [H1 H2].
  unfold law_obs. rewrite H1, H2, H3. cbn [chk app].
  destruct d; try reflexivity.
  rewrite (compound_ok_declared_order E ds v (wf_compound_alts ds Hwf) (Hord ds eq_refl)). reflexivity.
Qed.
