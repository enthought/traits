(* C20 — convergence of IN-PLACE LIST MUTATIONS on every TREE-shaped mutual link graph (any number of
   objects, any branching, any depth, aliases allowed): if the linked list traits agreed before, then
   after a mutation whose event replays (ListProofs / SliceProofs: every mutator except extended
   slices) every list trait of the component holds the new list, nothing else is touched, the
   recursion stays within the lock-invariant bound.  On graphs with a cycle the statement is false
   (Props.cyclic_links_diverge): acyclicity is used exactly once, to show that the regions explored
   through two different partners of a trait are disjoint. *)
From Coq Require Import ZArith List Bool Arith Lia.
From TV Require Import Common.Harness C20.ListSem C20.ListProofs C20.SliceProofs C20.Model C20.Termination C20.Spread C20.Notes.
Import ListNotations.

Inductive reachA (st : state) (B : node -> Prop) (x : node) : node -> Prop :=
| rA_refl : reachA st B x x
| rA_step y z : reachA st B x y -> edge st y z -> ~ B z -> reachA st B x z.

Lemma reachA_weaken st (B B' : node -> Prop) x y :
  (forall z, B' z -> B z) -> reachA st B x y -> reachA st B' x y.
Proof. intros H R. induction R; [constructor|]. eapply rA_step; eauto. Qed.

Lemma reachA_trans st B x y z : reachA st B x y -> reachA st B y z -> reachA st B x z.
Proof. intros R1 R2. induction R2; [exact R1|]. eapply rA_step; eauto. Qed.

Lemma reachA_first st B x y :
  reachA st B x y -> y = x \/ exists q, edge st x q /\ ~ B q /\ reachA st B q y.
Proof.
  intros R. induction R as [|y z R IH He Hz]; [left; reflexivity|]. right.
  destruct IH as [->|(q & Hq & Bq & Rq)].
  - exists z. split; [exact He|]. split; [exact Hz|constructor].
  - exists q. split; [exact Hq|]. split; [exact Bq|]. eapply rA_step; eassumption.
Qed.

(* a path from q either ends at q or can be taken without re-entering q *)
Lemma reachA_no_return st B q y :
  reachA st B q y -> y = q \/ reachA st (fun z => B z \/ z = q) q y.
Proof.
  intros R. induction R as [|y z R IH He Hz]; [left; reflexivity|].
  destruct (node_eq_dec z q) as [->|Hne]; [left; reflexivity|]. right.
  assert (~ (B z \/ z = q)) as Hb by (intros [H|H]; [apply Hz; exact H|apply Hne; exact H]).
  destruct IH as [->|R']; [eapply rA_step; [constructor|exact He|exact Hb]|eapply rA_step; eassumption].
Qed.

(* on a symmetric graph a path can be walked backwards, if its start may be entered *)
Lemma reachA_rev st B x y :
  symmetric st -> ~ B x -> reachA st B x y -> reachA st B y x.
Proof.
  intros Sy Hx R. induction R as [|y z R IH He Hz]; [constructor|].
  (* z -> y -> ... -> x : y must be enterable: it is x or was entered *)
  assert (~ B y) as Hy.
  { clear IH. inversion R; subst; assumption. }
  eapply reachA_trans; [eapply rA_step; [constructor|apply Sy; exact He|exact Hy]|exact IH].
Qed.

Lemma reachA_partners s t B x y :
  (forall p m, partners s p m = partners t p m) -> reachA s B x y -> reachA t B x y.
Proof.
  intros H R. induction R as [|y z R IH (ps & Hp & Hin) Hz]; [constructor|].
  eapply rA_step; [exact IH| |exact Hz]. exists ps. rewrite <- H. auto.
Qed.

Record tree (st : state) : Prop := mkTree {
  t_sym : symmetric st;
  t_acyclic : forall u p1 p2, edge st u p1 -> edge st u p2 -> p1 <> p2 ->
                              ~ reachA st (fun z => z = u) p1 p2;
  t_nodup : forall u ps, partners st (fst u) (snd u) = Some ps -> NoDup ps;
  t_hooked : forall u ps, partners st (fst u) (snd u) = Some ps -> is_list_name (snd u) = true ->
                          has (snd u) (o_att_i (get_obj st (fst u))) = true;
  t_kind : forall u y, edge st u y -> is_list_name (snd y) = is_list_name (snd u);
  t_range : forall u y, edge st u y -> in_range st y
}.

Lemma tree_tables s t : same_tables s t -> tree s -> tree t.
Proof.
  intros T [T1 T2 T3 T4 T6 T5]. pose proof (tables_sym _ _ T) as T'.
  pose proof (fun x y => edge_tables t s x y T') as Hts. split.
  - intros x y He. apply (edge_tables s t _ _ T), T1, Hts, He.
  - intros u p1 p2 H1 H2 Hne R. apply (T2 u p1 p2); auto. apply (reachA_partners t s _ _ _ (tb_partners _ _ T')), R.
  - intros u ps Hp. apply (T3 u). rewrite (tb_partners _ _ T). exact Hp.
  - intros u ps Hp Hk. rewrite <- (tb_att_i _ _ T). apply (T4 u ps); [rewrite (tb_partners _ _ T); exact Hp|exact Hk].
  - intros u y He. apply (T6 u), Hts, He.
  - intros u y He. apply (tb_range _ _ T), (T5 u), Hts, He.
Qed.

Lemma tree_frame s t : same_frame s t -> tree s -> tree t.
Proof. intros F. apply tree_tables, frame_tables, F. Qed.

Lemma tree_lock st o n : tree st -> tree (lock st o n).
Proof. apply tree_tables, lock_tables. Qed.

(* out-trees: the same without symmetry - one-way links allowed.  What the propagation needs is that the
   parts of the graph explored through two different partners of a trait do not meet. *)
Record otree (st : state) : Prop := mkOTree {
  ot_disjoint : forall u p1 p2 y, edge st u p1 -> edge st u p2 -> p1 <> p2 -> p1 <> u -> p2 <> u ->
                                  reachA st (fun z => z = u) p1 y -> reachA st (fun z => z = u) p2 y -> False;
  ot_nodup : forall u ps, partners st (fst u) (snd u) = Some ps -> NoDup ps;
  ot_hooked : forall u ps, partners st (fst u) (snd u) = Some ps -> is_list_name (snd u) = true ->
                           has (snd u) (o_att_i (get_obj st (fst u))) = true;
  ot_kind : forall u y, edge st u y -> is_list_name (snd y) = is_list_name (snd u);
  ot_range : forall u y, edge st u y -> in_range st y
}.

Lemma tree_otree st : tree st -> otree st.
Proof.
  intros [T1 T2 T3 T4 T6 T5]. split; try assumption.
  intros u p1 p2 y H1 H2 Hne _ Hp2 R1 R2.
  apply (T2 u p1 p2 H1 H2 Hne).
  eapply reachA_trans; [exact R1|]. apply reachA_rev; [exact T1|exact Hp2|exact R2].
Qed.

Lemma otree_tables s t : same_tables s t -> otree s -> otree t.
Proof.
  intros T [T2 T3 T4 T6 T5]. pose proof (tables_sym _ _ T) as T'.
  pose proof (fun x y => edge_tables t s x y T') as Hts. split.
  - intros u p1 p2 y H1 H2 Hne N1 N2 R1 R2.
    apply (T2 u p1 p2 y); auto; apply (reachA_partners t s _ _ _ (tb_partners _ _ T')); assumption.
  - intros u ps Hp. apply (T3 u). rewrite (tb_partners _ _ T). exact Hp.
  - intros u ps Hp Hk. rewrite <- (tb_att_i _ _ T). apply (T4 u ps); [rewrite (tb_partners _ _ T); exact Hp|exact Hk].
  - intros u y He. apply (T6 u), Hts, He.
  - intros u y He. apply (tb_range _ _ T), (T5 u), Hts, He.
Qed.

Lemma otree_frame s t : same_frame s t -> otree s -> otree t.
Proof. intros F. apply otree_tables, frame_tables, F. Qed.

Lemma reachA_end st B q y : reachA st B q y -> y = q \/ ~ B y.
Proof. intros R. inversion R; subst; auto. Qed.

(* the same paths in a state with the same tables, when fewer traits are blocked *)
Lemma reachA_mono s t (B B' : node -> Prop) x y :
  (forall p m, partners s p m = partners t p m) -> (forall z, B' z -> B z) -> reachA s B x y -> reachA t B' x y.
Proof. intros Hp HB R. apply (reachA_partners s t _ _ _ Hp), (reachA_weaken s B); assumption. Qed.

(* what a delivery at q can reach: the paths from q that enter no locked trait *)
Definition downstream (st : state) (q y : node) : Prop := reachA st (fun z => locked st z = true) q y.

(* a call at x locks x and walks its partners: downstream of x is x itself and, through each partner that can
   be entered, what is reached from it with x locked as well *)
Lemma downstream_through s st1 o n :
  same_frame s st1 -> (o < length (objs s))%nat ->
  let x := (o, n) in
  let B2 := fun z => locked (lock st1 o n) z = true in
  (forall q y, edge st1 x q -> ~ B2 q -> reachA st1 B2 q y -> downstream s x y /\ y <> x) /\
  (forall y, downstream s x y -> y = x \/ exists q, edge st1 x q /\ ~ B2 q /\ reachA st1 B2 q y).
Proof.
  intros F1 Ho x B2.
  assert (forall p m, partners st1 p m = partners s p m) as Hpart1 by (intros; symmetry; apply partners_frame, F1).
  assert (forall z, B2 z <-> z = x \/ locked s z = true) as HB2.
  { intros z. unfold B2. rewrite (locked_frame _ _ z F1). split; [apply locked_lock|].
    apply locked_lock_back. destruct F1 as [<- _]. exact Ho. }
  split.
  - intros q y He Bq R. assert (locked s q <> true) as Lq by (intros Lq; apply Bq, HB2; auto). split.
    + eapply reachA_trans; [eapply rA_step; [constructor|eapply edge_frame; [apply same_frame_sym; exact F1|exact He]|exact Lq]|].
      apply (reachA_mono st1 s _ (fun z => locked s z = true) q y Hpart1) in R; [exact R|]. intros z Lz. apply HB2. auto.
    + assert (B2 x) as Bx by (apply HB2; auto).
      destruct (reachA_end _ _ _ _ R) as [->|Hy]; intros ->; [apply Bq, Bx|apply Hy, Bx].
  - intros y Dy. destruct (reachA_no_return _ _ _ _ Dy) as [E|R]; [left; exact E|].
    destruct (reachA_first _ _ _ _ R) as [E|(q & He & Bq & Rq)]; [left; exact E|right].
    exists q. split; [eapply edge_frame; eassumption|]. split; [intros Lq; apply Bq, or_comm, HB2, Lq|].
    apply (reachA_mono s st1 _ B2 q y) in Rq; [exact Rq|intros; symmetry; apply Hpart1|].
    intros z Lz. apply or_comm, HB2, Lz.
Qed.

Lemma val_set_list st o n l : in_range st (o, n) -> val (set_val st o n (VL l)) (o, n) = VL l.
Proof. apply val_set_same. Qed.

Section Tree.
  Variables L L' : list Z.

  Definition replays (ev : event) : Prop := int_index ev /\ exists oev, apply_event L ev = Ok (L', oev).

  (* what a trait that took L' sends on: an event that replays, or nothing when nothing changed *)
  Definition carries (oev : option event) : Prop :=
    match oev with Some ev => replays ev | None => L' = L end.

  (* q takes L' (its list has just applied an event, or been mutated) and passes on what that produced *)
  Definition pushed (f : nat) (s : state) (q : node) (oev : option event) : state :=
    let s' := set_val s (fst q) (snd q) (VL L') in
    match oev with Some ev => forward f s' (fst q) (snd q) ev | None => s' end.

  Definition vpost (s : state) (q : node) (s'' : state) : Prop :=
    overflow s'' = false /\ same_frame s s'' /\
    (forall y, downstream s q y -> val s'' y = VL L') /\
    (forall y, val s'' y = val s y \/ downstream s q y) /\
    (forall y, nc s'' y = nc s y \/ (downstream s q y /\ nc s'' y = S (nc s y))).

  Section Fold.
    (* the state when the handler of x starts walking its partners: x is locked (st2), tables are st's *)
    Variables (f : nat) (st st2 : state) (x : node) (ev : event).
    Hypothesis IH : forall s q oev,
      otree s -> overflow s = false -> locked s q = false -> (Phi s < f)%nat -> in_range s q ->
      is_list_name (snd q) = true -> carries oev ->
      (forall y, downstream s q y -> val s y = VL L) ->
      vpost s q (pushed f s q oev).
    Hypothesis T : otree st.
    Hypothesis T2 : otree st2.
    Hypothesis Hpart2 : forall p m, partners st2 p m = partners st p m.
    Hypothesis HPhi2 : (Phi st2 < f)%nat.
    Hypothesis Hev : replays ev.
    Hypothesis Hxlist : is_list_name (snd x) = true.
    Let B2 : node -> Prop := fun z => locked st2 z = true.
    Hypothesis HB2x : B2 x.
    Hypothesis Hvals : forall q y, edge st x q -> ~ B2 q -> reachA st B2 q y -> val st y = VL L.

    (* what the partners walked so far have reached *)
    Definition explored (done : list node) (y : node) : Prop :=
      exists q, In q done /\ ~ B2 q /\ reachA st B2 q y.

    Definition finv (done : list node) (s : state) : Prop :=
      overflow s = false /\ same_frame st2 s /\
      (forall y, explored done y -> val s y = VL L') /\
      (forall y, val s y = val st y \/ explored done y) /\
      (forall y, nc s y = nc st2 y \/ (explored done y /\ nc s y = S (nc st2 y))).

    Lemma disjoint p q y :
      edge st x p -> edge st x q -> p <> q -> ~ B2 p -> ~ B2 q ->
      reachA st B2 p y -> reachA st B2 q y -> False.
    Proof.
      intros Hp Hq Hne Bp Bq Rp Rq.
      assert (forall z, z = x -> B2 z) as Hx by (intros z ->; exact HB2x).
      apply (ot_disjoint _ T x p q y Hp Hq Hne); [intros ->; apply Bp; exact HB2x|intros ->; apply Bq; exact HB2x| |].
      - apply (reachA_weaken st B2); [exact Hx|exact Rp].
      - apply (reachA_weaken st B2); [exact Hx|exact Rq].
    Qed.

    Lemma explored_snoc done q y :
      explored (done ++ [q]) y <-> explored done y \/ (~ B2 q /\ reachA st B2 q y).
    Proof.
      split.
      - intros (q0 & Hin & Bq & R). apply in_app_or in Hin.
        destruct Hin as [Hin|[<-|[]]]; [left; exists q0; auto|right; auto].
      - intros [(q0 & Hin & Bq & R)|[Bq R]]; [exists q0|exists q]; (split; [apply in_or_app; cbn; auto|auto]).
    Qed.

    (* one more partner q: its visit rewrote what is reached from q, which nothing earlier had reached *)
    Lemma finv_step done q s s'' :
      finv done s -> ~ B2 q -> (forall y, explored done y -> reachA st B2 q y -> False) ->
      overflow s'' = false -> same_frame s s'' ->
      (forall y, reachA st B2 q y -> val s'' y = VL L') ->
      (forall y, val s'' y = val s y \/ reachA st B2 q y) ->
      (forall y, nc s'' y = nc s y \/ (reachA st B2 q y /\ nc s'' y = S (nc s y))) ->
      finv (done ++ [q]) s''.
    Proof.
      intros (Hov & Fs & Hb & Hc & Hn) Bq Hdis O'' F'' Vb Vc Vn.
      split; [exact O''|]. split; [eapply same_frame_trans; eassumption|].
      split; [|split]; intros y; rewrite explored_snoc.
      - intros [Ey|[_ Dy]]; [|apply Vb, Dy]. destruct (Vc y) as [E|Dy]; [rewrite E; apply Hb, Ey|apply Vb, Dy].
      - destruct (Vc y) as [E|Dy]; [|right; right; auto].
        rewrite E. destruct (Hc y) as [E'|Ey]; [left; exact E'|right; left; exact Ey].
      - destruct (Vn y) as [E|[Dy E]]; rewrite E.
        + destruct (Hn y) as [E'|[Ey E']]; [left; exact E'|right; split; [left; exact Ey|exact E']].
        + right. split; [right; auto|].
          destruct (Hn y) as [E'|[Ey _]]; [rewrite E'; reflexivity|exfalso; apply (Hdis y Ey Dy)].
    Qed.

    (* during the walk the tables and locks are those of st2: a partner's downstream is read in st *)
    Lemma downstream_walk s q y : same_frame st2 s -> (downstream s q y <-> reachA st B2 q y).
    Proof.
      intros Fs. split; apply reachA_mono; intros; unfold B2 in *.
      - rewrite <- (partners_frame _ _ p m Fs). apply Hpart2.
      - rewrite <- (locked_frame _ _ z Fs). assumption.
      - rewrite <- (partners_frame _ _ p m Fs). symmetry. apply Hpart2.
      - rewrite (locked_frame _ _ z Fs). assumption.
    Qed.

    Lemma fold_tree : forall todo done s,
      NoDup (done ++ todo) -> (forall q, In q (done ++ todo) -> edge st x q) ->
      finv done s ->
      finv (done ++ todo)
           (fold_left (fun s (q : oid * name) => let '(p, pn) := q in
              if lockedb s p pn then s
              else match get_val s p pn with
                   | VL pl => match apply_event pl ev with
                              | Ok (pl', oev) =>
                                  let s' := set_val s p pn (VL pl') in
                                  match oev with Some ev' => forward f s' p pn ev' | None => s' end
                              | Raise _ => s
                              end
                   | VS _ => s
                   end) todo s).
    Proof.
      induction todo as [|q r IHr]; intros done s Hnd Hedges Hinv; cbn [fold_left].
      - rewrite app_nil_r. exact Hinv.
      - replace (done ++ q :: r) with ((done ++ [q]) ++ r) by (rewrite <- app_assoc; reflexivity).
        apply IHr; [rewrite <- app_assoc; exact Hnd|intros q' Hq'; apply Hedges; rewrite <- app_assoc in Hq'; exact Hq'|].
        pose proof Hinv as (Hov & Fs & Hb & Hc & Hn).
        assert (edge st x q) as Heq by (apply Hedges; apply in_or_app; right; left; reflexivity).
        assert (forall z, locked s z = locked st2 z) as Hlk by (intros z; symmetry; apply locked_frame; exact Fs).
        destruct q as [p pn].
        destruct (lockedb s p pn) eqn:Hl.
        + (* skipped: nothing new is reached *)
          assert (B2 (p, pn)) as Bq by (unfold B2; rewrite <- Hlk; exact Hl).
          split; [exact Hov|]. split; [exact Fs|]. split; [|split]; intros y; rewrite explored_snoc.
          * intros [Ey|[Bq' _]]; [apply Hb, Ey|contradiction].
          * destruct (Hc y); auto.
          * destruct (Hn y) as [|[? ?]]; auto.
        + assert (~ B2 (p, pn)) as Bq.
          { unfold B2. rewrite <- Hlk. unfold locked. cbn [fst snd]. rewrite Hl. discriminate. }
          set (q := (p, pn)) in *.
          (* what was explored so far contains nothing reachable from q *)
          assert (forall y, explored done y -> reachA st B2 q y -> False) as Hdis.
          { intros y (p0 & Hin & Bp & Rp) Rq. apply (disjoint p0 q y); try assumption.
            - apply Hedges. apply in_or_app. left. exact Hin.
            - intros ->. apply NoDup_remove_2 in Hnd. apply Hnd. apply in_or_app. left. exact Hin. }
          (* so everything downstream of q (q included) still holds L *)
          assert (forall y, downstream s q y -> val s y = VL L) as HoldL.
          { intros y Ry. apply (downstream_walk s q y Fs) in Ry.
            destruct (Hc y) as [E|Ey]; [|destruct (Hdis y Ey Ry)]. rewrite E. exact (Hvals q y Heq Bq Ry). }
          assert (in_range s q) as Rq.
          { eapply in_range_frame; [exact Fs|]. apply (ot_range _ T2 x).
            destruct Heq as (ps & Hp & Hin). exists ps. rewrite Hpart2. auto. }
          pose proof (HoldL q (rA_refl _ _ _)) as Vq. unfold val in Vq. subst q. cbn [fst snd] in Vq. rewrite Vq.
          set (q := (p, pn)) in *.
          destruct Hev as [Hidx [oev Hap]]. rewrite Hap.
          (* the partner takes L' and passes on what its own list sends, if anything *)
          destruct (IH s q oev) as (O'' & F'' & Vb & Vc & Vn); try assumption.
          * eapply otree_frame; eassumption.
          * rewrite <- (Phi_frame _ _ Fs). exact HPhi2.
          * rewrite <- Hxlist. apply (ot_kind _ T x q). exact Heq.
          * destruct oev as [ev'|]; [|eapply apply_event_silent; eassumption].
            destruct (reemitted_event_replays L ev L' ev' Hidx Hap) as [Hidx' [oev' Hap']].
            split; [exact Hidx'|exists oev'; exact Hap'].
          * apply (finv_step done q s _ Hinv Bq Hdis O'' F''); intros y.
            -- intros Dy. apply Vb, (downstream_walk s q y Fs), Dy.
            -- destruct (Vc y) as [E|Dy]; [left; exact E|right; apply (downstream_walk s q y Fs), Dy].
            -- destruct (Vn y) as [E|[Dy E]]; [left; exact E|right; split; [apply (downstream_walk s q y Fs), Dy|exact E]].
    Qed.
  End Fold.
End Tree.

Section Tree2.
  Variables L L' : list Z.

  (* x took L' and was notified; beyond x the handler changed exactly E, which is downstream of x but for x *)
  Lemma vpost_own s o n (E : node -> Prop) s4 s5 :
    let x := (o, n) in
    let st1 := add_note (set_val s o n (VL L')) o n in
    in_range s x ->
    (forall y, val s5 y = val s4 y) -> (forall y, nc s5 y = nc s4 y) ->
    (forall y, E y -> val s4 y = VL L') -> (forall y, val s4 y = val st1 y \/ E y) ->
    (forall y, nc s4 y = nc st1 y \/ (E y /\ nc s4 y = S (nc st1 y))) ->
    (forall y, E y -> downstream s x y /\ y <> x) -> (forall y, downstream s x y -> y = x \/ E y) ->
    (forall y, downstream s x y -> val s5 y = VL L') /\
    (forall y, val s5 y = val s y \/ downstream s x y) /\
    (forall y, nc s5 y = nc s y \/ (downstream s x y /\ nc s5 y = S (nc s y))).
  Proof.
    intros x st1 Hr Hv Hnc Ha Hb Hc Hd He.
    assert (val st1 x = VL L') as V1 by (apply val_set_same; exact Hr).
    assert (forall y, y <> x -> val st1 y = val s y) as V1o by (intros y Hy; apply val_set_other; exact Hy).
    assert (nc st1 x = S (nc s x)) as N1 by apply (nc_add_note_same (set_val s o n (VL L')) o n).
    assert (forall y, y <> x -> nc st1 y = nc s y) as N1o
      by (intros y Hy; apply (nc_add_note_other (set_val s o n (VL L')) o n y Hy)).
    split; [|split]; intros y; rewrite ?Hv, ?Hnc.
    - intros Dy. destruct (He y Dy) as [->|Ey]; [|apply Ha, Ey].
      destruct (Hb x) as [E1|Ex]; [rewrite E1; exact V1|apply Ha, Ex].
    - destruct (Hb y) as [E1|Ey]; [|right; apply Hd, Ey].
      destruct (node_eq_dec y x) as [->|Hy]; [right; constructor|left; rewrite E1; apply V1o, Hy].
    - destruct (Hc y) as [E1|[Ey E1]]; rewrite E1.
      + destruct (node_eq_dec y x) as [->|Hy]; [right; split; [constructor|exact N1]|left; apply N1o, Hy].
      + right. destruct (Hd y Ey) as [Dy Hy]. split; [exact Dy|]. rewrite (N1o y Hy). reflexivity.
  Qed.

  Theorem push_spread : forall f s q oev,
    otree s -> overflow s = false -> locked s q = false -> (Phi s < f)%nat -> in_range s q ->
    is_list_name (snd q) = true -> carries L L' oev ->
    (forall y, downstream s q y -> val s y = VL L) ->
    vpost L' s q (pushed L' f s q oev).
  Proof.
    induction f as [|f IH]; intros s [o n] oev T Hov Hl HPhi Hr Hkind Hcar Hvals; [lia|].
    unfold pushed. cbn [fst snd] in *.
    pose proof (Hvals (o, n) (rA_refl _ _ _)) as Vx.
    set (s' := set_val s o n (VL L')).
    destruct oev as [ev|].
    2:{ (* nothing sent: L' = L, which the trait held *)
        cbn in Hcar. subst L'.
        assert (forall y, val s' y = val s y) as Vs by (intros y; apply val_set_same_value; exact Vx).
        split; [exact Hov|]. split; [apply set_val_frame|]. split; [intros y Dy; rewrite Vs; apply Hvals, Dy|].
        split; intros y; left; [apply Vs|reflexivity]. }
    cbn [forward]. set (st1 := add_note s' o n).
    assert (same_frame s st1) as F1 by apply set_note_frame.
    assert ((forall q, ~ edge s (o, n) q) -> vpost L' s (o, n) st1) as Hquiet.
    { intros noedge. split; [exact Hov|]. split; [exact F1|].
      apply (vpost_own s o n (fun _ => False) st1 st1 Hr); try tauto; try reflexivity.
      intros y Dy. left. destruct (reachA_first _ _ _ _ Dy) as [E|(q & He & _)]; [exact E|destruct (noedge q He)]. }
    rewrite <- (att_i_frame _ _ o F1), <- (partners_frame _ _ o n F1).
    destruct (has n (o_att_i (get_obj s o))) eqn:Hatt.
    2:{ apply Hquiet. intros q (ps & Hp & _). pose proof (ot_hooked _ T (o, n) ps Hp Hkind) as Ha.
        cbn [fst snd] in Ha. congruence. }
    destruct (partners s o n) as [ps|] eqn:Hps.
    2:{ apply Hquiet. intros q (ps & Hp & _). cbn [fst snd] in Hp. congruence. }
    set (st2 := lock st1 o n).
    assert (Phi st2 < f)%nat as HPhi2.
    { pose proof (Phi_lock_lt s st1 o n F1 Hl ltac:(rewrite Hatt; apply orb_true_r)) as H. unfold st2. clear - H HPhi. lia. }
    assert (otree st1) as T1 by (eapply otree_frame; eassumption).
    assert (otree st2) as T2 by (eapply otree_tables; [apply lock_tables|exact T1]).
    destruct (downstream_through s st1 o n F1 (proj1 Hr)) as [Hthrough Hsplit]. fold st2 in Hthrough, Hsplit.
    assert (forall q, edge st1 (o, n) q <-> In q ps) as Hedges.
    { intros q. unfold edge. cbn [fst snd]. rewrite <- (partners_frame _ _ o n F1), Hps.
      split; [intros (ps' & [= <-] & Hin); exact Hin|intros Hin; exists ps; auto]. }
    destruct (fold_tree L L' f st1 st2 (o, n) ev IH T1 T2 (partners_lock st1 o n) HPhi2 Hcar Hkind) with
      (todo := ps) (done := @nil node) (s := st2) as (O4 & F4 & Hb & Hc & Hn).
    - apply (locked_lock_back st1 o n (o, n)); [destruct F1 as [<- _]; apply Hr|left; reflexivity].
    - intros q y He Bq R. destruct (Hthrough q y He Bq R) as [Dy Hy].
      change (val st1 y) with (val s' y). unfold s'. rewrite (val_set_other s o n (VL L') y Hy). apply Hvals, Dy.
    - apply (ot_nodup _ T (o, n)). exact Hps.
    - intros q Hin. apply Hedges, Hin.
    - split; [exact Hov|]. split; [apply same_frame_refl|]. split; [intros y (q & [] & _)|].
      split; intros y; left; [apply val_lock|reflexivity].
    - match goal with |- vpost _ _ _ (unlock ?s4 o n) => set (st4 := s4) in * end.
      split; [exact O4|]. split.
      { eapply same_frame_trans; [exact F1|]. apply unlock_after_lock; [rewrite <- (lockedb_frame _ _ o n F1); exact Hl|exact F4]. }
      apply (vpost_own s o n (explored st1 st2 ps) st4 (unlock st4 o n) Hr); try assumption.
      + intros y. apply val_unlock.
      + intros y. reflexivity.
      + intros y (q & Hin & Bq & R). exact (Hthrough q y (proj2 (Hedges q) Hin) Bq R).
      + intros y Dy. destruct (Hsplit y Dy) as [E|(q & He & Bq & R)]; [left; exact E|right].
        exists q. split; [apply Hedges, He|split; assumption].
  Qed.
End Tree2.

(* one list mutation through Model.step *)
Lemma reach_reachA st x y : reach st x y -> reachA st (fun _ => False) x y.
Proof. intros R. induction R; [constructor|]. eapply rA_step; [eassumption|eassumption|tauto]. Qed.
Lemma reachA_reach st B x y : reachA st B x y -> reach st x y.
Proof. intros R. induction R; [constructor|]. eapply reach_step; eassumption. Qed.

Lemma step_mut f st o n mu L : get_val st o n = VL L ->
  fst (step f st (Mut o n mu)) =
  match mutate L mu with
  | Raise _ => clear_notes st
  | Ok (l', oev) => let s1 := set_val (clear_notes st) o n (VL l') in
                    match oev with Some ev => forward f s1 o n ev | None => s1 end
  end.
Proof.
  intros V. unfold step. change (get_val (clear_notes st) o n) with (get_val st o n). rewrite V.
  destruct (mutate L mu) as [[l' oev]|e]; reflexivity.
Qed.

(* the mutation went through: [push_spread] at the mutated trait, read in the state before the step *)
Lemma mut_ok_spread f st o n mu L l' oev :
  otree st -> no_locks st -> overflow st = false -> (Phi st < f)%nat -> in_range st (o, n) ->
  is_list_name n = true -> replayable_mut mu = true ->
  (forall y, reach st (o, n) y -> val st y = VL L) -> mutate L mu = Ok (l', oev) ->
  let st' := pushed l' f (clear_notes st) (o, n) oev in
  overflow st' = false /\ same_frame st st' /\
  (forall y, reach st (o, n) y -> val st' y = VL l') /\
  (forall y, val st' y = val st y \/ reach st (o, n) y) /\
  (forall y, nc st' y = 0%nat \/ (reach st (o, n) y /\ nc st' y = 1%nat)).
Proof.
  intros T NL Hov HPhi Hr Hk Hmu Hall Hm st'.
  pose proof (clear_notes_frame st) as F0.
  assert (forall y, downstream (clear_notes st) (o, n) y <-> reach st (o, n) y) as HD.
  { intros y. split.
    - intros R. eapply reach_frame; [apply same_frame_sym; exact F0|eapply reachA_reach; exact R].
    - intros R. apply reach_reachA in R.
      apply (reachA_mono st (clear_notes st) _ (fun z => locked (clear_notes st) z = true) _ _ (fun p m => eq_refl)) in R; [exact R|].
      intros z Lz. change (locked st z = true) in Lz. rewrite (NL z) in Lz. discriminate. }
  destruct (replayable_replay_ok L mu Hmu) as [Hrep Hsil].
  destruct (push_spread L l' f (clear_notes st) (o, n) oev) as (O' & F' & Hb & Hc & Hn); try assumption.
  - eapply otree_frame; eassumption.
  - apply (NL (o, n)).
  - destruct oev as [ev|]; [|exact (Hsil _ Hm)]. destruct (Hrep _ _ Hm) as [oev' Hap].
    split; [exact (replayable_event_int_index L mu l' ev Hmu Hm)|exists oev'; exact Hap].
  - intros y Dy. apply Hall, HD, Dy.
  - split; [exact O'|]. split; [exact (same_frame_trans _ _ _ F0 F')|]. split; [|split]; intros y.
    + intros R. apply Hb, HD, R.
    + destruct (Hc y) as [E|Dy]; [left; exact E|right; apply HD, Dy].
    + destruct (Hn y) as [E|[Dy E]]; [left; exact E|right; split; [apply HD, Dy|exact E]].
Qed.

Theorem mut_step_converges f st o n mu L :
  otree st -> no_locks st -> overflow st = false -> (Phi st < f)%nat -> in_range st (o, n) ->
  is_list_name n = true -> replayable_mut mu = true ->
  (forall y, reach st (o, n) y -> val st y = VL L) ->
  let st' := fst (step f st (Mut o n mu)) in
  overflow st' = false /\ same_frame st st' /\
  exists L'', (forall y, reach st (o, n) y -> val st' y = VL L'') /\
              (forall y, val st' y = val st y \/ reach st (o, n) y).
Proof.
  intros T NL Hov HPhi Hr Hk Hmu Hall st'. subst st'.
  rewrite (step_mut f st o n mu L (Hall (o, n) (reach_refl _ _))).
  destruct (mutate L mu) as [[l' oev]|e] eqn:Hm.
  - destruct (mut_ok_spread f st o n mu L l' oev T NL Hov HPhi Hr Hk Hmu Hall Hm) as (O' & F' & Hb & Hc & _).
    split; [exact O'|]. split; [exact F'|]. exists l'. split; assumption.
  - (* the mutator raised: nothing happens *)
    split; [exact Hov|]. split; [apply clear_notes_frame|]. exists L. split; [exact Hall|intros y; left; reflexivity].
Qed.

(* NOTIFICATIONS of one list mutation on a tree: the <name>_items handlers of a trait fire at most once, and only
   for traits reachable from the mutated one (every other trait is not notified at all). *)
Theorem mut_step_notes f st o n mu L :
  otree st -> no_locks st -> overflow st = false -> (Phi st < f)%nat -> in_range st (o, n) ->
  is_list_name n = true -> replayable_mut mu = true ->
  (forall y, reach st (o, n) y -> val st y = VL L) ->
  let st' := fst (step f st (Mut o n mu)) in
  forall y, nc st' y = 0%nat \/ (reach st (o, n) y /\ nc st' y = 1%nat).
Proof.
  intros T NL Hov HPhi Hr Hk Hmu Hall st'. subst st'.
  rewrite (step_mut f st o n mu L (Hall (o, n) (reach_refl _ _))).
  destruct (mutate L mu) as [[l' oev]|e] eqn:Hm; [|intros y; left; reflexivity].
  apply (mut_ok_spread f st o n mu L l' oev T NL Hov HPhi Hr Hk Hmu Hall Hm).
Qed.

Lemma component_agrees st x v : consistent st -> val st x = v -> forall y, reach st x y -> val st y = v.
Proof. intros C Hx y R. rewrite (consistent_reach st x y C R). exact Hx. Qed.

Theorem mut_preserves_consistency f st o n mu :
  tree st -> consistent st -> no_locks st -> overflow st = false -> (Phi st < f)%nat -> in_range st (o, n) ->
  is_list_name n = true -> replayable_mut mu = true ->
  let st' := fst (step f st (Mut o n mu)) in
  consistent st' /\ overflow st' = false /\ same_frame st st'.
Proof.
  intros T C NL Hov HPhi Hr Hk Hmu st'.
  destruct (get_val st o n) as [z|L] eqn:Vx.
  - (* not a list value: AttributeError, nothing happens *)
    subst st'. unfold step. change (get_val (clear_notes st) o n) with (get_val st o n). rewrite Vx. cbn [fst].
    split; [exact C|]. split; [exact Hov|apply clear_notes_frame].
  - pose proof (component_agrees st (o, n) (VL L) C Vx) as Hall.
    destruct (mut_step_converges f st o n mu L (tree_otree _ T) NL Hov HPhi Hr Hk Hmu Hall) as (O' & F' & L'' & Hb & Hc).
    fold st' in O', F', Hb, Hc. split; [|split; assumption].
    intros a b He. apply (consistent_revalue st st' (o, n) (VL L'') (t_sym _ T) C Hb).
    + intros y E. destruct (Hc y) as [E'|R]; [contradiction|exact R].
    + eapply edge_frame; [apply same_frame_sym; exact F'|exact He].
Qed.

Fixpoint ops_ok (st : state) (ops : list op) : Prop :=
  match ops with
  | [] => True
  | Assign o n v :: r => wf st v /\ kind_ok n v = true /\ in_range st (o, n) /\ ops_ok st r
  | Mut o n mu :: r => in_range st (o, n) /\ is_list_name n = true /\ replayable_mut mu = true /\ ops_ok st r
  | _ :: _ => False
  end.

Lemma ops_ok_frame s t ops : same_frame s t -> ops_ok s ops -> ops_ok t ops.
Proof.
  intros F. induction ops as [|[o n v|o n mu| | |] r IH]; cbn; auto.
  - intros (W & K & R & A). split; [eapply wf_frame; eassumption|]. split; [exact K|].
    split; [eapply in_range_frame; eassumption|apply IH; exact A].
  - intros (R & K & M & A). split; [eapply in_range_frame; eassumption|]. split; [exact K|]. split; [exact M|apply IH; exact A].
Qed.

Theorem tree_histories_converge fuel : forall ops st,
  tree st -> consistent st -> no_locks st -> overflow st = false -> (Phi st < fuel)%nat ->
  ops_ok st ops ->
  consistent (final fuel st ops) /\ overflow (final fuel st ops) = false /\ same_frame st (final fuel st ops).
Proof.
  induction ops as [|op r IH]; intros st T C NL Hov HPhi A; cbn [final].
  - split; [exact C|]. split; [exact Hov|apply same_frame_refl].
  - set (st1 := fst (step fuel st op)).
    assert (consistent st1 /\ overflow st1 = false /\ same_frame st st1 /\ ops_ok st r) as (C1 & O1 & F1 & A').
    { destruct op as [o n v|o n mu| | |]; try contradiction.
      - destruct A as (W & K & R & A).
        destruct (assign_step_consistent v fuel st o n W (t_sym _ T) C NL Hov HPhi K R) as (C1 & O1 & F1). auto.
      - destruct A as (R & K & M & A).
        destruct (mut_preserves_consistency fuel st o n mu T C NL Hov HPhi R K M) as (C1 & O1 & F1). auto. }
    destruct (IH st1 (tree_frame _ _ F1 T) C1 (no_locks_frame _ _ F1 NL) O1
                 ltac:(rewrite <- (Phi_frame _ _ F1); exact HPhi) (ops_ok_frame _ _ _ F1 A')) as (Cf & Of & Ff).
    split; [exact Cf|]. split; [exact Of|eapply same_frame_trans; eassumption].
Qed.

(* one round of the closure of S under the links, never entering u *)
Definition expand (st : state) (u : node) (S : list node) : list node :=
  fold_left (fun acc y => match partners st (fst y) (snd y) with
                          | Some ps => fold_left (fun a z => if key_eqb z u || has_key z a then a else a ++ [z]) ps acc
                          | None => acc
                          end) S S.
Fixpoint closure (k : nat) (st : state) (u : node) (S : list node) : list node :=
  match k with O => S | Datatypes.S k' => closure k' st u (expand st u S) end.

Definition closedb (st : state) (u : node) (S : list node) : bool :=
  forallb (fun y => match partners st (fst y) (snd y) with
                    | Some ps => forallb (fun z => key_eqb z u || has_key z S) ps
                    | None => true
                    end) S.

Lemma closed_contains st u S p y :
  closedb st u S = true -> In p S -> reachA st (fun z => z = u) p y -> In y S.
Proof.
  intros Hc Hp R. induction R as [|y z R IH (ps & Hps & Hin) Hz]; [exact Hp|].
  unfold closedb in Hc. rewrite forallb_forall in Hc. specialize (Hc y IH). rewrite Hps in Hc.
  rewrite forallb_forall in Hc. specialize (Hc z Hin). apply orb_prop in Hc. destruct Hc as [E|E].
  - apply key_eqb_true in E. contradiction.
  - apply has_key_In. exact E.
Qed.

Fixpoint nodup_keys (l : list node) : bool :=
  match l with [] => true | x :: r => negb (has_key x r) && nodup_keys r end.
Lemma nodup_keys_sound l : nodup_keys l = true -> NoDup l.
Proof.
  induction l as [|x r IH]; cbn; [constructor|]. intros H. apply andb_prop in H. destruct H as [H1 H2].
  constructor; [|apply IH; exact H2]. intros Hin. apply has_key_In in Hin. rewrite Hin in H1. discriminate.
Qed.

Lemma closure_grows st u p : forall k S, In p S -> In p (closure k st u S).
Proof.
  induction k as [|k IH]; intros S HS; [exact HS|]. cbn [closure]. apply IH.
  unfold expand. generalize S at 1 as l. intros l. revert S HS.
  induction l as [|y l IHl]; intros acc Ha; cbn [fold_left]; [exact Ha|]. apply IHl.
  destruct (partners st (fst y) (snd y)) as [ps|]; [|exact Ha].
  revert acc Ha. induction ps as [|z ps IHp]; intros acc Ha; cbn [fold_left]; [exact Ha|].
  apply IHp. destruct (key_eqb z u || has_key z acc); [exact Ha|apply in_or_app; left; exact Ha].
Qed.

(* what [entryb] and [oentryb] ask of every table entry besides acyclicity *)
Lemma entries_shape st (P : oid -> name * list node -> bool) :
  forallb (fun o => forallb (P o) (o_info (get_obj st o))) (seq 0 (length (objs st))) = true ->
  (forall o k ps, P o (k, ps) = true -> exists acyc,
     nodup_keys ps
     && (negb (is_list_name k) || has k (o_att_i (get_obj st o)))
     && forallb (fun y => Bool.eqb (is_list_name (snd y)) (is_list_name k)
                          && Nat.ltb (fst y) (length (objs st))
                          && Nat.ltb (snd y) (length (o_vals (get_obj st (fst y))))) ps
     && acyc = true) ->
  (forall u ps, partners st (fst u) (snd u) = Some ps -> NoDup ps) /\
  (forall u ps, partners st (fst u) (snd u) = Some ps -> is_list_name (snd u) = true ->
                has (snd u) (o_att_i (get_obj st (fst u))) = true) /\
  (forall u y, edge st u y -> is_list_name (snd y) = is_list_name (snd u)) /\
  (forall u y, edge st u y -> in_range st y).
Proof.
  intros Hall HP.
  assert (forall u ps, partners st (fst u) (snd u) = Some ps ->
            NoDup ps /\ (is_list_name (snd u) = true -> has (snd u) (o_att_i (get_obj st (fst u))) = true) /\
            forall y, In y ps -> is_list_name (snd y) = is_list_name (snd u) /\ in_range st y) as Hent.
  { intros u ps Hp. destruct (HP _ _ _ (forall_entries st P Hall _ _ _ Hp)) as (acyc & H).
    rewrite !andb_true_iff in H. destruct H as (((H1 & H2) & H3) & _).
    split; [apply nodup_keys_sound; exact H1|]. split; [intros Hk; rewrite Hk in H2; exact H2|].
    intros y Hin. rewrite forallb_forall in H3. specialize (H3 y Hin).
    rewrite !andb_true_iff, !Nat.ltb_lt in H3. destruct H3 as ((Hk & Ha) & Hb).
    split; [apply Bool.eqb_prop; exact Hk|split; assumption]. }
  split; [intros u ps Hp; apply (Hent u ps Hp)|]. split; [intros u ps Hp; apply (Hent u ps Hp)|].
  split; intros u y (ps & Hp & Hin); apply (proj2 (proj2 (Hent u ps Hp)) y Hin).
Qed.

Definition entryb (st : state) (o : oid) (e : name * list (oid * name)) : bool :=
  let u := (o, fst e) in
  let ps := snd e in
  nodup_keys ps
  && (negb (is_list_name (fst e)) || has (fst e) (o_att_i (get_obj st o)))
  && forallb (fun y => Bool.eqb (is_list_name (snd y)) (is_list_name (fst e))
                       && Nat.ltb (fst y) (length (objs st))
                       && Nat.ltb (snd y) (length (o_vals (get_obj st (fst y))))) ps
  && forallb (fun p1 => forallb (fun p2 =>
         key_eqb p1 p2
         || (let S := closure (length (objs st) * 4) st u [p1] in closedb st u S && negb (has_key p2 S))) ps) ps.

Definition treeb (st : state) : bool :=
  symmetricb st
  && forallb (fun o => forallb (entryb st o) (o_info (get_obj st o))) (seq 0 (length (objs st))).

Lemma treeb_sound st : treeb st = true -> tree st.
Proof.
  intros H. unfold treeb in H. apply andb_prop in H. destruct H as [Hsym Hall].
  destruct (entries_shape st (entryb st) Hall) as (N & Hk & K & R);
    [intros o k ps H; unfold entryb in H; eexists; exact H|].
  split; try assumption; [apply symmetricb_sound; exact Hsym|].
  intros [uo un] p1 p2 (ps1 & Hp1 & Hin1) (ps2 & Hp2 & Hin2) Hne Rp. cbn [fst snd] in *.
  rewrite Hp1 in Hp2. injection Hp2 as <-.
  pose proof (forall_entries st _ Hall uo un ps1 Hp1) as He. unfold entryb in He. cbn [fst snd] in He.
  apply andb_prop in He. destruct He as [_ He]. rewrite forallb_forall in He. specialize (He p1 Hin1).
  rewrite forallb_forall in He. specialize (He p2 Hin2). apply orb_prop in He. destruct He as [E|E].
  - apply key_eqb_true in E. contradiction.
  - cbn zeta in E. apply andb_prop in E. destruct E as [Hc Hn].
    (* p2 is reachable from p1 without passing u, so it lies in the closed set grown from p1 *)
    assert (In p2 (closure (length (objs st) * 4) st (uo, un) [p1])) as Hin
      by (eapply closed_contains; [exact Hc|apply closure_grows; left; reflexivity|exact Rp]).
    apply has_key_In in Hin. apply negb_true_iff in Hn. exact (eq_true_false_abs _ Hin Hn).
Qed.

Fixpoint ops_okb (st : state) (ops : list op) : bool :=
  match ops with
  | [] => true
  | Assign o n v :: r =>
      wfb st v && kind_ok n v && Nat.ltb o (length (objs st)) && Nat.ltb n (length (o_vals (get_obj st o)))
      && ops_okb st r
  | Mut o n mu :: r =>
      Nat.ltb o (length (objs st)) && Nat.ltb n (length (o_vals (get_obj st o)))
      && is_list_name n && replayable_mut mu && ops_okb st r
  | _ :: _ => false
  end.
Lemma ops_okb_sound st ops : ops_okb st ops = true -> ops_ok st ops.
Proof.
  induction ops as [|[o n v|o n mu| | |] r IH]; cbn [ops_okb ops_ok]; try discriminate; auto;
    rewrite !andb_true_iff, !Nat.ltb_lt.
  - intros ((((W & K) & R1) & R2) & A).
    split; [apply wfb_sound; exact W|]. split; [exact K|]. split; [split; assumption|apply IH; exact A].
  - intros ((((R1 & R2) & K) & M) & A). split; [split; assumption|]. auto.
Qed.

Theorem tree_histories_converge_checked fuel ops st :
  treeb st = true -> consistentb st = true -> no_locksb st = true -> overflow st = false ->
  Nat.ltb (Phi st) fuel = true -> ops_okb st ops = true ->
  consistent (final fuel st ops) /\ overflow (final fuel st ops) = false /\ same_frame st (final fuel st ops).
Proof.
  intros T C NL Hov HPhi A. apply tree_histories_converge;
    [apply treeb_sound|apply consistentb_sound|apply no_locksb_sound| |apply Nat.ltb_lt|apply ops_okb_sound]; assumption.
Qed.

Definition oentryb (st : state) (o : oid) (e : name * list (oid * name)) : bool :=
  let u := (o, fst e) in
  let ps := snd e in
  nodup_keys ps
  && (negb (is_list_name (fst e)) || has (fst e) (o_att_i (get_obj st o)))
  && forallb (fun y => Bool.eqb (is_list_name (snd y)) (is_list_name (fst e))
                       && Nat.ltb (fst y) (length (objs st))
                       && Nat.ltb (snd y) (length (o_vals (get_obj st (fst y))))) ps
  && forallb (fun p1 => forallb (fun p2 =>
         key_eqb p1 p2 || key_eqb p1 u || key_eqb p2 u
         || (let S1 := closure (length (objs st) * 4) st u [p1] in
             let S2 := closure (length (objs st) * 4) st u [p2] in
             closedb st u S1 && closedb st u S2 && forallb (fun y => negb (has_key y S2)) S1)) ps) ps.

Definition otreeb (st : state) : bool :=
  forallb (fun o => forallb (oentryb st o) (o_info (get_obj st o))) (seq 0 (length (objs st))).

Lemma otreeb_sound st : otreeb st = true -> otree st.
Proof.
  intros Hall. unfold otreeb in Hall.
  destruct (entries_shape st (oentryb st) Hall) as (N & Hk & K & R);
    [intros o k ps H; unfold oentryb in H; eexists; exact H|].
  split; try assumption.
  intros [uo un] p1 p2 y (ps1 & Hp1 & Hin1) (ps2 & Hp2 & Hin2) Hne N1 N2 R1 R2. cbn [fst snd] in *.
  rewrite Hp1 in Hp2. injection Hp2 as <-.
  pose proof (forall_entries st _ Hall uo un ps1 Hp1) as He. unfold oentryb in He. cbn [fst snd] in He.
  apply andb_prop in He. destruct He as [_ He]. rewrite forallb_forall in He. specialize (He p1 Hin1).
  rewrite forallb_forall in He. specialize (He p2 Hin2).
  apply orb_prop in He. destruct He as [E|E].
  - apply orb_prop in E. destruct E as [E|E]; [apply orb_prop in E; destruct E as [E|E]|];
      apply key_eqb_true in E; contradiction.
  - cbn zeta in E. apply andb_prop in E. destruct E as [E Hd]. apply andb_prop in E. destruct E as [C1 C2].
    assert (In y (closure (length (objs st) * 4) st (uo, un) [p1])) as I1
      by (eapply closed_contains; [exact C1|apply closure_grows; left; reflexivity|exact R1]).
    assert (In y (closure (length (objs st) * 4) st (uo, un) [p2])) as I2
      by (eapply closed_contains; [exact C2|apply closure_grows; left; reflexivity|exact R2]).
    rewrite forallb_forall in Hd. specialize (Hd y I1). apply negb_true_iff in Hd.
    apply has_key_In in I2. exact (eq_true_false_abs _ I2 Hd).
Qed.

(* for Examples: the component of x agrees on L, decided by the consistency checker *)
Lemma component_agrees_checked st x L :
  consistentb st = true -> val_eqb (val st x) (VL L) = true -> forall y, reach st x y -> val st y = VL L.
Proof. intros C V. apply component_agrees; [apply consistentb_sound; exact C|apply val_eqb_true; exact V]. Qed.
