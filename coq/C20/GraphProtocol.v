(* C20 — the protocol inside the general-graph theorems: ANY history of `sync_trait(..., mutual=True)`
   between traits of one kind, of `sync_trait(..., remove=True)`, of assignments and of partner deaths, on
   ANY pool of fresh objects, keeps every linked pair equal after every operation (no RecursionError, no
   lock left behind).  The graph that such a history builds is arbitrary: stars, chains, trees, cycles,
   aliases, several links per trait.  Built on Spread.v (convergence of one assignment on an arbitrary
   graph).  Every kind of step re-establishes the invariant [ginv] through one of two lemmas: a step that
   writes values rewrites one link component to one value and may add links between traits that end up
   equal (ginv_revalue: assignment, link creation, and list mutation in GraphMut.v); a step that writes no
   value only takes links away (ginv_fewer: link removal, partner death). *)
From Coq Require Import ZArith List Bool Arith Lia.
From TV Require Import Common.Harness C20.ListSem C20.Model C20.Termination C20.Spread.
Import ListNotations.

Lemma assoc_set_same {A} k (a : A) l : assoc k (assoc_set k a l) = Some a.
Proof.
  induction l as [|[k' a'] l IH]; cbn; [rewrite Nat.eqb_refl; reflexivity|].
  destruct (Nat.eqb k k') eqn:E; cbn; [rewrite Nat.eqb_refl; reflexivity|rewrite E; exact IH].
Qed.
Lemma assoc_set_other {A} k k2 (a : A) l : k2 <> k -> assoc k2 (assoc_set k a l) = assoc k2 l.
Proof.
  intros Hne. induction l as [|[k' a'] l IH]; cbn.
  - destruct (Nat.eqb k2 k) eqn:E; [apply Nat.eqb_eq in E; contradiction|reflexivity].
  - destruct (Nat.eqb k k') eqn:E; cbn.
    + apply Nat.eqb_eq in E. subst k'. destruct (Nat.eqb k2 k) eqn:E2; [apply Nat.eqb_eq in E2; contradiction|reflexivity].
    + destruct (Nat.eqb k2 k'); [reflexivity|exact IH].
Qed.

Lemma assoc_set_keys {A} k (a : A) l : NoDup (map fst l) -> NoDup (map fst (assoc_set k a l)).
Proof.
  induction l as [|[k' a'] l IH]; cbn; intros Hnd; [constructor; [intros []|constructor]|].
  inversion Hnd as [|? ? Hnotin Hnd']; subst.
  destruct (Nat.eqb k k') eqn:E; cbn.
  - apply Nat.eqb_eq in E. subst. constructor; assumption.
  - constructor; [|apply IH; exact Hnd'].
    intros Hin. apply Hnotin. clear - Hin E. induction l as [|[k2 a2] l IHl]; cbn in *.
    + destruct Hin as [Hin|[]]. subst. rewrite Nat.eqb_refl in E. discriminate.
    + destruct (Nat.eqb k k2) eqn:E2; cbn in Hin.
      * apply Nat.eqb_eq in E2. subst. destruct Hin as [Hin|Hin]; [subst; rewrite Nat.eqb_refl in E; discriminate|right; exact Hin].
      * destruct Hin as [Hin|Hin]; [left; exact Hin|right; apply IHl; exact Hin].
Qed.
Lemma assoc_del_same {A} k (l : list (nat * A)) : NoDup (map fst l) -> assoc k (assoc_del k l) = None.
Proof.
  induction l as [|[k' a'] l IH]; cbn; intros Hnd; [reflexivity|].
  inversion Hnd as [|? ? Hnotin Hnd']; subst.
  destruct (Nat.eqb k k') eqn:E.
  - apply Nat.eqb_eq in E. subst k'. clear - Hnotin. induction l as [|[k2 a2] l IHl]; cbn in *; [reflexivity|].
    destruct (Nat.eqb k k2) eqn:E2; [apply Nat.eqb_eq in E2; subst; exfalso; apply Hnotin; left; reflexivity|].
    apply IHl. intros H. apply Hnotin. right. exact H.
  - cbn. rewrite E. apply IH. exact Hnd'.
Qed.
Lemma assoc_del_other {A} k k2 (l : list (nat * A)) : k2 <> k -> assoc k2 (assoc_del k l) = assoc k2 l.
Proof.
  intros Hne. induction l as [|[k' a'] l IH]; cbn; [reflexivity|].
  destruct (Nat.eqb k k') eqn:E; cbn.
  - apply Nat.eqb_eq in E. subst k'. destruct (Nat.eqb k2 k) eqn:E2; [apply Nat.eqb_eq in E2; contradiction|reflexivity].
  - destruct (Nat.eqb k2 k'); [reflexivity|exact IH].
Qed.
Lemma assoc_del_keys {A} k (l : list (nat * A)) : NoDup (map fst l) -> NoDup (map fst (assoc_del k l)).
Proof.
  induction l as [|[k' a'] l IH]; cbn; intros Hnd; [constructor|].
  inversion Hnd as [|? ? Hnotin Hnd']; subst. destruct (Nat.eqb k k'); [exact Hnd'|]. cbn.
  constructor; [|apply IH; exact Hnd'].
  intros Hin. apply Hnotin. clear - Hin. induction l as [|[k2 a2] l IHl]; cbn in *; [contradiction|].
  destruct (Nat.eqb k k2); cbn in Hin; [right; exact Hin|destruct Hin as [H|H]; [left; exact H|right; apply IHl; exact H]].
Qed.
Lemma assoc_notin {B} k : forall (l : list (nat * B)), ~ In k (map fst l) -> assoc k l = None.
Proof.
  induction l as [|[k' a] l IH]; cbn; auto. intros H. destruct (Nat.eqb_spec k k') as [->|N].
  - exfalso. apply H. left. reflexivity.
  - apply IH. intros Hin. apply H. right. exact Hin.
Qed.
Lemma has_del1_other n n' l : n' <> n -> has n' (del1 n l) = has n' l.
Proof.
  intros Hne. unfold has, del1. induction l as [|x l IH]; cbn; [reflexivity|].
  destruct (Nat.eqb n x) eqn:E; cbn.
  - apply Nat.eqb_eq in E. subst x. destruct (Nat.eqb n' n) eqn:E2; [apply Nat.eqb_eq in E2; contradiction|exact IH].
  - rewrite IH. reflexivity.
Qed.
Lemma length_del1 n l : (length (del1 n l) <= length l)%nat.
Proof. unfold del1. induction l as [|x l IH]; cbn; [lia|]. destruct (negb (Nat.eqb n x)); cbn; lia. Qed.
Lemma length_add1 n l : (length (add1 n l) <= S (length l))%nat.
Proof. unfold add1. destruct (has n l); [lia|]. rewrite app_length. cbn. lia. Qed.

(* an update of object o that rewrites only the entry of n leaves every other partner list alone *)
Lemma partners_upd_other st o n f a b :
  (forall ob k, k <> n -> assoc k (o_info (f ob)) = assoc k (o_info ob)) -> (a, b) <> (o, n) ->
  partners (upd_obj st o f) a b = partners st a b.
Proof.
  intros Hf Hne. unfold partners. destruct (Nat.eq_dec o a) as [<-|Hoa]; [|rewrite get_obj_upd_other by exact Hoa; reflexivity].
  apply (get_obj_upd_keep (fun ob => assoc b (o_info ob))). intros ob. apply Hf. intros ->. apply Hne. reflexivity.
Qed.

Definition dic_of (st : state) (o : oid) (n : name) : list (oid * name) :=
  match assoc n (o_info (get_obj st o)) with Some d => d | None => [] end.

Definition link_tables (st : state) (o : oid) (n : name) (p : oid) (m : name) : state :=
  let dic := dic_of st o n in
  upd_obj st o (fun ob =>
    mkO (o_alive ob) (o_vals ob) (assoc_set n (dic ++ [(p, m)]) (o_info ob)) (o_locked ob)
        (if is_nil_keys dic then add1 n (o_att_s ob) else o_att_s ob)
        (if is_nil_keys dic && (is_list_name n && is_list_name m) then add1 n (o_att_i ob) else o_att_i ob)).

Lemma sync1_linked fuel st o n p m :
  has_key (p, m) (dic_of st o n) = true -> sync1 fuel st o n p m = (st, true).
Proof. intros H. unfold sync1. fold (dic_of st o n). rewrite H. reflexivity. Qed.

Lemma sync1_new fuel st o n p m :
  has_key (p, m) (dic_of st o n) = false ->
  sync1 fuel st o n p m = assign fuel (link_tables st o n p m) p m (get_val (link_tables st o n p m) o n).
Proof. intros H. unfold sync1. fold (dic_of st o n). rewrite H. reflexivity. Qed.

Section LinkTables.
  Variables (st : state) (o : oid) (n : name) (p : oid) (m : name).
  Hypothesis Ho : (o < length (objs st))%nat.
  Let st1 := link_tables st o n p m.

  Lemma lt_partners_same : partners st1 o n = Some (dic_of st o n ++ [(p, m)]).
  Proof.
    unfold st1, link_tables, partners. rewrite get_obj_upd_same by exact Ho. cbn [o_info]. apply assoc_set_same.
  Qed.
  Lemma lt_partners_other a b : (a, b) <> (o, n) -> partners st1 a b = partners st a b.
  Proof. apply (partners_upd_other st o n). intros ob k Hk. apply assoc_set_other, Hk. Qed.
  Lemma lt_val x : val st1 x = val st x.
  Proof. unfold val, st1, link_tables. apply get_val_upd_keep. reflexivity. Qed.
  Lemma lt_locked x : locked st1 x = locked st x.
  Proof. unfold locked, lockedb, st1, link_tables. rewrite (get_obj_upd_keep o_locked); reflexivity. Qed.
  Lemma lt_overflow : overflow st1 = overflow st.
  Proof. reflexivity. Qed.
  Lemma lt_in_range x : in_range st x <-> in_range st1 x.
  Proof. unfold in_range, st1, link_tables. rewrite upd_obj_length, (get_obj_upd_keep o_vals); reflexivity. Qed.

  Lemma lt_edge x y : edge st1 x y <-> (edge st x y \/ (x = (o, n) /\ y = (p, m))).
  Proof.
    destruct (node_eq_dec x (o, n)) as [->|Hx].
    - unfold edge. cbn [fst snd]. rewrite lt_partners_same. unfold dic_of. fold (partners st o n). split.
      + intros (ps & [= <-] & Hin). apply in_app_or in Hin. destruct Hin as [Hin|[<-|[]]]; [left|right; auto].
        destruct (partners st o n) as [d|]; [exists d; auto|contradiction].
      + intros H. eexists. split; [reflexivity|]. apply in_or_app.
        destruct H as [(ps & -> & Hin)|[_ ->]]; [left; exact Hin|right; left; reflexivity].
    - unfold edge. destruct x as [a b]. cbn [fst snd]. rewrite lt_partners_other by exact Hx. split.
      + intros H. left. exact H.
      + intros [H|[E _]]; [exact H|contradiction].
  Qed.

  Lemma lt_att_s_mono a b : has b (o_att_s (get_obj st a)) = true -> has b (o_att_s (get_obj st1 a)) = true.
  Proof.
    intros H. unfold st1, link_tables. destruct (Nat.eq_dec o a) as [<-|Hoa].
    - rewrite get_obj_upd_same by exact Ho. cbn [o_att_s]. destruct (is_nil_keys (dic_of st o n)); [|exact H].
      unfold add1. destruct (has n (o_att_s (get_obj st o))); [exact H|]. unfold has. rewrite existsb_app. fold (has b (o_att_s (get_obj st o))). rewrite H. reflexivity.
    - rewrite get_obj_upd_other by exact Hoa. exact H.
  Qed.
  Lemma lt_att_s_new : dic_of st o n = [] -> has n (o_att_s (get_obj st1 o)) = true.
  Proof.
    intros Hd. unfold st1, link_tables. rewrite get_obj_upd_same by exact Ho. cbn [o_att_s]. rewrite Hd. cbn [is_nil_keys].
    unfold add1. destruct (has n (o_att_s (get_obj st o))) eqn:E; [exact E|]. unfold has. rewrite existsb_app. cbn.
    rewrite Nat.eqb_refl. apply orb_true_r.
  Qed.
End LinkTables.

Record gwf (st : state) : Prop := mkGwf {
  g_attached : forall x ps, partners st (fst x) (snd x) = Some ps ->
                            has (snd x) (o_att_s (get_obj st (fst x))) = true;
  g_edge : forall x y, edge st x y ->
             is_list_name (snd y) = is_list_name (snd x) /\ is_any_name (snd y) = is_any_name (snd x) /\
             in_range st y /\ in_range st x
}.

Lemma kind_ok_flags a b v :
  is_list_name a = is_list_name b -> is_any_name a = is_any_name b -> kind_ok a v = kind_ok b v.
Proof. intros H1 H2. unfold kind_ok. rewrite H1, H2. reflexivity. Qed.

Lemma gwf_wf st v : gwf st -> wf st v.
Proof.
  intros [G1 G2]. split; [exact G1|].
  intros x y He Hk. destruct (G2 x y He) as (F1 & F2 & Ry & _). split; [|exact Ry].
  rewrite (kind_ok_flags _ _ v F1 F2). exact Hk.
Qed.

Lemma gwf_frame s t : same_frame s t -> gwf s -> gwf t.
Proof.
  intros F [G1 G2]. pose proof (frame_tables _ _ F) as T. split.
  - intros x ps Hp. rewrite <- (tb_att_s _ _ T). apply (G1 x ps). rewrite (tb_partners _ _ T). exact Hp.
  - intros x y He. destruct (G2 x y (edge_tables _ _ _ _ (tables_sym _ _ T) He)) as (A1 & A2 & A3 & A4).
    repeat split; try assumption; apply (tb_range _ _ T); assumption.
Qed.

Record ginv (st : state) : Prop := mkGinv {
  gi_wf : gwf st;
  gi_sym : symmetric st;
  gi_cons : consistent st;
  gi_nolocks : no_locks st;
  gi_ov : overflow st = false;
  gi_typed : forall x, in_range st x -> kind_ok (snd x) (val st x) = true
}.

Lemma reach_flags st x y : gwf st -> reach st x y ->
  is_list_name (snd y) = is_list_name (snd x) /\ is_any_name (snd y) = is_any_name (snd x).
Proof.
  intros G R. induction R as [|y z R [I1 I2] He]; [split; reflexivity|].
  destruct (g_edge _ G y z He) as (F1 & F2 & _). split; congruence.
Qed.

Lemma in_range_frame_iff s t x : same_frame s t -> (in_range s x <-> in_range t x).
Proof. intros F. apply (tb_range _ _ (frame_tables _ _ F)). Qed.
Lemma edge_frame_iff s t x y : same_frame s t -> (edge s x y <-> edge t x y).
Proof. intros F. split; apply edge_frame; [exact F|apply same_frame_sym; exact F]. Qed.

(* The shape of every step that changes values: the component of x in s is rewritten to v, links may
   appear between traits that end up equal (X), and everything else reads as in s. *)
Lemma ginv_revalue s t x v (X : node -> node -> Prop) :
  ginv s -> gwf t -> no_locks t -> overflow t = false ->
  (forall z, in_range t z -> in_range s z) ->
  (forall a b, edge t a b <-> edge s a b \/ X a b) -> (forall a b, X a b -> X b a /\ val t a = val t b) ->
  kind_ok (snd x) v = true ->
  (forall y, reach s x y -> val t y = v) -> (forall y, val t y <> val s y -> reach s x y) ->
  ginv t.
Proof.
  intros [G Sy C NL Hov Ty] Gt NLt Ot Hr He HX Hk Hin Hch. split; try assumption.
  - intros a b E. apply He in E. apply He. destruct E as [E|E]; [left; apply Sy, E|right; apply HX, E].
  - intros a b E. apply He in E. destruct E as [E|E]; [exact (consistent_revalue s t x v Sy C Hin Hch a b E)|apply HX, E].
  - intros z Rz. destruct (val_dec (val t z) (val s z)) as [E|E]; [rewrite E; apply Ty, Hr, Rz|].
    pose proof (Hch z E) as R. rewrite (Hin z R). destruct (reach_flags s _ _ G R) as [K1 K2].
    rewrite (kind_ok_flags _ _ v K1 K2). exact Hk.
Qed.

Lemma ginv_revalue_frame s t x v :
  ginv s -> same_frame s t -> overflow t = false -> kind_ok (snd x) v = true ->
  (forall y, reach s x y -> val t y = v) -> (forall y, val t y <> val s y -> reach s x y) ->
  ginv t.
Proof.
  intros I F Ot Hk Hin Hch. pose proof I as [G _ _ NL _ _].
  apply (ginv_revalue s t x v (fun _ _ => False) I); try assumption.
  - eapply gwf_frame; eassumption.
  - eapply no_locks_frame; eassumption.
  - intros z. apply in_range_frame_iff, F.
  - intros a b. rewrite <- (edge_frame_iff _ _ a b F). split; [left; assumption|intros [H|[]]; exact H].
  - intros a b [].
Qed.

(* ... and of every step that only takes links away *)
Lemma ginv_fewer s t :
  ginv s ->
  (forall x ps, partners t (fst x) (snd x) = Some ps -> has (snd x) (o_att_s (get_obj t (fst x))) = true) ->
  (forall a b, edge t a b -> edge s a b /\ edge t b a /\ in_range t a /\ in_range t b) ->
  (forall z, in_range t z -> in_range s z /\ val t z = val s z) ->
  no_locks t -> overflow t = false -> ginv t.
Proof.
  intros [G Sy C NL Hov Ty] Ha He Hr NLt Ot. split; try assumption.
  - split; [exact Ha|]. intros a b E. destruct (He a b E) as (E' & _ & Ra & Rb).
    destruct (g_edge _ G a b E') as (A1 & A2 & _). auto.
  - intros a b E. apply He, E.
  - intros a b E. destruct (He a b E) as (E' & _ & Ra & Rb).
    rewrite (proj2 (Hr a Ra)), (proj2 (Hr b Rb)). apply C, E'.
  - intros z Rz. destruct (Hr z Rz) as [Rs ->]. apply Ty, Rs.
Qed.

Lemma ginv_clear_notes st : ginv st -> ginv (clear_notes st).
Proof.
  intros [G Sy C NL Hov Ty]. split; [|exact Sy|exact C|exact NL|exact Hov|exact Ty].
  split; [exact (g_attached _ G)|exact (g_edge _ G)].
Qed.

Lemma assign_ok f st o n v : kind_ok n v = true -> snd (assign f st o n v) = true.
Proof.
  intros Hk. destruct f as [|f]; [reflexivity|]. cbn [assign]. rewrite Hk. cbn [negb].
  destruct (val_eqb (get_val st o n) v); [reflexivity|].
  destruct (has n _); [|reflexivity]. destruct (partners _ o n); reflexivity.
Qed.

Lemma assign_same_value f st o n v :
  kind_ok n v = true -> val st (o, n) = v ->
  assign (S f) st o n v = (set_val st o n v, true).
Proof.
  intros Hk Hv. cbn [assign]. rewrite Hk. cbn [negb]. unfold val in Hv. cbn [fst snd] in Hv.
  rewrite Hv, val_eqb_refl. reflexivity.
Qed.
Definition att_count (ob : ostate) : nat := length (o_att_s ob ++ o_att_i ob).
Definition A (st : state) : nat := list_sum (map att_count (objs st)).

Lemma Phi_le_A st : (Phi st <= A st)%nat.
Proof. apply Phi_le_attached. Qed.

Lemma list_sum_update_le (mu : ostate -> nat) (F : ostate -> ostate) k :
  (forall ob, mu (F ob) <= mu ob + k)%nat ->
  forall l o, (list_sum (map mu (update o F l)) <= list_sum (map mu l) + k)%nat.
Proof.
  intros HF. induction l as [|x l IH]; intros [|o]; simpl; try lia.
  - specialize (HF x). lia.
  - specialize (IH o). lia.
Qed.

Lemma A_link st o n p m : (A (link_tables st o n p m) <= A st + 2)%nat.
Proof.
  unfold A, link_tables, upd_obj. cbn [objs]. apply list_sum_update_le.
  intros ob. unfold att_count. cbn [o_att_s o_att_i]. rewrite !app_length.
  pose proof (length_add1 n (o_att_s ob)). pose proof (length_add1 n (o_att_i ob)).
  destruct (is_nil_keys (dic_of st o n)); cbn [andb]; [destruct (is_list_name n && is_list_name m)|]; unfold name in *; lia.
Qed.

Lemma A_frame s t : same_frame s t -> A s = A t.
Proof.
  intros F. pose proof F as [L _]. unfold A.
  assert (forall o, att_count (nth o (objs s) dead_obj) = att_count (nth o (objs t) dead_obj)) as H.
  { intros o. unfold att_count. fold (get_obj s o) (get_obj t o). rewrite (att_s_frame _ _ o F), (att_i_frame _ _ o F). reflexivity. }
  clear F. revert H L. generalize (objs s) (objs t). induction l as [|x l IH]; intros [|y l'] H L; cbn in *; try lia.
  rewrite (H 0%nat). f_equal. apply IH; [|lia]. intros o. exact (H (S o)).
Qed.

Definition keys_nodup (st : state) : Prop := forall o, NoDup (map fst (o_info (get_obj st o))).

Lemma keys_nodup_frame s t : same_frame s t -> keys_nodup s -> keys_nodup t.
Proof. intros [_ F] K o. destruct (F o) as (_ & H & _). rewrite <- H. apply K. Qed.

Lemma keys_link_tables st o n p m : keys_nodup st -> keys_nodup (link_tables st o n p m).
Proof.
  intros K q. unfold link_tables.
  destruct (Nat.eq_dec o q) as [<-|Hne]; [|rewrite get_obj_upd_other by exact Hne; apply K].
  destruct (Nat.lt_ge_cases o (length (objs st))) as [Hlt|Hge].
  - rewrite get_obj_upd_same by exact Hlt. cbn [o_info]. apply assoc_set_keys. apply K.
  - unfold upd_obj, get_obj. cbn [objs]. rewrite update_oob by exact Hge. apply K.
Qed.

Definition link_ok (st : state) (x y : node) : Prop :=
  in_range st x /\ in_range st y /\ is_list_name (snd y) = is_list_name (snd x) /\
  is_any_name (snd y) = is_any_name (snd x) /\ x <> y.

Lemma has_key_edge st o n y : has_key y (dic_of st o n) = true <-> edge st (o, n) y.
Proof.
  rewrite has_key_In. unfold edge, dic_of, partners. cbn [fst snd]. destruct (assoc n (o_info (get_obj st o))) as [d|].
  - split; [intros H; exists d; auto|intros (ps & [= <-] & H); exact H].
  - split; [intros []|intros (ps & H & _); discriminate].
Qed.

Lemma gwf_link st o n p m :
  gwf st -> link_ok st (o, n) (p, m) -> gwf (link_tables st o n p m).
Proof.
  intros [G1 G2] (Rx & Ry & F1 & F2 & Hne). assert (o < length (objs st))%nat as Ho by apply Rx. split.
  - intros x ps Hp. destruct (node_eq_dec x (o, n)) as [->|Hx].
    + cbn [fst snd]. destruct (dic_of st o n) as [|d0 dr] eqn:Hd; [apply lt_att_s_new; assumption|].
      apply lt_att_s_mono; [exact Ho|]. apply (G1 (o, n) (d0 :: dr)). cbn [fst snd]. unfold dic_of in Hd. unfold partners.
      destruct (assoc n (o_info (get_obj st o))); [congruence|discriminate].
    + destruct x as [a b]. cbn [fst snd] in *. rewrite lt_partners_other in Hp by assumption.
      apply lt_att_s_mono; [exact Ho|]. apply (G1 (a, b) ps). exact Hp.
  - intros x y He. apply lt_edge in He; [|exact Ho]. destruct He as [He|[-> ->]].
    + destruct (G2 x y He) as (A1 & A2 & A3 & A4). repeat split; try assumption; apply lt_in_range; assumption.
    + cbn [fst snd] in *. repeat split; try assumption; apply lt_in_range; assumption.
Qed.

(* the partner already holds the value: this direction only writes the tables *)
Lemma sync1_same_value f st o n p m :
  has_key (p, m) (dic_of st o n) = false -> val st (p, m) = val st (o, n) -> kind_ok m (val st (o, n)) = true ->
  sync1 (S f) st o n p m = (set_val (link_tables st o n p m) p m (val st (o, n)), true).
Proof.
  intros Hkey Hv Hk. rewrite sync1_new by exact Hkey.
  change (get_val (link_tables st o n p m) o n) with (val (link_tables st o n p m) (o, n)). rewrite lt_val.
  apply assign_same_value; [exact Hk|rewrite lt_val; exact Hv].
Qed.

Lemma first_direction fuel st o n p m :
  ginv st -> link_ok st (o, n) (p, m) -> has_key (p, m) (dic_of st o n) = false -> (A st + 2 < fuel)%nat ->
  let v := val st (o, n) in
  let s1 := fst (sync1 fuel st o n p m) in
  snd (sync1 fuel st o n p m) = true /\ overflow s1 = false /\ same_frame (link_tables st o n p m) s1 /\
  (forall y, reach st (p, m) y -> val s1 y = v) /\
  (forall y, val s1 y <> val st y -> reach st (p, m) y).
Proof.
  intros [G Sy C NL Hov Ty] Hok Hkey Hfuel v s1.
  pose proof Hok as (Rx & Ry & F1 & F2 & Hne). assert (o < length (objs st))%nat as Ho by apply Rx.
  assert (kind_ok m v = true) as Hk.
  { cbn [snd] in F1, F2. rewrite (kind_ok_flags m n v F1 F2). apply (Ty (o, n)). exact Rx. }
  destruct fuel as [|f]; [lia|].
  destruct (val_dec (val st (p, m)) v) as [E|E].
  - (* the partner already holds the value: nothing changes *)
    subst s1. rewrite (sync1_same_value f st o n p m Hkey E Hk). cbn [fst snd]. fold v.
    set (st1 := link_tables st o n p m).
    assert (forall y, val (set_val st1 p m v) y = val st y) as Vs
      by (intros y; rewrite val_set_same_value by (unfold st1; rewrite lt_val; exact E); apply lt_val).
    split; [reflexivity|]. split; [exact Hov|]. split; [apply set_val_frame|]. split.
    + intros y R. rewrite Vs, (consistent_reach st _ _ C R). exact E.
    + intros y Hch. exfalso. apply Hch, Vs.
  - subst s1. rewrite sync1_new by exact Hkey.
    set (st1 := link_tables st o n p m) in *.
    assert (get_val st1 o n = v) as -> by (apply (lt_val st o n p m (o, n))).
    split; [apply assign_ok; exact Hk|].
    (* the new link is not yet on any path from (p, m): its component is the old one, and agrees *)
    assert (forall y, reach st1 (p, m) y -> reach st (p, m) y) as Hback.
    { intros y R. induction R as [|y z R IH He]; [constructor|].
      apply lt_edge in He; [|exact Ho]. destruct He as [He|[-> _]]; [eapply reach_step; eassumption|].
      exfalso. apply E. symmetry. apply (consistent_reach st _ _ C IH). }
    destruct (assign_converges_from v (S f) st1 p m) as (O' & F' & Hall & Hch).
    + apply gwf_wf, gwf_link; [exact G|exact Hok].
    + intros y z R He. unfold st1. rewrite !lt_val. apply C.
      apply lt_edge in He; [|exact Ho]. destruct He as [He|[-> _]]; [exact He|].
      exfalso. apply E. symmetry. apply (consistent_reach st _ _ C (Hback _ R)).
    + intros x. unfold st1. rewrite lt_locked. apply NL.
    + exact Hov.
    + pose proof (Phi_le_A st1). pose proof (A_link st o n p m). fold st1 in H0. lia.
    + exact Hk.
    + apply lt_in_range; assumption.
    + split; [exact O'|]. split; [exact F'|]. split.
      * intros y R. apply Hall. clear - R Ho. induction R as [|y z R IH He]; [constructor|].
        eapply reach_step; [exact IH|]. apply lt_edge; [exact Ho|]. left. exact He.
      * intros y Ey. apply Hback, Hch. unfold st1. rewrite lt_val. exact Ey.
Qed.

Theorem sync_step_inv fuel st o n p m :
  ginv st -> link_ok st (o, n) (p, m) -> (A st + 4 < fuel)%nat ->
  let st' := fst (step fuel st (Sync o n p m true)) in
  ginv st' /\ (A st' <= A st + 4)%nat /\ (forall x, in_range st x <-> in_range st' x) /\
  (keys_nodup st -> keys_nodup st').
Proof.
  intros Hinv Hok Hfuel st'.
  set (st0 := clear_notes st).
  pose proof (ginv_clear_notes st Hinv) as Hinv0. fold st0 in Hinv0.
  assert (A st0 = A st) as HA0 by reflexivity.
  assert (link_ok st0 (o, n) (p, m)) as Hok0 by exact Hok.
  pose proof Hinv0 as [G Sy C NL Hov Ty].
  pose proof Hok0 as (Rx & Ry & F1 & F2 & Hne).
  assert (o < length (objs st0))%nat as Ho by apply Rx.
  assert (p < length (objs st0))%nat as Hp by apply Ry.
  subst st'. unfold step. fold st0.
  destruct (has_key (p, m) (dic_of st0 o n)) eqn:Hkey.
  { (* already linked: both directions are no-ops *)
    rewrite (sync1_linked fuel st0 o n p m Hkey). cbn [negb].
    rewrite (sync1_linked fuel st0 p m o n) by (apply has_key_edge, Sy, has_key_edge, Hkey). cbn [fst].
    split; [exact Hinv0|]. split; [lia|]. split; [intros x; reflexivity|auto]. }
  destruct (first_direction fuel st0 o n p m Hinv0 Hok0 Hkey ltac:(lia)) as (Hok1 & O1 & Fr1 & Hb & Hc).
  set (v := val st0 (o, n)) in *.
  destruct (sync1 fuel st0 o n p m) as [s1 ok] eqn:Hs1. cbn [fst snd] in *. subst ok. cbn [negb].
  set (st1 := link_tables st0 o n p m) in *.
  (* after the first direction both ends hold v, so the second only writes the tables *)
  assert (val s1 (p, m) = v) as Vp by (apply Hb; constructor).
  assert (val s1 (o, n) = v) as Vo.
  { destruct (val_dec (val s1 (o, n)) (val st0 (o, n))) as [E|E]; [exact E|apply Hb, Hc, E]. }
  assert (forall a b, edge s1 a b <-> (edge st0 a b \/ (a = (o, n) /\ b = (p, m)))) as E1.
  { intros a b. rewrite <- (edge_frame_iff _ _ a b Fr1). apply lt_edge. exact Ho. }
  assert (p < length (objs s1))%nat as Hp1.
  { destruct Fr1 as [L _]. rewrite <- L. unfold st1, link_tables. rewrite upd_obj_length. exact Hp. }
  assert (has_key (o, n) (dic_of s1 p m) = false) as Hkey1.
  { destruct (has_key (o, n) (dic_of s1 p m)) eqn:E; [|reflexivity].
    apply has_key_edge, E1 in E. destruct E as [E|[E _]]; [|congruence].
    apply Sy, has_key_edge in E. congruence. }
  assert (kind_ok n v = true) as Hkn by (apply (Ty (o, n)); exact Rx).
  destruct fuel as [|f]; [lia|].
  rewrite (sync1_same_value f s1 p m o n Hkey1) by (rewrite Vp, ?Vo; auto). cbn [fst]. rewrite Vp.
  set (s1' := link_tables s1 p m o n). set (s2 := set_val s1' o n v).
  assert (same_frame s1' s2) as Fr2 by apply set_val_frame.
  assert (forall y, val s2 y = val s1 y) as V2.
  { intros y. unfold s2. rewrite val_set_same_value by (unfold s1'; rewrite lt_val; exact Vo). apply lt_val. }
  assert (forall x, in_range st0 x <-> in_range s1 x) as Hr1.
  { intros x. rewrite (lt_in_range st0 o n p m x). apply in_range_frame_iff. exact Fr1. }
  assert (forall x, in_range st0 x <-> in_range s2 x) as Hrng.
  { intros x. rewrite (Hr1 x), (lt_in_range s1 p m o n x). apply in_range_frame_iff. exact Fr2. }
  split; [|split; [|split; [exact Hrng|]]].
  - apply (ginv_revalue st0 s2 (p, m) v (fun a b => (a = (o, n) /\ b = (p, m)) \/ (a = (p, m) /\ b = (o, n))) Hinv0).
    + eapply gwf_frame; [exact Fr2|]. apply gwf_link; [eapply gwf_frame; [exact Fr1|apply gwf_link; assumption]|].
      split; [apply Hr1; exact Ry|]. split; [apply Hr1; exact Rx|]. cbn [snd] in *. auto.
    + intros x. rewrite <- (locked_frame _ _ x Fr2). unfold s1'. rewrite lt_locked.
      rewrite <- (locked_frame _ _ x Fr1). unfold st1. rewrite lt_locked. apply NL.
    + exact O1.
    + intros z. apply Hrng.
    + intros a b. rewrite <- (edge_frame_iff _ _ a b Fr2). unfold s1'. rewrite (lt_edge s1 p m o n Hp1), E1. tauto.
    + intros a b [[-> ->]|[-> ->]]; rewrite !V2, Vo, Vp; auto.
    + cbn [snd] in *. rewrite (kind_ok_flags m n v F1 F2). exact Hkn.
    + intros y R. rewrite V2. apply Hb, R.
    + intros y E. apply Hc. rewrite <- V2. exact E.
  - rewrite <- (A_frame _ _ Fr2). pose proof (A_link s1 p m o n). fold s1' in H.
    rewrite <- (A_frame _ _ Fr1) in H. pose proof (A_link st0 o n p m). fold st1 in H0. lia.
  - intros K. apply (keys_nodup_frame _ _ Fr2), keys_link_tables, (keys_nodup_frame _ _ Fr1), keys_link_tables, K.
Qed.

Theorem assign_step_inv fuel st o n v :
  ginv st -> in_range st (o, n) -> kind_ok n v = true -> (A st < fuel)%nat ->
  let st' := fst (step fuel st (Assign o n v)) in
  ginv st' /\ same_frame st st' /\
  (forall y, reach st (o, n) y -> val st' y = v) /\ (forall y, val st' y <> val st y -> reach st (o, n) y).
Proof.
  intros Hinv Rx Hk Hfuel st'. pose proof Hinv as [G Sy C NL Hov Ty].
  destruct (assign_step_converges v fuel st o n (gwf_wf st v G) C NL Hov ltac:(pose proof (Phi_le_A st); lia) Hk Rx)
    as (O' & F' & Hin & Hch). fold st' in O', F', Hin, Hch.
  split; [|split; [exact F'|split; assumption]].
  exact (ginv_revalue_frame st st' (o, n) v Hinv F' O' Hk Hin Hch).
Qed.

Section Unlink.
  Variables (st : state) (o : oid) (n : name) (p : oid) (m : name).
  Hypothesis Ho : (o < length (objs st))%nat.
  Hypothesis K : keys_nodup st.
  Let st' := unsync1 st o n p m.

  Lemma unsync1_cases :
    st' = st /\ ~ edge st (o, n) (p, m)
    \/ (exists dic, partners st o n = Some dic /\ In (p, m) dic /\
          filter (fun k => negb (key_eqb (p, m) k)) dic = [] /\
          st' = upd_obj st o (fun ob => mkO (o_alive ob) (o_vals ob) (assoc_del n (o_info ob)) (o_locked ob)
                  (del1 n (o_att_s ob)) (if is_list_name n && is_list_name m then del1 n (o_att_i ob) else o_att_i ob)))
    \/ (exists dic d0 dr, partners st o n = Some dic /\ In (p, m) dic /\
          filter (fun k => negb (key_eqb (p, m) k)) dic = d0 :: dr /\
          st' = upd_obj st o (fun ob => mkO (o_alive ob) (o_vals ob) (assoc_set n (d0 :: dr) (o_info ob)) (o_locked ob)
                  (o_att_s ob) (o_att_i ob))).
  Proof.
    unfold st', unsync1. fold (partners st o n).
    destruct (partners st o n) as [dic|] eqn:Hp.
    - destruct (has_key (p, m) dic) eqn:Hk.
      + assert (In (p, m) dic) as Hin.
        { apply has_key_In. exact Hk. }
        destruct (filter (fun k => negb (key_eqb (p, m) k)) dic) as [|d0 dr] eqn:Hf.
        * right. left. exists dic. auto.
        * right. right. exists dic, d0, dr. auto.
      + left. split; [reflexivity|]. intros (ps & Hp' & Hin). cbn [fst snd] in Hp'. rewrite Hp in Hp'. injection Hp' as <-.
        assert (has_key (p, m) dic = true) as Hk' by (apply has_key_In; exact Hin).
        congruence.
    - left. split; [reflexivity|]. intros (ps & Hp' & _). cbn [fst snd] in Hp'. congruence.
  Qed.

  Lemma ul_val x : val st' x = val st x.
  Proof.
    destruct unsync1_cases as [[-> _]|[(dic & _ & _ & _ & ->)|(dic & d0 & dr & _ & _ & _ & ->)]];
      [reflexivity|unfold val; apply get_val_upd_keep; reflexivity|unfold val; apply get_val_upd_keep; reflexivity].
  Qed.
  Lemma ul_frame_small :
    length (objs st') = length (objs st) /\
    (forall a, length (o_vals (get_obj st' a)) = length (o_vals (get_obj st a)) /\
               o_locked (get_obj st' a) = o_locked (get_obj st a)) /\ overflow st' = overflow st.
  Proof.
    destruct unsync1_cases as [[-> _]|[(dic & _ & _ & _ & ->)|(dic & d0 & dr & _ & _ & _ & ->)]];
      [repeat split| |]; (split; [apply upd_obj_length|split; [|reflexivity]]); intros a;
      (destruct (Nat.eq_dec o a) as [<-|Hne]; [rewrite get_obj_upd_same by exact Ho; split; reflexivity|rewrite get_obj_upd_other by exact Hne; split; reflexivity]).
  Qed.
  Lemma ul_in_range x : in_range st x <-> in_range st' x.
  Proof. destruct ul_frame_small as (L & F & _). unfold in_range. rewrite L. destruct (F (fst x)) as [-> _]. reflexivity. Qed.
  Lemma ul_locked x : locked st' x = locked st x.
  Proof. destruct ul_frame_small as (_ & F & _). unfold locked, lockedb. destruct (F (fst x)) as [_ ->]. reflexivity. Qed.

  Lemma ul_partners_other a b : (a, b) <> (o, n) -> partners st' a b = partners st a b.
  Proof.
    intros Hne. destruct unsync1_cases as [[-> _]|[(dic & _ & _ & _ & ->)|(dic & d0 & dr & _ & _ & _ & ->)]];
      [reflexivity| |]; apply (partners_upd_other st o n); try exact Hne; intros ob k Hk; cbn [o_info];
      [apply assoc_del_other|apply assoc_set_other]; exact Hk.
  Qed.

  Lemma ul_edge a b : edge st' a b <-> (edge st a b /\ ~ (a = (o, n) /\ b = (p, m))).
  Proof.
    destruct (node_eq_dec a (o, n)) as [->|Ha].
    2:{ unfold edge. destruct a as [a1 a2]. cbn [fst snd]. rewrite ul_partners_other by exact Ha.
        split; [intros He; split; [exact He|intros [E _]; contradiction]|intros [He _]; exact He]. }
    destruct unsync1_cases as [[-> Hno]|[(dic & Hp & Hin & Hf & ->)|(dic & d0 & dr & Hp & Hin & Hf & ->)]].
    - split; [intros He; split; [exact He|intros [_ ->]; contradiction]|intros [He _]; exact He].
    - (* the whole entry disappears: every partner was (p, m) *)
      split.
      + intros (ps & Hp' & _). cbn [fst snd] in Hp'. unfold partners in Hp'. rewrite get_obj_upd_same in Hp' by exact Ho.
        cbn [o_info] in Hp'. rewrite assoc_del_same in Hp' by apply K. discriminate.
      + intros [(ps & Hp' & Hb) Hne]. cbn [fst snd] in Hp'. rewrite Hp in Hp'. injection Hp' as <-.
        exfalso. apply Hne. split; [reflexivity|].
        destruct (key_eqb (p, m) b) eqn:E; [apply key_eqb_true in E; auto|].
        assert (In b (filter (fun k => negb (key_eqb (p, m) k)) dic)) as Hc by (apply filter_In; split; [exact Hb|rewrite E; reflexivity]).
        rewrite Hf in Hc. contradiction.
    - assert (partners (upd_obj st o (fun ob => mkO (o_alive ob) (o_vals ob) (assoc_set n (d0 :: dr) (o_info ob)) (o_locked ob)
                (o_att_s ob) (o_att_i ob))) o n = Some (d0 :: dr)) as Hnew.
      { unfold partners. rewrite get_obj_upd_same by exact Ho. cbn [o_info]. apply assoc_set_same. }
      unfold edge. cbn [fst snd]. rewrite Hnew, Hp. rewrite <- Hf. split.
      + intros (ps & [= <-] & Hb). apply filter_In in Hb. destruct Hb as [Hb Hk].
        split; [exists dic; auto|]. intros [_ ->]. rewrite (proj2 (key_eqb_true _ _) eq_refl) in Hk. discriminate.
      + intros [(ps & [= <-] & Hb) Hne]. eexists. split; [reflexivity|]. apply filter_In. split; [exact Hb|].
        destruct (key_eqb (p, m) b) eqn:E; [|reflexivity]. apply key_eqb_true in E. subst b. exfalso. apply Hne. auto.
  Qed.

  Lemma ul_keys : keys_nodup st'.
  Proof.
    intros q. destruct unsync1_cases as [[-> _]|[(dic & _ & _ & _ & ->)|(dic & d0 & dr & _ & _ & _ & ->)]]; [apply K| |];
      (destruct (Nat.eq_dec o q) as [<-|Hne]; [rewrite get_obj_upd_same by exact Ho; cbn [o_info]|rewrite get_obj_upd_other by exact Hne; apply K]).
    - apply assoc_del_keys. apply K.
    - apply assoc_set_keys. apply K.
  Qed.

  Lemma ul_attached :
    (forall x ps, partners st (fst x) (snd x) = Some ps -> has (snd x) (o_att_s (get_obj st (fst x))) = true) ->
    forall x ps, partners st' (fst x) (snd x) = Some ps -> has (snd x) (o_att_s (get_obj st' (fst x))) = true.
  Proof.
    intros G1 [a b] ps Hps. cbn [fst snd] in *.
    destruct unsync1_cases as [[E _]|[(dic & Hp & Hin & Hf & E)|(dic & d0 & dr & Hp & Hin & Hf & E)]].
    - rewrite E in *. apply (G1 (a, b) ps). exact Hps.
    - (* the entry of n is gone, and with it the handler of n alone *)
      destruct (node_eq_dec (a, b) (o, n)) as [[= -> ->]|Hne].
      + exfalso. rewrite E in Hps. unfold partners in Hps. rewrite get_obj_upd_same in Hps by exact Ho.
        cbn [o_info] in Hps. rewrite assoc_del_same in Hps by apply K. discriminate.
      + rewrite ul_partners_other in Hps by exact Hne. pose proof (G1 (a, b) ps Hps) as Ha. cbn [fst snd] in Ha. rewrite E.
        destruct (Nat.eq_dec o a) as [<-|Hoa]; [|rewrite get_obj_upd_other by exact Hoa; exact Ha].
        rewrite get_obj_upd_same by exact Ho. cbn [o_att_s]. rewrite has_del1_other; [exact Ha|]. intros ->. apply Hne. reflexivity.
    - (* handlers untouched *)
      assert (has b (o_att_s (get_obj st' a)) = has b (o_att_s (get_obj st a))) as ->
        by (rewrite E; rewrite (get_obj_upd_keep o_att_s); reflexivity).
      destruct (node_eq_dec (a, b) (o, n)) as [[= -> ->]|Hne]; [exact (G1 (o, n) dic Hp)|].
      rewrite ul_partners_other in Hps by exact Hne. exact (G1 (a, b) ps Hps).
  Qed.

  Lemma ul_A : (A st' <= A st)%nat.
  Proof.
    destruct unsync1_cases as [[-> _]|[(dic & _ & _ & _ & ->)|(dic & d0 & dr & _ & _ & _ & ->)]]; [lia| |].
    - unfold A, upd_obj. cbn [objs]. eapply Nat.le_trans; [apply (list_sum_update_le att_count _ 0)|lia].
      intros ob. unfold att_count. cbn [o_att_s o_att_i]. rewrite !app_length.
      pose proof (length_del1 n (o_att_s ob)). pose proof (length_del1 n (o_att_i ob)).
      destruct (is_list_name n && is_list_name m); unfold name in *; lia.
    - unfold A, upd_obj. cbn [objs]. eapply Nat.le_trans; [apply (list_sum_update_le att_count _ 0)|lia].
      intros ob. unfold att_count. cbn [o_att_s o_att_i]. lia.
  Qed.
End Unlink.

Theorem unsync_step_inv fuel st o n p m :
  ginv st -> keys_nodup st -> in_range st (o, n) -> in_range st (p, m) ->
  let st' := fst (step fuel st (Unsync o n p m true)) in
  ginv st' /\ keys_nodup st' /\ (A st' <= A st)%nat /\ (forall x, in_range st x <-> in_range st' x) /\
  (* exactly the two directions of that link go, and no value changes *)
  (forall a b, edge st' a b <->
     (edge st a b /\ ~ (a = (o, n) /\ b = (p, m)) /\ ~ (a = (p, m) /\ b = (o, n)))) /\
  (forall x, val st' x = val st x).
Proof.
  intros Hinv K Rx Ry st'.
  set (st0 := clear_notes st).
  pose proof (ginv_clear_notes st Hinv) as Hinv0. fold st0 in Hinv0. pose proof Hinv0 as [G Sy C NL Hov Ty].
  assert (keys_nodup st0) as K0 by exact K.
  assert (o < length (objs st0))%nat as Ho by apply Rx.
  set (st1 := unsync1 st0 o n p m).
  assert (p < length (objs st1))%nat as Hp1.
  { destruct (ul_frame_small st0 o n p m Ho) as (L & _). fold st1 in L. rewrite L. apply Ry. }
  assert (keys_nodup st1) as K1 by (apply ul_keys; assumption).
  set (st2 := unsync1 st1 p m o n).
  assert (st' = st2) as -> by reflexivity.
  assert (forall a b, edge st2 a b <->
            (edge st0 a b /\ ~ (a = (o, n) /\ b = (p, m)) /\ ~ (a = (p, m) /\ b = (o, n)))) as E2.
  { intros a b. unfold st2. rewrite (ul_edge st1 p m o n Hp1 K1). unfold st1. rewrite (ul_edge st0 o n p m Ho K0). tauto. }
  assert (forall x, val st2 x = val st0 x) as V2.
  { intros x. unfold st2. rewrite (ul_val st1 p m o n). unfold st1. apply (ul_val st0 o n p m). }
  assert (forall x, in_range st0 x <-> in_range st2 x) as R2.
  { intros x. rewrite (ul_in_range st0 o n p m Ho x). fold st1. apply (ul_in_range st1 p m o n Hp1). }
  split; [|split; [apply ul_keys; assumption|split; [|split; [exact R2|split; [exact E2|exact V2]]]]].
  - apply (ginv_fewer st0 st2 Hinv0).
    + apply (ul_attached st1 p m o n Hp1 K1), (ul_attached st0 o n p m Ho K0), (g_attached _ G).
    + intros a b He. apply E2 in He. destruct He as (He & N1 & N2). destruct (g_edge _ G a b He) as (_ & _ & Rb & Ra).
      split; [exact He|]. split; [apply E2; split; [apply Sy, He|split; intros [-> ->]; [apply N2|apply N1]; auto]|].
      split; apply R2; assumption.
    + intros z Rz. split; [apply R2, Rz|apply V2].
    + intros x. unfold st2. rewrite (ul_locked st1 p m o n Hp1). unfold st1. rewrite (ul_locked st0 o n p m Ho). apply NL.
    + destruct (ul_frame_small st1 p m o n Hp1) as (_ & _ & O2). fold st2 in O2. rewrite O2.
      destruct (ul_frame_small st0 o n p m Ho) as (_ & _ & O1). fold st1 in O1. rewrite O1. exact Hov.
  - pose proof (ul_A st1 p m o n Hp1). pose proof (ul_A st0 o n p m Ho). fold st1 in H0. fold st2 in H.
    assert (A st0 = A st) by reflexivity. lia.
Qed.

(* STOP WHEN UNSYNCHRONISED, on every graph: after remove=True a later assignment to one end changes
   only what is still reachable from it in the graph without that link (both directions gone); in
   particular the former partner keeps its value unless another path still joins the two. *)
Theorem removed_link_inert_on_graphs fuel st o n p m v :
  ginv st -> keys_nodup st -> in_range st (o, n) -> in_range st (p, m) ->
  kind_ok n v = true -> (A st < fuel)%nat ->
  let st1 := fst (step fuel st (Unsync o n p m true)) in
  let st2 := fst (step fuel st1 (Assign o n v)) in
  (forall a b, edge st1 a b <->
     (edge st a b /\ ~ (a = (o, n) /\ b = (p, m)) /\ ~ (a = (p, m) /\ b = (o, n)))) /\
  ginv st2 /\
  (forall y, reach st1 (o, n) y -> val st2 y = v) /\
  (forall y, ~ reach st1 (o, n) y -> val st2 y = val st y).
Proof.
  intros Hinv K Rx Ry Hk Hfuel st1 st2.
  destruct (unsync_step_inv fuel st o n p m Hinv K Rx Ry) as (I1 & K1 & A1 & R1 & E1 & V1). fold st1 in I1, K1, A1, R1, E1, V1.
  destruct (assign_step_inv fuel st1 o n v I1 (proj1 (R1 _) Rx) Hk ltac:(lia)) as (I2 & _ & Hin & Hch). fold st2 in I2, Hin, Hch.
  split; [exact E1|]. split; [exact I2|]. split; [exact Hin|].
  intros y NR. rewrite <- V1. destruct (val_dec (val st2 y) (val st1 y)) as [E|E]; [exact E|]. exfalso. apply NR, Hch, E.
Qed.

Definition cl (d : oid) (ob : ostate) : ostate :=
  mkO (o_alive ob) (o_vals ob) (drop_dead d (o_info ob)) (o_locked ob) (o_att_s ob) (o_att_i ob).
Definition live (d : oid) (ps : list (oid * name)) : list (oid * name) :=
  filter (fun q : oid * name => negb (Nat.eqb (fst q) d)) ps.

Lemma nth_update_dead : forall l d j,
  nth j (update d (fun _ => dead_obj) l) dead_obj = if Nat.eqb j d then dead_obj else nth j l dead_obj.
Proof.
  induction l as [|a l IH]; intros [|d] [|j]; cbn; auto.
  destruct (Nat.eqb j d); reflexivity.
Qed.

Lemma get_obj_collect st d o :
  get_obj (collect st d) o = if Nat.eqb o d then dead_obj else cl d (get_obj st o).
Proof.
  unfold get_obj, collect. cbn [objs].
  change (nth o (map (cl d) (update d (fun _ => dead_obj) (objs st))) (cl d dead_obj) =
          if Nat.eqb o d then dead_obj else cl d (nth o (objs st) dead_obj)).
  rewrite map_nth, nth_update_dead. destruct (Nat.eqb o d); reflexivity.
Qed.

Lemma drop_dead_cons d k ps r :
  drop_dead d ((k, ps) :: r) =
  match live d ps with
  | [] => drop_dead d r
  | _ :: _ => (k, live d ps) :: drop_dead d r
  end.
Proof.
  unfold drop_dead. cbn [map filter fst snd].
  change (filter (fun k0 : nat * name => negb (Nat.eqb (fst k0) d)) ps) with (live d ps).
  destruct (live d ps); reflexivity.
Qed.

Lemma assoc_drop_dead d n : forall info, NoDup (map fst info) ->
  assoc n (drop_dead d info) =
  match assoc n info with
  | Some ps => match live d ps with [] => None | _ :: _ => Some (live d ps) end
  | None => None
  end.
Proof.
  induction info as [|[k ps] r IH]; intros H; [reflexivity|].
  cbn [map fst] in H. inversion H as [|? ? Hk Hr]; subst. rewrite drop_dead_cons. cbn [assoc].
  destruct (Nat.eqb_spec n k) as [->|N].
  - destruct (live d ps) eqn:E.
    + rewrite (IH Hr). rewrite (assoc_notin k r Hk). reflexivity.
    + cbn [assoc]. rewrite Nat.eqb_refl. reflexivity.
  - destruct (live d ps) eqn:E.
    + apply IH. exact Hr.
    + cbn [assoc]. apply Nat.eqb_neq in N. rewrite N. apply IH. exact Hr.
Qed.

Lemma nodup_filter_keys {B} (g : nat * B -> bool) : forall l, NoDup (map fst l) -> NoDup (map fst (filter g l)).
Proof.
  induction l as [|a l IH]; cbn; intros H; [constructor|]. inversion H as [|? ? H2 H3]; subst.
  destruct (g a); cbn; [constructor; [|auto]|auto].
  intros Hin. apply H2. apply in_map_iff in Hin. destruct Hin as (x & E & Hx). apply filter_In in Hx.
  apply in_map_iff. exists x. tauto.
Qed.

Lemma drop_dead_keys d info : NoDup (map fst info) -> NoDup (map fst (drop_dead d info)).
Proof.
  intros H. unfold drop_dead. apply nodup_filter_keys. rewrite map_map. cbn [fst]. exact H.
Qed.

Lemma A_dead : forall l d,
  (list_sum (map att_count (update d (fun _ => dead_obj) l)) <= list_sum (map att_count l))%nat.
Proof.
  induction l as [|a l IH]; intros [|d]; cbn [update map]; try lia.
  - change (att_count dead_obj + list_sum (map att_count l) <= att_count a + list_sum (map att_count l))%nat.
    change (att_count dead_obj) with 0%nat. lia.
  - change (att_count a + list_sum (map att_count (update d (fun _ => dead_obj) l)) <= att_count a + list_sum (map att_count l))%nat.
    specialize (IH d). lia.
Qed.

Section Collect.
  Variables (st : state) (d : oid).
  Hypothesis K : keys_nodup st.
  Let st' := collect st d.

  Lemma cl_partners o n :
    partners st' o n =
    if Nat.eqb o d then None
    else match partners st o n with
         | Some ps => match live d ps with [] => None | _ :: _ => Some (live d ps) end
         | None => None
         end.
  Proof.
    unfold partners, st'. rewrite get_obj_collect. destruct (Nat.eqb o d); [reflexivity|].
    cbn [cl o_info]. apply assoc_drop_dead. apply K.
  Qed.

  Lemma cl_edge a b : edge st' a b <-> (edge st a b /\ fst a <> d /\ fst b <> d).
  Proof.
    unfold edge. split.
    - intros (ps & Hp & Hin). rewrite cl_partners in Hp. destruct (Nat.eqb_spec (fst a) d) as [E|N]; [discriminate|].
      destruct (partners st (fst a) (snd a)) as [ps0|]; [|discriminate].
      assert (ps = live d ps0) as -> by (destruct (live d ps0); [discriminate|congruence]).
      apply filter_In in Hin. destruct Hin as [Hin Hb]. split; [exists ps0; auto|]. split; [exact N|].
      intros E. rewrite E, Nat.eqb_refl in Hb. discriminate.
    - intros ((ps & Hp & Hin) & Na & Nb). exists (live d ps). rewrite cl_partners.
      apply Nat.eqb_neq in Na. rewrite Na, Hp.
      assert (In b (live d ps)) as Hl.
      { apply filter_In. split; [exact Hin|]. apply Nat.eqb_neq in Nb. rewrite Nb. reflexivity. }
      split; [|exact Hl]. destruct (live d ps); [destruct Hl|reflexivity].
  Qed.

  Lemma cl_val x : fst x <> d -> val st' x = val st x.
  Proof.
    intros N. unfold val, get_val, st'. rewrite get_obj_collect. apply Nat.eqb_neq in N. rewrite N. reflexivity.
  Qed.

  Lemma cl_length : length (objs st') = length (objs st).
  Proof. unfold st', collect. cbn [objs]. rewrite map_length. apply update_length. Qed.

  Lemma cl_in_range x : in_range st' x <-> (in_range st x /\ fst x <> d).
  Proof.
    unfold in_range. rewrite cl_length. unfold st'. rewrite get_obj_collect.
    destruct (Nat.eqb_spec (fst x) d) as [E|N]; cbn [cl o_vals dead_obj length].
    - split; [intros [_ H]; lia|intros [_ H]; contradiction].
    - tauto.
  Qed.

  Lemma cl_locked x : locked st' x = if Nat.eqb (fst x) d then false else locked st x.
  Proof.
    unfold locked, lockedb, st'. rewrite get_obj_collect. destruct (Nat.eqb (fst x) d); reflexivity.
  Qed.

  Lemma cl_A : (A st' <= A st)%nat.
  Proof.
    unfold A, st', collect. cbn [objs]. rewrite map_map.
    rewrite (map_ext (fun ob => att_count (cl d ob)) att_count) by reflexivity.
    apply A_dead.
  Qed.

  Lemma cl_keys : keys_nodup st'.
  Proof.
    intros o. unfold st'. rewrite get_obj_collect. destruct (Nat.eqb o d); [constructor|].
    cbn [cl o_info]. apply drop_dead_keys. apply K.
  Qed.

  Lemma cl_ginv : ginv st -> ginv st'.
  Proof.
    intros I. pose proof I as [G Sy C NL Hov Ty]. apply (ginv_fewer st st' I).
    - intros x ps Hp. rewrite cl_partners in Hp. unfold st'. rewrite get_obj_collect.
      destruct (Nat.eqb (fst x) d); [discriminate|].
      destruct (partners st (fst x) (snd x)) as [ps0|] eqn:E; [|discriminate].
      cbn [cl o_att_s]. exact (g_attached _ G x ps0 E).
    - intros a b He. apply cl_edge in He. destruct He as (He & Na & Nb). destruct (g_edge _ G a b He) as (_ & _ & Rb & Ra).
      split; [exact He|]. split; [apply cl_edge; split; [apply Sy, He|tauto]|]. split; apply cl_in_range; split; assumption.
    - intros z Rz. apply cl_in_range in Rz. destruct Rz as [Rz N]. split; [exact Rz|apply cl_val, N].
    - intros x. rewrite cl_locked. destruct (Nat.eqb (fst x) d); [reflexivity|apply NL].
    - exact Hov.
  Qed.
End Collect.

Theorem collect_step_inv fuel st d :
  ginv st -> keys_nodup st ->
  let st' := fst (step fuel st (Collect d)) in
  ginv st' /\ keys_nodup st' /\ (A st' <= A st)%nat /\
  (forall a b, edge st' a b <-> (edge st a b /\ fst a <> d /\ fst b <> d)) /\
  (forall x, in_range st' x <-> (in_range st x /\ fst x <> d)) /\
  (forall x, fst x <> d -> val st' x = val st x).
Proof.
  intros Hinv K st'. set (st0 := clear_notes st).
  assert (keys_nodup st0) as K0 by exact K.
  assert (st' = collect st0 d) as -> by reflexivity.
  split; [apply cl_ginv; [exact K0|apply ginv_clear_notes; exact Hinv]|].
  split; [apply cl_keys; exact K0|]. split; [exact (cl_A st0 d)|].
  split; [exact (cl_edge st0 d K0)|]. split; [exact (cl_in_range st0 d)|exact (cl_val st0 d)].
Qed.

(* histories of link creation, link removal, assignments and partner deaths.
   Validity is asked of every operation AT THE TIME IT RUNS (an object that has died is out of range, so
   nothing may name it afterwards). *)
Definition op_ok (st : state) (o : op) : Prop :=
  match o with
  | Assign o n v => in_range st (o, n) /\ kind_ok n v = true
  | Sync o n p m true => link_ok st (o, n) (p, m)
  | Unsync o n p m true => in_range st (o, n) /\ in_range st (p, m)
  | Collect d => True
  | _ => False
  end.
Fixpoint run_ok (fuel : nat) (st : state) (ops : list op) : Prop :=
  match ops with
  | [] => True
  | o :: r => op_ok st o /\ run_ok fuel (fst (step fuel st o)) r
  end.

Theorem graph_step_inv fuel st o :
  ginv st -> keys_nodup st -> (A st + 4 < fuel)%nat -> op_ok st o ->
  let st' := fst (step fuel st o) in
  ginv st' /\ keys_nodup st' /\ (A st' <= A st + 4)%nat /\
  ((forall d, o <> Collect d) -> forall x, in_range st x <-> in_range st' x).
Proof.
  intros Hinv K Hfuel Hok. destruct o as [o n v| |o n p m [|]|o n p m [|]|d]; cbn [op_ok] in Hok; try contradiction; cbv zeta.
  - destruct Hok as (Rx & Hk). destruct (assign_step_inv fuel st o n v Hinv Rx Hk ltac:(lia)) as (I1 & F1 & _).
    split; [exact I1|]. split; [eapply keys_nodup_frame; eassumption|]. split; [rewrite <- (A_frame _ _ F1); lia|].
    intros _ x. apply in_range_frame_iff, F1.
  - destruct (sync_step_inv fuel st o n p m Hinv Hok Hfuel) as (I1 & A1 & R1 & K1). auto.
  - destruct Hok as (Rx & Ry). destruct (unsync_step_inv fuel st o n p m Hinv K Rx Ry) as (I1 & K1 & A1 & R1 & _).
    split; [exact I1|]. split; [exact K1|]. split; [lia|intros _; exact R1].
  - destruct (collect_step_inv fuel st d Hinv K) as (I1 & K1 & A1 & _).
    split; [exact I1|]. split; [exact K1|]. split; [lia|]. intros Hnc. exfalso. exact (Hnc d eq_refl).
Qed.

Theorem graph_histories fuel : forall ops st,
  ginv st -> keys_nodup st -> (A st + 4 * length ops < fuel)%nat -> run_ok fuel st ops ->
  ginv (final fuel st ops).
Proof.
  induction ops as [|o r IH]; intros st Hinv K Hfuel Hops; cbn [final]; [exact Hinv|].
  destruct Hops as (Hok & Hr). cbn [length] in Hfuel.
  destruct (graph_step_inv fuel st o Hinv K ltac:(lia) Hok) as (I1 & K1 & A1 & _).
  apply IH; [exact I1|exact K1|lia|exact Hr].
Qed.

Definition typed_pool (vs : list (list Model.val)) : Prop :=
  forall o n, (o < length vs)%nat -> (n < length (nth o vs []))%nat -> kind_ok n (nth n (nth o vs []) (VS 0)) = true.

Lemma get_obj_fresh vs o : (o < length vs)%nat -> get_obj (init_state vs) o = fresh (nth o vs []).
Proof.
  intros Ho. unfold get_obj, init_state. cbn [objs].
  rewrite (nth_indep _ dead_obj (fresh []) ltac:(rewrite map_length; exact Ho)).
  apply (map_nth fresh vs [] o).
Qed.

Lemma partners_fresh vs o n : partners (init_state vs) o n = None.
Proof.
  unfold partners. destruct (Nat.lt_ge_cases o (length vs)) as [Ho|Ho].
  - rewrite get_obj_fresh by exact Ho. reflexivity.
  - rewrite get_obj_oob; [reflexivity|]. unfold init_state. cbn [objs]. rewrite map_length. exact Ho.
Qed.

Lemma ginv_fresh vs : typed_pool vs -> ginv (init_state vs) /\ A (init_state vs) = 0%nat.
Proof.
  intros Ht.
  assert (forall x y, ~ edge (init_state vs) x y) as Hno.
  { intros x y (ps & Hp & _). rewrite partners_fresh in Hp. discriminate. }
  split.
  - split.
    + split; [intros x ps Hp; rewrite partners_fresh in Hp; discriminate|intros x y He; exfalso; eapply Hno; exact He].
    + intros x y He. exfalso. eapply Hno. exact He.
    + intros x y He. exfalso. eapply Hno. exact He.
    + intros [o n]. unfold locked, lockedb. cbn [fst snd].
      destruct (Nat.lt_ge_cases o (length vs)) as [Ho|Ho].
      * rewrite get_obj_fresh by exact Ho. reflexivity.
      * rewrite get_obj_oob; [reflexivity|]. unfold init_state. cbn [objs]. rewrite map_length. exact Ho.
    + reflexivity.
    + intros [o n] [R1 R2]. cbn [fst snd] in *. unfold init_state in R1. cbn [objs] in R1. rewrite map_length in R1.
      unfold val, get_val. cbn [fst snd]. rewrite get_obj_fresh in * by exact R1. cbn [o_vals fresh] in *.
      apply Ht; assumption.
  - unfold A, init_state. cbn [objs]. clear. induction vs as [|x l IH]; [reflexivity|]. simpl. exact IH.
Qed.

Lemma keys_fresh vs : keys_nodup (init_state vs).
Proof.
  intros o. destruct (Nat.lt_ge_cases o (length vs)) as [Ho|Ho].
  - rewrite get_obj_fresh by exact Ho. constructor.
  - unfold get_obj. rewrite nth_overflow; [constructor|]. unfold init_state. cbn [objs]. rewrite map_length. exact Ho.
Qed.

Theorem fresh_graph_histories fuel vs ops :
  typed_pool vs -> (4 * length ops < fuel)%nat -> run_ok fuel (init_state vs) ops ->
  let st' := final fuel (init_state vs) ops in
  consistent st' /\ symmetric st' /\ no_locks st' /\ overflow st' = false.
Proof.
  intros Ht Hfuel Hops st'. destruct (ginv_fresh vs Ht) as [I0 A0].
  destruct (graph_histories fuel ops (init_state vs) I0 (keys_fresh vs) ltac:(lia) Hops) as [_ Sy C NL Hov _].
  repeat split; assumption.
Qed.

(* histories whose operations are checked against the first state.
   No death: every operation keeps which traits exist, so validity at the start is validity when it runs. *)
Fixpoint gops_ok (st : state) (ops : list op) : Prop :=
  match ops with
  | [] => True
  | Assign o n v :: r => in_range st (o, n) /\ kind_ok n v = true /\ gops_ok st r
  | Sync o n p m true :: r => link_ok st (o, n) (p, m) /\ gops_ok st r
  | _ :: _ => False
  end.

Fixpoint gops_ok2 (st : state) (ops : list op) : Prop :=
  match ops with
  | [] => True
  | Assign o n v :: r => in_range st (o, n) /\ kind_ok n v = true /\ gops_ok2 st r
  | Sync o n p m true :: r => link_ok st (o, n) (p, m) /\ gops_ok2 st r
  | Unsync o n p m true :: r => in_range st (o, n) /\ in_range st (p, m) /\ gops_ok2 st r
  | _ :: _ => False
  end.

Lemma gops_ok_ok2 st ops : gops_ok st ops -> gops_ok2 st ops.
Proof. induction ops as [|[o n v| |o n p m [|]| |] r IH]; cbn; tauto. Qed.

Lemma link_ok_range s t x y : (forall z, in_range s z <-> in_range t z) -> link_ok s x y -> link_ok t x y.
Proof. intros H (A1 & A2 & A3 & A4 & A5). repeat split; try assumption; apply H; assumption. Qed.

Lemma gops_ok2_range s t ops : (forall z, in_range s z <-> in_range t z) -> gops_ok2 s ops -> gops_ok2 t ops.
Proof.
  intros H. induction ops as [|[o n v| |o n p m [|]|o n p m [|]|] r IH]; cbn; auto.
  - intros (A1 & A2 & A3). split; [apply H; exact A1|]. split; [exact A2|apply IH; exact A3].
  - intros (A1 & A2). split; [eapply link_ok_range; eassumption|apply IH; exact A2].
  - intros (A1 & A2 & A3). split; [apply H; exact A1|]. split; [apply H; exact A2|apply IH; exact A3].
Qed.

Lemma gops_ok2_run_ok fuel : forall ops st,
  ginv st -> keys_nodup st -> (A st + 4 * length ops < fuel)%nat -> gops_ok2 st ops -> run_ok fuel st ops.
Proof.
  induction ops as [|o r IH]; intros st Hinv K Hfuel Hops; [exact I|]. cbn [length] in Hfuel.
  assert (op_ok st o /\ gops_ok2 st r /\ forall d, o <> Collect d) as (Hok & Hr & Hnc).
  { destruct o as [o n v| |o n p m [|]|o n p m [|]|]; cbn [gops_ok2] in Hops; try contradiction; cbn [op_ok];
      (split; [tauto|split; [tauto|intros d; discriminate]]). }
  destruct (graph_step_inv fuel st o Hinv K ltac:(lia) Hok) as (I1 & K1 & A1 & R1).
  split; [exact Hok|]. apply IH; [exact I1|exact K1|lia|]. eapply gops_ok2_range; [apply R1; exact Hnc|exact Hr].
Qed.

Theorem fresh_link_unlink_assign_histories fuel vs ops :
  typed_pool vs -> (4 * length ops < fuel)%nat -> gops_ok2 (init_state vs) ops ->
  let st' := final fuel (init_state vs) ops in
  consistent st' /\ symmetric st' /\ no_locks st' /\ overflow st' = false.
Proof.
  intros Ht Hfuel Hops. apply fresh_graph_histories; [exact Ht|exact Hfuel|].
  destruct (ginv_fresh vs Ht) as [I0 A0]. apply gops_ok2_run_ok; [exact I0|apply keys_fresh|lia|exact Hops].
Qed.

Theorem fresh_link_assign_histories fuel vs ops :
  typed_pool vs -> (4 * length ops < fuel)%nat -> gops_ok (init_state vs) ops ->
  let st' := final fuel (init_state vs) ops in
  consistent st' /\ symmetric st' /\ no_locks st' /\ overflow st' = false.
Proof.
  intros Ht Hfuel Hops. apply fresh_link_unlink_assign_histories; [exact Ht|exact Hfuel|apply gops_ok_ok2; exact Hops].
Qed.

Definition typed_poolb (vs : list (list Model.val)) : bool :=
  forallb (fun o => forallb (fun n => kind_ok n (nth n (nth o vs []) (VS 0))) (seq 0 (length (nth o vs []))))
          (seq 0 (length vs)).
Lemma typed_poolb_sound vs : typed_poolb vs = true -> typed_pool vs.
Proof.
  intros H o n Ho Hn. unfold typed_poolb in H. rewrite forallb_forall in H.
  specialize (H o ltac:(apply in_seq; lia)). rewrite forallb_forall in H. apply H. apply in_seq. lia.
Qed.

Definition in_rangeb (st : state) (x : node) : bool :=
  Nat.ltb (fst x) (length (objs st)) && Nat.ltb (snd x) (length (o_vals (get_obj st (fst x)))).
Lemma in_rangeb_sound st x : in_rangeb st x = true -> in_range st x.
Proof. unfold in_rangeb, in_range. rewrite andb_true_iff, !Nat.ltb_lt. auto. Qed.

Definition link_okb (st : state) (x y : node) : bool :=
  in_rangeb st x && in_rangeb st y && Bool.eqb (is_list_name (snd y)) (is_list_name (snd x))
  && Bool.eqb (is_any_name (snd y)) (is_any_name (snd x)) && negb (key_eqb x y).
Lemma link_okb_sound st x y : link_okb st x y = true -> link_ok st x y.
Proof.
  unfold link_okb. rewrite !andb_true_iff. intros ((((H1 & H2) & H3) & H4) & H5).
  split; [apply in_rangeb_sound; exact H1|]. split; [apply in_rangeb_sound; exact H2|].
  split; [apply Bool.eqb_prop; exact H3|]. split; [apply Bool.eqb_prop; exact H4|].
  intros ->. rewrite (proj2 (key_eqb_true _ _) eq_refl) in H5. discriminate.
Qed.

Fixpoint gops_okb (st : state) (ops : list op) : bool :=
  match ops with
  | [] => true
  | Assign o n v :: r => in_rangeb st (o, n) && kind_ok n v && gops_okb st r
  | Sync o n p m true :: r => link_okb st (o, n) (p, m) && gops_okb st r
  | _ :: _ => false
  end.
Lemma gops_okb_sound st ops : gops_okb st ops = true -> gops_ok st ops.
Proof.
  induction ops as [|[o n v| |o n p m [|]| |] r IH]; cbn; try discriminate; auto; rewrite !andb_true_iff.
  - intros ((H1 & H2) & H3). auto using in_rangeb_sound.
  - intros (H1 & H2). auto using link_okb_sound.
Qed.

Fixpoint gops_ok2b (st : state) (ops : list op) : bool :=
  match ops with
  | [] => true
  | Assign o n v :: r => in_rangeb st (o, n) && kind_ok n v && gops_ok2b st r
  | Sync o n p m true :: r => link_okb st (o, n) (p, m) && gops_ok2b st r
  | Unsync o n p m true :: r => in_rangeb st (o, n) && in_rangeb st (p, m) && gops_ok2b st r
  | _ :: _ => false
  end.
Lemma gops_ok2b_sound st ops : gops_ok2b st ops = true -> gops_ok2 st ops.
Proof.
  induction ops as [|[o n v| |o n p m [|]|o n p m [|]|] r IH]; cbn; try discriminate; auto; rewrite !andb_true_iff.
  - intros ((H1 & H2) & H3). auto using in_rangeb_sound.
  - intros (H1 & H2). auto using link_okb_sound.
  - intros ((H1 & H2) & H3). auto using in_rangeb_sound.
Qed.

Definition op_okb (st : state) (o : op) : bool :=
  match o with
  | Assign o n v => in_rangeb st (o, n) && kind_ok n v
  | Sync o n p m true => link_okb st (o, n) (p, m)
  | Unsync o n p m true => in_rangeb st (o, n) && in_rangeb st (p, m)
  | Collect d => true
  | _ => false
  end.
Fixpoint run_okb (fuel : nat) (st : state) (ops : list op) : bool :=
  match ops with
  | [] => true
  | o :: r => op_okb st o && run_okb fuel (fst (step fuel st o)) r
  end.
Lemma op_okb_sound st o : op_okb st o = true -> op_ok st o.
Proof.
  destruct o as [o n v| |o n p m [|]|o n p m [|]|d]; cbn; try discriminate; auto; rewrite ?andb_true_iff.
  - intros (H1 & H2). auto using in_rangeb_sound.
  - apply link_okb_sound.
  - intros (H1 & H2). auto using in_rangeb_sound.
Qed.
Lemma run_okb_sound fuel : forall ops st, run_okb fuel st ops = true -> run_ok fuel st ops.
Proof.
  induction ops as [|o r IH]; intros st H; [exact I|]. cbn [run_okb] in H. apply andb_prop in H. destruct H as [H1 H2].
  split; [apply op_okb_sound; exact H1|apply IH; exact H2].
Qed.
