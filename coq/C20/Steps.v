(* C20 — step lemmas of the two-object protocol (used by Proofs.v).
   Objects 0 and 1, any link (0,n) -> / <-> (1,m) between traits of the same kind (alias or not), any values, any history of assignments and
   list mutations on all eight traits, link removal, re-linking, collection of object 1.
   A trait that is no end of the link is covered by Unlinked.v.  On an end, the handlers are opened by
   Unlinked.assign_spreads / forward_spreads with the names n, m kept as variables, and the law follows from
   Unlinked.law_spread (ends_post).  For link creation / removal (Proofs.v) the table update of sync_trait is
   computed on the tables of the shape ([sync_tables], [unsync_tables]) and the law is Unlinked.law_sync /
   law_inert.  Propagation needs recursion depth 2 (fuel S (S F)). *)
From Coq Require Import ZArith List Bool Arith Lia.
From TV Require Import Common.Harness C20.ListSem C20.ListProofs C20.Model C20.Law C20.Termination C20.Unlinked.
Import ListNotations.
Open Scope Z_scope.

Definition tv (s0 s1 : Z) (l0 l1 : list Z) : list val := [VS s0; VS s1; VL l0; VL l1].
Definition typed (vs : list val) : Prop := exists s0 s1 l0 l1, vs = tv s0 s1 l0 l1.
Definition link_ok (n m : name) : Prop := (n < 4)%nat /\ (m < 4)%nat /\ is_list_name n = is_list_name m.

(* ---------- the four shapes of the two-object pool ---------- *)
Definition att_i_of (n m : name) : list name := if is_list_name n && is_list_name m then [n] else [].

Inductive mode :=
| MFresh                                  (* no link *)
| MMutual (n m : name)                    (* (0,n) <-> (1,m) *)
| MOneway (n m : name)                    (* (0,n) -> (1,m) *)
| MDead (was : option (name * name)).     (* object 1 collected; handlers of object 0 still attached *)

Definition shape (md : mode) (va vb : list val) : list ostate :=
  match md with
  | MFresh => [fresh va; fresh vb]
  | MMutual n m =>
      [ mkO true va [(n, [(1%nat, m)])] [] [n] (att_i_of n m);
        mkO true vb [(m, [(0%nat, n)])] [] [m] (att_i_of m n) ]
  | MOneway n m => [ mkO true va [(n, [(1%nat, m)])] [] [n] (att_i_of n m); fresh vb ]
  | MDead (Some (n, m)) => [ mkO true va [] [] [n] (att_i_of n m); dead_obj ]
  | MDead None => [ fresh va; dead_obj ]
  end.

Definition edges_of (md : mode) : list edge :=
  match md with
  | MMutual n m => [((0%nat, n), (1%nat, m)); ((1%nat, m), (0%nat, n))]
  | MOneway n m => [((0%nat, n), (1%nat, m))]
  | _ => []
  end.

Definition snap_of (md : mode) (va vb : list val) : snap :=
  match md with MDead _ => [va; []] | _ => [va; vb] end.

(* what holds between operations *)
Definition inv (md : mode) (va vb : list val) : Prop :=
  typed va /\ match md with MDead _ => True | _ => typed vb end /\
  match md with
  | MMutual n m => link_ok n m /\ nth_error va n = nth_error vb m
  | MOneway n m => link_ok n m
  | MDead (Some (n, m)) => link_ok n m
  | _ => True
  end.

(* after one step from mode md (before-values va vb) into mode md' *)
Definition post (md md' : mode) (va vb : list val) (o : op) (r : state * obs) : Prop :=
  exists va' vb',
    objs (fst r) = shape md' va' vb' /\ inv md' va' vb' /\ overflow (fst r) = false /\
    ob_vals (snd r) = snap_of md' va' vb' /\
    law_step (edges_of md) (snap_of md va vb) o (snd r) = [].

Definition st_of (md : mode) (va vb : list val) (nts : list (oid * name)) : state :=
  mkS (shape md va vb) nts false.

(* ---------- traits that are not an end of the link: Unlinked.v applies ---------- *)
Definition linked (md : mode) : list node :=
  match md with
  | MMutual n m => [(0%nat, n); (1%nat, m)]
  | MOneway n m => [(0%nat, n)]
  | _ => []
  end.

Lemma snapshot_shape st md va vb : objs st = shape md va vb -> inv md va vb -> snapshot st = snap_of md va vb.
Proof.
  unfold snapshot. intros -> (Ta & Tb & _). destruct Ta as (? & ? & ? & ? & ->).
  destruct md as [|n m|n m|[[n m]|]]; try destruct Tb as (? & ? & ? & ? & ->); reflexivity.
Qed.

Lemma has_single k n : k <> n -> has k [n] = false.
Proof. intros H. cbn. rewrite (proj2 (Nat.eqb_neq k n) H). reflexivity. Qed.
Lemma has_att_i k n m : k <> n -> has k (att_i_of n m) = false.
Proof. intros H. unfold att_i_of. destruct (_ && _); [apply has_single; exact H|reflexivity]. Qed.

Lemma shape_unlinked md va vb nts x k : ~ In (x, k) (linked md) -> unlinked (st_of md va vb nts) x k.
Proof.
  intros Hl. destruct md as [|n m|n m|w].
  - right. destruct x as [|[|[|x]]]; split; reflexivity.
  - right. destruct x as [|[|[|x]]]; split; try reflexivity;
      (apply has_single || apply has_att_i); intros ->; apply Hl; cbn; auto.
  - right. destruct x as [|[|[|x]]]; split; try reflexivity;
      (apply has_single || apply has_att_i); intros ->; apply Hl; cbn; auto.
  - left. destruct w as [[n m]|]; destruct x as [|[|[|x]]]; reflexivity.
Qed.

Lemma edges_unlinked md z : ~ In z (linked md) -> succs (edges_of md) z = [].
Proof.
  intros Hl. destruct md as [|n m|n m|w]; try reflexivity; cbn [linked In] in Hl;
    cbn [edges_of succs filter map fst snd]; unfold node_eqb; rewrite !keqb_neq by tauto; reflexivity.
Qed.

Lemma sval_two va vb x k :
  sval [va; vb] (x, k) = match x with O => nth_error va k | S O => nth_error vb k | _ => None end.
Proof. destruct x as [|[|[|x]]]; try reflexivity; destruct k; reflexivity. Qed.

Lemma typed_update va k v :
  typed va -> nth_error va k <> None -> kind_ok k v = true -> typed (update k (fun _ => v) va).
Proof.
  intros (s0 & s1 & l0 & l1 & ->) Hn Hk.
  destruct k as [|[|[|[|k]]]]; [| | | |destruct k; contradiction]; destruct v; try discriminate Hk;
    do 4 eexists; reflexivity.
Qed.
Lemma typed_kind va k w : typed va -> nth_error va k = Some w -> kind_ok k w = true.
Proof.
  intros (s0 & s1 & l0 & l1 & ->) Hn.
  destruct k as [|[|[|[|k]]]]; [| | | |destruct k; discriminate]; injection Hn as <-; reflexivity.
Qed.

(* the plain effect of an operation on a trait that is no end of the link keeps shape and invariant *)
Lemma shape_set md va vb nts x k v :
  inv md va vb -> sval (snap_of md va vb) (x, k) <> None -> ~ In (x, k) (linked md) -> kind_ok k v = true ->
  exists va' vb', objs (set_val (st_of md va vb nts) x k v) = shape md va' vb' /\ inv md va' vb'.
Proof.
  intros (Ta & Tb & Hm) Hz Hl Hk.
  assert (sval (snap_of md va vb) (x, k) =
          match x with O => nth_error va k | S O => match md with MDead _ => None | _ => nth_error vb k end | _ => None end) as Hsv
    by (destruct md; cbn [snap_of]; rewrite sval_two; destruct x as [|[|x]]; try reflexivity; destruct k; reflexivity).
  rewrite Hsv in Hz. destruct x as [|[|x]]; [| |contradiction].
  - exists (update k (fun _ => v) va), vb. split; [destruct md as [|n m|n m|[[n m]|]]; reflexivity|].
    split; [apply typed_update; assumption|]. split; [exact Tb|].
    destruct md as [|n m|n m|w]; try exact Hm. destruct Hm as [Hlk He]. split; [exact Hlk|].
    rewrite nth_error_update_other; [exact He|]. intros ->. apply Hl. left. reflexivity.
  - exists va, (update k (fun _ => v) vb).
    destruct md as [|n m|n m|w]; [| | |contradiction]; (split; [reflexivity|]); (split; [exact Ta|]);
      (split; [apply typed_update; assumption|]); try exact Hm.
    destruct Hm as [Hlk He]. split; [exact Hlk|].
    rewrite nth_error_update_other; [exact He|]. intros ->. apply Hl. right. left. reflexivity.
Qed.

Lemma post_intro md md' va vb nts o r va' vb' :
  inv md va vb -> objs (fst r) = shape md' va' vb' -> inv md' va' vb' ->
  lawful (edges_of md) (st_of md va vb nts) o r -> post md md' va vb o r.
Proof.
  intros Hi Ho Hi' (Hov & Hv & Hlaw). exists va', vb'.
  rewrite (snapshot_shape (st_of md va vb nts) md va vb eq_refl Hi) in Hlaw. rewrite (snapshot_shape _ _ _ _ Ho Hi') in Hv. auto.
Qed.

Lemma unlinked_assign_post F md va vb nts x k v :
  inv md va vb -> sval (snap_of md va vb) (x, k) <> None -> ~ In (x, k) (linked md) ->
  post md md va vb (Assign x k v) (step (S F) (st_of md va vb nts) (Assign x k v)).
Proof.
  intros Hi Hz Hl.
  destruct (step_unlinked_assign F (st_of md va vb nts) x k v (edges_of md)) as [Ho Hlaw];
    [apply shape_unlinked; exact Hl|reflexivity|apply edges_unlinked; exact Hl
    |rewrite (snapshot_shape (st_of md va vb nts) md va vb eq_refl Hi); exact Hz|].
  destruct (kind_ok k v) eqn:Hk.
  - destruct (shape_set md va vb nts x k v Hi Hz Hl Hk) as (va' & vb' & Hs & Hi'). rewrite Hs in Ho.
    exact (post_intro _ _ _ _ _ _ _ _ _ Hi Ho Hi' Hlaw).
  - exact (post_intro _ _ _ _ _ _ _ _ _ Hi Ho Hi Hlaw).
Qed.

(* a mutation that raises, on any trait *)
Lemma mut_fails_post f md va vb nts x k mu w :
  inv md va vb -> sval (snap_of md va vb) (x, k) = Some w ->
  match w with VL l => exists e, mutate l mu = Raise e | VS _ => True end ->
  post md md va vb (Mut x k mu) (step f (st_of md va vb nts) (Mut x k mu)).
Proof.
  intros Hi Hz Hw. rewrite <- (snapshot_shape (st_of md va vb nts) md va vb eq_refl Hi) in Hz.
  destruct (step_mut_fails f (st_of md va vb nts) x k mu (edges_of md) w eq_refl Hz Hw) as [Hs Hlaw].
  apply (post_intro md md va vb nts _ _ va vb Hi); [rewrite Hs; reflexivity|exact Hi|exact Hlaw].
Qed.

Lemma unlinked_mut_post F md va vb nts x k mu :
  inv md va vb -> sval (snap_of md va vb) (x, k) <> None -> ~ In (x, k) (linked md) ->
  post md md va vb (Mut x k mu) (step (S F) (st_of md va vb nts) (Mut x k mu)).
Proof.
  intros Hi Hz Hl. destruct (sval (snap_of md va vb) (x, k)) as [[z|l]|] eqn:Hsv; [| |contradiction].
  - apply (mut_fails_post _ _ _ _ _ _ _ _ (VS z)); auto.
  - destruct (mutate l mu) as [[l' oev]|e] eqn:Hm; [|apply (mut_fails_post _ _ _ _ _ _ _ _ (VL l)); eauto].
    assert (kind_ok k (VL l') = true) as Hk.
    { change (kind_ok k (VL l) = true). destruct Hi as (Ta & Tb & _). revert Hsv.
      destruct md; cbn [snap_of]; rewrite sval_two; destruct x as [|[|x]]; try discriminate;
        try (destruct k; discriminate); apply typed_kind; assumption. }
    destruct (step_unlinked_mut F (st_of md va vb nts) x k mu (edges_of md) l l' oev) as [Ho Hlaw];
      [apply shape_unlinked; exact Hl|reflexivity|apply edges_unlinked; exact Hl
      |rewrite (snapshot_shape (st_of md va vb nts) md va vb eq_refl Hi); exact Hsv|exact Hm|].
    rewrite <- Hsv in Hz.
    destruct (shape_set md va vb nts x k (VL l') Hi Hz Hl Hk) as (va' & vb' & Hs & Hi'). rewrite Hs in Ho.
    exact (post_intro _ _ _ _ _ _ _ _ _ Hi Ho Hi' Hlaw).
Qed.

(* ---------- on an end of the link ---------- *)
Lemma kind_ok_link n m v : link_ok n m -> kind_ok n v = kind_ok m v.
Proof.
  intros (Hn & Hm & Hk). unfold kind_ok, is_any_name.
  rewrite (proj2 (Nat.leb_gt 4 n) Hn), (proj2 (Nat.leb_gt 4 m) Hm), Hk. reflexivity.
Qed.
Lemma typed_nth va k : typed va -> (k < 4)%nat -> nth_error va k <> None.
Proof. intros (? & ? & ? & ? & ->) Hk. destruct k as [|[|[|[|k]]]]; try lia; discriminate. Qed.
Lemma update_same {A} (v : A) : forall l i, nth_error l i = Some v -> update i (fun _ => v) l = l.
Proof. induction l as [|a l IH]; intros [|i] H; cbn in *; try congruence. f_equal. apply IH. exact H. Qed.
Lemma nth_error_update_hit {A} (v : A) l i : nth_error l i <> None -> nth_error (update i (fun _ => v) l) i = Some v.
Proof. intros H. rewrite nth_error_update_same by exact H. destruct (nth_error l i); [reflexivity|contradiction]. Qed.
Lemma NoDup_pair (a b : node) : a <> b -> NoDup [a; b].
Proof. intros H. constructor; [intros [->|[]]; exact (H eq_refl)|]. constructor; [intros []|constructor]. Qed.

(* the nodes an operation on an end of the link reaches *)
Definition ends (n m : name) : list node := [(0%nat, n); (1%nat, m)].

Lemma succs_ends md n m :
  md = MMutual n m \/ md = MOneway n m ->
  succs (edges_of md) (0%nat, n) = [(1%nat, m)] /\
  succs (edges_of md) (1%nat, m) = match md with MMutual _ _ => [(0%nat, n)] | _ => [] end.
Proof.
  intros [->| ->]; cbn [edges_of succs filter map fst snd]; unfold node_eqb;
    rewrite ?key_eqb_refl, ?(keqb_neq (1%nat, m) (0%nat, n)), ?(keqb_neq (0%nat, n) (1%nat, m)) by discriminate;
    split; reflexivity.
Qed.


Lemma sval_ends va vb n m v w :
  nth_error va n <> None -> nth_error vb m <> None ->
  let s' := [update n (fun _ => v) va; update m (fun _ => w) vb] in
  sval s' (0%nat, n) = Some v /\ sval s' (1%nat, m) = Some w /\
  forall y, ~ In y (ends n m) -> sval s' y = sval [va; vb] y.
Proof.
  intros Ha Hb s'. subst s'. rewrite !sval_two, !nth_error_update_hit by assumption.
  split; [reflexivity|]. split; [reflexivity|]. intros [x k] Hy. rewrite !sval_two.
  destruct x as [|[|x]]; try reflexivity; apply nth_error_update_other; intros ->; apply Hy; cbn; auto.
Qed.

(* an operation on an end that leaves [v] at (0,n) and [w] at (1,m), where [w] is [v] unless the law
   excuses the target, and notifies at most these two, each at most once *)
Lemma ends_post md n m va vb o z v w st' :
  md = MMutual n m \/ md = MOneway n m -> inv md va vb -> In z (linked md) -> op_at o z ->
  plain (edges_of md) (snap_of md va vb) o = (Done, Some (z, v)) ->
  kind_ok n v = true -> kind_ok m w = true ->
  w = v \/ excused (edges_of md) (snap_of md va vb) o z v (1%nat, m) ->
  objs st' = shape md (update n (fun _ => v) va) (update m (fun _ => w) vb) -> overflow st' = false ->
  NoDup (notes st') -> incl (notes st') (ends n m) ->
  post md md va vb o (st', mk_obs Done st').
Proof.
  intros Hmd Hi Hz Hat Hp Hkn Hkm Hw Ho Hov Hd Hin.
  destruct (succs_ends md n m Hmd) as [S0 S1].
  assert (z = (0%nat, n) \/ md = MMutual n m /\ z = (1%nat, m)) as Hc
    by (destruct Hmd as [-> | ->]; cbn in Hz; intuition auto).
  assert (typed va /\ typed vb /\ link_ok n m) as (Ta & Tb & Hl)
    by (destruct Hmd as [-> | ->]; [destruct Hi as (Ta & Tb & Hl & _)|destruct Hi as (Ta & Tb & Hl)]; auto).
  pose proof (typed_nth va n Ta (proj1 Hl)) as Ha. pose proof (typed_nth vb m Tb (proj1 (proj2 Hl))) as Hb.
  destruct (sval_ends va vb n m v w Ha Hb) as (V0 & V1 & VOut).
  assert (md = MMutual n m -> w = v) as Hwm.
  { intros ->. destruct Hw as [Hw|[Hs _]]; [exact Hw|]. rewrite S1 in Hs. discriminate. }
  assert (inv md (update n (fun _ => v) va) (update m (fun _ => w) vb)) as Hi'.
  { assert (typed (update n (fun _ => v) va) /\ typed (update m (fun _ => w) vb)) as [Ta' Tb']
      by (split; apply typed_update; assumption).
    destruct Hmd as [-> | ->]; repeat split; try assumption; try apply Hl.
    rewrite (Hwm eq_refl), !nth_error_update_hit by assumption. reflexivity. }
  apply (post_intro md md va vb [] o (st', mk_obs Done st') _ _ Hi Ho Hi').
  assert (snap_of md va vb = [va; vb] /\ snap_of md (update n (fun _ => v) va) (update m (fun _ => w) vb) = [update n (fun _ => v) va; update m (fun _ => w) vb]) as [Hs Hs']
    by (destruct Hmd as [-> | ->]; split; reflexivity).
  apply (spread_lawful _ _ o z v (ends n m)); cbn [fst snd];
    rewrite ?(snapshot_shape (st_of md va vb []) md va vb eq_refl Hi), ?(snapshot_shape _ _ _ _ Ho Hi'), ?Hs'; auto.
  - intros y [<-|[<-|[]]]; destruct Hc as [->|[-> ->]];
      first [apply reach_self | apply reach_succ; rewrite ?S0, ?S1; apply in_eq].
  - destruct Hc as [->|[_ ->]]; cbn; auto.
  - intros e He. destruct Hmd as [-> | ->]; [destruct He as [<-|[<-|[]]]|destruct He as [<-|[]]]; cbn; auto.
  - destruct Hc as [->|[Hm' ->]]; [exact V0|exact (eq_trans V1 (f_equal Some (Hwm Hm')))].
  - intros y [<-|[<-|[]]]; [left; exact V0|].
    destruct Hw as [Hw|Hx]; [left; exact (eq_trans V1 (f_equal Some Hw))|right; exact Hx].
  - intros y Hy. rewrite Hs. apply VOut. exact Hy.
Qed.

(* The runs: [assign_spreads] opens one handler, its conditions and the loop over the partners are computed
   on the tables of the shape; the names stay variables, so only [n =? n] is left to rewrite. *)
Ltac st_cbn :=
  cbn [clear_notes st_of shape fresh get_val get_obj set_val upd_obj add_note lock unlock lockedb partners objs notes
       overflow update nth o_vals o_info o_locked o_att_s o_att_i o_alive has existsb assoc add1 del1 filter app
       fold_left visit relay negb orb andb fst snd].
Ltac st_unfold := unfold unlock, lock, add_note, set_val, upd_obj; st_cbn; rewrite ?Nat.eqb_refl.

(* [side] computes a handler's conditions on the tables; [st_norm] brings a state with pending updates to its
   record form ([upd_obj] mentions its state three times, so a pile of them is not to be unfolded at once) *)
Ltac side := st_cbn; rewrite ?Nat.eqb_refl; try reflexivity; auto.
Ltac st_norm :=
  unfold lock, add_note, set_val, upd_obj, clear_notes;
  cbn [objs notes overflow update o_alive o_vals o_info o_locked o_att_s o_att_i add1 has existsb app].

Lemma mutual_assign_run F n m va vb nts x k v old :
  In (x, k) (linked (MMutual n m)) -> kind_ok n v = true -> kind_ok m v = true ->
  nth_error va n = Some old -> nth_error vb m = Some old -> val_eqb old v = false ->
  exists l, NoDup l /\ incl l (ends n m) /\
    assign (S (S F)) (clear_notes (st_of (MMutual n m) va vb nts)) x k v =
    (mkS (shape (MMutual n m) (update n (fun _ => v) va) (update m (fun _ => v) vb)) l false, true).
Proof.
  intros Hin Hn Hm Ha Hb Hne. destruct Hin as [[= <- <-]|[[= <- <-]|[]]].
  - exists [(0%nat, n); (1%nat, m)]. split; [apply NoDup_pair; discriminate|]. split; [apply incl_refl|].
    rewrite (assign_spreads _ _ _ _ _ [(1%nat, m)]); st_cbn; rewrite ?Nat.eqb_refl, ?(nth_error_nth _ _ _ Ha); auto. st_norm.
    rewrite (assign_spreads _ _ _ _ _ [(0%nat, n)]); st_cbn; rewrite ?Nat.eqb_refl, ?(nth_error_nth _ _ _ Hb); auto. st_norm.
    st_unfold. reflexivity.
  - exists [(1%nat, m); (0%nat, n)]. split; [apply NoDup_pair; discriminate|]. split; [intros y Hy; cbn in *; tauto|].
    rewrite (assign_spreads _ _ _ _ _ [(0%nat, n)]); st_cbn; rewrite ?Nat.eqb_refl, ?(nth_error_nth _ _ _ Hb); auto. st_norm.
    rewrite (assign_spreads _ _ _ _ _ [(1%nat, m)]); st_cbn; rewrite ?Nat.eqb_refl, ?(nth_error_nth _ _ _ Ha); auto. st_norm.
    st_unfold. reflexivity.
Qed.

Lemma oneway_assign_run F n m va vb nts v old w :
  kind_ok n v = true -> kind_ok m v = true ->
  nth_error va n = Some old -> nth_error vb m = Some w -> val_eqb old v = false ->
  assign (S (S F)) (clear_notes (st_of (MOneway n m) va vb nts)) 0%nat n v =
    (mkS (shape (MOneway n m) (update n (fun _ => v) va) (update m (fun _ => v) vb))
         ((0%nat, n) :: if val_eqb w v then [] else [(1%nat, m)]) false, true).
Proof.
  intros Hn Hm Ha Hb Hne.
  rewrite (assign_spreads _ _ _ _ _ [(1%nat, m)]); st_cbn; rewrite ?Nat.eqb_refl, ?(nth_error_nth _ _ _ Ha); auto.
  rewrite assign_unlinked by (auto; right; split; reflexivity).
  st_cbn. rewrite (nth_error_nth _ _ _ Hb). destruct (val_eqb w v); st_unfold; reflexivity.
Qed.

Lemma step_assign f st x k v st' : assign f (clear_notes st) x k v = (st', true) ->
  step f st (Assign x k v) = (st', mk_obs Done st').
Proof. intros H. unfold step. rewrite H. reflexivity. Qed.

Lemma mutual_assign_linked F n m va vb nts x k v :
  inv (MMutual n m) va vb -> In (x, k) (linked (MMutual n m)) -> kind_ok k v = true ->
  post (MMutual n m) (MMutual n m) va vb (Assign x k v)
       (step (S (S F)) (st_of (MMutual n m) va vb nts) (Assign x k v)).
Proof.
  intros Hi Hin Hk. pose proof Hi as (Ta & Tb & Hl & He).
  destruct (nth_error va n) as [old|] eqn:Ha; [symmetry in He|destruct (typed_nth va n Ta (proj1 Hl) Ha)].
  assert (kind_ok n v = true /\ kind_ok m v = true) as [Hkn Hkm]
    by (pose proof (kind_ok_link n m v Hl) as Hkl; destruct Hin as [[= <- <-]|[[= <- <-]|[]]]; rewrite Hk in Hkl; auto).
  assert (plain (edges_of (MMutual n m)) (snap_of (MMutual n m) va vb) (Assign x k v) = (Done, Some ((x, k), v))) as Hp
    by (cbn [plain]; rewrite Hk; reflexivity).
  destruct (val_eqb old v) eqn:Hne.
  - (* the value is there already: nothing but the write *)
    apply val_eqb_true in Hne. subst old.
    rewrite (step_assign _ _ _ _ _ (set_val (clear_notes (st_of (MMutual n m) va vb nts)) x k v)).
    + apply (ends_post (MMutual n m) n m va vb _ (x, k) v v); auto; try reflexivity.
      * destruct Hin as [[= <- <-]|[[= <- <-]|[]]]; st_cbn; rewrite ?(update_same _ _ _ Ha), ?(update_same _ _ _ He); reflexivity.
      * constructor.
      * intros y [].
    + apply assign_same; [exact Hk|].
      destruct Hin as [[= <- <-]|[[= <- <-]|[]]]; st_cbn; rewrite ?(nth_error_nth _ _ _ Ha), ?(nth_error_nth _ _ _ He); apply val_eqb_refl.
  - destruct (mutual_assign_run F n m va vb nts x k v old Hin Hkn Hkm Ha He Hne) as (l & Hd & Hinc & R).
    rewrite (step_assign _ _ _ _ _ _ R). apply (ends_post (MMutual n m) n m va vb _ (x, k) v v); auto; reflexivity.
Qed.

Lemma oneway_assign_linked F n m va vb nts v :
  inv (MOneway n m) va vb -> kind_ok n v = true ->
  post (MOneway n m) (MOneway n m) va vb (Assign 0%nat n v)
       (step (S (S F)) (st_of (MOneway n m) va vb nts) (Assign 0%nat n v)).
Proof.
  intros Hi Hk. pose proof Hi as (Ta & Tb & Hl).
  destruct (nth_error va n) as [old|] eqn:Ha; [|destruct (typed_nth va n Ta (proj1 Hl) Ha)].
  destruct (nth_error vb m) as [w|] eqn:Hb; [|destruct (typed_nth vb m Tb (proj1 (proj2 Hl)) Hb)].
  assert (kind_ok m v = true) as Hkm by (rewrite <- (kind_ok_link n m v Hl); exact Hk).
  assert (plain (edges_of (MOneway n m)) (snap_of (MOneway n m) va vb) (Assign 0%nat n v) = (Done, Some ((0%nat, n), v))) as Hp
    by (cbn [plain]; rewrite Hk; reflexivity).
  destruct (val_eqb old v) eqn:Hne.
  - (* the value is there already: the target is not asked to follow *)
    apply val_eqb_true in Hne. subst old.
    rewrite (step_assign _ _ _ _ _ (set_val (clear_notes (st_of (MOneway n m) va vb nts)) 0%nat n v)).
    + apply (ends_post (MOneway n m) n m va vb _ (0%nat, n) v w); auto; try reflexivity; try (left; reflexivity).
      * exact (typed_kind vb m w Tb Hb).
      * right. split; [reflexivity|]. cbn [snap_of]. rewrite sval_two, Ha. apply oval_eqb_refl.
      * st_cbn. rewrite (update_same _ _ _ Hb). reflexivity.
      * intros y [].
    + apply assign_same; [exact Hk|]. st_cbn. rewrite (nth_error_nth _ _ _ Ha). apply val_eqb_refl.
  - rewrite (step_assign _ _ _ _ _ _ (oneway_assign_run F n m va vb nts v old w Hk Hkm Ha Hb Hne)).
    apply (ends_post (MOneway n m) n m va vb _ (0%nat, n) v v); auto; try reflexivity; try (left; reflexivity); cbn [notes].
    + destruct (val_eqb w v); [repeat constructor; intros []|apply NoDup_pair; discriminate].
    + destruct (val_eqb w v); intros y Hy; cbn in *; tauto.
Qed.

(* a value of the wrong kind is refused, whatever is linked to the trait *)
Lemma rejected_post f md va vb nts x k v :
  inv md va vb -> kind_ok k v = false ->
  post md md va vb (Assign x k v) (step (S f) (st_of md va vb nts) (Assign x k v)).
Proof.
  intros Hi Hk. unfold step. rewrite (assign_rejected f _ x k v Hk).
  apply (post_intro md md va vb nts _ (clear_notes (st_of md va vb nts), _) va vb Hi eq_refl Hi).
  apply failed_lawful; [reflexivity|exists (x, k); reflexivity|cbn; rewrite Hk; reflexivity].
Qed.

Lemma step_sync f st x n p m (mutual : bool) st1 st2 :
  sync1 f (clear_notes st) x n p m = (st1, true) ->
  (if mutual then sync1 f st1 p m x n = (st2, true) else st2 = st1) ->
  step f st (Sync x n p m mutual) = (st2, mk_obs Done st2).
Proof. intros H1 H2. unfold step. rewrite H1. destruct mutual; [rewrite H2|subst st2]; reflexivity. Qed.

(* the table update of sync_trait on the tables of a shape *)
Ltac sync_tables :=
  unfold sync1; cbn [get_obj objs nth o_info o_att_s o_att_i assoc has_key existsb key_eqb fst snd Nat.eqb andb orb
                     is_nil_keys app]; rewrite ?Nat.eqb_refl;
  cbn [has_key existsb key_eqb fst snd Nat.eqb andb orb is_nil_keys app assoc_set add1 has]; st_norm.

Lemma nth_update_hit {A} (v d : A) l i : nth_error l i <> None -> nth i (update i (fun _ => v) l) d = v.
Proof. intros H. apply nth_error_nth. apply nth_error_update_hit. exact H. Qed.

(* the table update of sync_trait(remove=True) on the tables of a shape: the names are variables, so the
   tests [n =? n] are rewritten as they appear *)
Ltac unsync_tables :=
  unfold step, unsync1, upd_obj, clear_notes, att_i_of;
  do 5 (cbn [get_obj objs notes overflow nth o_alive o_vals o_info o_locked o_att_s o_att_i assoc has_key existsb
             key_eqb fst snd Nat.eqb andb orb negb filter assoc_del assoc_set del1 upd_obj update];
        rewrite ?Nat.eqb_refl).

Lemma fold_left_nil_eq {A B} (g : A -> B -> A) a : fold_left g [] a = a.
Proof. reflexivity. Qed.

(* the sixteen pairs of names of a link, where a table of edges has to be computed *)
Ltac names_cases n m H :=
  let Hn := fresh in let Hm := fresh in let Hk := fresh in
  destruct H as (Hn & Hm & Hk);
  destruct n as [|[|[|[|n]]]]; try lia; destruct m as [|[|[|[|m]]]]; try lia;
  try discriminate Hk; clear Hn Hm Hk.

(* ---------- list mutations on an end of the link ---------- *)
Lemma att_i_list n m : is_list_name n = true -> is_list_name m = true -> att_i_of n m = [n].
Proof. unfold att_i_of. intros -> ->. reflexivity. Qed.
Lemma list_name_kind n l : (n < 4)%nat -> kind_ok n (VL l) = true -> is_list_name n = true.
Proof. unfold kind_ok, is_any_name. intros Hn. rewrite (proj2 (Nat.leb_gt 4 n) Hn). auto. Qed.

Lemma step_mut f st x k mu l l' oev :
  get_val (clear_notes st) x k = VL l -> mutate l mu = Ok (l', oev) ->
  let st1 := set_val (clear_notes st) x k (VL l') in
  let st2 := match oev with Some ev => forward f st1 x k ev | None => st1 end in
  step f st (Mut x k mu) = (st2, mk_obs Done st2).
Proof. intros Hg Hm. unfold step. rewrite Hg, Hm. reflexivity. Qed.

Lemma mutual_forward_run F n m va vb nts x k l l' ev oev :
  In (x, k) (linked (MMutual n m)) -> is_list_name n = true -> is_list_name m = true ->
  nth_error va n = Some (VL l) -> nth_error vb m = Some (VL l) -> apply_event l ev = Ok (l', oev) ->
  exists nl, NoDup nl /\ incl nl (ends n m) /\
    forward (S (S F)) (set_val (clear_notes (st_of (MMutual n m) va vb nts)) x k (VL l')) x k ev =
    mkS (shape (MMutual n m) (update n (fun _ => VL l') va) (update m (fun _ => VL l') vb)) nl false.
Proof.
  intros Hin Hn Hm Ha Hb Hap. unfold st_of, shape. rewrite (att_i_list n m Hn Hm), (att_i_list m n Hm Hn).
  destruct Hin as [[= <- <-]|[[= <- <-]|[]]].
  - exists ((0%nat, n) :: match oev with Some _ => [(1%nat, m)] | None => [] end).
    split; [destruct oev; [apply NoDup_pair; discriminate|repeat constructor; intros []]|].
    split; [destruct oev; intros y Hy; cbn in *; tauto|].
    rewrite (forward_spreads _ _ _ _ _ [(1%nat, m)]); st_cbn; rewrite ?Nat.eqb_refl; auto. st_norm.
    rewrite (nth_error_nth _ _ _ Hb), Hap. destruct oev as [ev'|]; [|st_unfold; reflexivity].
    rewrite (forward_spreads _ _ _ _ _ [(0%nat, n)]) by (st_cbn; rewrite ?Nat.eqb_refl; auto). st_norm.
    cbn [fold_left]. rewrite relay_locked by (st_cbn; rewrite Nat.eqb_refl; reflexivity).
    st_unfold. reflexivity.
  - exists ((1%nat, m) :: match oev with Some _ => [(0%nat, n)] | None => [] end).
    split; [destruct oev; [apply NoDup_pair; discriminate|repeat constructor; intros []]|].
    split; [destruct oev; intros y Hy; cbn in *; tauto|].
    rewrite (forward_spreads _ _ _ _ _ [(0%nat, n)]); st_cbn; rewrite ?Nat.eqb_refl; auto. st_norm.
    rewrite (nth_error_nth _ _ _ Ha), Hap. destruct oev as [ev'|]; [|st_unfold; reflexivity].
    rewrite (forward_spreads _ _ _ _ _ [(1%nat, m)]) by (st_cbn; rewrite ?Nat.eqb_refl; auto). st_norm.
    cbn [fold_left]. rewrite relay_locked by (st_cbn; rewrite Nat.eqb_refl; reflexivity).
    st_unfold. reflexivity.
Qed.

Lemma mutual_mut_linked F n m va vb nts x k mu :
  inv (MMutual n m) va vb -> In (x, k) (linked (MMutual n m)) -> (forall l, replay_ok l mu) ->
  post (MMutual n m) (MMutual n m) va vb (Mut x k mu)
       (step (S (S F)) (st_of (MMutual n m) va vb nts) (Mut x k mu)).
Proof.
  intros Hi Hin Hr. pose proof Hi as (Ta & Tb & Hl & He).
  destruct (nth_error va n) as [old|] eqn:Ha; [symmetry in He|destruct (typed_nth va n Ta (proj1 Hl) Ha)].
  assert (sval (snap_of (MMutual n m) va vb) (x, k) = Some old) as Hsv
    by (cbn [snap_of]; rewrite sval_two; destruct Hin as [[= <- <-]|[[= <- <-]|[]]]; assumption).
  destruct old as [z|l]; [apply (mut_fails_post _ _ _ _ _ _ _ _ (VS z)); auto|].
  destruct (mutate l mu) as [[l' oev]|e] eqn:Hm; [|apply (mut_fails_post _ _ _ _ _ _ _ _ (VL l)); eauto].
  assert (is_list_name n = true /\ is_list_name m = true) as [Hln Hlm]
    by (pose proof (list_name_kind n l (proj1 Hl) (typed_kind va n _ Ta Ha)) as H; split; [|rewrite <- (proj2 (proj2 Hl))]; exact H).
  assert (kind_ok n (VL l') = true /\ kind_ok m (VL l') = true) as [Hkn Hkm]
    by (unfold kind_ok; rewrite Hln, Hlm, !orb_true_r; auto).
  assert (plain (edges_of (MMutual n m)) (snap_of (MMutual n m) va vb) (Mut x k mu) = (Done, Some ((x, k), VL l'))) as Hp
    by (cbn [plain]; rewrite Hsv, Hm; reflexivity).
  rewrite (step_mut _ _ x k mu l l' oev);
    [|destruct Hin as [[= <- <-]|[[= <- <-]|[]]]; st_cbn; apply nth_error_nth; assumption|exact Hm].
  destruct oev as [ev|].
  - destruct (proj1 (Hr l) _ _ Hm) as [oev Hap].
    destruct (mutual_forward_run F n m va vb nts x k l l' ev oev Hin Hln Hlm Ha He Hap) as (nl & Hd & Hinc & ->).
    apply (ends_post (MMutual n m) n m va vb _ (x, k) (VL l') (VL l')); auto; reflexivity.
  - (* no event: the list is as it was *)
    rewrite (proj2 (Hr l) _ Hm) in *.
    apply (ends_post (MMutual n m) n m va vb _ (x, k) (VL l) (VL l)); auto; try reflexivity.
    + destruct Hin as [[= <- <-]|[[= <- <-]|[]]]; st_cbn; rewrite ?(update_same _ _ _ Ha), ?(update_same _ _ _ He); reflexivity.
    + constructor.
    + intros y [].
Qed.

Lemma typed_list vb m : typed vb -> (m < 4)%nat -> is_list_name m = true -> exists pl, nth_error vb m = Some (VL pl).
Proof.
  intros (? & ? & ? & ? & ->) Hm Hl. destruct m as [|[|[|[|m]]]]; try lia; try discriminate; eexists; reflexivity.
Qed.

Lemma oneway_forward_run F n m va vb nts pl l' ev :
  is_list_name n = true -> is_list_name m = true -> nth_error vb m = Some (VL pl) ->
  forward (S (S F)) (set_val (clear_notes (st_of (MOneway n m) va vb nts)) 0%nat n (VL l')) 0%nat n ev =
  match apply_event pl ev with
  | Ok (pl', oev) =>
      mkS (shape (MOneway n m) (update n (fun _ => VL l') va) (update m (fun _ => VL pl') vb))
          ((0%nat, n) :: match oev with Some _ => [(1%nat, m)] | None => [] end) false
  | Raise _ => mkS (shape (MOneway n m) (update n (fun _ => VL l') va) vb) [(0%nat, n)] false
  end.
Proof.
  intros Hn Hm Hb. unfold st_of, shape. rewrite (att_i_list n m Hn Hm).
  rewrite (forward_spreads _ _ _ _ _ [(1%nat, m)]); st_cbn; rewrite ?Nat.eqb_refl; auto.
  rewrite (nth_error_nth _ _ _ Hb).
  destruct (apply_event pl ev) as [[pl' [ev'|]]|e]; [rewrite forward_unlinked by (right; split; reflexivity)| |];
    st_unfold; reflexivity.
Qed.

Lemma oneway_mut_linked F n m va vb nts mu :
  inv (MOneway n m) va vb -> (forall l, replay_ok l mu) ->
  post (MOneway n m) (MOneway n m) va vb (Mut 0%nat n mu)
       (step (S (S F)) (st_of (MOneway n m) va vb nts) (Mut 0%nat n mu)).
Proof.
  intros Hi Hr. pose proof Hi as (Ta & Tb & Hl).
  destruct (nth_error va n) as [old|] eqn:Ha; [|destruct (typed_nth va n Ta (proj1 Hl) Ha)].
  assert (sval (snap_of (MOneway n m) va vb) (0%nat, n) = Some old) as Hsv by (cbn [snap_of]; rewrite sval_two; exact Ha).
  destruct old as [z|l]; [apply (mut_fails_post _ _ _ _ _ _ _ _ (VS z)); auto|].
  destruct (mutate l mu) as [[l' oev]|e] eqn:Hm; [|apply (mut_fails_post _ _ _ _ _ _ _ _ (VL l)); eauto].
  assert (is_list_name n = true /\ is_list_name m = true) as [Hln Hlm]
    by (pose proof (list_name_kind n l (proj1 Hl) (typed_kind va n _ Ta Ha)) as H; split; [|rewrite <- (proj2 (proj2 Hl))]; exact H).
  destruct (typed_list vb m Tb (proj1 (proj2 Hl)) Hlm) as [pl Hb].
  assert (forall l0, kind_ok n (VL l0) = true /\ kind_ok m (VL l0) = true) as Hkind
    by (intros l0; unfold kind_ok; rewrite Hln, Hlm, !orb_true_r; auto).
  assert (plain (edges_of (MOneway n m)) (snap_of (MOneway n m) va vb) (Mut 0%nat n mu) = (Done, Some ((0%nat, n), VL l'))) as Hp
    by (cbn [plain snap_of]; rewrite sval_two, Ha, Hm; reflexivity).
  (* the target follows if its list was the source's; otherwise the law does not ask *)
  assert (forall w, (pl = l -> w = VL l') ->
            w = VL l' \/ excused (edges_of (MOneway n m)) (snap_of (MOneway n m) va vb) (Mut 0%nat n mu) (0%nat, n) (VL l') (1%nat, m)) as Hex.
  { intros w Hw. destruct (zlist_eqb pl l) eqn:Hz; [left; apply Hw, zlist_eqb_eq, Hz|].
    right. split; [reflexivity|]. cbn [snap_of]. rewrite !sval_two, Ha, Hb. exact Hz. }
  rewrite (step_mut _ _ 0%nat n mu l l' oev); [|st_cbn; apply nth_error_nth; assumption|exact Hm].
  destruct oev as [ev|].
  - destruct (proj1 (Hr l) _ _ Hm) as [oev Hap]. rewrite (oneway_forward_run F n m va vb nts pl l' ev Hln Hlm Hb).
    destruct (apply_event pl ev) as [[pl' oev2]|e] eqn:Hap2.
    + apply (ends_post (MOneway n m) n m va vb _ (0%nat, n) (VL l') (VL pl')); auto; try apply Hkind; try reflexivity; try (left; reflexivity).
      * apply Hex. intros ->. congruence.
      * destruct oev2; [apply NoDup_pair; discriminate|repeat constructor; intros []].
      * destruct oev2; intros y Hy; cbn in *; tauto.
    + apply (ends_post (MOneway n m) n m va vb _ (0%nat, n) (VL l') (VL pl)); auto; try apply Hkind; try reflexivity; try (left; reflexivity).
      * apply Hex. intros ->. congruence.
      * st_cbn. rewrite (update_same _ _ _ Hb). reflexivity.
      * repeat constructor. intros [].
      * intros y Hy; cbn in *; tauto.
  - rewrite (proj2 (Hr l) _ Hm) in *.
    apply (ends_post (MOneway n m) n m va vb _ (0%nat, n) (VL l) (VL pl)); auto; try apply Hkind; try reflexivity; try (left; reflexivity).
    + apply Hex. intros ->. reflexivity.
    + st_cbn. rewrite (update_same _ _ _ Hb). reflexivity.
    + intros y [].
Qed.

(* on every trait that exists, in every mode *)
Lemma assign_post F md va vb nts x k v :
  inv md va vb -> sval (snap_of md va vb) (x, k) <> None ->
  post md md va vb (Assign x k v) (step (S (S F)) (st_of md va vb nts) (Assign x k v)).
Proof.
  intros Hi Hz. destruct (kind_ok k v) eqn:Hk; [|apply rejected_post; assumption].
  destruct (in_dec node_eq_dec (x, k) (linked md)) as [Hin|Hn];
    [|apply unlinked_assign_post; assumption].
  destruct md; try contradiction; [apply mutual_assign_linked; assumption|].
  destruct Hin as [[= <- <-]|[]]. apply oneway_assign_linked; assumption.
Qed.

Lemma mut_post F md va vb nts x k mu :
  inv md va vb -> sval (snap_of md va vb) (x, k) <> None -> (forall l, replay_ok l mu) ->
  post md md va vb (Mut x k mu) (step (S (S F)) (st_of md va vb nts) (Mut x k mu)).
Proof.
  intros Hi Hz Hr. destruct (in_dec node_eq_dec (x, k) (linked md)) as [Hin|Hn];
    [|apply unlinked_mut_post; assumption].
  destruct md; try contradiction; [apply mutual_mut_linked; assumption|].
  destruct Hin as [[= <- <-]|[]]. apply oneway_mut_linked; assumption.
Qed.
