(* C20 — termination of the propagation for ARBITRARY pools and link graphs (any number of objects,
   any tables, any values): the recursion depth of setattr -> _sync_trait_modified -> setattr ... and
   of the item-event propagation never exceeds the number of attached-and-unlocked sync handlers
   plus one, because every nested level first locks one more (object, trait) whose handler is
   attached, and every call returns with the lock table as it found it (the lock invariant).
   The propagation of one assignment is also given as a relation ([sets] / [walk]): what `assign` computes
   whenever fuel is not the issue; the graph theorems of Spread.v, Notes.v go by induction over it. *)
From Coq Require Import ZArith List Bool Arith Lia.
From TV Require Import Common.Harness C20.ListSem C20.Model.
Import ListNotations.

Definition frame_ob (a b : ostate) : Prop :=
  o_alive a = o_alive b /\ o_info a = o_info b /\ o_locked a = o_locked b /\
  o_att_s a = o_att_s b /\ o_att_i a = o_att_i b /\ length (o_vals a) = length (o_vals b).
Definition same_frame (s t : state) : Prop :=
  length (objs s) = length (objs t) /\ forall o, frame_ob (get_obj s o) (get_obj t o).

Lemma frame_ob_refl a : frame_ob a a.
Proof. repeat split. Qed.
Lemma same_frame_refl s : same_frame s s.
Proof. split; [reflexivity|intros; apply frame_ob_refl]. Qed.
Lemma same_frame_trans s t u : same_frame s t -> same_frame t u -> same_frame s u.
Proof.
  intros [L1 F1] [L2 F2]. split; [congruence|]. intros o.
  destruct (F1 o) as (a1 & a2 & a3 & a4 & a5 & a6). destruct (F2 o) as (b1 & b2 & b3 & b4 & b5 & b6).
  repeat split; congruence.
Qed.

Lemma same_frame_sym s t : same_frame s t -> same_frame t s.
Proof.
  intros [L F]. split; [auto|]. intros o. destruct (F o) as (a1 & a2 & a3 & a4 & a5 & a6). repeat split; auto.
Qed.
Lemma att_s_frame s t o : same_frame s t -> o_att_s (get_obj s o) = o_att_s (get_obj t o).
Proof. intros [_ F]. apply (F o). Qed.
Lemma att_i_frame s t o : same_frame s t -> o_att_i (get_obj s o) = o_att_i (get_obj t o).
Proof. intros [_ F]. apply (F o). Qed.

Lemma update_length {A} (f : A -> A) : forall l i, length (update i f l) = length l.
Proof. induction l as [|x l IH]; intros [|i]; cbn; auto. Qed.
Lemma nth_update_same {A} (f : A -> A) d : forall l i, (i < length l)%nat -> nth i (update i f l) d = f (nth i l d).
Proof. induction l as [|x l IH]; intros [|i] H; cbn in *; try lia; auto. apply IH. lia. Qed.
Lemma nth_update_other {A} (f : A -> A) d : forall l i j, i <> j -> nth j (update i f l) d = nth j l d.
Proof. induction l as [|x l IH]; intros [|i] [|j] H; cbn; auto; try congruence. Qed.
Lemma update_oob {A} (f : A -> A) : forall l i, (length l <= i)%nat -> update i f l = l.
Proof. induction l as [|x l IH]; intros [|i] H; cbn in *; auto; try lia. f_equal. apply IH. lia. Qed.

Lemma get_obj_upd_other st o f o' : o <> o' -> get_obj (upd_obj st o f) o' = get_obj st o'.
Proof. intros H. unfold get_obj, upd_obj. cbn [objs]. apply nth_update_other. exact H. Qed.
Lemma get_obj_upd_same st o f : (o < length (objs st))%nat -> get_obj (upd_obj st o f) o = f (get_obj st o).
Proof. intros H. unfold get_obj, upd_obj. cbn [objs]. apply nth_update_same. exact H. Qed.
Lemma upd_obj_length st o f : length (objs (upd_obj st o f)) = length (objs st).
Proof. unfold upd_obj. cbn [objs]. apply update_length. Qed.
Lemma get_obj_oob st o : (length (objs st) <= o)%nat -> get_obj st o = dead_obj.
Proof. intros H. unfold get_obj. apply nth_overflow. exact H. Qed.

(* a field that the update leaves alone reads the same everywhere, in range or not *)
Lemma get_obj_upd_keep {A} (fld : ostate -> A) st o f p :
  (forall ob, fld (f ob) = fld ob) -> fld (get_obj (upd_obj st o f) p) = fld (get_obj st p).
Proof.
  intros Hf. destruct (Nat.eq_dec o p) as [<-|Hne]; [|rewrite get_obj_upd_other by exact Hne; reflexivity].
  destruct (Nat.lt_ge_cases o (length (objs st))) as [Hlt|Hge].
  - rewrite get_obj_upd_same by exact Hlt. apply Hf.
  - unfold upd_obj, get_obj. cbn [objs]. rewrite update_oob by exact Hge. reflexivity.
Qed.

Lemma upd_obj_frame st o f :
  (forall ob, frame_ob ob (f ob)) -> same_frame st (upd_obj st o f).
Proof.
  intros Hf. split; [symmetry; apply upd_obj_length|]. intros o'.
  destruct (Nat.eq_dec o o') as [<-|Hne].
  - destruct (Nat.lt_ge_cases o (length (objs st))) as [Hlt|Hge].
    + rewrite get_obj_upd_same by exact Hlt. apply Hf.
    + unfold upd_obj, get_obj. cbn [objs]. rewrite update_oob by exact Hge. apply frame_ob_refl.
  - rewrite get_obj_upd_other by exact Hne. apply frame_ob_refl.
Qed.

Lemma set_val_frame st o n v : same_frame st (set_val st o n v).
Proof. unfold set_val. apply upd_obj_frame. intros ob. repeat split. cbn. symmetry. apply update_length. Qed.
Lemma add_note_frame st o n : same_frame st (add_note st o n).
Proof. split; [reflexivity|intros; apply frame_ob_refl]. Qed.

Lemma lockedb_frame s t o n : same_frame s t -> lockedb s o n = lockedb t o n.
Proof. intros [_ F]. unfold lockedb. destruct (F o) as (_ & _ & -> & _). reflexivity. Qed.
Lemma partners_frame s t o n : same_frame s t -> partners s o n = partners t o n.
Proof. intros [_ F]. unfold partners. destruct (F o) as (_ & -> & _). reflexivity. Qed.

Lemma has_false_filter n l : has n l = false -> filter (fun m => negb (Nat.eqb n m)) l = l.
Proof.
  unfold has. induction l as [|x l IH]; cbn; [reflexivity|].
  intros H. apply orb_false_elim in H. destruct H as [H1 H2]. rewrite H1. cbn. f_equal. apply IH. exact H2.
Qed.
Lemma del1_add1 n l : has n l = false -> del1 n (add1 n l) = l.
Proof.
  intros H. unfold add1, del1. rewrite H. rewrite filter_app. cbn. rewrite Nat.eqb_refl. cbn.
  rewrite app_nil_r. apply has_false_filter. exact H.
Qed.

Lemma unlock_after_lock st o n s :
  lockedb st o n = false -> same_frame (lock st o n) s -> same_frame st (unlock s o n).
Proof.
  intros Hl [L F]. unfold lock in L. rewrite upd_obj_length in L.
  split; [unfold unlock; rewrite upd_obj_length; exact L|]. intros o'.
  destruct (Nat.eq_dec o o') as [<-|Hne].
  - destruct (Nat.lt_ge_cases o (length (objs st))) as [Hlt|Hge].
    + unfold unlock. rewrite get_obj_upd_same by lia.
      specialize (F o). unfold lock in F. rewrite get_obj_upd_same in F by exact Hlt.
      destruct F as (a1 & a2 & a3 & a4 & a5 & a6). cbn in *.
      repeat split; cbn; try assumption.
      rewrite <- a3. symmetry. apply del1_add1. exact Hl.
    + specialize (F o). unfold lock, unlock in *.
      unfold upd_obj, get_obj in *. cbn [objs] in *.
      rewrite update_oob in F by exact Hge. rewrite update_oob by lia. exact F.
  - unfold unlock. rewrite get_obj_upd_other by exact Hne.
    specialize (F o'). unfold lock in F. rewrite get_obj_upd_other in F by exact Hne. exact F.
Qed.

(* the measure: attached handlers whose trait is not locked *)
Definition phi (ob : ostate) : nat :=
  length (filter (fun n => negb (has n (o_locked ob))) (o_att_s ob ++ o_att_i ob)).
Definition Phi (st : state) : nat := list_sum (map phi (objs st)).

Lemma phi_frame a b : frame_ob a b -> phi a = phi b.
Proof. intros (_ & _ & H3 & H4 & H5 & _). unfold phi. rewrite H3, H4, H5. reflexivity. Qed.

Lemma Phi_frame s t : same_frame s t -> Phi s = Phi t.
Proof.
  intros [L F]. unfold Phi.
  assert (forall o, phi (nth o (objs s) dead_obj) = phi (nth o (objs t) dead_obj)) as H
    by (intros o; apply phi_frame; apply F).
  clear F. revert H L. generalize (objs s) (objs t). induction l as [|x l IH]; intros [|y l'] H L; cbn in *; try lia.
  rewrite (H 0%nat). f_equal. apply IH; [|lia]. intros o. exact (H (S o)).
Qed.

Lemma filter_len_le {A} (f : A -> bool) l : (length (filter f l) <= length l)%nat.
Proof. induction l as [|x l IH]; cbn; [lia|]. destruct (f x); cbn; lia. Qed.

(* every attached handler counts at most once per list: the depth bound in terms of the tables *)
Lemma Phi_le_attached st : (Phi st <= list_sum (map (fun ob => length (o_att_s ob ++ o_att_i ob)) (objs st)))%nat.
Proof.
  unfold Phi. induction (objs st) as [|x l IH]; simpl; [lia|].
  assert (phi x <= length (o_att_s x ++ o_att_i x))%nat by (unfold phi; apply filter_len_le). simpl in IH. lia.
Qed.

Lemma filter_add1_lt n (l att : list nat) :
  has n l = false -> has n att = true ->
  (length (filter (fun m => negb (has m (add1 n l))) att) < length (filter (fun m => negb (has m l)) att))%nat.
Proof.
  intros Hl Ha. unfold add1. rewrite Hl.
  induction att as [|x att IH]; [discriminate|].
  cbn [filter]. unfold has in Ha. cbn [existsb] in Ha.
  assert (forall m, has m (l ++ [n]) = has m l || Nat.eqb m n) as Hm.
  { intros m. unfold has. rewrite existsb_app. cbn. rewrite orb_false_r. reflexivity. }
  rewrite (Hm x).
  destruct (Nat.eqb n x) eqn:E.
  - apply Nat.eqb_eq in E. subst x. rewrite Hl, Nat.eqb_refl. cbn.
    assert (length (filter (fun m => negb (has m (l ++ [n]))) att) <= length (filter (fun m => negb (has m l)) att))%nat.
    { clear. induction att as [|y att IH]; cbn; [lia|].
      assert (has y (l ++ [n]) = has y l || Nat.eqb y n) as -> by (unfold has; rewrite existsb_app; cbn; rewrite orb_false_r; reflexivity).
      destruct (has y l); cbn; [exact IH|]. destruct (Nat.eqb y n); cbn; lia. }
    lia.
  - cbn [orb] in Ha. fold (has n att) in Ha. specialize (IH Ha).
    rewrite (Nat.eqb_sym x n), E, orb_false_r. destruct (has x l); cbn; lia.
Qed.

Lemma list_sum_update_lt (f : ostate -> ostate) : forall l o,
  (o < length l)%nat -> (phi (f (nth o l dead_obj)) < phi (nth o l dead_obj))%nat ->
  (list_sum (map phi (update o f l)) < list_sum (map phi l))%nat.
Proof.
  induction l as [|x l IH]; intros [|o] Hlt Hphi; simpl in *; try lia.
  assert (o < length l)%nat as Ho by lia. specialize (IH o Ho Hphi). lia.
Qed.

(* locking an attached, unlocked trait lowers the measure; stated across a frame, as every caller has one *)
Lemma Phi_lock_lt st t o n :
  same_frame st t -> lockedb st o n = false ->
  has n (o_att_s (get_obj st o)) || has n (o_att_i (get_obj st o)) = true ->
  (Phi (lock t o n) < Phi st)%nat.
Proof.
  intros F Hl Ha. rewrite (Phi_frame _ _ F).
  rewrite (lockedb_frame _ _ o n F) in Hl. rewrite (att_s_frame _ _ o F), (att_i_frame _ _ o F) in Ha.
  assert (o < length (objs t))%nat as Hlt.
  { destruct (Nat.lt_ge_cases o (length (objs t))) as [H|H]; [exact H|].
    rewrite get_obj_oob in Ha by exact H. discriminate. }
  unfold Phi, lock, upd_obj. cbn [objs]. apply list_sum_update_lt; [exact Hlt|].
  fold (get_obj t o). unfold phi. cbn [o_locked o_att_s o_att_i].
  apply filter_add1_lt; [exact Hl|].
  unfold has. rewrite existsb_app. exact Ha.
Qed.

Lemma zlist_eqb_refl a : zlist_eqb a a = true.
Proof. induction a; cbn; auto. rewrite Z.eqb_refl. exact IHa. Qed.
Lemma zlist_eqb_eq a : forall b, zlist_eqb a b = true -> a = b.
Proof.
  induction a as [|x a IH]; destruct b as [|y b]; cbn; try discriminate; auto.
  intros H. apply andb_prop in H. destruct H as [H1 H2]. apply Z.eqb_eq in H1. apply IH in H2. congruence.
Qed.
Lemma val_eqb_true a b : val_eqb a b = true -> a = b.
Proof.
  destruct a, b; cbn; try discriminate.
  - intros H. apply Z.eqb_eq in H. congruence.
  - intros H. apply zlist_eqb_eq in H. congruence.
Qed.
Lemma val_eqb_refl a : val_eqb a a = true.
Proof. destruct a; cbn; [apply Z.eqb_refl|apply zlist_eqb_refl]. Qed.

Lemma key_eqb_true a b : key_eqb a b = true <-> a = b.
Proof.
  unfold key_eqb. split.
  - intros H. apply andb_prop in H. destruct H as [H1 H2]. apply Nat.eqb_eq in H1, H2. destruct a, b; cbn in *; congruence.
  - intros ->. rewrite !Nat.eqb_refl. reflexivity.
Qed.
Lemma has_key_In z S : has_key z S = true <-> In z S.
Proof.
  unfold has_key. rewrite existsb_exists. split.
  - intros (y & Hy & E). apply key_eqb_true in E. subst. exact Hy.
  - intros H. exists z. split; [exact H|apply key_eqb_true; reflexivity].
Qed.
Lemma keqb_neq a b : a <> b -> key_eqb a b = false.
Proof. intros H. destruct (key_eqb a b) eqn:E; [apply key_eqb_true in E; contradiction|reflexivity]. Qed.

(* one setattr with all its propagation, as a relation.
   [sets v st o n st']: `setattr(o, n, v)` takes st to st'.  The four ways a call ends are those of
   `assign`; [walk] is the handler's loop over the partners, which skips the locked ones. *)
Inductive sets (v : val) : state -> oid -> name -> state -> Prop :=
| sets_refused st o n : kind_ok n v = false -> sets v st o n st
| sets_same st o n : kind_ok n v = true -> get_val st o n = v -> sets v st o n (set_val st o n v)
| sets_quiet st o n : kind_ok n v = true -> get_val st o n <> v ->
    has n (o_att_s (get_obj st o)) = false \/ partners st o n = None ->
    sets v st o n (add_note (set_val st o n v) o n)
| sets_spread st o n ps s : kind_ok n v = true -> get_val st o n <> v ->
    has n (o_att_s (get_obj st o)) = true -> partners st o n = Some ps ->
    walk v ps (lock (add_note (set_val st o n v) o n) o n) s ->
    sets v st o n (unlock s o n)
with walk (v : val) : list (oid * name) -> state -> state -> Prop :=
| walk_nil s : walk v [] s s
| walk_skip p pn r s s' : lockedb s p pn = true -> walk v r s s' -> walk v ((p, pn) :: r) s s'
| walk_visit p pn r s s1 s' :
    lockedb s p pn = false -> sets v s p pn s1 -> walk v r s1 s' -> walk v ((p, pn) :: r) s s'.

Scheme sets_mind := Minimality for sets Sort Prop
  with walk_mind := Minimality for walk Sort Prop.
Combined Scheme sets_walk_ind from sets_mind, walk_mind.

Lemma set_note_frame st o n v : same_frame st (add_note (set_val st o n v) o n).
Proof. eapply same_frame_trans; [apply set_val_frame|apply add_note_frame]. Qed.

(* the lock invariant: a call on an unlocked trait gives back the frame it found *)
Lemma sets_walk_frame v :
  (forall st o n st', sets v st o n st' -> lockedb st o n = false -> same_frame st st') /\
  (forall ps s s', walk v ps s s' -> same_frame s s').
Proof.
  apply sets_walk_ind.
  - intros. apply same_frame_refl.
  - intros. apply set_val_frame.
  - intros. apply set_note_frame.
  - intros st o n ps s _ _ _ _ _ F Hl. eapply same_frame_trans; [apply set_note_frame|].
    apply unlock_after_lock; [|exact F]. rewrite <- (lockedb_frame _ _ o n (set_note_frame st o n v)). exact Hl.
  - intros. apply same_frame_refl.
  - intros. assumption.
  - intros p pn r s s1 s' Hl _ F1 _ F2. eapply same_frame_trans; [apply F1; exact Hl|exact F2].
Qed.
Definition sets_frame v := proj1 (sets_walk_frame v).

Lemma sets_walk_overflow v :
  (forall st o n st', sets v st o n st' -> overflow st' = overflow st) /\
  (forall ps s s', walk v ps s s' -> overflow s' = overflow s).
Proof. apply sets_walk_ind; intros; try reflexivity; try assumption. congruence. Qed.

Section AssignSets.
  Variable v : val.

  Lemma fold_walk (f : nat)
    (IH : forall st o n, overflow st = false -> lockedb st o n = false -> (Phi st < f)%nat ->
                         sets v st o n (fst (assign f st o n v))) :
    forall ps s, overflow s = false -> (Phi s < f)%nat ->
    walk v ps s (fold_left (fun s (q : oid * name) => let '(p, pn) := q in
                   if lockedb s p pn then s else fst (assign f s p pn v)) ps s).
  Proof.
    induction ps as [|[p pn] r IHr]; intros s Hov HP; cbn [fold_left]; [constructor|].
    destruct (lockedb s p pn) eqn:Hl; [apply walk_skip; auto|].
    pose proof (IH s p pn Hov Hl HP) as S1.
    eapply walk_visit; [exact Hl|exact S1|]. apply IHr.
    - rewrite (proj1 (sets_walk_overflow v) _ _ _ _ S1). exact Hov.
    - rewrite <- (Phi_frame _ _ (sets_frame v _ _ _ _ S1 Hl)). exact HP.
  Qed.

  Lemma assign_sets : forall f st o n,
    overflow st = false -> lockedb st o n = false -> (Phi st < f)%nat ->
    sets v st o n (fst (assign f st o n v)).
  Proof.
    induction f as [|f IH]; intros st o n Hov Hl HPhi; [lia|].
    cbn [assign].
    destruct (kind_ok n v) eqn:Hk; cbn [negb fst]; [|apply sets_refused; exact Hk].
    destruct (val_eqb (get_val st o n) v) eqn:E; cbn [fst].
    { apply sets_same; [exact Hk|apply val_eqb_true; exact E]. }
    assert (get_val st o n <> v) as Hne by (intros Ev; rewrite Ev, val_eqb_refl in E; discriminate).
    pose proof (set_note_frame st o n v) as F2.
    rewrite <- (att_s_frame _ _ o F2), <- (partners_frame _ _ o n F2).
    destruct (has n (o_att_s (get_obj st o))) eqn:Hatt; cbn [fst]; [|apply sets_quiet; auto].
    destruct (partners st o n) as [ps|] eqn:Hps; cbn [fst]; [|apply sets_quiet; auto].
    apply (sets_spread v st o n ps); try assumption.
    apply (fold_walk f IH); [exact Hov|].
    pose proof (Phi_lock_lt st _ o n F2 Hl ltac:(rewrite Hatt; reflexivity)) as H. clear - H HPhi. lia.
  Qed.
End AssignSets.

Theorem assign_terminates : forall f st o n v,
  overflow st = false -> lockedb st o n = false -> (Phi st < f)%nat ->
  overflow (fst (assign f st o n v)) = false /\ same_frame st (fst (assign f st o n v)).
Proof.
  intros f st o n v Hov Hl HPhi. pose proof (assign_sets v f st o n Hov Hl HPhi) as S.
  split; [rewrite (proj1 (sets_walk_overflow v) _ _ _ _ S); exact Hov|exact (sets_frame v _ _ _ _ S Hl)].
Qed.

Lemma fold_invariant {A} (P : state -> Prop) (step : state -> A -> state) (l : list A) :
  forall s, P s -> (forall s a, P s -> P (step s a)) -> P (fold_left step l s).
Proof. induction l as [|a l IH]; intros s Hs Hstep; cbn; [exact Hs|]. apply IH; [apply Hstep; exact Hs|exact Hstep]. Qed.

Theorem forward_terminates : forall f st o n ev,
  overflow st = false -> lockedb st o n = false -> (Phi st < f)%nat ->
  overflow (forward f st o n ev) = false /\ same_frame st (forward f st o n ev).
Proof.
  induction f as [|f IH]; intros st o n ev Hov Hl HPhi; [lia|].
  cbn [forward].
  set (st1 := add_note st o n).
  assert (same_frame st st1) as F1 by apply add_note_frame.
  assert (overflow st1 = false) as Hov1 by exact Hov.
  destruct (has n (o_att_i (get_obj st1 o))) eqn:Hatt; [|split; assumption].
  destruct (partners st1 o n) as [ps|]; [|split; assumption].
  assert (lockedb st1 o n = false) as Hl1 by exact Hl.
  assert (Phi (lock st1 o n) < f)%nat as HPhi2.
  { pose proof (Phi_lock_lt st st1 o n F1 Hl ltac:(change (get_obj st o) with (get_obj st1 o); rewrite Hatt; apply orb_true_r)) as H. clear - H HPhi. lia. }
  set (P := fun s => overflow s = false /\ same_frame (lock st1 o n) s).
  match goal with |- context [fold_left ?g ps (lock st1 o n)] =>
    assert (P (fold_left g ps (lock st1 o n))) as [Hov3 F3] end.
  { apply fold_invariant.
    - split; [exact Hov1|apply same_frame_refl].
    - intros s [p pn] [Hs Fs]. destruct (lockedb s p pn) eqn:Hlp; [split; assumption|].
      destruct (get_val s p pn) as [z|pl]; [split; assumption|].
      destruct (apply_event pl ev) as [[pl' [ev'|]]|e]; [| |split; assumption].
      + set (s' := set_val s p pn (VL pl')).
        assert (same_frame s s') as Fs' by apply set_val_frame.
        destruct (IH s' p pn ev' Hs ltac:(rewrite <- (lockedb_frame _ _ p pn Fs'); exact Hlp)
                     ltac:(rewrite <- (Phi_frame _ _ Fs'), <- (Phi_frame _ _ Fs); exact HPhi2)) as [H1 H2].
        split; [exact H1|]. eapply same_frame_trans; [exact Fs|]. eapply same_frame_trans; eassumption.
      + split; [exact Hs|]. eapply same_frame_trans; [exact Fs|apply set_val_frame]. }
  split; [exact Hov3|].
  eapply same_frame_trans; [exact F1|]. apply unlock_after_lock; assumption.
Qed.
