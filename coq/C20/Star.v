(* C20 — several partners: a pool of THREE objects, object 0 mutually linked to object 1 and to
   object 2 on the same trait name n (a star; relabelled, also the chain 1 - 0 - 2).  Any history of
   assignments and list mutations on all twelve traits keeps the three linked traits equal, needs
   recursion depth 3, notifies every side at most once and satisfies the whole law.
   Same method as Steps.v: what is no end of a link goes through Unlinked.v; an assignment or list mutation
   on an end is walked through handler by handler with the name n a variable (assign3_run, forward3_run)
   and satisfies the law by Unlinked.sets_lawful (ends3_post); the creation / removal of the links is in
   StarProofs.v. *)
From Coq Require Import ZArith List Bool Arith Lia.
From TV Require Import Common.Harness C20.ListSem C20.ListProofs C20.SliceProofs C20.Model C20.Law C20.Termination C20.Unlinked C20.Steps.
Import ListNotations.
Open Scope Z_scope.

Inductive mode3 :=
| M3Fresh
| M3One (n : name)        (* (0,n) <-> (1,n) *)
| M3Star (n : name).      (* (0,n) <-> (1,n), (0,n) <-> (2,n) *)

Definition leaf (n : name) (v : list val) : ostate :=
  mkO true v [(n, [(0%nat, n)])] [] [n] (att_i_of n n).

Definition shape3 (md : mode3) (va vb vc : list val) : list ostate :=
  match md with
  | M3Fresh => [fresh va; fresh vb; fresh vc]
  | M3One n => [mkO true va [(n, [(1%nat, n)])] [] [n] (att_i_of n n); leaf n vb; fresh vc]
  | M3Star n => [mkO true va [(n, [(1%nat, n); (2%nat, n)])] [] [n] (att_i_of n n); leaf n vb; leaf n vc]
  end.

Definition edges3 (md : mode3) : list edge :=
  match md with
  | M3Fresh => []
  | M3One n => [((0%nat, n), (1%nat, n)); ((1%nat, n), (0%nat, n))]
  | M3Star n => [((0%nat, n), (1%nat, n)); ((1%nat, n), (0%nat, n));
                 ((0%nat, n), (2%nat, n)); ((2%nat, n), (0%nat, n))]
  end.

Definition inv3 (md : mode3) (va vb vc : list val) : Prop :=
  typed va /\ typed vb /\ typed vc /\
  match md with
  | M3Fresh => True
  | M3One n => (n < 4)%nat /\ nth_error va n = nth_error vb n
  | M3Star n => (n < 4)%nat /\ nth_error va n = nth_error vb n /\ nth_error va n = nth_error vc n
  end.

Definition post3 (md md' : mode3) (va vb vc : list val) (o : op) (r : state * obs) : Prop :=
  exists va' vb' vc',
    objs (fst r) = shape3 md' va' vb' vc' /\ inv3 md' va' vb' vc' /\ overflow (fst r) = false /\
    ob_vals (snd r) = [va'; vb'; vc'] /\
    law_step (edges3 md) [va; vb; vc] o (snd r) = [].

Definition st3 (md : mode3) (va vb vc : list val) (nts : list (oid * name)) : state :=
  mkS (shape3 md va vb vc) nts false.

(* mutators whose events replay, also when a partner re-emits them *)
Definition replay2_ok (mu : mut) : Prop :=
  forall l, replay_ok l mu /\ (forall l' ev, mutate l mu = Ok (l', Some ev) -> int_index ev).

Lemma replayable_replay2 mu : replayable_mut mu = true -> replay2_ok mu.
Proof.
  intros H l. split; [apply replayable_replay_ok; exact H|].
  intros l' ev Hm. eapply replayable_event_int_index; eassumption.
Qed.

(* ---------- traits that are not an end of a link: Unlinked.v applies ---------- *)
Definition linked3 (md : mode3) : list node :=
  match md with
  | M3Fresh => []
  | M3One n => [(0%nat, n); (1%nat, n)]
  | M3Star n => [(0%nat, n); (1%nat, n); (2%nat, n)]
  end.

Lemma snapshot_shape3 st md va vb vc :
  objs st = shape3 md va vb vc -> inv3 md va vb vc -> snapshot st = [va; vb; vc].
Proof.
  unfold snapshot. intros -> ((? & ? & ? & ? & ->) & (? & ? & ? & ? & ->) & (? & ? & ? & ? & ->) & _).
  destruct md; reflexivity.
Qed.

Lemma shape3_unlinked md va vb vc nts x k : ~ In (x, k) (linked3 md) -> unlinked (st3 md va vb vc nts) x k.
Proof.
  intros Hl. right. destruct md as [|n|n]; destruct x as [|[|[|[|x]]]]; split; try reflexivity;
    (apply has_single || apply has_att_i); intros ->; apply Hl; cbn; auto.
Qed.

Lemma edges3_unlinked md z : ~ In z (linked3 md) -> succs (edges3 md) z = [].
Proof.
  intros Hl. destruct md as [|n|n]; try reflexivity; cbn [linked3 In] in Hl;
    cbn [edges3 succs filter map fst snd]; unfold node_eqb; rewrite !keqb_neq by tauto; reflexivity.
Qed.

Lemma sval_three va vb vc x k :
  sval [va; vb; vc] (x, k) =
  match x with O => nth_error va k | S O => nth_error vb k | S (S O) => nth_error vc k | _ => None end.
Proof. destruct x as [|[|[|[|x]]]]; try reflexivity; destruct k; reflexivity. Qed.

Lemma shape3_set md va vb vc nts x k v :
  inv3 md va vb vc -> sval [va; vb; vc] (x, k) <> None -> ~ In (x, k) (linked3 md) -> kind_ok k v = true ->
  exists va' vb' vc',
    objs (set_val (st3 md va vb vc nts) x k v) = shape3 md va' vb' vc' /\ inv3 md va' vb' vc'.
Proof.
  intros (Ta & Tb & Tc & Hm) Hz Hl Hk. rewrite sval_three in Hz.
  assert (forall n, In (x, n) (linked3 md) -> k <> n) as Hne by (intros n Hin ->; exact (Hl Hin)).
  destruct x as [|[|[|x]]]; [| | |contradiction].
  - exists (update k (fun _ => v) va), vb, vc. split; [destruct md; reflexivity|].
    repeat (split; [try apply typed_update; assumption|]).
    destruct md as [|n|n]; [exact I| |]; cbn [linked3] in Hne;
      rewrite !nth_error_update_other by (apply Hne; cbn; auto); exact Hm.
  - exists va, (update k (fun _ => v) vb), vc. split; [destruct md; reflexivity|].
    repeat (split; [try apply typed_update; assumption|]).
    destruct md as [|n|n]; [exact I| |]; cbn [linked3] in Hne;
      rewrite !nth_error_update_other by (apply Hne; cbn; auto); exact Hm.
  - exists va, vb, (update k (fun _ => v) vc). split; [destruct md; reflexivity|].
    repeat (split; [try apply typed_update; assumption|]).
    destruct md as [|n|n]; [exact I|exact Hm|]; cbn [linked3] in Hne;
      rewrite !nth_error_update_other by (apply Hne; cbn; auto); exact Hm.
Qed.

Lemma post3_intro md md' va vb vc nts o r va' vb' vc' :
  inv3 md va vb vc -> objs (fst r) = shape3 md' va' vb' vc' -> inv3 md' va' vb' vc' ->
  lawful (edges3 md) (st3 md va vb vc nts) o r -> post3 md md' va vb vc o r.
Proof.
  intros Hi Ho Hi' (Hov & Hv & Hlaw). exists va', vb', vc'.
  rewrite (snapshot_shape3 (st3 md va vb vc nts) md va vb vc eq_refl Hi) in Hlaw.
  rewrite (snapshot_shape3 _ _ _ _ _ Ho Hi') in Hv. auto.
Qed.

Lemma unlinked_assign_post3 F md va vb vc nts x k v :
  inv3 md va vb vc -> sval [va; vb; vc] (x, k) <> None -> ~ In (x, k) (linked3 md) ->
  post3 md md va vb vc (Assign x k v) (step (S F) (st3 md va vb vc nts) (Assign x k v)).
Proof.
  intros Hi Hz Hl.
  destruct (step_unlinked_assign F (st3 md va vb vc nts) x k v (edges3 md)) as [Ho Hlaw];
    [apply shape3_unlinked; exact Hl|reflexivity|apply edges3_unlinked; exact Hl
    |rewrite (snapshot_shape3 (st3 md va vb vc nts) md va vb vc eq_refl Hi); exact Hz|].
  destruct (kind_ok k v) eqn:Hk.
  - destruct (shape3_set md va vb vc nts x k v Hi Hz Hl Hk) as (va' & vb' & vc' & Hs & Hi'). rewrite Hs in Ho.
    exact (post3_intro _ _ _ _ _ _ _ _ _ _ _ Hi Ho Hi' Hlaw).
  - exact (post3_intro _ _ _ _ _ _ _ _ _ _ _ Hi Ho Hi Hlaw).
Qed.

Lemma mut_fails_post3 f md va vb vc nts x k mu w :
  inv3 md va vb vc -> sval [va; vb; vc] (x, k) = Some w ->
  match w with VL l => exists e, mutate l mu = Raise e | VS _ => True end ->
  post3 md md va vb vc (Mut x k mu) (step f (st3 md va vb vc nts) (Mut x k mu)).
Proof.
  intros Hi Hz Hw. rewrite <- (snapshot_shape3 (st3 md va vb vc nts) md va vb vc eq_refl Hi) in Hz.
  destruct (step_mut_fails f (st3 md va vb vc nts) x k mu (edges3 md) w eq_refl Hz Hw) as [Hs Hlaw].
  apply (post3_intro md md va vb vc nts _ _ va vb vc Hi); [rewrite Hs; reflexivity|exact Hi|exact Hlaw].
Qed.

Lemma unlinked_mut_post3 F md va vb vc nts x k mu :
  inv3 md va vb vc -> sval [va; vb; vc] (x, k) <> None -> ~ In (x, k) (linked3 md) ->
  post3 md md va vb vc (Mut x k mu) (step (S F) (st3 md va vb vc nts) (Mut x k mu)).
Proof.
  intros Hi Hz Hl. destruct (sval [va; vb; vc] (x, k)) as [[z|l]|] eqn:Hsv; [| |contradiction].
  - apply (mut_fails_post3 _ _ _ _ _ _ _ _ _ (VS z)); auto.
  - destruct (mutate l mu) as [[l' oev]|e] eqn:Hm; [|apply (mut_fails_post3 _ _ _ _ _ _ _ _ _ (VL l)); eauto].
    assert (kind_ok k (VL l') = true) as Hk.
    { change (kind_ok k (VL l) = true). destruct Hi as (Ta & Tb & Tc & _). revert Hsv. rewrite sval_three.
      destruct x as [|[|[|x]]]; try discriminate; apply typed_kind; assumption. }
    destruct (step_unlinked_mut F (st3 md va vb vc nts) x k mu (edges3 md) l l' oev) as [Ho Hlaw];
      [apply shape3_unlinked; exact Hl|reflexivity|apply edges3_unlinked; exact Hl
      |rewrite (snapshot_shape3 (st3 md va vb vc nts) md va vb vc eq_refl Hi); exact Hsv|exact Hm|].
    rewrite <- Hsv in Hz.
    destruct (shape3_set md va vb vc nts x k (VL l') Hi Hz Hl Hk) as (va' & vb' & vc' & Hs & Hi'). rewrite Hs in Ho.
    exact (post3_intro _ _ _ _ _ _ _ _ _ _ _ Hi Ho Hi' Hlaw).
Qed.

(* a value of the wrong kind is refused, whatever is linked to the trait *)
Lemma rejected_post3 f md va vb vc nts x k v :
  inv3 md va vb vc -> kind_ok k v = false ->
  post3 md md va vb vc (Assign x k v) (step (S f) (st3 md va vb vc nts) (Assign x k v)).
Proof.
  intros Hi Hk. unfold step. rewrite (assign_rejected f _ x k v Hk).
  apply (post3_intro md md va vb vc nts _ (clear_notes (st3 md va vb vc nts), _) va vb vc Hi eq_refl Hi).
  apply failed_lawful; [reflexivity|exists (x, k); reflexivity|cbn; rewrite Hk; reflexivity].
Qed.

(* ---------- on an end of a link ---------- *)
Definition star_vc (md : mode3) (n : name) (v : val) (vc : list val) : list val :=
  match md with M3Star _ => update n (fun _ => v) vc | _ => vc end.

Lemma ends3_post md n va vb vc o z v st' :
  md = M3One n \/ md = M3Star n -> inv3 md va vb vc -> In z (linked3 md) -> op_at o z ->
  plain (edges3 md) [va; vb; vc] o = (Done, Some (z, v)) -> kind_ok n v = true ->
  objs st' = shape3 md (update n (fun _ => v) va) (update n (fun _ => v) vb) (star_vc md n v vc) ->
  overflow st' = false -> NoDup (notes st') -> incl (notes st') (linked3 md) ->
  post3 md md va vb vc o (st', mk_obs Done st').
Proof.
  intros Hmd Hi Hz Hat Hp Hk Ho Hov Hd Hin. pose proof Hi as (Ta & Tb & Tc & Hm).
  assert ((n < 4)%nat) as Hn by (destruct Hmd as [-> | ->]; apply Hm).
  pose proof (typed_nth va n Ta Hn) as Ha. pose proof (typed_nth vb n Tb Hn) as Hb. pose proof (typed_nth vc n Tc Hn) as Hc.
  assert (inv3 md (update n (fun _ => v) va) (update n (fun _ => v) vb) (star_vc md n v vc)) as Hi'.
  { split; [apply typed_update; assumption|]. split; [apply typed_update; assumption|].
    destruct Hmd as [-> | ->]; cbn [star_vc]; (split; [try apply typed_update; assumption|]);
      rewrite !nth_error_update_hit by assumption; auto. }
  apply (post3_intro md md va vb vc [] o (st', mk_obs Done st') _ _ _ Hi Ho Hi').
  apply (sets_lawful _ _ o z v (linked3 md)); cbn [fst snd];
    rewrite ?(snapshot_shape3 (st3 md va vb vc []) md va vb vc eq_refl Hi), ?(snapshot_shape3 _ _ _ _ _ Ho Hi'); auto.
  - destruct Hmd as [-> | ->]; cbn [linked3 In] in Hz |- *; intros y Hy; cbn [In] in Hy; intuition subst;
      first [ apply reach_self
            | solve [apply reach_succ; cbn; rewrite ?Nat.eqb_refl; cbn; auto]
            | apply (reach_succ2 _ _ (0%nat, n)); [cbn; rewrite ?Nat.eqb_refl; cbn; auto..|cbn; lia] ].
  - intros e He. destruct Hmd as [-> | ->]; cbn in He; intuition subst; cbn; auto.
  - destruct Hmd as [-> | ->]; reflexivity.
  - intros y Hy. destruct Hmd as [-> | ->]; cbn in Hy; intuition subst; unfold sval in *; cbn in *; auto.
Qed.

(* Walking through a run: [side] computes a handler's conditions on the tables; in the loop over the partners
   the next one, (p, n) with [ps] still to come, is either entered (its handler runs) or skipped.  The state
   is brought to its record form as soon as a handler is opened ([upd_obj] mentions its state three times,
   so a pile of pending updates is not to be unfolded at once). *)
Ltac open_handler := erewrite assign_spreads by side; st_norm.
Ltac enter p n ps := rewrite (visit_serves _ _ p n ps) by side; open_handler.
Ltac skip p n ps := rewrite (visit_skips _ _ p n ps) by side.
Ltac nodup3 := apply (NoDup_map_inv fst); cbn [map fst]; repeat (constructor; [cbn; lia|]); constructor.

Ltac finish3 :=
  cbn [fold_left fst]; st_unfold; eexists; split; [|split; [|reflexivity]]; [nodup3|intros y Hy; cbn in *; tauto].

Lemma assign3_run F md n va vb vc nts x k v :
  md = M3One n \/ md = M3Star n -> In (x, k) (linked3 md) -> kind_ok n v = true ->
  val_eqb (nth n va (VS 0)) v = false -> val_eqb (nth n vb (VS 0)) v = false ->
  (md = M3Star n -> val_eqb (nth n vc (VS 0)) v = false) ->
  exists nl, NoDup nl /\ incl nl (linked3 md) /\
    assign (S (S (S F))) (clear_notes (st3 md va vb vc nts)) x k v =
    (mkS (shape3 md (update n (fun _ => v) va) (update n (fun _ => v) vb) (star_vc md n v vc)) nl false, true).
Proof.
  intros Hmd Hin Hk Ha Hb Hc. unfold st3.
  destruct Hmd as [-> | ->]; [clear Hc|specialize (Hc eq_refl)]; unfold shape3, leaf, star_vc; cbn [linked3 In] in Hin;
    repeat (destruct Hin as [[= <- <-]|Hin]); try destruct Hin; open_handler.
  - enter 1%nat n (@nil node). skip 0%nat n (@nil node). finish3.
  - enter 0%nat n (@nil node). skip 1%nat n (@nil node). finish3.
  - enter 1%nat n [(2%nat, n)]. skip 0%nat n (@nil node). enter 2%nat n (@nil node). skip 0%nat n (@nil node). finish3.
  - enter 0%nat n (@nil node). skip 1%nat n [(2%nat, n)]. enter 2%nat n (@nil node). skip 0%nat n (@nil node). finish3.
  - enter 0%nat n (@nil node). enter 1%nat n [(2%nat, n)]. skip 0%nat n (@nil node). skip 2%nat n (@nil node). finish3.
Qed.

Lemma linked3_name md n x k : md = M3One n \/ md = M3Star n -> In (x, k) (linked3 md) -> k = n.
Proof. intros [-> | ->] Hin; cbn in Hin; intuition congruence. Qed.

Lemma assign3_linked F md n va vb vc nts x k v :
  md = M3One n \/ md = M3Star n -> inv3 md va vb vc -> In (x, k) (linked3 md) -> kind_ok k v = true ->
  post3 md md va vb vc (Assign x k v) (step (S (S (S F))) (st3 md va vb vc nts) (Assign x k v)).
Proof.
  intros Hmd Hi Hin Hk. pose proof (linked3_name md n x k Hmd Hin) as ->. pose proof Hi as (Ta & Tb & Tc & Hm).
  assert (exists old, nth_error va n = Some old /\ nth_error vb n = Some old /\ (md = M3Star n -> nth_error vc n = Some old))
    as (old & Ha & Hb & Hc).
  { destruct (nth_error va n) as [old|] eqn:Ha.
    - exists old. destruct Hmd as [-> | ->]; destruct Hm as (_ & Hm); [|destruct Hm]; repeat split; congruence.
    - destruct Hmd as [-> | ->]; destruct (typed_nth va n Ta (proj1 Hm) Ha). }
  assert (plain (edges3 md) [va; vb; vc] (Assign x n v) = (Done, Some ((x, n), v))) as Hp by (cbn [plain]; rewrite Hk; reflexivity).
  destruct (val_eqb old v) eqn:Hne.
  - (* the value is there already: nothing but the write *)
    apply val_eqb_true in Hne. subst old.
    rewrite (step_assign _ _ _ _ _ (set_val (clear_notes (st3 md va vb vc nts)) x n v)).
    + apply (ends3_post md n va vb vc _ (x, n) v); auto; try reflexivity; [|constructor|intros y []].
      destruct Hmd as [-> | ->]; cbn [linked3 In] in Hin; repeat (destruct Hin as [[= <-]|Hin]); try destruct Hin;
        unfold st3, shape3, leaf; cbn [star_vc]; st_cbn;
        rewrite ?(update_same _ _ _ Ha), ?(update_same _ _ _ Hb), ?(update_same _ _ _ (Hc eq_refl)); reflexivity.
    + apply assign_same; [exact Hk|].
      destruct Hmd as [-> | ->]; cbn [linked3 In] in Hin; repeat (destruct Hin as [[= <-]|Hin]); try destruct Hin;
        unfold st3, shape3, leaf; st_cbn;
        rewrite ?(nth_error_nth _ _ _ Ha), ?(nth_error_nth _ _ _ Hb), ?(nth_error_nth _ _ _ (Hc eq_refl)); apply val_eqb_refl.
  - destruct (assign3_run F md n va vb vc nts x n v Hmd Hin Hk) as (nl & Hd & Hinc & R);
      rewrite ?(nth_error_nth _ _ _ Ha), ?(nth_error_nth _ _ _ Hb); auto.
    { intros E. rewrite (nth_error_nth _ _ _ (Hc E)). exact Hne. }
    rewrite (step_assign _ _ _ _ _ _ R). apply (ends3_post md n va vb vc _ (x, n) v); auto; reflexivity.
Qed.

(* the same walk for an items event: the partner (p, n) holds [l] and answers [ev] with [l'] and [oev] *)
Ltac open_relay := erewrite forward_spreads by side; st_norm.
Ltac serve p n ps l l' oev := rewrite (relay_serves _ _ p n ps _ l l' oev) by side; st_norm.
Ltac pass p n ps := rewrite (relay_skips _ _ p n ps) by side.
Ltac finish3m H :=
  cbn [fold_left]; st_unfold; rewrite ?(update_same _ _ _ H); eexists;
  split; [|split; [|reflexivity]]; [nodup3|intros y Hy; cbn in *; tauto].

Lemma forward3_run F md n va vb vc nts x k l l' ev oev :
  md = M3One n \/ md = M3Star n -> In (x, k) (linked3 md) -> is_list_name n = true ->
  nth_error va n = Some (VL l) -> nth_error vb n = Some (VL l) -> (md = M3Star n -> nth_error vc n = Some (VL l)) ->
  int_index ev -> apply_event l ev = Ok (l', oev) ->
  exists nl, NoDup nl /\ incl nl (linked3 md) /\
    forward (S (S (S F))) (set_val (clear_notes (st3 md va vb vc nts)) x k (VL l')) x k ev =
    mkS (shape3 md (update n (fun _ => VL l') va) (update n (fun _ => VL l') vb) (star_vc md n (VL l') vc)) nl false.
Proof.
  intros Hmd Hin Hn Ha Hb Hc Hi Hap. unfold st3.
  pose proof (nth_error_nth _ _ (VS 0) Ha) as Ga. pose proof (nth_error_nth _ _ (VS 0) Hb) as Gb.
  (* what a partner re-emits replays on the next one; a partner that re-emits nothing was not changed *)
  assert (match oev with
          | Some ev1 => exists oev2, apply_event l ev1 = Ok (l', oev2)
          | None => l' = l end) as H2
    by (destruct oev as [ev1|]; [exact (proj2 (reemitted_event_replays l ev l' ev1 Hi Hap))|exact (apply_event_silent l ev l' Hi Hap)]).
  destruct Hmd as [-> | ->]; [clear Hc|specialize (Hc eq_refl); pose proof (nth_error_nth _ _ (VS 0) Hc) as Gc];
    unfold shape3, leaf, star_vc; rewrite (att_i_list n n Hn Hn); cbn [linked3 In] in Hin;
    repeat (destruct Hin as [[= <- <-]|Hin]); try destruct Hin; st_norm; open_relay.
  - serve 1%nat n (@nil node) l l' oev. destruct oev as [ev1|]; [open_relay; pass 0%nat n (@nil node)|]; finish3m Ha.
  - serve 0%nat n (@nil node) l l' oev. destruct oev as [ev1|]; [open_relay; pass 1%nat n (@nil node)|]; finish3m Ha.
  - serve 1%nat n [(2%nat, n)] l l' oev. destruct oev as [ev1|].
    + open_relay. pass 0%nat n (@nil node). rewrite fold_left_nil_eq.
      serve 2%nat n (@nil node) l l' (Some ev1). open_relay. pass 0%nat n (@nil node). finish3m Ha.
    + serve 2%nat n (@nil node) l l' (@None event). finish3m Ha.
  - serve 0%nat n (@nil node) l l' oev. destruct oev as [ev1|]; [destruct H2 as [oev2 Hap2]|subst l'; finish3m Hc].
    open_relay. pass 1%nat n [(2%nat, n)]. serve 2%nat n (@nil node) l l' oev2.
    destruct oev2 as [ev2|]; [open_relay; pass 0%nat n (@nil node)|]; finish3m Ha.
  - serve 0%nat n (@nil node) l l' oev. destruct oev as [ev1|]; [destruct H2 as [oev2 Hap2]|subst l'; finish3m Hb].
    open_relay. serve 1%nat n [(2%nat, n)] l l' oev2.
    destruct oev2 as [ev2|]; [open_relay; pass 0%nat n (@nil node); rewrite fold_left_nil_eq|];
      pass 2%nat n (@nil node); finish3m Ha.
Qed.

Lemma mut3_linked F md n va vb vc nts x k mu :
  md = M3One n \/ md = M3Star n -> inv3 md va vb vc -> In (x, k) (linked3 md) -> replay2_ok mu ->
  post3 md md va vb vc (Mut x k mu) (step (S (S (S F))) (st3 md va vb vc nts) (Mut x k mu)).
Proof.
  intros Hmd Hi Hin Hr. pose proof (linked3_name md n x k Hmd Hin) as ->. pose proof Hi as (Ta & Tb & Tc & Hm).
  assert ((n < 4)%nat) as Hn4 by (destruct Hmd as [-> | ->]; apply Hm).
  assert (exists old, nth_error va n = Some old /\ nth_error vb n = Some old /\ (md = M3Star n -> nth_error vc n = Some old))
    as (old & Ha & Hb & Hc).
  { destruct (nth_error va n) as [old|] eqn:Ha; [|destruct (typed_nth va n Ta Hn4 Ha)].
    exists old. destruct Hmd as [-> | ->]; destruct Hm as (_ & Hm); [|destruct Hm]; repeat split; congruence. }
  assert (sval [va; vb; vc] (x, n) = Some old) as Hsv.
  { rewrite sval_three. destruct Hmd as [-> | ->]; cbn [linked3 In] in Hin;
      repeat (destruct Hin as [[= <-]|Hin]); try destruct Hin; auto. }
  destruct old as [z|l]; [apply (mut_fails_post3 _ _ _ _ _ _ _ _ _ (VS z)); auto|].
  destruct (mutate l mu) as [[l' oev]|e] eqn:Hmu; [|apply (mut_fails_post3 _ _ _ _ _ _ _ _ _ (VL l)); eauto].
  pose proof (list_name_kind n l Hn4 (typed_kind va n _ Ta Ha)) as Hln.
  assert (kind_ok n (VL l') = true) as Hk by (unfold kind_ok; rewrite Hln; apply orb_true_r).
  assert (plain (edges3 md) [va; vb; vc] (Mut x n mu) = (Done, Some ((x, n), VL l'))) as Hp
    by (cbn [plain]; rewrite Hsv, Hmu; reflexivity).
  rewrite (step_mut _ _ x n mu l l' oev); [|apply (sval_get_val (clear_notes (st3 md va vb vc nts)))|exact Hmu].
  2:{ rewrite (snapshot_shape3 (clear_notes (st3 md va vb vc nts)) md va vb vc eq_refl Hi). exact Hsv. }
  destruct oev as [ev|].
  - destruct (proj1 (proj1 (Hr l)) _ _ Hmu) as [oev Hap].
    destruct (forward3_run F md n va vb vc nts x n l l' ev oev Hmd Hin Hln Ha Hb Hc (proj2 (Hr l) _ _ Hmu) Hap)
      as (nl & Hd & Hinc & ->).
    apply (ends3_post md n va vb vc _ (x, n) (VL l')); auto; reflexivity.
  - (* no event: the list is as it was *)
    rewrite (proj2 (proj1 (Hr l)) _ Hmu) in *.
    apply (ends3_post md n va vb vc _ (x, n) (VL l)); auto; try reflexivity; [|constructor|intros y []].
    destruct Hmd as [-> | ->]; cbn [linked3 In] in Hin; repeat (destruct Hin as [[= <-]|Hin]); try destruct Hin;
      unfold st3, shape3, leaf; cbn [star_vc]; st_cbn;
      rewrite ?(update_same _ _ _ Ha), ?(update_same _ _ _ Hb), ?(update_same _ _ _ (Hc eq_refl)); reflexivity.
Qed.

Ltac name_cases n Hn := destruct n as [|[|[|[|n]]]]; try lia; clear Hn.
