(* C20 — one operation against the law, in ANY pool with ANY link graph.
   Law side: [law_spread], the whole law for an assignment or list mutation whose value spreads over a set T of
   reachable nodes closed under the links (a pure target is [excused] where clauses 2 / 3 do not ask it to
   follow); its instances [law_unlinked] (T is the operated node: nothing listens) and [sets_lawful] (every node
   of T takes the value); [law_failed] for operations that fail; [law_sync] for the creation of a link, [law_inert]
   for its removal and for the death of an object.
   Model side: an operation on a trait whose sync handlers have nothing to do is the plain operation plus at
   most one notification (step_unlinked_assign, step_unlinked_mut, step_mut_fails); a handler that has partners
   is opened by [assign_spreads] / [forward_spreads], its loop over the partners by [visit_serves] / [visit_skips].
   The protocol proofs (Steps.v, Star.v) instantiate these on their shapes. *)
From Coq Require Import ZArith List Bool Arith Lia.
From TV Require Import Common.Harness C20.ListSem C20.Model C20.Law C20.Termination.
Import ListNotations.
Open Scope Z_scope.

Lemma key_eqb_refl a : key_eqb a a = true.
Proof. apply key_eqb_true. reflexivity. Qed.
Lemma node_eq_dec (a b : node) : {a = b} + {a <> b}.
Proof. decide equality; apply Nat.eq_dec. Qed.

Lemma oval_eqb_refl a : oval_eqb a a = true.
Proof. destruct a; [apply val_eqb_refl|reflexivity]. Qed.

Lemma has_edge_in e E : In e E -> has_edge e E = true.
Proof.
  intros H. apply existsb_exists. exists e. split; [exact H|].
  unfold edge_eqb, node_eqb. rewrite !key_eqb_refl. reflexivity.
Qed.
Lemma has_edge_inv e E : has_edge e E = true -> In e E.
Proof.
  intros H. apply existsb_exists in H. destruct H as (f & Hf & He).
  unfold edge_eqb, node_eqb in He. apply andb_prop in He. destruct He as [H1 H2].
  apply key_eqb_true in H1, H2. destruct e, f. cbn in *. subst. exact Hf.
Qed.
Lemma has_node_in x l : In x l -> has_node x l = true.
Proof. intros H. apply existsb_exists. exists x. split; [exact H|apply key_eqb_refl]. Qed.

(* a node nothing listens to is not an end of a mutual link either *)
Lemma no_succs_not_source E z e : succs E z = [] -> In e E -> fst e <> z.
Proof.
  unfold succs. intros Hs He <-. assert (In (snd e) []) as []. rewrite <- Hs.
  apply in_map, filter_In. split; [exact He|apply key_eqb_refl].
Qed.

(* ---------- the reachability of the law ---------- *)
Lemma closure_fixed k E S : flat_map (succs E) S = [] -> closure k E S = S.
Proof. intros H. induction k as [|k IH]; cbn [closure]; [reflexivity|]. rewrite H. exact IH. Qed.
Lemma reach_nil E : reach E [] = [].
Proof. apply closure_fixed. reflexivity. Qed.
Lemma reach_no_succs E z : succs E z = [] -> reach E [z] = [z].
Proof. intros H. apply closure_fixed. cbn. rewrite H. reflexivity. Qed.

(* the operated node and what it links to directly are reached *)
Lemma has_node_inv x l : has_node x l = true -> In x l.
Proof. intros H. apply existsb_exists in H. destruct H as (y & Hy & E). apply key_eqb_true in E. subst y. exact Hy. Qed.
Lemma add_nodes_has new : forall acc x, has_node x acc = true \/ In x new -> has_node x (add_nodes new acc) = true.
Proof.
  induction new as [|a new IH]; intros acc x H; [destruct H as [H|[]]; exact H|].
  change (add_nodes (a :: new) acc) with (add_nodes new (if has_node a acc then acc else acc ++ [a])).
  apply IH. destruct H as [H|[<-|H]]; [left|left|right; exact H].
  - destruct (has_node a acc); [exact H|]. unfold has_node in *. rewrite existsb_app, H. reflexivity.
  - destruct (has_node a acc) eqn:Ha; [exact Ha|]. apply has_node_in, in_or_app. right. apply in_eq.
Qed.
Lemma closure_has k E : forall S x, has_node x S = true -> has_node x (closure k E S) = true.
Proof. induction k as [|k IH]; intros S x H; [exact H|]. apply IH, add_nodes_has. left. exact H. Qed.
Lemma reach_self E z : In z (reach E [z]).
Proof. apply has_node_inv, closure_has, has_node_in, in_eq. Qed.
Lemma reach_succ E z y : In y (succs E z) -> In y (reach E [z]).
Proof.
  intros Hy. unfold reach. destruct E as [|e E]; [destruct Hy|]. cbn [length closure].
  apply has_node_inv, closure_has, add_nodes_has. right. cbn [flat_map]. rewrite app_nil_r. exact Hy.
Qed.

Lemma reach_succ2 E z y w : In y (succs E z) -> In w (succs E y) -> (2 <= length E)%nat -> In w (reach E [z]).
Proof.
  intros Hy Hw Hl. unfold reach. destruct E as [|e1 [|e2 E]]; cbn [length] in Hl; try lia. cbn [length closure].
  apply has_node_inv, closure_has, add_nodes_has. right. apply in_flat_map. exists y. split; [|exact Hw].
  apply has_node_inv, add_nodes_has. right. cbn [flat_map]. rewrite app_nil_r. exact Hy.
Qed.

Definition snap_set (s : snap) (z : node) (v : val) : snap :=
  update (fst z) (update (snd z) (fun _ => v)) s.

Lemma firstn_update {A} (f : A -> A) k : forall n l, firstn n (update k f l) = update k f (firstn n l).
Proof.
  revert k. intros k n. revert k. induction n as [|n IH]; intros k [|a l]; destruct k; cbn; try reflexivity.
  f_equal. apply IH.
Qed.
Lemma map_update {A B} (g : A -> B) (f : A -> A) (f' : B -> B) :
  (forall a, g (f a) = f' (g a)) -> forall l i, map g (update i f l) = update i f' (map g l).
Proof. intros H. induction l as [|a l IH]; intros [|i]; cbn; try rewrite H; try rewrite IH; reflexivity. Qed.

Lemma snapshot_set_val st x k v : snapshot (set_val st x k v) = snap_set (snapshot st) (x, k) v.
Proof.
  unfold snapshot, set_val, upd_obj, snap_set. cbn [objs fst snd]. apply map_update.
  intros ob. cbn [o_alive o_vals]. destruct (o_alive ob); [apply firstn_update|destruct k; reflexivity].
Qed.

Lemma nth_error_update_other {A} (f : A -> A) : forall l i j, i <> j -> nth_error (update i f l) j = nth_error l j.
Proof. induction l as [|x l IH]; intros [|i] [|j] H; cbn; auto; try congruence. Qed.
Lemma nth_error_update_same {A} (f : A -> A) : forall l i,
  nth_error l i <> None -> nth_error (update i f l) i = option_map f (nth_error l i).
Proof. induction l as [|x l IH]; intros [|i] H; cbn in *; try congruence. apply IH. exact H. Qed.

Lemma sval_set_other s z v y : y <> z -> sval (snap_set s z v) y = sval s y.
Proof.
  destruct y as [o n], z as [x k]. unfold sval, snap_set. cbn [fst snd]. intros H.
  destruct (Nat.eq_dec x o) as [->|Hne]; [|rewrite nth_update_other by exact Hne; reflexivity].
  destruct (Nat.lt_ge_cases o (length s)) as [Hlt|Hge]; [|rewrite update_oob by exact Hge; reflexivity].
  rewrite nth_update_same by exact Hlt. apply nth_error_update_other. congruence.
Qed.
Lemma sval_set_same s z v : sval s z <> None -> sval (snap_set s z v) z = Some v.
Proof.
  destruct z as [x k]. unfold sval, snap_set. cbn [fst snd]. intros H.
  destruct (Nat.lt_ge_cases x (length s)) as [Hlt|Hge].
  - rewrite nth_update_same by exact Hlt. rewrite nth_error_update_same by exact H.
    destruct (nth_error (nth x s []) k); [reflexivity|contradiction].
  - rewrite nth_overflow in H by exact Hge. destruct k; contradiction.
Qed.

(* [v] written at every node of T *)
Definition snap_sets (s : snap) (T : list node) (v : val) : snap := fold_right (fun y s' => snap_set s' y v) s T.

Lemma sval_sets_out s T v y : ~ In y T -> sval (snap_sets s T v) y = sval s y.
Proof.
  induction T as [|a T IH]; intros Hn; [reflexivity|]. cbn [snap_sets fold_right]. fold (snap_sets s T v).
  rewrite sval_set_other by (intros ->; apply Hn, in_eq). apply IH. intros Hi. apply Hn, in_cons, Hi.
Qed.
Lemma sval_sets_in s T v y : In y T -> sval s y <> None -> sval (snap_sets s T v) y = Some v.
Proof.
  intros Hi H. induction T as [|a T IH]; [destruct Hi|]. cbn [snap_sets fold_right]. fold (snap_sets s T v).
  destruct (node_eq_dec y a) as [->|Hne]; [|rewrite sval_set_other by exact Hne; destruct Hi as [->|Hi]; [contradiction|auto]].
  apply sval_set_same. destruct (in_dec node_eq_dec a T) as [Ha|Ha]; [rewrite (IH Ha); discriminate|].
  rewrite (sval_sets_out s T v a Ha). exact H.
Qed.

Lemma nth_error_firstn {A} : forall n (l : list A) k a, nth_error (firstn n l) k = Some a -> nth_error l k = Some a.
Proof. induction n as [|n IH]; intros [|x l] [|k] a; cbn; try discriminate; auto. Qed.
Lemma sval_get_val st x k w : sval (snapshot st) (x, k) = Some w -> get_val st x k = w.
Proof.
  unfold sval, snapshot, get_val, get_obj. cbn [fst snd].
  set (g := fun ob : ostate => if o_alive ob then firstn 4 (o_vals ob) else []).
  change (nth x (map g (objs st)) []) with (nth x (map g (objs st)) (g dead_obj)).
  rewrite map_nth. unfold g. destruct (o_alive (nth x (objs st) dead_obj)); [|destruct k; discriminate].
  intros H. apply nth_error_firstn in H. apply nth_error_nth. exact H.
Qed.

Lemma scnt_counts st o n : scnt (counts st) (o, n) = 0 \/ scnt (counts st) (o, n) = count_notes st o n.
Proof.
  unfold scnt, counts. cbn [fst snd].
  destruct (Nat.lt_ge_cases o (length (objs st))) as [Hlt|Hge].
  - set (g := fun o => if o_alive (get_obj st o) then map (count_notes st o) names4 else []).
    rewrite (nth_indep _ [] (g 0%nat)) by (rewrite map_length, seq_length; exact Hlt).
    rewrite map_nth, seq_nth by exact Hlt. cbn [plus]. unfold g.
    destruct (o_alive (get_obj st o)); [|left; destruct n; reflexivity].
    destruct n as [|[|[|[|n]]]]; cbn; auto. left. destruct n; reflexivity.
  - rewrite (nth_overflow (map _ (seq 0 (length (objs st))))) by (rewrite map_length, seq_length; exact Hge).
    left. destruct n; reflexivity.
Qed.

Lemma count_notes_notin st y : ~ In y (notes st) -> count_notes st (fst y) (snd y) = 0.
Proof.
  unfold count_notes. destruct y as [o n]. cbn [fst snd]. intros H.
  induction (notes st) as [|a l IH]; cbn [filter]; [reflexivity|].
  rewrite keqb_neq by (intros <-; apply H; left; reflexivity). apply IH. intros Hi. apply H. right. exact Hi.
Qed.
Lemma count_notes_le1 st o n : (length (notes st) <= 1)%nat -> count_notes st o n <= 1.
Proof.
  unfold count_notes. intros H. pose proof (filter_len_le (key_eqb (o, n)) (notes st)). lia.
Qed.
Lemma clause7_counts st : (forall o n, count_notes st o n <= 1) ->
  forallb (forallb (fun c => c <=? 1)) (counts st) = true.
Proof.
  intros H. apply forallb_forall. intros row Hr. apply in_map_iff in Hr. destruct Hr as (o & <- & _).
  destruct (o_alive (get_obj st o)); [|reflexivity].
  apply forallb_forall. intros c Hc. apply in_map_iff in Hc. destruct Hc as (n & <- & _).
  apply Z.leb_le. apply H.
Qed.

(* what an observation built by [mk_obs] from a state with at most one note shows *)
Lemma obs_counts st z :
  (forall y, In y (notes st) -> y = z) -> (length (notes st) <= 1)%nat ->
  forallb (forallb (fun c => c <=? 1)) (counts st) = true /\ forall y, y <> z -> scnt (counts st) y = 0.
Proof.
  intros Hn Hl. split; [apply clause7_counts; intros; apply count_notes_le1; exact Hl|].
  intros [o n] Hy. destruct (scnt_counts st o n) as [E|E]; [exact E|]. rewrite E.
  apply (count_notes_notin st (o, n)). intros Hi. apply Hy. apply Hn. exact Hi.
Qed.

(* ... and from a state whose notes are duplicate-free and lie in T *)
Lemma count_notes_nodup st o n : NoDup (notes st) -> count_notes st o n <= 1.
Proof.
  unfold count_notes. induction 1 as [|a l Ha _ IH]; cbn [filter]; [cbn; lia|].
  destruct (key_eqb (o, n) a) eqn:E; [|exact IH]. apply key_eqb_true in E. subst a.
  pose proof (count_notes_notin (mkS [] l false) (o, n) Ha) as H0. unfold count_notes in H0. cbn in *. lia.
Qed.
Lemma obs_counts_in st T :
  NoDup (notes st) -> incl (notes st) T ->
  forallb (forallb (fun c => c <=? 1)) (counts st) = true /\ forall y, ~ In y T -> scnt (counts st) y = 0.
Proof.
  intros Hd Hi. split; [apply clause7_counts; intros; apply count_notes_nodup; exact Hd|].
  intros [o n] Hy. destruct (scnt_counts st o n) as [E|E]; [exact E|]. rewrite E.
  apply (count_notes_notin st (o, n)). intros Hn. exact (Hy (Hi _ Hn)).
Qed.

(* ---------- the law on an operation whose value spreads over the nodes T reachable from it ---------- *)
Definition op_at (o : op) (z : node) : Prop :=
  match o with Assign x k _ | Mut x k _ => z = (x, k) | _ => False end.

(* a pure target need not follow where the law does not ask it to: the assigned value was there already
   (clause 2), or its list differed from the source's before the mutation (clause 3) *)
Definition excused (E : list edge) (before : snap) (o : op) (z : node) (v : val) (y : node) : Prop :=
  succs E y = [] /\
  match o with
  | Assign _ _ _ => oval_eqb (sval before z) (Some v) = true
  | Mut _ _ _ => oval_eqb (sval before y) (sval before z) = false
  | _ => False
  end.

Lemma law_spread E before o ob z v T :
  op_at o z -> plain E before o = (Done, Some (z, v)) ->
  incl T (reach E [z]) -> In z T -> (forall e, In e E -> In (fst e) T -> In (snd e) T) ->
  sval (ob_vals ob) z = Some v ->
  (forall y, In y T -> sval (ob_vals ob) y = Some v \/ excused E before o z v y) ->
  (forall y, ~ In y T -> sval (ob_vals ob) y = sval before y /\ scnt (ob_cnt ob) y = 0) ->
  ob_out ob = Done -> ob_logged ob = 0 ->
  forallb (forallb (fun c => c <=? 1)) (ob_cnt ob) = true ->
  law_step E before o ob = [].
Proof.
  intros Hat Hp HR Hz Hcl Hvz HT HOut Ho Hl H7. unfold law_step. rewrite Hp, Ho, Hl, H7, Hvz.
  assert (edges_after E o = E /\ origins o Done = [z]) as [-> ->]
    by (destruct o; try contradiction; cbn in Hat; subst z; split; reflexivity).
  assert (forall y, In y (succs E z) -> In y T) as Hsucc.
  { intros y Hy. apply in_map_iff in Hy. destruct Hy as (e & <- & He). apply filter_In in He.
    destruct He as [He Hs]. apply key_eqb_true in Hs. apply Hcl; [exact He|rewrite Hs; exact Hz]. }
  (* a node of T with an outgoing link is not excused *)
  assert (forall a b, In (a, b) E -> In a T -> sval (ob_vals ob) a = Some v /\ In b T) as Hfull.
  { intros a b He Hi. split; [|exact (Hcl _ He Hi)]. destruct (HT _ Hi) as [H|[Hs _]]; [exact H|].
    exfalso. exact (no_succs_not_source _ _ _ Hs He eq_refl). }
  repeat match goal with |- chk _ ?b ++ _ = [] => assert (b = true) as ->; [|cbn [chk app]] end.
  - (* 1: both ends of a mutual link are in T and hold v, or both are outside and as before *)
    apply forallb_forall. intros [a b] He. cbn [fst snd].
    destruct (has_edge (b, a) E) eqn:A; [|reflexivity]. apply has_edge_inv in A.
    destruct (in_dec node_eq_dec a T) as [Hi|Hn].
    + destruct (Hfull _ _ He Hi) as [-> Hi']. rewrite (proj1 (Hfull _ _ A Hi')), oval_eqb_refl. apply orb_true_r.
    + assert (~ In b T) as Hn' by (intros Hi; exact (Hn (proj2 (Hfull _ _ A Hi)))).
      rewrite (proj1 (HOut _ Hn)), (proj1 (HOut _ Hn')), (has_edge_in _ _ He).
      destruct (oval_eqb (sval before a) (sval before b)); cbn; rewrite ?orb_true_r; reflexivity.
  - (* 2 *) destruct o as [x k w| | | |]; try contradiction; [|reflexivity]. cbn in Hat. subst z.
    assert (w = v) as -> by (cbn in Hp; destruct (kind_ok k w); congruence).
    destruct (oval_eqb (sval before (x, k)) (Some v)) eqn:Hsame; [reflexivity|].
    apply forallb_forall. intros y Hy.
    destruct (HT y (Hsucc y Hy)) as [->|[_ Hx]]; [rewrite oval_eqb_refl; apply orb_true_r|congruence].
  - (* 3 *) destruct o; try contradiction; [reflexivity|]. cbn in Hat. subst z. rewrite Hvz.
    apply forallb_forall. intros y Hy.
    destruct (HT y (Hsucc y Hy)) as [->|[_ ->]]; [rewrite oval_eqb_refl|cbn [negb]]; rewrite ?orb_true_r; reflexivity.
  - (* 4 *) apply forallb_forall. intros y _. destruct (in_dec node_eq_dec y T) as [Hi|Hn].
    + rewrite (has_node_in _ _ (HR y Hi)). reflexivity.
    + destruct (HOut y Hn) as [-> ->]. rewrite oval_eqb_refl. cbn. apply orb_true_r.
  - (* 5 *) reflexivity.
  - (* 6 *) reflexivity.
  - (* 8 *) cbn [oval_eqb]. rewrite val_eqb_refl. reflexivity.
Qed.

(* a node nothing listens to: T is the node itself *)
Lemma law_unlinked E before o ob z v :
  op_at o z -> plain E before o = (Done, Some (z, v)) ->
  succs E z = [] -> sval before z <> None ->
  ob_vals ob = snap_set before z v -> ob_out ob = Done -> ob_logged ob = 0 ->
  forallb (forallb (fun c => c <=? 1)) (ob_cnt ob) = true ->
  (forall y, y <> z -> scnt (ob_cnt ob) y = 0) ->
  law_step E before o ob = [].
Proof.
  intros Hat Hp Hs Hz Hv Ho Hl H7 Hc.
  apply (law_spread E before o ob z v [z]); auto using in_eq.
  - rewrite (reach_no_succs _ _ Hs). apply incl_refl.
  - intros e He [Hi|[]]. destruct (no_succs_not_source _ _ _ Hs He (eq_sym Hi)).
  - rewrite Hv. apply sval_set_same. exact Hz.
  - intros y [<-|[]]. left. rewrite Hv. apply sval_set_same. exact Hz.
  - intros y Hy. assert (y <> z) as Hne by (intros ->; apply Hy, in_eq).
    split; [rewrite Hv; apply sval_set_other|apply Hc]; exact Hne.
Qed.

(* ---------- the law on the creation of a link: the value [a] of the source is found on all of T, the
   nodes the source reaches through the new edge set, and every edge has both ends in T ---------- *)
Lemma law_sync E before x n p m mu ob a T :
  plain E before (Sync x n p m mu) = (Done, None) ->
  incl T (reach (edges_after E (Sync x n p m mu)) [(x, n)]) -> In (x, n) T -> In (p, m) T ->
  (forall e, In e (edges_after E (Sync x n p m mu)) -> In (fst e) T /\ In (snd e) T) ->
  (forall y, In y T -> sval (ob_vals ob) y = Some a) ->
  (forall y, ~ In y T -> sval (ob_vals ob) y = sval before y /\ scnt (ob_cnt ob) y = 0) ->
  ob_out ob = Done -> ob_logged ob = 0 ->
  forallb (forallb (fun c => c <=? 1)) (ob_cnt ob) = true ->
  law_step E before (Sync x n p m mu) ob = [].
Proof.
  intros Hp HR Hx Hpm HE HT HOut Ho Hl H7. unfold law_step. rewrite Hp, Ho, Hl, H7. cbn [origins].
  repeat match goal with |- chk _ ?b ++ _ = [] => assert (b = true) as ->; [|cbn [chk app]] end.
  - apply forallb_forall. intros e He. destruct (HE e He) as [H1 H2].
    rewrite (HT _ H1), (HT _ H2), oval_eqb_refl. apply orb_true_r.
  - rewrite (HT _ Hpm), (HT _ Hx), oval_eqb_refl. apply orb_true_r.
  - apply forallb_forall. intros y _. destruct (in_dec node_eq_dec y T) as [Hi|Hn].
    + rewrite (has_node_in _ _ (HR y Hi)). reflexivity.
    + destruct (HOut y Hn) as [-> ->]. rewrite oval_eqb_refl. cbn. apply orb_true_r.
  - reflexivity.
  - reflexivity.
  - reflexivity.
Qed.

(* ---------- the law on the removal of a link and on the death of an object: links only go, nothing is
   reachable, so every trait of an object that stays alive is as before and not notified ---------- *)
Lemma law_inert E before o ob :
  match o with Unsync _ _ _ _ _ | Collect _ => True | _ => False end ->
  (forall e, In e (edges_after E o) -> sval (ob_vals ob) (fst e) = sval before (fst e) /\
                                       sval (ob_vals ob) (snd e) = sval before (snd e)) ->
  (forall y, alive_in before (fst y) && alive_in (ob_vals ob) (fst y) = false \/
             (sval (ob_vals ob) y = sval before y /\ scnt (ob_cnt ob) y = 0)) ->
  ob_out ob = Done -> ob_logged ob = 0 ->
  forallb (forallb (fun c => c <=? 1)) (ob_cnt ob) = true ->
  law_step E before o ob = [].
Proof.
  intros Hop HE Hy Ho Hl H7. unfold law_step.
  assert (plain E before o = (Done, None) /\ origins o Done = [] /\ incl (edges_after E o) E) as (-> & -> & Hin).
  { destruct o; try contradiction; (split; [reflexivity|]); (split; [reflexivity|]); cbn [edges_after].
    - destruct mutual; unfold del_edge; [eapply incl_tran|]; apply incl_filter.
    - apply incl_filter. }
  rewrite Ho, Hl, H7, reach_nil.
  repeat match goal with |- chk _ ?b ++ _ = [] => assert (b = true) as ->; [|cbn [chk app]] end.
  - apply forallb_forall. intros [a b] He. cbn [fst snd].
    destruct (has_edge (b, a) (edges_after E o)) eqn:A; [|reflexivity]. apply has_edge_inv in A.
    destruct (HE _ He) as [H1 H2]. cbn [fst snd] in H1, H2. rewrite H1, H2. rewrite (has_edge_in _ _ (Hin _ He)), (has_edge_in _ _ (Hin _ A)).
    destruct (oval_eqb (sval before a) (sval before b)); cbn; rewrite ?orb_true_r; reflexivity.
  - destruct o; try contradiction; reflexivity.
  - destruct o; try contradiction; reflexivity.
  - apply forallb_forall. intros y _. destruct (Hy y) as [->|[-> ->]]; [reflexivity|].
    rewrite oval_eqb_refl. cbn. apply orb_true_r.
  - reflexivity.
  - reflexivity.
  - reflexivity.
Qed.

(* ... and on an assignment or mutation that fails *)
Lemma law_failed E before o ob e :
  (exists z, op_at o z) -> plain E before o = (Raised e, None) ->
  ob_vals ob = before -> ob_out ob = Raised e -> ob_logged ob = 0 ->
  forallb (forallb (fun c => c <=? 1)) (ob_cnt ob) = true ->
  (forall y, scnt (ob_cnt ob) y = 0) ->
  law_step E before o ob = [].
Proof.
  intros [z Hat] Hp Hv Ho Hl H7 Hc. unfold law_step. rewrite Hp, Hv, Ho, Hl, H7.
  assert (edges_after E o = E /\ origins o (Raised e) = []) as [-> ->]
    by (destruct o; try contradiction; split; reflexivity).
  rewrite reach_nil.
  repeat match goal with |- chk _ ?b ++ _ = [] => assert (b = true) as ->; [|cbn [chk app]] end.
  - apply forallb_forall. intros e' He.
    destruct (has_edge (snd e', fst e') E) eqn:A; [|reflexivity].
    rewrite (has_edge_in _ _ He).
    destruct (oval_eqb (sval before (fst e')) (sval before (snd e'))); cbn; rewrite ?orb_true_r; reflexivity.
  - destruct o; try contradiction; reflexivity.
  - destruct o; try contradiction; reflexivity.
  - apply forallb_forall. intros y _. rewrite Hc, oval_eqb_refl. cbn. apply orb_true_r.
  - destruct e; reflexivity.
  - reflexivity.
  - reflexivity.
Qed.

(* ---------- the model on a trait whose sync handlers have nothing to do ---------- *)
Definition unlinked (st : state) (x : oid) (k : name) : Prop :=
  partners st x k = None \/
  (has k (o_att_s (get_obj st x)) = false /\ has k (o_att_i (get_obj st x)) = false).

Lemma assign_rejected f st x k v : kind_ok k v = false -> assign (S f) st x k v = (st, false).
Proof. intros H. cbn [assign]. rewrite H. reflexivity. Qed.

Lemma assign_unlinked f st x k v : unlinked st x k -> kind_ok k v = true ->
  assign (S f) st x k v =
  (if val_eqb (get_val st x k) v then set_val st x k v else add_note (set_val st x k v) x k, true).
Proof.
  intros Hu Hk. cbn [assign]. rewrite Hk. cbn [negb]. destruct (val_eqb (get_val st x k) v); [reflexivity|].
  pose proof (same_frame_trans _ _ _ (set_val_frame st x k v) (add_note_frame (set_val st x k v) x k)) as Fr.
  rewrite <- (partners_frame _ _ x k Fr). destruct Fr as [_ Fr]. destruct (Fr x) as (_ & _ & _ & <- & _).
  destruct Hu as [->|[-> _]]; [destruct (has k _)|]; reflexivity.
Qed.

Lemma forward_unlinked f st x k ev : unlinked st x k -> forward (S f) st x k ev = add_note st x k.
Proof.
  intros Hu. cbn [forward].
  pose proof (add_note_frame st x k) as Fr.
  rewrite <- (partners_frame _ _ x k Fr). destruct Fr as [_ Fr]. destruct (Fr x) as (_ & _ & _ & _ & <- & _).
  destruct Hu as [->|[_ ->]]; [destruct (has k _)|]; reflexivity.
Qed.

(* ---------- the model on a trait whose handler has partners to serve ---------- *)
Lemma assign_same f st x k v : kind_ok k v = true -> val_eqb (get_val st x k) v = true ->
  assign (S f) st x k v = (set_val st x k v, true).
Proof. intros Hk He. cbn [assign]. rewrite Hk, He. reflexivity. Qed.

(* the handlers' loops over the partners *)
Definition visit (f : nat) (v : val) (s : state) (q : oid * name) : state :=
  let '(p, pn) := q in if lockedb s p pn then s else fst (assign f s p pn v).
Definition relay (f : nat) (ev : event) (s : state) (q : oid * name) : state :=
  let '(p, pn) := q in
  if lockedb s p pn then s
  else match get_val s p pn with
       | VL pl => match apply_event pl ev with
                  | Ok (pl', oev) =>
                      let s' := set_val s p pn (VL pl') in
                      match oev with Some ev' => forward f s' p pn ev' | None => s' end
                  | Raise _ => s
                  end
       | VS _ => s
       end.

(* the loop over the partners skips a locked one and serves an unlocked one *)
Lemma visit_skips f v p pn ps s : lockedb s p pn = true ->
  fold_left (visit f v) ((p, pn) :: ps) s = fold_left (visit f v) ps s.
Proof. intros H. cbn [fold_left visit]. rewrite H. reflexivity. Qed.
Lemma visit_serves f v p pn ps s : lockedb s p pn = false ->
  fold_left (visit f v) ((p, pn) :: ps) s = fold_left (visit f v) ps (fst (assign f s p pn v)).
Proof. intros H. cbn [fold_left visit]. rewrite H. reflexivity. Qed.
Lemma relay_skips f ev p pn ps s : lockedb s p pn = true ->
  fold_left (relay f ev) ((p, pn) :: ps) s = fold_left (relay f ev) ps s.
Proof. intros H. cbn [fold_left relay]. rewrite H. reflexivity. Qed.
Lemma relay_serves f ev p pn ps s pl pl' oev :
  lockedb s p pn = false -> get_val s p pn = VL pl -> apply_event pl ev = Ok (pl', oev) ->
  fold_left (relay f ev) ((p, pn) :: ps) s =
  fold_left (relay f ev) ps (match oev with
                             | Some ev' => forward f (set_val s p pn (VL pl')) p pn ev'
                             | None => set_val s p pn (VL pl')
                             end).
Proof. intros H Hg Ha. cbn [fold_left relay]. rewrite H, Hg, Ha. reflexivity. Qed.
Lemma relay_locked f ev s p pn : lockedb s p pn = true -> relay f ev s (p, pn) = s.
Proof. unfold relay. intros ->. reflexivity. Qed.

Lemma assign_spreads f st x k v ps :
  kind_ok k v = true -> val_eqb (get_val st x k) v = false ->
  has k (o_att_s (get_obj st x)) = true -> partners st x k = Some ps ->
  assign (S f) st x k v =
  (unlock (fold_left (visit f v) ps (lock (add_note (set_val st x k v) x k) x k)) x k, true).
Proof.
  intros Hk Hne Ha Hp. cbn [assign]. rewrite Hk, Hne. cbn [negb].
  pose proof (same_frame_trans _ _ _ (set_val_frame st x k v) (add_note_frame (set_val st x k v) x k)) as Fr.
  rewrite <- (partners_frame _ _ x k Fr), <- (att_s_frame _ _ x Fr), Ha, Hp. reflexivity.
Qed.

Lemma forward_spreads f st x k ev ps :
  has k (o_att_i (get_obj st x)) = true -> partners st x k = Some ps ->
  forward (S f) st x k ev = unlock (fold_left (relay f ev) ps (lock (add_note st x k) x k)) x k.
Proof.
  intros Ha Hp. cbn [forward].
  change (o_att_i (get_obj (add_note st x k) x)) with (o_att_i (get_obj st x)).
  change (partners (add_note st x k) x k) with (partners st x k). rewrite Ha, Hp. reflexivity.
Qed.

Definition lawful (E : list edge) (st : state) (o : op) (r : state * obs) : Prop :=
  overflow (fst r) = false /\ ob_vals (snd r) = snapshot (fst r) /\
  law_step E (snapshot st) o (snd r) = [].

Lemma unlinked_frame s t x k : same_frame s t -> unlinked s x k -> unlinked t x k.
Proof.
  intros Fr. unfold unlinked. rewrite (partners_frame _ _ x k Fr).
  destruct Fr as [_ Fr]. destruct (Fr x) as (_ & _ & _ & -> & -> & _). auto.
Qed.

Lemma failed_lawful E st o e :
  overflow st = false -> (exists z, op_at o z) -> plain E (snapshot st) o = (Raised e, None) ->
  lawful E st o (clear_notes st, mk_obs (Raised e) (clear_notes st)).
Proof.
  intros Hov Hat Hp. split; [exact Hov|]. split; [reflexivity|].
  destruct (obs_counts (clear_notes st) (0%nat, 0%nat)) as [H7 _]; [intros y []|cbn; lia|].
  apply (law_failed E _ _ _ e); cbn [snd mk_obs ob_vals ob_out ob_cnt ob_logged clear_notes overflow]; auto.
  - rewrite Hov. reflexivity.
  - intros [o' n]. destruct (scnt_counts (clear_notes st) o' n) as [E0|E0]; [exact E0|]. rewrite E0. reflexivity.
Qed.

(* the state after: [z] holds [v], at most one note, and that one for [z] *)
Lemma touched_lawful E st o z v st' :
  op_at o z -> plain E (snapshot st) o = (Done, Some (z, v)) ->
  succs E z = [] -> sval (snapshot st) z <> None ->
  objs st' = objs (set_val st (fst z) (snd z) v) -> overflow st' = false ->
  (forall y, In y (notes st') -> y = z) -> (length (notes st') <= 1)%nat ->
  lawful E st o (st', mk_obs Done st').
Proof.
  intros Hat Hp Hs Hz Ho Hov Hn Hl. split; [exact Hov|]. split; [reflexivity|].
  destruct (obs_counts st' z Hn Hl) as [H7 Hc].
  apply (law_unlinked E _ _ _ z v); cbn [snd mk_obs ob_vals ob_out ob_cnt ob_logged]; auto.
  - unfold snapshot. rewrite Ho. destruct z. apply snapshot_set_val.
  - rewrite Hov. reflexivity.
Qed.

(* the state after: the nodes of T hold [v] unless excused, every other node is as before, and the notes
   are duplicate-free and lie in T *)
Lemma spread_lawful E st o z v T st' :
  op_at o z -> plain E (snapshot st) o = (Done, Some (z, v)) ->
  incl T (reach E [z]) -> In z T -> (forall e, In e E -> In (fst e) T -> In (snd e) T) ->
  overflow st' = false -> sval (snapshot st') z = Some v ->
  (forall y, In y T -> sval (snapshot st') y = Some v \/ excused E (snapshot st) o z v y) ->
  (forall y, ~ In y T -> sval (snapshot st') y = sval (snapshot st) y) ->
  NoDup (notes st') -> incl (notes st') T ->
  lawful E st o (st', mk_obs Done st').
Proof.
  intros Hat Hp HR Hz Hcl Hov Hvz HT HOut Hd Hi. split; [exact Hov|]. split; [reflexivity|].
  destruct (obs_counts_in st' T Hd Hi) as [H7 Hc].
  apply (law_spread E _ _ _ z v T); cbn [snd mk_obs ob_vals ob_out ob_cnt ob_logged]; auto.
  rewrite Hov. reflexivity.
Qed.

(* ... in particular when every node of T takes [v] *)
Lemma sets_lawful E st o z v T st' :
  op_at o z -> plain E (snapshot st) o = (Done, Some (z, v)) ->
  incl T (reach E [z]) -> In z T -> (forall e, In e E -> In (fst e) T -> In (snd e) T) ->
  overflow st' = false -> snapshot st' = snap_sets (snapshot st) T v ->
  (forall y, In y T -> sval (snapshot st) y <> None) ->
  NoDup (notes st') -> incl (notes st') T ->
  lawful E st o (st', mk_obs Done st').
Proof.
  intros Hat Hp HR Hz Hcl Hov Hs Hex Hd Hi.
  assert (forall y, In y T -> sval (snapshot st') y = Some v) as Hin
    by (intros y Hy; rewrite Hs; apply sval_sets_in; auto).
  apply (spread_lawful E st o z v T); auto.
  intros y Hy. rewrite Hs. apply sval_sets_out. exact Hy.
Qed.

Lemma sync_lawful E st x n p m mu a T st' :
  plain E (snapshot st) (Sync x n p m mu) = (Done, None) ->
  incl T (reach (edges_after E (Sync x n p m mu)) [(x, n)]) -> In (x, n) T -> In (p, m) T ->
  (forall e, In e (edges_after E (Sync x n p m mu)) -> In (fst e) T /\ In (snd e) T) ->
  overflow st' = false -> snapshot st' = snap_sets (snapshot st) T a ->
  (forall y, In y T -> sval (snapshot st) y <> None) ->
  NoDup (notes st') -> incl (notes st') T ->
  lawful E st (Sync x n p m mu) (st', mk_obs Done st').
Proof.
  intros Hp HR Hx Hpm HE Hov Hs Hex Hd Hi. split; [exact Hov|]. split; [reflexivity|].
  destruct (obs_counts_in st' T Hd Hi) as [H7 Hc].
  apply (law_sync E _ x n p m mu _ a T); cbn [snd mk_obs ob_vals ob_out ob_cnt ob_logged]; auto.
  - intros y Hy. rewrite Hs. apply sval_sets_in; auto.
  - intros y Hy. split; [rewrite Hs; apply sval_sets_out; exact Hy|apply Hc; exact Hy].
  - rewrite Hov. reflexivity.
Qed.

Lemma inert_lawful E st o st' :
  match o with Unsync _ _ _ _ _ | Collect _ => True | _ => False end ->
  overflow st' = false -> notes st' = [] ->
  (forall e, In e (edges_after E o) -> sval (snapshot st') (fst e) = sval (snapshot st) (fst e) /\
                                       sval (snapshot st') (snd e) = sval (snapshot st) (snd e)) ->
  (forall y, alive_in (snapshot st) (fst y) && alive_in (snapshot st') (fst y) = false \/
             sval (snapshot st') y = sval (snapshot st) y) ->
  lawful E st o (st', mk_obs Done st').
Proof.
  intros Hop Hov Hn HE Hy. split; [exact Hov|]. split; [reflexivity|].
  destruct (obs_counts_in st' []) as [H7 Hc]; [rewrite Hn; constructor|rewrite Hn; apply incl_refl|].
  apply law_inert; cbn [snd mk_obs ob_vals ob_out ob_cnt ob_logged]; auto.
  - intros y. destruct (Hy y) as [H|H]; [left; exact H|right; split; [exact H|apply Hc; intros []]].
  - rewrite Hov. reflexivity.
Qed.

Lemma step_unlinked_assign f st x k v E :
  unlinked st x k -> overflow st = false -> succs E (x, k) = [] -> sval (snapshot st) (x, k) <> None ->
  let r := step (S f) st (Assign x k v) in
  objs (fst r) = objs (if kind_ok k v then set_val st x k v else st) /\ lawful E st (Assign x k v) r.
Proof.
  intros Hu Hov Hs Hz r. subst r. unfold step. destruct (kind_ok k v) eqn:Hk.
  - rewrite (assign_unlinked f (clear_notes st) x k v Hu Hk). cbn [fst].
    assert (plain E (snapshot st) (Assign x k v) = (Done, Some ((x, k), v))) as Hp by (cbn; rewrite Hk; reflexivity).
    destruct (val_eqb _ v); (split; [reflexivity|]);
      apply (touched_lawful E st _ (x, k) v); cbn; auto; try lia; try reflexivity.
    intros y [<-|[]]. reflexivity.
  - rewrite (assign_rejected f _ x k v Hk). split; [reflexivity|].
    apply failed_lawful; [exact Hov|exists (x, k); reflexivity|cbn; rewrite Hk; reflexivity].
Qed.

(* a mutation that raises (AttributeError on a scalar trait, or the list's own exception) leaves
   everything alone, whatever is linked to the trait *)
Lemma step_mut_fails f st x k mu E w :
  overflow st = false -> sval (snapshot st) (x, k) = Some w ->
  match w with VL l => exists e, mutate l mu = Raise e | VS _ => True end ->
  let r := step f st (Mut x k mu) in
  fst r = clear_notes st /\ lawful E st (Mut x k mu) r.
Proof.
  intros Hov Hz Hw r. subst r. unfold step. rewrite (sval_get_val (clear_notes st) x k w Hz).
  destruct w as [z|l]; [|destruct Hw as [e He]; rewrite He]; (split; [reflexivity|]);
    (apply failed_lawful; [exact Hov|exists (x, k); reflexivity|cbn [plain]; rewrite Hz, ?He; reflexivity]).
Qed.

Lemma step_unlinked_mut f st x k mu E l l' oev :
  unlinked st x k -> overflow st = false -> succs E (x, k) = [] ->
  sval (snapshot st) (x, k) = Some (VL l) -> mutate l mu = Ok (l', oev) ->
  let r := step (S f) st (Mut x k mu) in
  objs (fst r) = objs (set_val st x k (VL l')) /\ lawful E st (Mut x k mu) r.
Proof.
  intros Hu Hov Hs Hz Hm r. subst r. unfold step.
  rewrite (sval_get_val (clear_notes st) x k _ Hz), Hm. cbv zeta.
  assert (plain E (snapshot st) (Mut x k mu) = (Done, Some ((x, k), VL l'))) as Hp by (cbn [plain]; rewrite Hz, Hm; reflexivity).
  assert (sval (snapshot st) (x, k) <> None) as Hz' by (rewrite Hz; discriminate).
  destruct oev as [ev|].
  - rewrite forward_unlinked by (apply (unlinked_frame (clear_notes st)); [apply set_val_frame|exact Hu]).
    split; [reflexivity|]. apply (touched_lawful E st _ (x, k) (VL l')); cbn; auto.
    intros y [<-|[]]. reflexivity.
  - split; [reflexivity|]. apply (touched_lawful E st _ (x, k) (VL l')); cbn; auto. intros y [].
Qed.
