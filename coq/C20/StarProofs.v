(* C20 — several partners, part 2: creating / removing the links of the star and the induction over
   histories of the three-object protocol. *)
From Coq Require Import ZArith List Bool Arith Lia.
From TV Require Import Common.Harness C20.ListSem C20.ListProofs C20.SliceProofs C20.Model C20.Law C20.Termination C20.Unlinked C20.Steps C20.Star.
Import ListNotations.
Open Scope Z_scope.

(* a further mutual link from the centre (0,n) to a fresh object p, created with the centre's value [a] *)
Lemma sync3_post md md' n va vb vc p a st' :
  inv3 md va vb vc -> (md = M3Fresh /\ md' = M3One n /\ p = 1%nat) \/ (md = M3One n /\ md' = M3Star n /\ p = 2%nat) ->
  (n < 4)%nat -> nth_error va n = Some a ->
  objs st' = shape3 md' (update n (fun _ => a) va) (update n (fun _ => a) vb) (star_vc md' n a vc) ->
  overflow st' = false -> NoDup (notes st') -> incl (notes st') (linked3 md') ->
  post3 md md' va vb vc (Sync 0%nat n p n true) (st', mk_obs Done st').
Proof.
  intros Hi Hmd Hn Ha Ho Hov Hd Hin. pose proof Hi as (Ta & Tb & Tc & Hm).
  pose proof (typed_kind va n a Ta Ha) as Hk.
  pose proof (typed_nth vb n Tb Hn) as Hb. pose proof (typed_nth vc n Tc Hn) as Hc.
  assert (nth_error va n <> None) as Ha' by (rewrite Ha; discriminate).
  assert (inv3 md' (update n (fun _ => a) va) (update n (fun _ => a) vb) (star_vc md' n a vc)) as Hi'.
  { split; [apply typed_update; assumption|]. split; [apply typed_update; assumption|].
    destruct Hmd as [(_ & -> & _)|(_ & -> & _)]; cbn [star_vc]; (split; [try apply typed_update; assumption|]);
      rewrite !nth_error_update_hit by assumption; auto. }
  apply (post3_intro md md' va vb vc [] _ (st', mk_obs Done st') _ _ _ Hi Ho Hi').
  assert (edges_after (edges3 md) (Sync 0%nat n p n true) = edges3 md') as He
    by (destruct Hmd as [(-> & -> & ->)|(-> & -> & ->)]; unfold edges_after, add_edge, has_edge, edge_eqb, node_eqb, key_eqb;
        do 3 (cbn; rewrite ?Nat.eqb_refl); reflexivity).
  apply (sync_lawful _ _ 0%nat n p n true a (linked3 md')); cbn [fst snd];
    rewrite ?(snapshot_shape3 (st3 md va vb vc []) md va vb vc eq_refl Hi), ?(snapshot_shape3 _ _ _ _ _ Ho Hi'), ?He; auto.
  - destruct Hmd as [(-> & -> & ->)|(-> & -> & ->)]; cbn; rewrite ?Nat.eqb_refl; cbn; unfold sval; cbn; rewrite Ha, Hk; reflexivity.
  - destruct Hmd as [(_ & -> & _)|(_ & -> & _)]; intros y Hy; cbn [linked3 In] in Hy; intuition subst;
      first [apply reach_self | apply reach_succ; cbn; rewrite ?Nat.eqb_refl; cbn; auto].
  - destruct Hmd as [(_ & -> & _)|(_ & -> & _)]; cbn; auto.
  - destruct Hmd as [(_ & -> & ->)|(_ & -> & ->)]; cbn; auto.
  - intros e Hin'. destruct Hmd as [(_ & -> & _)|(_ & -> & _)]; cbn in Hin'; intuition subst; cbn; auto.
  - destruct Hmd as [(_ & -> & _)|(_ & -> & _)]; reflexivity.
  - intros y Hy. destruct Hmd as [(_ & -> & _)|(_ & -> & _)]; cbn in Hy; intuition subst; unfold sval in *; cbn in *; auto.
Qed.

Lemma fresh3_sync F n va vb vc nts :
  inv3 M3Fresh va vb vc -> (n < 4)%nat ->
  post3 M3Fresh (M3One n) va vb vc (Sync 0%nat n 1%nat n true)
        (step (S (S (S F))) (st3 M3Fresh va vb vc nts) (Sync 0%nat n 1%nat n true)).
Proof.
  intros Hi Hn. pose proof Hi as (Ta & Tb & Tc & _).
  destruct (nth_error va n) as [a|] eqn:Ha; [|destruct (typed_nth va n Ta Hn Ha)].
  destruct (nth_error vb n) as [b|] eqn:Hb; [|destruct (typed_nth vb n Tb Hn Hb)].
  pose proof (typed_kind va n a Ta Ha) as Hk.
  assert (nth_error vb n <> None) as Hb' by (rewrite Hb; discriminate).
  set (nl := if val_eqb b a then [] else [(1%nat, n)]).
  assert (sync1 (S (S (S F))) (clear_notes (st3 M3Fresh va vb vc nts)) 0%nat n 1%nat n =
          (mkS [mkO true va [(n, [(1%nat, n)])] [] [n] (att_i_of n n); fresh (update n (fun _ => a) vb); fresh vc] nl false, true)) as R1.
  { unfold st3, shape3, fresh, clear_notes. sync_tables. st_cbn. rewrite (nth_error_nth _ _ _ Ha).
    rewrite assign_unlinked by (auto; right; split; reflexivity). st_cbn. rewrite (nth_error_nth _ _ _ Hb).
    subst nl. destruct (val_eqb b a); st_unfold; reflexivity. }
  assert (sync1 (S (S (S F))) (mkS [mkO true va [(n, [(1%nat, n)])] [] [n] (att_i_of n n); fresh (update n (fun _ => a) vb); fresh vc] nl false) 1%nat n 0%nat n =
          (mkS (shape3 (M3One n) (update n (fun _ => a) va) (update n (fun _ => a) vb) vc) nl false, true)) as R2.
  { unfold shape3, leaf, fresh. sync_tables. st_cbn. rewrite (nth_update_hit _ _ _ _ Hb').
    rewrite assign_same by (auto; st_cbn; rewrite (nth_error_nth _ _ _ Ha); apply val_eqb_refl).
    st_unfold. reflexivity. }
  rewrite (step_sync _ _ _ _ _ _ true _ _ R1 R2).
  apply (sync3_post M3Fresh (M3One n) n va vb vc 1%nat a); auto; cbn [notes linked3]; subst nl.
  - destruct (val_eqb b a); repeat constructor; intros [].
  - destruct (val_eqb b a); intros y Hy; cbn in *; tauto.
Qed.

(* the second partner: its value is overwritten by the centre's, the first partner is not disturbed *)
Lemma one3_sync F n va vb vc nts :
  inv3 (M3One n) va vb vc ->
  post3 (M3One n) (M3Star n) va vb vc (Sync 0%nat n 2%nat n true)
        (step (S (S (S F))) (st3 (M3One n) va vb vc nts) (Sync 0%nat n 2%nat n true)).
Proof.
  intros Hi. pose proof Hi as (Ta & Tb & Tc & Hn & He).
  destruct (nth_error va n) as [a|] eqn:Ha; [symmetry in He|destruct (typed_nth va n Ta Hn Ha)].
  destruct (nth_error vc n) as [c|] eqn:Hc; [|destruct (typed_nth vc n Tc Hn Hc)].
  pose proof (typed_kind va n a Ta Ha) as Hk.
  assert (nth_error vc n <> None) as Hc' by (rewrite Hc; discriminate).
  set (nl := if val_eqb c a then [] else [(2%nat, n)]).
  set (o0 := mkO true va [(n, [(1%nat, n); (2%nat, n)])] [] [n] (att_i_of n n)).
  assert (sync1 (S (S (S F))) (clear_notes (st3 (M3One n) va vb vc nts)) 0%nat n 2%nat n =
          (mkS [o0; leaf n vb; fresh (update n (fun _ => a) vc)] nl false, true)) as R1.
  { unfold st3, shape3, leaf, fresh, clear_notes, o0. sync_tables. rewrite ?Nat.eqb_refl. st_norm. st_cbn.
    rewrite (nth_error_nth _ _ _ Ha).
    rewrite assign_unlinked by (auto; right; split; reflexivity). st_cbn. rewrite (nth_error_nth _ _ _ Hc).
    subst nl. destruct (val_eqb c a); st_unfold; cbn [assoc_set]; rewrite ?Nat.eqb_refl; reflexivity. }
  assert (sync1 (S (S (S F))) (mkS [o0; leaf n vb; fresh (update n (fun _ => a) vc)] nl false) 2%nat n 0%nat n =
          (mkS (shape3 (M3Star n) (update n (fun _ => a) va) (update n (fun _ => a) vb) (update n (fun _ => a) vc)) nl false, true)) as R2.
  { unfold shape3, leaf, fresh, o0. sync_tables. st_cbn. rewrite (nth_update_hit _ _ _ _ Hc').
    rewrite assign_same by (auto; st_cbn; rewrite (nth_error_nth _ _ _ Ha); apply val_eqb_refl).
    st_unfold. rewrite (update_same _ _ _ He). reflexivity. }
  rewrite (step_sync _ _ _ _ _ _ true _ _ R1 R2).
  apply (sync3_post (M3One n) (M3Star n) n va vb vc 2%nat a); auto; cbn [notes linked3]; subst nl.
  - destruct (val_eqb c a); repeat constructor; intros [].
  - destruct (val_eqb c a); intros y Hy; cbn in *; tauto.
Qed.

(* removing a link of the star: the tables shrink, every trait is as before *)
Lemma unlink3_post md md' va vb vc o st' :
  inv3 md va vb vc -> inv3 md' va vb vc -> match o with Unsync _ _ _ _ _ => True | _ => False end ->
  objs st' = shape3 md' va vb vc -> overflow st' = false -> notes st' = [] ->
  post3 md md' va vb vc o (st', mk_obs Done st').
Proof.
  intros Hi Hi' Hop Ho Hov Hn.
  apply (post3_intro md md' va vb vc [] o (st', mk_obs Done st') _ _ _ Hi Ho Hi').
  apply inert_lawful; cbn [fst snd]; auto; try (destruct o; try contradiction; exact I);
    rewrite (snapshot_shape3 (st3 md va vb vc []) md va vb vc eq_refl Hi), (snapshot_shape3 _ _ _ _ _ Ho Hi'); auto.
Qed.

Lemma star3_unsync F n va vb vc nts :
  inv3 (M3Star n) va vb vc ->
  post3 (M3Star n) (M3One n) va vb vc (Unsync 0%nat n 2%nat n true)
        (step (S (S (S F))) (st3 (M3Star n) va vb vc nts) (Unsync 0%nat n 2%nat n true)).
Proof.
  intros Hi.
  assert (step (S (S (S F))) (st3 (M3Star n) va vb vc nts) (Unsync 0%nat n 2%nat n true) =
          (mkS (shape3 (M3One n) va vb vc) [] false, mk_obs Done (mkS (shape3 (M3One n) va vb vc) [] false))) as ->.
  { unfold st3, shape3, leaf. unsync_tables. destruct (is_list_name n && is_list_name n); unsync_tables; reflexivity. }
  apply (unlink3_post (M3Star n) (M3One n)); auto; try reflexivity.
  destruct Hi as (Ta & Tb & Tc & Hn & He & _). repeat split; assumption.
Qed.

Lemma one3_unsync F n va vb vc nts :
  inv3 (M3One n) va vb vc ->
  post3 (M3One n) M3Fresh va vb vc (Unsync 0%nat n 1%nat n true)
        (step (S (S (S F))) (st3 (M3One n) va vb vc nts) (Unsync 0%nat n 1%nat n true)).
Proof.
  intros Hi.
  assert (step (S (S (S F))) (st3 (M3One n) va vb vc nts) (Unsync 0%nat n 1%nat n true) =
          (mkS (shape3 M3Fresh va vb vc) [] false, mk_obs Done (mkS (shape3 M3Fresh va vb vc) [] false))) as ->.
  { unfold st3, shape3, leaf. unsync_tables. destruct (is_list_name n && is_list_name n); unsync_tables; reflexivity. }
  apply (unlink3_post (M3One n) M3Fresh); auto; try reflexivity.
  destruct Hi as (Ta & Tb & Tc & _). repeat split; assumption.
Qed.

(* ---------- assignments and mutations on every trait, in every mode ---------- *)
Lemma assign_post3 F md va vb vc nts x k v :
  inv3 md va vb vc -> sval [va; vb; vc] (x, k) <> None ->
  post3 md md va vb vc (Assign x k v) (step (S (S (S F))) (st3 md va vb vc nts) (Assign x k v)).
Proof.
  intros Hi Hz. destruct (kind_ok k v) eqn:Hk; [|apply rejected_post3; assumption].
  destruct (in_dec node_eq_dec (x, k) (linked3 md)) as [Hin|Hn];
    [|apply unlinked_assign_post3; assumption].
  destruct md as [|n|n]; try contradiction; apply (assign3_linked F _ n); auto.
Qed.

Lemma mut_post3 F md va vb vc nts x k mu :
  inv3 md va vb vc -> sval [va; vb; vc] (x, k) <> None -> replay2_ok mu ->
  post3 md md va vb vc (Mut x k mu) (step (S (S (S F))) (st3 md va vb vc nts) (Mut x k mu)).
Proof.
  intros Hi Hz Hr. destruct (in_dec node_eq_dec (x, k) (linked3 md)) as [Hin|Hn];
    [|apply unlinked_mut_post3; assumption].
  destruct md as [|n|n]; try contradiction; apply (mut3_linked F _ n); auto.
Qed.

Lemma live_sval3 md va vb vc x k :
  inv3 md va vb vc -> (x < 3)%nat -> (k < 4)%nat -> sval [va; vb; vc] (x, k) <> None.
Proof.
  intros ((? & ? & ? & ? & ->) & (? & ? & ? & ? & ->) & (? & ? & ? & ? & ->) & _) Hx Hk.
  destruct x as [|[|[|x]]]; try lia; destruct k as [|[|[|[|k]]]]; try lia; discriminate.
Qed.

(* ---------- automaton and induction ---------- *)
Section Protocol3.
  Variable allowed : mut -> Prop.
  Hypothesis allowed_replays : forall mu, allowed mu -> replay2_ok mu.

  Inductive trans3 : mode3 -> op -> mode3 -> Prop :=
  | T3_assign md x k v : (x < 3)%nat -> (k < 4)%nat -> trans3 md (Assign x k v) md
  | T3_mut md x k mu : (x < 3)%nat -> (k < 4)%nat -> allowed mu -> trans3 md (Mut x k mu) md
  | T3_sync1 n : (n < 4)%nat -> trans3 M3Fresh (Sync 0%nat n 1%nat n true) (M3One n)
  | T3_sync2 n : trans3 (M3One n) (Sync 0%nat n 2%nat n true) (M3Star n)
  | T3_unsync2 n : trans3 (M3Star n) (Unsync 0%nat n 2%nat n true) (M3One n)
  | T3_unsync1 n : trans3 (M3One n) (Unsync 0%nat n 1%nat n true) M3Fresh.

  Inductive accepts3 : mode3 -> list op -> Prop :=
  | A3_nil md : accepts3 md []
  | A3_cons md o md' r : trans3 md o md' -> accepts3 md' r -> accepts3 md (o :: r).

  Lemma trans3_post F md o md' va vb vc nts :
    trans3 md o md' -> inv3 md va vb vc ->
    post3 md md' va vb vc o (step (S (S (S F))) (st3 md va vb vc nts) o).
  Proof.
    intros T Hi. destruct T.
    - apply assign_post3; [exact Hi|apply (live_sval3 md); assumption].
    - apply mut_post3; [exact Hi|apply (live_sval3 md); assumption|apply allowed_replays; assumption].
    - apply fresh3_sync; auto.
    - apply one3_sync; auto.
    - apply star3_unsync; auto.
    - apply one3_unsync; auto.
  Qed.

  Lemma trans3_edges md o md' va vb vc :
    trans3 md o md' -> inv3 md va vb vc -> edges_after (edges3 md) o = edges3 md'.
  Proof.
    intros T Hi. destruct T; try reflexivity.
    - destruct Hi as (_ & _ & _ & Hn & _). name_cases n Hn; reflexivity.
    - destruct Hi as (_ & _ & _ & Hn & _). name_cases n Hn; reflexivity.
    - destruct Hi as (_ & _ & _ & Hn & _). name_cases n Hn; reflexivity.
  Qed.

  Lemma state_eta3 st md va vb vc :
    objs st = shape3 md va vb vc -> overflow st = false -> st = st3 md va vb vc (notes st).
  Proof. destruct st; cbn; intros -> ->; reflexivity. Qed.

  Theorem star_protocol_law F h : forall md va vb vc nts i,
    inv3 md va vb vc -> accepts3 md h ->
    law_hist i (edges3 md) [va; vb; vc] (run (S (S (S F))) (st3 md va vb vc nts) h) = [].
  Proof.
    induction h as [|o r IH]; intros md va vb vc nts i Hi Ha; [reflexivity|].
    inversion Ha as [|md0 o0 md' r0 T Ha']; subst.
    pose proof (trans3_post F _ _ _ _ _ _ nts T Hi) as (va' & vb' & vc' & Hs & Hi' & Hov & Hv & Hlaw).
    pose proof (trans3_edges _ _ _ _ _ _ T Hi) as He.
    cbn [run]. destruct (step (S (S (S F))) (st3 md va vb vc nts) o) as [st' ob] eqn:Hst.
    cbn [fst snd] in *. cbn [law_hist]. rewrite Hlaw, He, Hv. cbn [map app].
    rewrite (state_eta3 _ _ _ _ _ Hs Hov). apply IH; assumption.
  Qed.

  (* in the star the three linked traits are equal after every step *)
  Theorem star_converges F n va vb vc nts o :
    inv3 (M3Star n) va vb vc -> trans3 (M3Star n) o (M3Star n) ->
    let r := step (S (S (S F))) (st3 (M3Star n) va vb vc nts) o in
    sval (ob_vals (snd r)) (0%nat, n) = sval (ob_vals (snd r)) (1%nat, n) /\
    sval (ob_vals (snd r)) (0%nat, n) = sval (ob_vals (snd r)) (2%nat, n) /\
    overflow (fst r) = false.
  Proof.
    intros Hi T r.
    pose proof (trans3_post F _ _ _ _ _ _ nts T Hi) as (va' & vb' & vc' & Hs & Hi' & Hov & Hv & _).
    fold r in Hs, Hov, Hv. rewrite Hv. destruct Hi' as (_ & _ & _ & _ & E1 & E2).
    unfold sval. cbn. auto.
  Qed.
End Protocol3.
