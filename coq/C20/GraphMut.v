(* C20 — the general-graph protocol of GraphProtocol.v extended with IN-PLACE LIST MUTATIONS: a mutation is
   admitted whenever the link graph AT THAT MOMENT is a tree (TreeSpread.tree, decidable by treeb); links may be
   created, removed and partners may die before and after, so the graph may pass through cyclic shapes in
   between - only mutations have to wait for a tree (on a cyclic graph they do diverge: F19). *)
From Coq Require Import ZArith List Bool Arith Lia.
From TV Require Import Common.Harness C20.ListSem C20.SliceProofs C20.Model C20.Termination C20.Spread
                       C20.TreeSpread C20.GraphProtocol C20.Notes.
Import ListNotations.

Lemma list_not_any n : is_list_name n = true -> is_any_name n = false.
Proof.
  unfold is_list_name, is_any_name. intros H. apply andb_prop in H. destruct H as [_ H].
  apply Nat.leb_le in H. apply Nat.leb_gt. lia.
Qed.
Lemma kind_ok_list n v : is_list_name n = true -> kind_ok n v = true -> exists L, v = VL L.
Proof.
  intros Hl. unfold kind_ok. rewrite (list_not_any n Hl), Hl. destruct v as [z|L]; cbn; [discriminate|].
  intros _. exists L. reflexivity.
Qed.
Lemma kind_ok_VL n L : is_list_name n = true -> kind_ok n (VL L) = true.
Proof. intros Hl. unfold kind_ok. rewrite Hl. apply orb_true_r. Qed.

Theorem mut_step_inv fuel st o n mu :
  ginv st -> keys_nodup st -> tree st -> in_range st (o, n) -> is_list_name n = true ->
  replayable_mut mu = true -> (A st < fuel)%nat ->
  let st' := fst (step fuel st (Mut o n mu)) in
  ginv st' /\ keys_nodup st' /\ A st' = A st.
Proof.
  intros Hinv K T Rx Hl Hmu Hfuel st'. pose proof Hinv as [G Sy C NL Hov Ty].
  assert (Phi st < fuel)%nat as P by (pose proof (Phi_le_A st); lia).
  destruct (kind_ok_list n _ Hl (Ty (o, n) Rx)) as [L HL].
  assert (forall y, reach st (o, n) y -> val st y = VL L) as Hall.
  { intros y R. rewrite (consistent_reach st _ _ C R). exact HL. }
  destruct (mut_step_converges fuel st o n mu L (tree_otree st T) NL Hov P Rx Hl Hmu Hall) as (O' & F & L'' & Hnew & Hother).
  fold st' in O', F, Hnew, Hother.
  split; [|split; [eapply keys_nodup_frame; eassumption|symmetry; apply A_frame; exact F]].
  apply (ginv_revalue_frame st st' (o, n) (VL L'') Hinv F O' (kind_ok_VL n L'' Hl) Hnew).
  intros y E. destruct (Hother y) as [E'|R]; [contradiction|exact R].
Qed.

Definition op_ok5 (st : state) (o : op) : Prop :=
  match o with
  | Mut o n mu => tree st /\ in_range st (o, n) /\ is_list_name n = true /\ replayable_mut mu = true
  | _ => op_ok st o
  end.
Fixpoint run_ok5 (fuel : nat) (st : state) (ops : list op) : Prop :=
  match ops with
  | [] => True
  | o :: r => op_ok5 st o /\ run_ok5 fuel (fst (step fuel st o)) r
  end.

Theorem graph_step_inv5 fuel st o :
  ginv st -> keys_nodup st -> (A st + 4 < fuel)%nat -> op_ok5 st o ->
  let st' := fst (step fuel st o) in
  ginv st' /\ keys_nodup st' /\ (A st' <= A st + 4)%nat.
Proof.
  intros Hinv K Hfuel Hok.
  destruct o as [o n v|o n mu|o n p m b|o n p m b|d];
    try (destruct (graph_step_inv fuel st _ Hinv K Hfuel Hok) as (I1 & K1 & A1 & _); auto).
  destruct Hok as (T & Rx & Hl & Hmu).
  destruct (mut_step_inv fuel st o n mu Hinv K T Rx Hl Hmu ltac:(lia)) as (I1 & K1 & A1).
  split; [exact I1|]. split; [exact K1|]. cbv zeta. rewrite A1. lia.
Qed.

Theorem graph_histories5 fuel : forall ops st,
  ginv st -> keys_nodup st -> (A st + 4 * length ops < fuel)%nat -> run_ok5 fuel st ops ->
  ginv (final fuel st ops).
Proof.
  induction ops as [|o r IH]; intros st Hinv K Hfuel Hops; cbn [final]; [exact Hinv|].
  destruct Hops as (Hok & Hr). cbn [length] in Hfuel.
  destruct (graph_step_inv5 fuel st o Hinv K ltac:(lia) Hok) as (I1 & K1 & A1).
  apply IH; [exact I1|exact K1|lia|exact Hr].
Qed.

Theorem fresh_graph_histories5 fuel vs ops :
  typed_pool vs -> (4 * length ops < fuel)%nat -> run_ok5 fuel (init_state vs) ops ->
  let st' := final fuel (init_state vs) ops in
  consistent st' /\ symmetric st' /\ no_locks st' /\ overflow st' = false.
Proof.
  intros Ht Hfuel Hops st'. destruct (ginv_fresh vs Ht) as [I0 A0].
  destruct (graph_histories5 fuel ops (init_state vs) I0 (keys_fresh vs) ltac:(lia) Hops) as [_ Sy C NL Hov _].
  repeat split; assumption.
Qed.

Definition op_ok5b (st : state) (o : op) : bool :=
  match o with
  | Mut o n mu => treeb st && in_rangeb st (o, n) && is_list_name n && replayable_mut mu
  | _ => op_okb st o
  end.
Fixpoint run_ok5b (fuel : nat) (st : state) (ops : list op) : bool :=
  match ops with
  | [] => true
  | o :: r => op_ok5b st o && run_ok5b fuel (fst (step fuel st o)) r
  end.
Lemma op_ok5b_sound st o : op_ok5b st o = true -> op_ok5 st o.
Proof.
  destruct o as [o n v|o n mu|o n p m b|o n p m b|d]; try apply op_okb_sound.
  cbn [op_ok5b op_ok5]. rewrite !andb_true_iff. intros (((H1 & H2) & H3) & H4).
  auto using treeb_sound, in_rangeb_sound.
Qed.
Lemma run_ok5b_sound fuel : forall ops st, run_ok5b fuel st ops = true -> run_ok5 fuel st ops.
Proof.
  induction ops as [|o r IH]; intros st H; [exact I|]. cbn [run_ok5b] in H. apply andb_prop in H. destruct H as [H1 H2].
  split; [apply op_ok5b_sound; exact H1|apply IH; exact H2].
Qed.

Lemma ginv_ranged st : ginv st -> ranged st.
Proof. intros [G _ _ _ _ _] x y He. destruct (g_edge _ G x y He) as (_ & _ & R & _). exact R. Qed.

Theorem assign_notifies_exactly_the_component fuel st o n v :
  ginv st -> in_range st (o, n) -> kind_ok n v = true -> (A st < fuel)%nat ->
  let st' := fst (step fuel st (Assign o n v)) in
  (val st (o, n) = v -> forall y, nc st' y = 0%nat) /\
  (val st (o, n) <> v ->
     forall y, (reach st (o, n) y -> nc st' y = 1%nat) /\ (~ reach st (o, n) y -> nc st' y = 0%nat)).
Proof.
  intros Hinv Rx Hk Hfuel st'. pose proof Hinv as [_ _ C _ _ _].
  destruct (assign_step_inv fuel st o n v Hinv Rx Hk Hfuel) as (_ & _ & Hall & Hch). fold st' in Hall, Hch.
  (* the counts, read in the state whose notes have been cleared *)
  set (st0 := clear_notes st).
  pose proof (ginv_clear_notes st Hinv) as Hinv0. fold st0 in Hinv0. pose proof Hinv0 as [_ _ _ NL Hov _].
  assert (Phi st0 < fuel)%nat as P0 by (pose proof (Phi_le_A st0); assert (A st0 = A st) by reflexivity; lia).
  pose proof (assign_noted v fuel st0 o n (ginv_ranged st0 Hinv0) Hov (NL (o, n)) P0 Rx) as [_ N].
  unfold st0 in N. rewrite <- step_assign in N. fold st' in N.
  assert (forall y, nc (clear_notes st) y = 0%nat) as Z0 by reflexivity.
  assert (forall y, nc st' y = 0%nat \/ (val st y <> v /\ reach st (o, n) y /\ nc st' y = 1%nat)) as Hn.
  { intros y. destruct (N y) as [A1 B]. rewrite Z0 in A1, B. rewrite val_clear_notes in A1, B.
    destruct (val_dec (val st y) v) as [E|E]; [left; apply B; left; exact E|].
    destruct (val_dec (val st' y) v) as [E'|E']; [right|left; apply B; right; exact E'].
    split; [exact E|]. split; [apply Hch; congruence|apply A1; assumption]. }
  split.
  - intros Ev y. destruct (Hn y) as [Z|(E & R & _)]; [exact Z|].
    exfalso. apply E. rewrite (consistent_reach st _ _ C R). exact Ev.
  - intros Ne y. split.
    + intros R. destruct (N y) as [A1 _]. rewrite Z0, val_clear_notes in A1. apply A1; [|apply Hall, R].
      rewrite (consistent_reach st _ _ C R). exact Ne.
    + intros NR. destruct (Hn y) as [Z|(_ & R & _)]; [exact Z|contradiction].
Qed.
