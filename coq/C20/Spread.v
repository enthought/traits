(* C20 — convergence of ASSIGNMENTS for arbitrary pools and arbitrary link graphs (any number of
   objects, any tables: stars, chains, trees, cycles, aliases, one-way and mutual links, scalar and
   list traits): after `setattr(o, n, v)` every trait reachable from (o, n) along the live links
   holds v, provided the linked traits agreed before (which every earlier assignment re-established)
   and every reachable trait accepts v.  By induction over the propagation (Termination.sets), with
   its lock invariant:  only v is ever written; a trait that changes during the call hands v
   to every partner that is not locked, and a partner locked by an enclosing call already holds v. *)
From Coq Require Import ZArith List Bool Arith Lia.
From TV Require Import Common.Harness C20.ListSem C20.Model C20.Termination.
Import ListNotations.

Definition node := (oid * name)%type.
Definition val (st : state) (x : node) : Model.val := get_val st (fst x) (snd x).
Definition locked (st : state) (x : node) : bool := lockedb st (fst x) (snd x).
Definition edge (st : state) (x y : node) : Prop :=
  exists ps, partners st (fst x) (snd x) = Some ps /\ In y ps.
Definition in_range (st : state) (x : node) : Prop :=
  (fst x < length (objs st))%nat /\ (snd x < length (o_vals (get_obj st (fst x))))%nat.

Lemma node_eq_dec (x y : node) : {x = y} + {x <> y}.
Proof. decide equality; apply Nat.eq_dec. Qed.

Lemma val_dec (a b : Model.val) : a = b \/ a <> b.
Proof.
  destruct (val_eqb a b) eqn:E; [left; apply val_eqb_true; exact E|].
  right. intros ->. rewrite val_eqb_refl in E. discriminate.
Qed.

Lemma get_val_upd_keep st o f p m :
  (forall ob, o_vals (f ob) = o_vals ob) -> get_val (upd_obj st o f) p m = get_val st p m.
Proof. intros Hf. unfold get_val. rewrite (get_obj_upd_keep o_vals) by exact Hf. reflexivity. Qed.
Lemma val_lock st o n x : val (lock st o n) x = val st x.
Proof. unfold val, lock. apply get_val_upd_keep. reflexivity. Qed.
Lemma val_unlock st o n x : val (unlock st o n) x = val st x.
Proof. unfold val, unlock. apply get_val_upd_keep. reflexivity. Qed.
Lemma val_add_note st o n x : val (add_note st o n) x = val st x.
Proof. reflexivity. Qed.

Lemma val_set_same st o n v : in_range st (o, n) -> val (set_val st o n v) (o, n) = v.
Proof.
  intros [Ho Hn]. cbn [fst snd] in *. unfold val, get_val, set_val. cbn [fst snd].
  rewrite get_obj_upd_same by exact Ho. cbn [o_vals]. rewrite nth_update_same by exact Hn. reflexivity.
Qed.
Lemma val_set_other st o n v x : x <> (o, n) -> val (set_val st o n v) x = val st x.
Proof.
  intros Hne. destruct x as [p m]. unfold val, get_val, set_val. cbn [fst snd].
  destruct (Nat.eq_dec o p) as [<-|Hop].
  - destruct (Nat.lt_ge_cases o (length (objs st))) as [Hlt|Hge].
    + rewrite get_obj_upd_same by exact Hlt. cbn [o_vals].
      rewrite nth_update_other; [reflexivity|]. intros ->. apply Hne. reflexivity.
    + unfold upd_obj, get_obj. cbn [objs]. rewrite update_oob by exact Hge. reflexivity.
  - rewrite get_obj_upd_other by exact Hop. reflexivity.
Qed.
Lemma val_set_same_value st o n v y : val st (o, n) = v -> val (set_val st o n v) y = val st y.
Proof.
  intros Hv. destruct (node_eq_dec y (o, n)) as [->|Hy]; [|apply val_set_other; exact Hy].
  unfold val, get_val, set_val. cbn [fst snd].
  destruct (Nat.lt_ge_cases o (length (objs st))) as [Hlt|Hge].
  - rewrite get_obj_upd_same by exact Hlt. cbn [o_vals].
    destruct (Nat.lt_ge_cases n (length (o_vals (get_obj st o)))) as [Hn|Hn].
    + rewrite nth_update_same by exact Hn. symmetry. exact Hv.
    + rewrite !nth_overflow; [reflexivity|exact Hn|rewrite update_length; exact Hn].
  - unfold upd_obj, get_obj. cbn [objs]. rewrite update_oob by exact Hge. reflexivity.
Qed.

Lemma has_add1 n m l : has m (add1 n l) = true -> m = n \/ has m l = true.
Proof.
  unfold add1. destruct (has n l); [auto|]. unfold has. rewrite existsb_app. cbn.
  intros H. apply orb_prop in H. destruct H as [H|H]; [auto|].
  rewrite orb_false_r in H. apply Nat.eqb_eq in H. auto.
Qed.
Lemma locked_lock st o n x : locked (lock st o n) x = true -> x = (o, n) \/ locked st x = true.
Proof.
  destruct x as [p m]. unfold locked, lockedb, lock. cbn [fst snd].
  destruct (Nat.eq_dec o p) as [<-|Hne]; [|rewrite get_obj_upd_other by exact Hne; auto].
  destruct (Nat.lt_ge_cases o (length (objs st))) as [Hlt|Hge].
  - rewrite get_obj_upd_same by exact Hlt. cbn [o_locked]. intros H. apply has_add1 in H.
    destruct H as [->|H]; auto.
  - unfold upd_obj, get_obj. cbn [objs]. rewrite update_oob by exact Hge. auto.
Qed.
Lemma has_add1_back n m l : m = n \/ has m l = true -> has m (add1 n l) = true.
Proof.
  unfold add1. destruct (has n l) eqn:E; [intros [->|H]; assumption|].
  unfold has. rewrite existsb_app. cbn [existsb]. intros [->|H]; [rewrite Nat.eqb_refl; apply orb_true_r|].
  rewrite H. reflexivity.
Qed.
Lemma locked_lock_back st o n x :
  (o < length (objs st))%nat -> x = (o, n) \/ locked st x = true -> locked (lock st o n) x = true.
Proof.
  intros Ho H. destruct x as [p m]. unfold locked, lockedb, lock in *. cbn [fst snd] in *.
  destruct (Nat.eq_dec o p) as [<-|Hne].
  - rewrite get_obj_upd_same by exact Ho. cbn [o_locked]. apply has_add1_back.
    destruct H as [[= ->]|H]; [left; reflexivity|right; exact H].
  - rewrite get_obj_upd_other by exact Hne. destruct H as [[= -> _]|H]; [contradiction|exact H].
Qed.
Lemma locked_frame s t x : same_frame s t -> locked s x = locked t x.
Proof. intros F. unfold locked. apply lockedb_frame. exact F. Qed.

(* states with the same tables.
   What the shape hypotheses of this development (wf, ranged, tree, otree, gwf) speak about: the link
   tables, the attached handlers and which traits exist.  Calls keep all of it (same_frame), and so
   does taking a lock. *)
Record same_tables (s t : state) : Prop := mkTables {
  tb_partners : forall p m, partners s p m = partners t p m;
  tb_att_s : forall p, o_att_s (get_obj s p) = o_att_s (get_obj t p);
  tb_att_i : forall p, o_att_i (get_obj s p) = o_att_i (get_obj t p);
  tb_range : forall x, in_range s x <-> in_range t x
}.

Lemma frame_tables s t : same_frame s t -> same_tables s t.
Proof.
  intros F. split; intros.
  - apply partners_frame. exact F.
  - apply att_s_frame. exact F.
  - apply att_i_frame. exact F.
  - destruct F as [L F]. unfold in_range. destruct (F (fst x)) as (_ & _ & _ & _ & _ & ->). rewrite L. reflexivity.
Qed.
Lemma lock_tables st o n : same_tables st (lock st o n).
Proof.
  unfold lock. split; intros.
  - unfold partners. rewrite (get_obj_upd_keep o_info); reflexivity.
  - rewrite (get_obj_upd_keep o_att_s); reflexivity.
  - rewrite (get_obj_upd_keep o_att_i); reflexivity.
  - unfold in_range. rewrite upd_obj_length, (get_obj_upd_keep o_vals); reflexivity.
Qed.
Lemma tables_sym s t : same_tables s t -> same_tables t s.
Proof. intros [T1 T2 T3 T4]. split; intros; symmetry; auto. Qed.

Lemma edge_tables s t x y : same_tables s t -> edge s x y -> edge t x y.
Proof. intros T (ps & Hp & Hin). exists ps. rewrite <- (tb_partners _ _ T). auto. Qed.
Lemma edge_frame s t x y : same_frame s t -> edge s x y -> edge t x y.
Proof. intros F. apply edge_tables, frame_tables, F. Qed.
Lemma in_range_frame s t x : same_frame s t -> in_range s x -> in_range t x.
Proof. intros F. apply (tb_range _ _ (frame_tables _ _ F)). Qed.
Lemma partners_lock st o n p m : partners (lock st o n) p m = partners st p m.
Proof. symmetry. apply (tb_partners _ _ (lock_tables st o n)). Qed.

Record wf (st : state) (v : Model.val) : Prop := mkWf {
  wf_attached : forall x ps, partners st (fst x) (snd x) = Some ps ->
                             has (snd x) (o_att_s (get_obj st (fst x))) = true;
  (* a partner of a trait that accepts v accepts v too (links join traits of one kind) and exists *)
  wf_target : forall x y, edge st x y -> kind_ok (snd x) v = true -> kind_ok (snd y) v = true /\ in_range st y
}.

Lemma wf_tables s t v : same_tables s t -> wf s v -> wf t v.
Proof.
  intros T [W1 W2]. split.
  - intros x ps Hp. rewrite <- (tb_att_s _ _ T). apply (W1 x ps). rewrite (tb_partners _ _ T). exact Hp.
  - intros x y He Hkx. destruct (W2 x y (edge_tables _ _ _ _ (tables_sym _ _ T) He) Hkx) as [Hk Hr].
    split; [exact Hk|apply (tb_range _ _ T); exact Hr].
Qed.
Lemma wf_frame s t v : same_frame s t -> wf s v -> wf t v.
Proof. intros F. apply wf_tables, frame_tables, F. Qed.

Inductive reach (st : state) (x : node) : node -> Prop :=
| reach_refl : reach st x x
| reach_step y z : reach st x y -> edge st y z -> reach st x z.

Lemma reach_trans st x y z : reach st x y -> reach st y z -> reach st x z.
Proof. intros R1 R2. induction R2; [exact R1|]. eapply reach_step; eassumption. Qed.
Lemma reach_tables s t x y : same_tables s t -> reach s x y -> reach t x y.
Proof. intros T R. induction R; [constructor|]. eapply reach_step; [eassumption|eapply edge_tables; eassumption]. Qed.
Lemma reach_frame s t x y : same_frame s t -> reach s x y -> reach t x y.
Proof. intros F. apply reach_tables, frame_tables, F. Qed.

(* from s to s': only v was written, and a trait that took v handed it to every partner that is not locked *)
Definition spreads (v : Model.val) (s s' : state) : Prop :=
  (forall x, val s' x = val s x \/ val s' x = v) /\
  (forall x y, edge s x y -> val s x <> v -> val s' x = v -> locked s y = true \/ val s' y = v).

Lemma spreads_same v s s' : (forall x, val s' x = val s x) -> spreads v s s'.
Proof. intros H. split; [intros x; left; apply H|]. intros x y _ Hne Hv. rewrite H in Hv. contradiction. Qed.

Lemma spreads_trans v s s1 s2 : same_frame s s1 -> spreads v s s1 -> spreads v s1 s2 -> spreads v s s2.
Proof.
  intros F [A3 A5] [B3 B5]. split.
  - intros x. destruct (B3 x) as [E|E]; [rewrite E; apply A3|right; exact E].
  - intros x y He Hne Hv. destruct (val_dec (val s1 x) v) as [E1|E1].
    + destruct (A5 x y He Hne E1) as [L|E2]; [left; exact L|right].
      destruct (B3 y) as [E|E]; [rewrite E; exact E2|exact E].
    + rewrite (locked_frame _ _ y F). apply (B5 x y); [eapply edge_frame; eassumption|exact E1|exact Hv].
Qed.

Lemma set_note_vals st o n v : in_range st (o, n) ->
  val (add_note (set_val st o n v) o n) (o, n) = v /\
  forall x, x <> (o, n) -> val (add_note (set_val st o n v) o n) x = val st x.
Proof.
  intros Hr. split; [rewrite val_add_note; apply val_set_same; exact Hr|].
  intros x Hx. rewrite val_add_note. apply val_set_other. exact Hx.
Qed.

Theorem sets_spreads v :
  (forall st o n st', sets v st o n st' ->
     wf st v -> lockedb st o n = false -> kind_ok n v = true -> in_range st (o, n) ->
     val st' (o, n) = v /\ spreads v st st') /\
  (forall ps s s', walk v ps s s' ->
     wf s v -> (forall q, In q ps -> kind_ok (snd q) v = true /\ in_range s q) ->
     spreads v s s' /\ forall q, In q ps -> locked s q = true \/ val s' q = v).
Proof.
  apply sets_walk_ind.
  - intros st o n Hk0 _ _ Hk. congruence.
  - intros st o n _ E _ _ _ Hr. split; [apply val_set_same; exact Hr|].
    apply spreads_same. intros x. apply val_set_same_value. exact E.
  - (* the handler does nothing: (o, n) has no partner *)
    intros st o n _ Hne Hquiet W _ _ Hr. destruct (set_note_vals st o n v Hr) as [V2 V2o].
    split; [exact V2|]. split.
    + intros x. destruct (node_eq_dec x (o, n)) as [->|Hx]; [right; exact V2|left; apply V2o; exact Hx].
    + intros x y He Hnx Hv. destruct (node_eq_dec x (o, n)) as [->|Hx].
      * exfalso. destruct He as (ps & Hp & _). cbn [fst snd] in Hp.
        destruct Hquiet as [Ha|Hn]; [|congruence]. pose proof (wf_attached _ _ W (o, n) ps Hp). cbn [fst snd] in *. congruence.
      * rewrite V2o in Hv by exact Hx. contradiction.
  - intros st o n ps s4 _ Hne _ Hps Wk IHw W Hl Hk Hr.
    destruct (set_note_vals st o n v Hr) as [V2 V2o].
    pose proof (set_note_frame st o n v) as F2. set (st2 := add_note (set_val st o n v) o n) in *.
    set (st3 := lock st2 o n) in *.
    assert (same_tables st st3) as T3.
    { pose proof (frame_tables _ _ F2) as [A1 A2 A3 A4]. pose proof (lock_tables st2 o n) as [B1 B2 B3 B4].
      split; intros; [rewrite A1|rewrite A2|rewrite A3|rewrite A4]; auto. }
    destruct IHw as [[S3 S5] S4]; [eapply wf_tables; eassumption| |].
    { intros q Hin. destruct (wf_target _ _ W (o, n) q (ex_intro _ ps (conj Hps Hin)) Hk) as [Hkq Hrq].
      split; [exact Hkq|apply (tb_range _ _ T3); exact Hrq]. }
    assert (forall x, val st3 x = val st2 x) as V3 by (intros x; apply val_lock).
    assert (val s4 (o, n) = v) as V4 by (destruct (S3 (o, n)) as [E|E]; [rewrite E, V3; exact V2|exact E]).
    (* a partner locked in st3 is the origin itself or was locked before *)
    assert (forall y, locked st3 y = true -> locked st y = true \/ val s4 y = v) as Hlk.
    { intros y Ly. apply locked_lock in Ly. destruct Ly as [->|Ly]; [right; exact V4|].
      left. rewrite (locked_frame _ _ y F2). exact Ly. }
    split; [rewrite val_unlock; exact V4|]. split.
    + intros x. rewrite val_unlock. destruct (S3 x) as [E|E]; [|right; exact E].
      rewrite E, V3. destruct (node_eq_dec x (o, n)) as [->|Hx]; [right; exact V2|left; apply V2o; exact Hx].
    + intros x y He Hnx Hv. rewrite val_unlock in *.
      destruct (node_eq_dec x (o, n)) as [->|Hx].
      * (* the origin hands v to every partner *)
        destruct He as (qs & Hp & Hin). cbn [fst snd] in Hp. rewrite Hps in Hp. injection Hp as <-.
        destruct (S4 y Hin) as [L|E]; [apply Hlk; exact L|right; exact E].
      * destruct (S5 x y) as [L|E]; [eapply edge_tables; eassumption|rewrite V3, V2o by exact Hx; exact Hnx|exact Hv| |];
          [apply Hlk; exact L|right; exact E].
  - intros s _ _. split; [apply spreads_same; reflexivity|intros q []].
  - intros p pn r s s' Hl _ IHw W Hq. destruct IHw as [S S4]; [exact W|intros q Hin; apply Hq; right; exact Hin|].
    split; [exact S|]. intros q [<-|Hin]; [left; exact Hl|apply S4; exact Hin].
  - intros p pn r s s1 s' Hl S1 IH1 _ IHw W Hq.
    destruct (Hq (p, pn) (or_introl eq_refl)) as [Hk Hr]. cbn [snd] in Hk.
    destruct (IH1 W Hl Hk Hr) as [V1 T1]. pose proof (sets_frame v _ _ _ _ S1 Hl) as F1.
    destruct IHw as [[S3 S5] S4]; [eapply wf_frame; eassumption| |].
    { intros q Hin. destruct (Hq q (or_intror Hin)) as [Hkq Hrq]. split; [exact Hkq|eapply in_range_frame; eassumption]. }
    split; [eapply spreads_trans; [exact F1|exact T1|split; assumption]|].
    intros q [<-|Hin].
    + right. destruct (S3 (p, pn)) as [E|E]; [rewrite E; exact V1|exact E].
    + destruct (S4 q Hin) as [L|E]; [left; rewrite (locked_frame _ _ q F1); exact L|right; exact E].
Qed.

Theorem sets_touches_only_reachable v :
  (forall st o n st', sets v st o n st' -> forall x, val st' x <> val st x -> reach st (o, n) x) /\
  (forall ps s s', walk v ps s s' -> forall x, val s' x <> val s x -> exists q, In q ps /\ reach s q x).
Proof.
  assert (forall st o n x s, (forall y, y <> (o, n) -> val s y = val st y) -> val s x <> val st x -> reach st (o, n) x) as Hone.
  { intros st o n x s Hoth Hne. destruct (node_eq_dec x (o, n)) as [->|Hx]; [constructor|]. exfalso. apply Hne, Hoth, Hx. }
  apply sets_walk_ind.
  - intros st o n _ x Hne. exfalso. apply Hne. reflexivity.
  - intros st o n _ _ x. apply Hone. intros y. apply val_set_other.
  - intros st o n _ _ _ x. apply Hone. intros y Hy. rewrite val_add_note. apply val_set_other. exact Hy.
  - intros st o n ps s4 _ _ _ Hps _ IHw x Hne. rewrite val_unlock in Hne.
    set (st2 := add_note (set_val st o n v) o n) in *.
    destruct (val_dec (val s4 x) (val (lock st2 o n) x)) as [E|E].
    + rewrite E, val_lock in Hne. revert Hne. apply Hone. intros y Hy. unfold st2. rewrite val_add_note. apply val_set_other. exact Hy.
    + destruct (IHw x E) as (q & Hin & R).
      eapply reach_trans; [eapply reach_step; [constructor|exists ps; split; [exact Hps|exact Hin]]|].
      eapply reach_frame; [apply same_frame_sym, (set_note_frame st o n v)|].
      eapply reach_tables; [apply tables_sym, lock_tables|exact R].
  - intros s x Hne. exfalso. apply Hne. reflexivity.
  - intros p pn r s s' _ _ IHw x Hne. destruct (IHw x Hne) as (q & Hin & R). exists q. split; [right; exact Hin|exact R].
  - intros p pn r s s1 s' Hl S1 IH1 _ IHw x Hne.
    destruct (val_dec (val s1 x) (val s x)) as [E|E].
    + rewrite <- E in Hne. destruct (IHw x Hne) as (q & Hin & R). exists q. split; [right; exact Hin|].
      eapply reach_frame; [apply same_frame_sym, (sets_frame v _ _ _ _ S1 Hl)|exact R].
    + exists (p, pn). split; [left; reflexivity|apply IH1; exact E].
Qed.

Definition consistent (st : state) : Prop := forall x y, edge st x y -> val st x = val st y.
Definition no_locks (st : state) : Prop := forall x, locked st x = false.

(* agreement is only needed on the part of the graph the assignment can reach *)
Definition consistent_from (st : state) (x : node) : Prop :=
  forall y z, reach st x y -> edge st y z -> val st y = val st z.

Lemma agree_along st x : consistent_from st x -> forall y, reach st x y -> val st y = val st x.
Proof. intros C y R. induction R as [|y z R IHR He]; [reflexivity|]. rewrite <- (C y z R He). exact IHR. Qed.
Lemma consistent_reach st x y : consistent st -> reach st x y -> val st y = val st x.
Proof. intros C. apply agree_along. intros a b _. apply C. Qed.

Theorem assign_converges_from v f st o n :
  wf st v -> consistent_from st (o, n) -> no_locks st -> overflow st = false -> (Phi st < f)%nat ->
  kind_ok n v = true -> in_range st (o, n) ->
  let st' := fst (assign f st o n v) in
  overflow st' = false /\ same_frame st st' /\
  (forall y, reach st (o, n) y -> val st' y = v) /\
  (forall y, val st' y <> val st y -> reach st (o, n) y).
Proof.
  intros W C NL Hov HPhi Hk Hr st'.
  assert (lockedb st o n = false) as Hl by (apply (NL (o, n))).
  destruct (assign_terminates f st o n v Hov Hl HPhi) as [O' F'].
  pose proof (assign_sets v f st o n Hov Hl HPhi) as S. fold st' in O', F', S.
  destruct (proj1 (sets_spreads v) _ _ _ _ S W Hl Hk Hr) as [V [S3 S5]].
  split; [exact O'|]. split; [exact F'|]. split.
  - intros y R. induction R as [|y z R IHR He]; [exact V|].
    destruct (val_dec (val st y) v) as [E|E].
    + (* everything reachable already held v *)
      destruct (S3 z) as [E'|E']; [|exact E']. rewrite E', <- (C y z R He). exact E.
    + destruct (S5 y z He E IHR) as [L|E']; [|exact E']. rewrite (NL z) in L. discriminate.
  - exact (proj1 (sets_touches_only_reachable v) _ _ _ _ S).
Qed.

Theorem assign_converges v f st o n :
  wf st v -> consistent st -> no_locks st -> overflow st = false -> (Phi st < f)%nat ->
  kind_ok n v = true -> in_range st (o, n) ->
  let st' := fst (assign f st o n v) in
  overflow st' = false /\ same_frame st st' /\
  (forall y, reach st (o, n) y -> val st' y = v) /\
  (forall y, val st' y <> val st y -> reach st (o, n) y).
Proof.
  intros W C. apply assign_converges_from; [exact W|]. intros y z _ He. apply C. exact He.
Qed.

(* ... and the linked traits agree again afterwards, wherever the tables are symmetric or not *)
Corollary assign_restores_consistency v f st o n :
  wf st v -> consistent st -> no_locks st -> overflow st = false -> (Phi st < f)%nat ->
  kind_ok n v = true -> in_range st (o, n) ->
  forall x y, reach st (o, n) x -> edge st x y ->
    val (fst (assign f st o n v)) x = val (fst (assign f st o n v)) y.
Proof.
  intros W C NL Hov HPhi Hk Hr x y R He.
  destruct (assign_converges v f st o n W C NL Hov HPhi Hk Hr) as (_ & _ & Hall & _).
  rewrite (Hall x R). symmetry. apply Hall. eapply reach_step; eassumption.
Qed.

Definition wfb (st : state) (v : Model.val) : bool :=
  forallb (fun o =>
    let ob := get_obj st o in
    forallb (fun e =>
      has (fst e) (o_att_s ob)
      && (negb (kind_ok (fst e) v)
          || forallb (fun y => kind_ok (snd y) v
                               && Nat.ltb (fst y) (length (objs st))
                               && Nat.ltb (snd y) (length (o_vals (get_obj st (fst y))))) (snd e)))
      (o_info ob))
    (seq 0 (length (objs st))).

Definition consistentb (st : state) : bool :=
  forallb (fun o =>
    forallb (fun e => forallb (fun y => val_eqb (val st (o, fst e)) (val st y)) (snd e))
            (o_info (get_obj st o)))
    (seq 0 (length (objs st))).

Definition no_locksb (st : state) : bool :=
  forallb (fun ob => match o_locked ob with [] => true | _ => false end) (objs st).

Lemma assoc_In {A} k (a : A) l : assoc k l = Some a -> In (k, a) l.
Proof.
  induction l as [|[k' a'] l IH]; cbn; [discriminate|].
  destruct (Nat.eqb k k') eqn:E.
  - intros [= <-]. apply Nat.eqb_eq in E. subst. left. reflexivity.
  - intros H. right. apply IH. exact H.
Qed.

Lemma partners_in_range st o n ps : partners st o n = Some ps -> (o < length (objs st))%nat.
Proof.
  unfold partners. intros H. destruct (Nat.lt_ge_cases o (length (objs st))) as [Hlt|Hge]; [exact Hlt|].
  rewrite get_obj_oob in H by exact Hge. discriminate.
Qed.

Lemma forall_entries st (P : oid -> name * list (oid * name) -> bool) :
  forallb (fun o => forallb (P o) (o_info (get_obj st o))) (seq 0 (length (objs st))) = true ->
  forall o n ps, partners st o n = Some ps -> P o (n, ps) = true.
Proof.
  intros H o n ps Hp. rewrite forallb_forall in H. pose proof (partners_in_range _ _ _ _ Hp) as Ho.
  specialize (H o ltac:(apply in_seq; lia)). rewrite forallb_forall in H. apply H, assoc_In, Hp.
Qed.

Lemma wfb_sound st v : wfb st v = true -> wf st v.
Proof.
  intros H. unfold wfb in H. cbv zeta in H.
  assert (forall o n ps, partners st o n = Some ps ->
            has n (o_att_s (get_obj st o)) = true /\
            (kind_ok n v = true -> forall y, In y ps -> kind_ok (snd y) v = true /\ in_range st y)) as Hall.
  { intros o n ps Hp. pose proof (forall_entries st _ H o n ps Hp) as He. cbn [fst snd] in He.
    apply andb_prop in He. destruct He as [H1 H2]. split; [exact H1|]. intros Hkn.
    rewrite Hkn in H2. cbn [negb orb] in H2.
    rewrite forallb_forall in H2. intros y Hy. specialize (H2 y Hy).
    rewrite !andb_true_iff, !Nat.ltb_lt in H2. destruct H2 as ((H2 & H3) & H4). split; [exact H2|split; assumption]. }
  split.
  - intros x ps Hp. apply (Hall _ _ _ Hp).
  - intros x y (ps & Hp & Hin) Hkx. apply (proj2 (Hall _ _ _ Hp) Hkx y Hin).
Qed.

Lemma consistentb_sound st : consistentb st = true -> consistent st.
Proof.
  intros H [o n] y (ps & Hp & Hin). pose proof (forall_entries st _ H o n ps Hp) as He. cbn [fst snd] in He.
  rewrite forallb_forall in He. apply val_eqb_true, He, Hin.
Qed.

Lemma no_locksb_sound st : no_locksb st = true -> no_locks st.
Proof.
  intros H [o n]. unfold no_locksb in H. rewrite forallb_forall in H.
  unfold locked, lockedb. cbn [fst snd].
  destruct (Nat.lt_ge_cases o (length (objs st))) as [Hlt|Hge].
  - specialize (H (get_obj st o) ltac:(apply nth_In; exact Hlt)).
    destruct (o_locked (get_obj st o)); [reflexivity|discriminate].
  - rewrite get_obj_oob by exact Hge. reflexivity.
Qed.

Theorem assign_converges_checked v f st o n :
  wfb st v = true -> consistentb st = true -> no_locksb st = true -> overflow st = false ->
  (Phi st < f)%nat -> kind_ok n v = true -> in_range st (o, n) ->
  let st' := fst (assign f st o n v) in
  overflow st' = false /\ same_frame st st' /\
  (forall y, reach st (o, n) y -> val st' y = v) /\
  (forall y, ~ reach st (o, n) y -> val st' y = val st y \/ val st' y = v).
Proof.
  intros W C NL Hov HPhi Hk Hr.
  destruct (assign_converges v f st o n (wfb_sound _ _ W) (consistentb_sound _ C) (no_locksb_sound _ NL) Hov HPhi Hk Hr)
    as (O' & F' & Hall & Hoth).
  split; [exact O'|]. split; [exact F'|]. split; [exact Hall|]. intros y Hnr.
  destruct (val_dec (val (fst (assign f st o n v)) y) (val st y)) as [E|E]; [left; exact E|]. exfalso. apply Hnr, Hoth, E.
Qed.

Definition symmetric (st : state) : Prop := forall x y, edge st x y -> edge st y x.

Lemma reach_sym st x y : symmetric st -> reach st x y -> reach st y x.
Proof.
  intros Sy R. induction R as [|y z R IHR He]; [constructor|].
  eapply reach_trans; [eapply reach_step; [constructor|apply Sy; exact He]|exact IHR].
Qed.

Lemma consistent_revalue s t x v :
  symmetric s -> consistent s ->
  (forall y, reach s x y -> val t y = v) -> (forall y, val t y <> val s y -> reach s x y) ->
  forall a b, edge s a b -> val t a = val t b.
Proof.
  intros Sy C Hin Hch a b He.
  assert (forall y, val t y = val s y \/ reach s x y) as Hout
    by (intros y; destruct (val_dec (val t y) (val s y)) as [E|E]; [left; exact E|right; apply Hch; exact E]).
  assert (reach s x a <-> reach s x b) as [Rab Rba]
    by (split; intros R; eapply reach_step; [exact R|exact He|exact R|apply Sy; exact He]).
  destruct (Hout a) as [Ea|Ra]; [destruct (Hout b) as [Eb|Rb]|].
  - rewrite Ea, Eb. apply C. exact He.
  - rewrite (Hin a (Rba Rb)), (Hin b Rb). reflexivity.
  - rewrite (Hin a Ra), (Hin b (Rab Ra)). reflexivity.
Qed.

Lemma symmetric_frame s t : same_frame s t -> symmetric s -> symmetric t.
Proof.
  intros F Sy x y He. eapply edge_frame; [exact F|]. apply Sy. eapply edge_frame; [apply same_frame_sym; exact F|exact He].
Qed.
Lemma no_locks_frame s t : same_frame s t -> no_locks s -> no_locks t.
Proof. intros F NL x. rewrite <- (locked_frame s t _ F). apply NL. Qed.

(* one assignment through Model.step: the notes are cleared first, which nothing here reads *)
Lemma clear_notes_frame st : same_frame st (clear_notes st).
Proof. split; [reflexivity|intros; apply frame_ob_refl]. Qed.
Lemma val_clear_notes st x : val (clear_notes st) x = val st x.
Proof. reflexivity. Qed.
Lemma step_assign fuel st o n v : fst (step fuel st (Assign o n v)) = fst (assign fuel (clear_notes st) o n v).
Proof. unfold step. destruct (assign fuel (clear_notes st) o n v). reflexivity. Qed.

Theorem assign_step_converges v fuel st o n :
  wf st v -> consistent st -> no_locks st -> overflow st = false -> (Phi st < fuel)%nat ->
  kind_ok n v = true -> in_range st (o, n) ->
  let st' := fst (step fuel st (Assign o n v)) in
  overflow st' = false /\ same_frame st st' /\
  (forall y, reach st (o, n) y -> val st' y = v) /\
  (forall y, val st' y <> val st y -> reach st (o, n) y).
Proof.
  intros W C NL Hov HPhi Hk Hr st'. subst st'. rewrite step_assign.
  pose proof (clear_notes_frame st) as F0.
  destruct (assign_converges v fuel (clear_notes st) o n (wf_frame _ _ v F0 W) C NL Hov HPhi Hk Hr) as (O & F & Hin & Hout).
  split; [exact O|]. split; [exact (same_frame_trans _ _ _ F0 F)|]. split.
  - intros y R. apply Hin. eapply reach_frame; eassumption.
  - intros y E. eapply reach_frame; [apply same_frame_sym; exact F0|apply Hout; exact E].
Qed.

Theorem assign_step_consistent v fuel st o n :
  wf st v -> symmetric st -> consistent st -> no_locks st -> overflow st = false -> (Phi st < fuel)%nat ->
  kind_ok n v = true -> in_range st (o, n) ->
  let st' := fst (step fuel st (Assign o n v)) in
  consistent st' /\ overflow st' = false /\ same_frame st st'.
Proof.
  intros W Sy C NL Hov HPhi Hk Hr st'.
  destruct (assign_step_converges v fuel st o n W C NL Hov HPhi Hk Hr) as (O & F & Hin & Hout). fold st' in O, F, Hin, Hout.
  split; [|split; assumption]. intros x y He.
  apply (consistent_revalue st st' (o, n) v Sy C Hin Hout). eapply edge_frame; [apply same_frame_sym; exact F|exact He].
Qed.

(* a history of assignments (through Model.step) on a fixed, arbitrary mutual link graph *)
Fixpoint assigns_ok (st : state) (ops : list op) : Prop :=
  match ops with
  | [] => True
  | Assign o n v :: r => wf st v /\ kind_ok n v = true /\ in_range st (o, n) /\ assigns_ok st r
  | _ :: _ => False
  end.

Lemma assigns_ok_frame s t ops : same_frame s t -> assigns_ok s ops -> assigns_ok t ops.
Proof.
  intros F. induction ops as [|[o n v| | | |] r IH]; cbn; auto.
  intros (W & K & R & A). split; [eapply wf_frame; eassumption|]. split; [exact K|].
  split; [eapply in_range_frame; eassumption|apply IH; exact A].
Qed.

Fixpoint final (fuel : nat) (st : state) (ops : list op) : state :=
  match ops with [] => st | o :: r => final fuel (fst (step fuel st o)) r end.

Theorem assignment_histories_converge fuel : forall ops st,
  symmetric st -> consistent st -> no_locks st -> overflow st = false -> (Phi st < fuel)%nat ->
  assigns_ok st ops ->
  consistent (final fuel st ops) /\ overflow (final fuel st ops) = false /\ same_frame st (final fuel st ops).
Proof.
  induction ops as [|[o n v| | | |] r IH]; intros st Sy C NL Hov HPhi A; cbn [final]; try contradiction.
  - split; [exact C|]. split; [exact Hov|apply same_frame_refl].
  - destruct A as (W & K & R & A).
    destruct (assign_step_consistent v fuel st o n W Sy C NL Hov HPhi K R) as (C1 & O1 & F1).
    destruct (IH _ (symmetric_frame _ _ F1 Sy) C1 (no_locks_frame _ _ F1 NL) O1
                 ltac:(rewrite <- (Phi_frame _ _ F1); exact HPhi) (assigns_ok_frame _ _ _ F1 A)) as (Cf & Of & Ff).
    split; [exact Cf|]. split; [exact Of|eapply same_frame_trans; eassumption].
Qed.

Definition symmetricb (st : state) : bool :=
  forallb (fun o =>
    forallb (fun e => forallb (fun y => match partners st (fst y) (snd y) with
                                        | Some ps' => has_key (o, fst e) ps'
                                        | None => false
                                        end) (snd e))
            (o_info (get_obj st o)))
    (seq 0 (length (objs st))).

Lemma symmetricb_sound st : symmetricb st = true -> symmetric st.
Proof.
  intros H [o n] y (ps & Hp & Hin). pose proof (forall_entries st _ H o n ps Hp) as He. cbn [fst snd] in He.
  rewrite forallb_forall in He. specialize (He y Hin).
  destruct (partners st (fst y) (snd y)) as [ps'|] eqn:Hp'; [|discriminate].
  exists ps'. split; [exact Hp'|apply has_key_In; exact He].
Qed.

Fixpoint assigns_okb (st : state) (ops : list op) : bool :=
  match ops with
  | [] => true
  | Assign o n v :: r =>
      wfb st v && kind_ok n v && Nat.ltb o (length (objs st)) && Nat.ltb n (length (o_vals (get_obj st o)))
      && assigns_okb st r
  | _ :: _ => false
  end.
Lemma assigns_okb_sound st ops : assigns_okb st ops = true -> assigns_ok st ops.
Proof.
  induction ops as [|[o n v| | | |] r IH]; cbn [assigns_okb assigns_ok]; try discriminate; auto.
  rewrite !andb_true_iff, !Nat.ltb_lt. intros ((((W & K) & R1) & R2) & A).
  split; [apply wfb_sound; exact W|]. split; [exact K|]. split; [split; assumption|apply IH; exact A].
Qed.

Theorem assignment_histories_converge_checked fuel ops st :
  symmetricb st = true -> consistentb st = true -> no_locksb st = true -> overflow st = false ->
  Nat.ltb (Phi st) fuel = true -> assigns_okb st ops = true ->
  consistent (final fuel st ops) /\ overflow (final fuel st ops) = false /\ same_frame st (final fuel st ops).
Proof.
  intros Sy C NL Hov HPhi A. apply assignment_histories_converge;
    [apply symmetricb_sound|apply consistentb_sound|apply no_locksb_sound| |apply Nat.ltb_lt|apply assigns_okb_sound]; assumption.
Qed.
