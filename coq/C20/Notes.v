(* C20 — NOTIFICATIONS of an assignment, for arbitrary pools and link graphs: during `setattr(o, n, v)`
   with all its propagation a trait's change handlers fire exactly once if its value changed (to v) and
   not at all otherwise.  By induction over the propagation (Termination.sets); the only fact used besides
   the lock invariant is that v is the only value ever written, so a trait that holds v is never touched again. *)
From Coq Require Import ZArith List Bool Arith Lia.
From TV Require Import Common.Harness C20.ListSem C20.Model C20.Termination C20.Spread.
Import ListNotations.

Definition nc (st : state) (y : node) : nat := length (filter (key_eqb y) (notes st)).

Lemma count_notes_nc st o n : count_notes st o n = Z.of_nat (nc st (o, n)).
Proof. reflexivity. Qed.

Lemma nc_add_note_same st o n : nc (add_note st o n) (o, n) = S (nc st (o, n)).
Proof. unfold nc, add_note. cbn [notes]. rewrite filter_app, app_length. cbn [filter]. rewrite (proj2 (key_eqb_true _ _) eq_refl). cbn [length]. lia. Qed.
Lemma nc_add_note_other st o n y : y <> (o, n) -> nc (add_note st o n) y = nc st y.
Proof. intros H. unfold nc, add_note. cbn [notes]. rewrite filter_app, app_length. cbn [filter]. rewrite (keqb_neq _ _ H). cbn [length]. lia. Qed.

Section Notes.
  Variable v : Model.val.

  (* from s to s': only v was written, and every trait was notified once iff it changed *)
  Definition noted (s s' : state) : Prop :=
    (forall x, val s' x = val s x \/ val s' x = v) /\
    (forall y, (val s y <> v -> val s' y = v -> nc s' y = S (nc s y)) /\
               (val s y = v \/ val s' y <> v -> nc s' y = nc s y)).

  Lemma noted_same s s' : (forall x, val s' x = val s x) -> notes s' = notes s -> noted s s'.
  Proof.
    intros Hv Hn. split; [intros x; left; apply Hv|]. intros y. unfold nc. rewrite Hn, Hv. split; [|reflexivity].
    intros A B. contradiction.
  Qed.

  Lemma noted_trans s s1 s2 : noted s s1 -> noted s1 s2 -> noted s s2.
  Proof.
    intros [P1 N1] [P2 N2]. split.
    - intros x. destruct (P2 x) as [E|E]; [rewrite E; apply P1|right; exact E].
    - intros y. destruct (N1 y) as [A1 B1]. destruct (N2 y) as [A2 B2].
      destruct (val_dec (val s y) v) as [E0|E0]; destruct (val_dec (val s1 y) v) as [E1|E1];
        destruct (val_dec (val s2 y) v) as [E2|E2].
      + split; [contradiction|]. intros _. rewrite B2, B1; auto.
      + exfalso. destruct (P2 y) as [E|E]; congruence.
      + exfalso. destruct (P1 y) as [E|E]; congruence.
      + exfalso. destruct (P1 y) as [E|E]; congruence.
      + split; [intros _ _; rewrite B2, A1; auto|intros [E|E]; contradiction].
      + exfalso. destruct (P2 y) as [E|E]; congruence.
      + split; [intros _ _; rewrite A2, B1; auto|intros [E|E]; contradiction].
      + split; [intros _ E; contradiction|]. intros _. rewrite B2, B1; auto.
  Qed.

  Lemma noted_set st o n :
    in_range st (o, n) -> val st (o, n) <> v -> noted st (add_note (set_val st o n v) o n).
  Proof.
    intros Hr Hne. split.
    - intros x. rewrite val_add_note. destruct (node_eq_dec x (o, n)) as [->|Hx]; [right; apply val_set_same; exact Hr|].
      left. apply val_set_other. exact Hx.
    - intros y. rewrite val_add_note. destruct (node_eq_dec y (o, n)) as [->|Hy].
      + split; [intros _ _; exact (nc_add_note_same (set_val st o n v) o n)|]. intros [E|E]; [contradiction|].
        exfalso. apply E. apply val_set_same. exact Hr.
      + rewrite (val_set_other st o n v y Hy). split; [intros A B; contradiction|].
        intros _. exact (nc_add_note_other (set_val st o n v) o n y Hy).
  Qed.

  Definition ranged (st : state) : Prop := forall x y, edge st x y -> in_range st y.

  Lemma ranged_tables s t : same_tables s t -> ranged s -> ranged t.
  Proof.
    intros T R x y He. apply (tb_range _ _ T), (R x). eapply edge_tables; [apply tables_sym; exact T|exact He].
  Qed.

  Theorem sets_noted :
    (forall st o n st', sets v st o n st' ->
       ranged st -> lockedb st o n = false -> in_range st (o, n) -> noted st st') /\
    (forall ps s s', walk v ps s s' -> ranged s -> (forall q, In q ps -> in_range s q) -> noted s s').
  Proof.
    apply sets_walk_ind.
    - intros. apply noted_same; reflexivity.
    - intros st o n _ E _ _ _. apply noted_same; [|reflexivity]. intros x. apply val_set_same_value. exact E.
    - intros st o n _ Hne _ _ _ Hr. apply noted_set; [exact Hr|exact Hne].
    - intros st o n ps s4 _ Hne _ Hps _ IHw R _ Hr.
      pose proof (frame_tables _ _ (set_note_frame st o n v)) as T2.
      pose proof (lock_tables (add_note (set_val st o n v) o n) o n) as T3.
      eapply noted_trans; [apply noted_set; [exact Hr|exact Hne]|].
      eapply noted_trans; [apply noted_same; [intros x; apply val_lock|reflexivity]|].
      eapply noted_trans; [|apply noted_same; [intros x; apply val_unlock|reflexivity]].
      apply IHw; [eapply ranged_tables; [exact T3|eapply ranged_tables; eassumption]|].
      intros q Hin. apply (tb_range _ _ T3), (tb_range _ _ T2), (R (o, n)). exists ps. auto.
    - intros. apply noted_same; reflexivity.
    - intros p pn r s s' _ _ IHw R Hq. apply IHw; [exact R|]. intros q Hin. apply Hq. right. exact Hin.
    - intros p pn r s s1 s' Hl S1 IH1 _ IHw R Hq. pose proof (sets_frame v _ _ _ _ S1 Hl) as F1.
      eapply noted_trans; [apply IH1; [exact R|exact Hl|apply Hq; left; reflexivity]|].
      apply IHw; [eapply ranged_tables; [apply frame_tables; exact F1|exact R]|].
      intros q Hin. eapply in_range_frame; [exact F1|apply Hq; right; exact Hin].
  Qed.

  Theorem assign_noted : forall f st o n,
    ranged st -> overflow st = false -> lockedb st o n = false -> (Phi st < f)%nat -> in_range st (o, n) ->
    noted st (fst (assign f st o n v)).
  Proof.
    intros f st o n R Hov Hl HPhi Hr. exact (proj1 sets_noted _ _ _ _ (assign_sets v f st o n Hov Hl HPhi) R Hl Hr).
  Qed.
End Notes.
