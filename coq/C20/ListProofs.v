(* C20 — the event of every non-slice TraitList mutator, applied by the items handler
   (slice assignment  pl[i : i+len(removed)] = added) to an equal list, reproduces the mutation. *)
From Coq Require Import ZArith List Bool Arith Lia ZifyBool.
From TV Require Import C20.ListSem.
Import ListNotations.
Open Scope Z_scope.

Lemma zlen_nonneg l : 0 <= zlen l.
Proof. unfold zlen. lia. Qed.

Lemma firstz_all l : firstz (zlen l) l = l.
Proof. unfold firstz, zlen. rewrite Nat2Z.id. apply firstn_all. Qed.
Lemma skipz_all l : skipz (zlen l) l = [].
Proof. unfold skipz, zlen. rewrite Nat2Z.id. apply skipn_all. Qed.
Lemma firstz_0 l : firstz 0 l = [].
Proof. reflexivity. Qed.
Lemma skipz_0 l : skipz 0 l = l.
Proof. reflexivity. Qed.

Lemma indices_plain len a b :
  0 <= a -> a <= b -> b <= len -> indices len (Some a, Some b, None) = (a, b, 1).
Proof.
  intros. unfold indices, adjust. cbn.
  replace (a <? 0) with false by lia. replace (b <? 0) with false by lia.
  destruct (a >=? len) eqn:E1; destruct (b >=? len) eqn:E2; repeat f_equal; lia.
Qed.

(* the slice assignment the handler performs, on an in-range plain slice *)
Lemma list_setitem_plain l a b vs :
  0 <= a -> a <= b -> b <= zlen l ->
  list_setitem l (KS (Some a, Some b, None)) vs = Ok (splice l a b vs).
Proof.
  intros. unfold list_setitem. rewrite indices_plain by lia. cbn.
  replace (b <? a) with false by lia. reflexivity.
Qed.

(* `l[a:b] = xs` with step None / 1, in terms of the unpacked slice: contents, and the event unless
   nothing was removed or added *)
Lemma tl_setitem_step1 l sl xs a b :
  indices (zlen l) sl = (a, b, 1) ->
  tl_setitem l (KS sl) xs =
  let removed := select l (positions a 1 (Z.to_nat (slicelen a b 1))) in
  Ok (splice l a (if b <? a then a else b) xs,
      if is_nil xs && is_nil removed then None else Some (mkEv (EI a) removed xs)).
Proof.
  intros Hi. unfold tl_setitem, getitem, list_setitem, normalize. rewrite Hi. cbn.
  destruct (is_nil xs && is_nil _); reflexivity.
Qed.

Lemma tl_setitem_plain l a b vs :
  0 <= a -> a <= b -> b <= zlen l ->
  exists oev, tl_setitem l (KS (Some a, Some b, None)) vs = Ok (splice l a b vs, oev).
Proof.
  intros. rewrite (tl_setitem_step1 l _ vs a b) by (apply indices_plain; lia).
  replace (b <? a) with false by lia. eauto.
Qed.

Lemma nthz_bound l j x : nthz l j = Some x -> 0 <= j < zlen l.
Proof.
  unfold nthz, zlen. destruct (j <? 0) eqn:E; [discriminate|]. intros Hn.
  assert (nth_error l (Z.to_nat j) <> None) as Hs by congruence.
  apply nth_error_Some in Hs. lia.
Qed.

Lemma index_of_bound x l : forall k j, index_of k x l = Some j -> k <= j < k + zlen l.
Proof.
  induction l as [|y r IH]; intros k j; cbn [index_of]; [discriminate|].
  unfold zlen in *. cbn [length]. destruct (y =? x).
  - intros [= <-]. lia.
  - intros Hj. apply IH in Hj. lia.
Qed.

Lemma splice_app_end l vs : splice l (zlen l) (zlen l) vs = l ++ vs.
Proof. unfold splice. rewrite firstz_all, skipz_all, app_nil_r. reflexivity. Qed.
Lemma splice_all l vs : splice l 0 (zlen l) vs = vs.
Proof. unfold splice. rewrite firstz_0, skipz_all, app_nil_r. reflexivity. Qed.
Lemma splice_nil_same l a : splice l a a [] = l.
Proof. apply firstn_skipn. Qed.

Lemma skipz_app_len l r : skipz (zlen l) (l ++ r) = r.
Proof.
  unfold skipz, zlen. rewrite Nat2Z.id. rewrite skipn_app, skipn_all, Nat.sub_diag. reflexivity.
Qed.

Ltac zl := unfold zlen in *; cbn [length] in *; lia.

Definition simple_mut (m : mut) : bool :=
  match m with MSetS _ _ | MDelS _ => false | _ => true end.

(* the event replays on an equal list (the C05 replay law, specialised to the handler's slice form) *)
Definition replay_event (l : list Z) (m : mut) : Prop :=
  forall l' ev, mutate l m = Ok (l', Some ev) -> exists oev, apply_event l ev = Ok (l', oev).
(* a mutation that sends no event did not change the list (C05: change => event) *)
Definition silent_unchanged (l : list Z) (m : mut) : Prop :=
  forall l', mutate l m = Ok (l', None) -> l' = l.
Definition replay_ok (l : list Z) (m : mut) : Prop := replay_event l m /\ silent_unchanged l m.

(* The normal form of every event considered here: an integer index [i] with the step from [l] to [l']
   being the in-range slice assignment  l[i : i+len(removed)] = added  that the items handler performs. *)
Inductive splice_event (l : list Z) : list Z -> event -> Prop :=
| SpliceEvent i removed added :
    0 <= i -> i + zlen removed <= zlen l ->
    splice_event l (splice l i (i + zlen removed) added) (mkEv (EI i) removed added).

Lemma splice_event_intro l i j removed added :
  0 <= i -> j = i + zlen removed -> j <= zlen l ->
  splice_event l (splice l i j added) (mkEv (EI i) removed added).
Proof. intros Hi -> Hj. constructor; assumption. Qed.

Lemma splice_event_replays l l' ev : splice_event l l' ev -> exists oev, apply_event l ev = Ok (l', oev).
Proof.
  intros [i removed added Hi Hr]. pose proof (zlen_nonneg removed).
  apply (tl_setitem_plain l i (i + zlen removed) added); lia.
Qed.

(* an outcome (new contents, event or None) of an operation on [l] that partners can follow *)
Definition replayable (l : list Z) (r : list Z * option event) : Prop :=
  match r with (l', Some ev) => splice_event l l' ev | (l', None) => l' = l end.

Lemma replay_ok_intro l m : (forall r, mutate l m = Ok r -> replayable l r) -> replay_ok l m.
Proof.
  intros H. split.
  - intros l' ev Hm. apply splice_event_replays, (H _ Hm).
  - intros l' Hm. exact (H _ Hm).
Qed.

Lemma replayable_splice l i j removed added :
  0 <= i -> j = i + zlen removed -> j <= zlen l ->
  replayable l (splice l i j added,
                if is_nil added && is_nil removed then None else Some (mkEv (EI i) removed added)).
Proof.
  intros Hi -> Hj. destruct added, removed; try (constructor; assumption).
  cbn. rewrite Z.add_0_r. apply splice_nil_same.
Qed.

(* the three shapes of TraitList events: items added at the end, the whole list replaced, one item replaced *)
Lemma replayable_end l added : replayable l (l ++ added, ev_if added (mkEv (EI (zlen l)) [] added)).
Proof.
  destruct added; cbn; [apply app_nil_r|].
  rewrite <- splice_app_end. apply splice_event_intro; zl.
Qed.

Lemma replayable_all l added :
  (l = [] -> added = []) -> replayable l (added, ev_if l (mkEv (EI 0) l added)).
Proof.
  intros H. destruct l as [|x l]; [exact (H eq_refl)|].
  rewrite <- (splice_all (x :: l) added) at 1. apply splice_event_intro; lia.
Qed.

Lemma replayable_item l j old added :
  0 <= j < zlen l -> replayable l (splice l j (j + 1) added, Some (mkEv (EI j) [old] added)).
Proof. intros H. apply splice_event_intro; zl. Qed.

Theorem simple_mutate_replayable l m r : simple_mut m = true -> mutate l m = Ok r -> replayable l r.
Proof.
  intros Hs. destruct m; try discriminate Hs; cbn [mutate].
  - (* append *) intros [= <-]. apply (replayable_end l [x]).
  - (* insert *) intros [= <-]. pose proof (zlen_nonneg l).
    apply splice_event_intro; [|zl|]; destruct (i <? 0) eqn:Ei; lia.
  - (* setitem int *) unfold tl_setitem, getitem, list_setitem.
    destruct (nthz l _) eqn:E; [|discriminate]. intros [= <-].
    apply replayable_item, (nthz_bound _ _ _ E).
  - (* delitem int *) unfold tl_delitem, getitem, list_delitem.
    destruct (nthz l _) eqn:E; [|discriminate]. intros [= <-].
    apply replayable_item, (nthz_bound _ _ _ E).
  - (* extend *) intros [= <-]. apply replayable_end.
  - (* iadd *) intros [= <-]. apply replayable_end.
  - (* imul *) destruct (k <? 1) eqn:Ek; intros [= <-].
    + apply replayable_all. reflexivity.
    + destruct (Z.to_nat k) eqn:En; [lia|]. cbn [repeat_list]. rewrite skipz_app_len.
      apply replayable_end.
  - (* pop *) destruct (nthz l _) eqn:E; [|discriminate]. intros [= <-].
    apply replayable_item, (nthz_bound _ _ _ E).
  - (* remove *) destruct (index_of 0 x l) eqn:E; [|discriminate]. intros [= <-].
    apply replayable_item, (index_of_bound _ _ _ _ E).
  - (* clear *) intros [= <-]. apply replayable_all. reflexivity.
  - (* sort *) intros [= <-]. apply replayable_all. intros ->. reflexivity.
  - (* reverse *) intros [= <-]. apply replayable_all. intros ->. reflexivity.
Qed.

Theorem simple_replay_ok l m : simple_mut m = true -> replay_ok l m.
Proof. intros H. apply replay_ok_intro. intro r. apply simple_mutate_replayable, H. Qed.

(* the only exceptions a mutator raises are the built-in list's IndexError / ValueError *)
Lemma getitem_raises l k e : getitem l k = Raise e -> e = ValueError.
Proof.
  destruct k as [i|sl]; cbn [getitem].
  - destruct (nthz l _); discriminate.
  - destruct (indices (zlen l) sl) as [[a b] c]. destruct (c =? 0); [congruence|discriminate].
Qed.
Lemma list_setitem_raises l k vs e : list_setitem l k vs = Raise e -> e = IndexError \/ e = ValueError.
Proof.
  destruct k as [i|sl]; cbn [list_setitem].
  - destruct (nthz l _); destruct vs; intros [= <-]; auto.
  - destruct (indices (zlen l) sl) as [[a b] c]. destruct (c =? 0); [intros [= <-]; auto|].
    destruct (c =? 1); [discriminate|]. destruct (zlen vs =? _); [discriminate|intros [= <-]; auto].
Qed.
Lemma list_delitem_raises l k e : list_delitem l k = Raise e -> e = IndexError \/ e = ValueError.
Proof.
  destruct k as [i|sl]; cbn [list_delitem].
  - destruct (nthz l _); intros [= <-]; auto.
  - destruct (indices (zlen l) sl) as [[a b] c]. destruct (c =? 0); [intros [= <-]; auto|discriminate].
Qed.
Lemma tl_setitem_raises l k vs e : tl_setitem l k vs = Raise e -> e = IndexError \/ e = ValueError.
Proof.
  unfold tl_setitem. destruct (getitem l k) eqn:G.
  - destruct (list_setitem l k vs) eqn:S.
    + destruct (is_nil _ && is_nil _); [discriminate|]. destruct (normalize k (zlen l)). discriminate.
    + intros [= <-]. eapply list_setitem_raises; eauto.
  - intros [= <-]. right. eapply getitem_raises; eauto.
Qed.
Lemma tl_delitem_raises l k e : tl_delitem l k = Raise e -> e = IndexError \/ e = ValueError.
Proof.
  unfold tl_delitem. destruct (getitem l k) eqn:G.
  - destruct (list_delitem l k) eqn:S.
    + destruct (is_nil _); [discriminate|]. destruct (normalize k (zlen l)). discriminate.
    + intros [= <-]. eapply list_delitem_raises; eauto.
  - intros [= <-]. right. eapply getitem_raises; eauto.
Qed.
Theorem mutate_raises l m e : mutate l m = Raise e -> e = IndexError \/ e = ValueError.
Proof.
  destruct m; cbn [mutate]; try discriminate;
    try (apply tl_setitem_raises); try (apply tl_delitem_raises).
  - destruct (k <? 1); discriminate.
  - destruct (nthz l _); [discriminate|intros [= <-]; auto].
  - destruct (index_of 0 x l); [discriminate|intros [= <-]; auto].
Qed.
