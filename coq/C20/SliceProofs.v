(* C20 — the replay law for slice keys with step None / 1 (`l[a:b] = xs`, `del l[a:b]`): the event
   TraitList sends for them, applied by the items handler to an equal list, reproduces the mutation.
   Together with ListProofs.simple_replay_ok: every mutator except EXTENDED slices (step not in {None, 1}). *)
From Coq Require Import ZArith List Bool Arith Lia ZifyBool.
From TV Require Import C20.ListSem C20.ListProofs.
Import ListNotations.
Open Scope Z_scope.

Definition plain_slice (sl : slice) : bool :=
  match snd sl with None => true | Some c => c =? 1 end.

Lemma adjust_step1_bounds len x : 0 <= len -> 0 <= adjust len 1 x <= len.
Proof.
  intros Hl. unfold adjust. change (1 <? 0) with false. cbv iota.
  destruct (x <? 0) eqn:E1; [destruct (x + len <? 0) eqn:E2|destruct (x >=? len) eqn:E3]; lia.
Qed.

Lemma indices_plain_bounds len sl :
  0 <= len -> plain_slice sl = true ->
  exists a b, indices len sl = (a, b, 1) /\ 0 <= a <= len /\ 0 <= b <= len.
Proof.
  intros Hl Hp. destruct sl as [[oa ob] oc].
  assert (match oc with Some s => s | None => 1 end = 1) as Hc
    by (destruct oc; [apply Z.eqb_eq, Hp|reflexivity]).
  unfold indices. rewrite Hc. eexists _, _. split; [reflexivity|].
  split; [destruct oa|destruct ob]; try apply adjust_step1_bounds; cbn; lia.
Qed.

(* selecting k consecutive valid positions *)
Lemma select_positions_length l : forall k a,
  0 <= a -> a + Z.of_nat k <= zlen l -> zlen (select l (positions a 1 k)) = Z.of_nat k.
Proof.
  induction k as [|k IH]; intros a Ha Hb; [reflexivity|].
  cbn [positions select].
  destruct (nthz l a) as [x|] eqn:E.
  - unfold zlen in *. cbn [length]. rewrite Nat2Z.inj_succ. specialize (IH (a + 1) ltac:(lia) ltac:(lia)). lia.
  - exfalso. unfold nthz in E. replace (a <? 0) with false in E by lia.
    apply nth_error_None in E. unfold zlen in Hb. lia.
Qed.

Lemma slicelen_step1 a b : slicelen a b 1 = if a <? b then b - a else 0.
Proof. unfold slicelen. cbn. destruct (a <? b); [|reflexivity]. rewrite Z.div_1_r. lia. Qed.

(* what `l[a:b]` selects, for the unpacked bounds of a plain slice *)
Lemma plain_removed_length l a b :
  0 <= a <= zlen l -> b <= zlen l ->
  a + zlen (select l (positions a 1 (Z.to_nat (slicelen a b 1)))) = if b <? a then a else b.
Proof.
  intros Ha Hb. rewrite slicelen_step1.
  rewrite select_positions_length; destruct (a <? b) eqn:E1, (b <? a) eqn:E2; lia.
Qed.

Lemma tl_setitem_plain_slice l sl xs r :
  plain_slice sl = true -> tl_setitem l (KS sl) xs = Ok r -> replayable l r.
Proof.
  intros Hp. destruct (indices_plain_bounds _ sl (zlen_nonneg l) Hp) as (a & b & Hi & Ha & Hb).
  rewrite (tl_setitem_step1 _ _ _ _ _ Hi). intros [= <-].
  apply replayable_splice; [lia|symmetry; apply plain_removed_length; lia|destruct (b <? a); lia].
Qed.

(* ----- deleting a contiguous range ----- *)
Lemma firstz_nonpos n l : n <= 0 -> firstz n l = [].
Proof. intros H. unfold firstz. replace (Z.to_nat n) with 0%nat by lia. reflexivity. Qed.
Lemma skipz_nonpos n l : n <= 0 -> skipz n l = l.
Proof. intros H. unfold skipz. replace (Z.to_nat n) with 0%nat by lia. reflexivity. Qed.
Lemma firstz_cons n x l : 0 < n -> firstz n (x :: l) = x :: firstz (n - 1) l.
Proof. intros H. unfold firstz. replace (Z.to_nat n) with (S (Z.to_nat (n - 1))) by lia. reflexivity. Qed.
Lemma skipz_cons n x l : 0 < n -> skipz n (x :: l) = skipz (n - 1) l.
Proof. intros H. unfold skipz. replace (Z.to_nat n) with (S (Z.to_nat (n - 1))) by lia. reflexivity. Qed.

Lemma existsb_positions i : forall k a,
  existsb (Z.eqb i) (positions a 1 k) = (a <=? i) && (i <? a + Z.of_nat k).
Proof.
  induction k as [|k IH]; intros a; cbn [positions existsb].
  - lia.
  - rewrite IH. lia.
Qed.

Lemma delete_at_range k a : forall l i,
  delete_at i l (positions a 1 k) = firstz (a - i) l ++ skipz (a + Z.of_nat k - i) l.
Proof.
  induction l as [|x r IH]; intros i.
  - cbn. unfold firstz, skipz. rewrite firstn_nil, skipn_nil. reflexivity.
  - cbn [delete_at]. rewrite existsb_positions, IH.
    destruct (a <=? i) eqn:E1; cbn [andb].
    + rewrite (firstz_nonpos (a - i)), (firstz_nonpos (a - (i + 1))) by lia.
      destruct (i <? a + Z.of_nat k) eqn:E2.
      * rewrite (skipz_cons (a + Z.of_nat k - i)) by lia. cbn. f_equal. lia.
      * rewrite (skipz_nonpos (a + Z.of_nat k - i)), (skipz_nonpos (a + Z.of_nat k - (i + 1))) by lia.
        reflexivity.
    + rewrite (firstz_cons (a - i)), (skipz_cons (a + Z.of_nat k - i)) by lia.
      cbn. do 2 f_equal; f_equal; lia.
Qed.

(* `del l[a:b]` is `l[a:b] = []` *)
Lemma list_delitem_plain_slice l sl :
  plain_slice sl = true -> list_delitem l (KS sl) = list_setitem l (KS sl) [].
Proof.
  intros Hp. destruct (indices_plain_bounds _ sl (zlen_nonneg l) Hp) as (a & b & Hi & Ha & Hb).
  unfold list_delitem, list_setitem. rewrite Hi. cbn [Z.eqb Pos.eqb]. rewrite delete_at_range, slicelen_step1. unfold splice. cbn [app].
  do 2 f_equal; f_equal; destruct (a <? b) eqn:E1, (b <? a) eqn:E2; lia.
Qed.

Lemma tl_delitem_plain_slice l sl :
  plain_slice sl = true -> tl_delitem l (KS sl) = tl_setitem l (KS sl) [].
Proof.
  intros Hp. unfold tl_delitem, tl_setitem. rewrite list_delitem_plain_slice by exact Hp.
  destruct (getitem l (KS sl)) as [removed|]; [|reflexivity].
  destruct (list_setitem l (KS sl) []); [|reflexivity]. cbn [is_nil andb].
  destruct (is_nil _); [reflexivity|]. destruct (normalize _ _) as [[] nk]; reflexivity.
Qed.

Definition replayable_mut (m : mut) : bool :=
  match m with MSetS sl _ | MDelS sl => plain_slice sl | _ => true end.

Theorem mutate_replayable l m r : replayable_mut m = true -> mutate l m = Ok r -> replayable l r.
Proof.
  intros Hp. destruct m; try (apply simple_mutate_replayable; reflexivity); cbn [replayable_mut mutate] in *.
  - apply tl_setitem_plain_slice, Hp.
  - rewrite tl_delitem_plain_slice by exact Hp. apply tl_setitem_plain_slice, Hp.
Qed.

Theorem replayable_replay_ok l m : replayable_mut m = true -> replay_ok l m.
Proof. intros H. apply replay_ok_intro. intro r. apply mutate_replayable, H. Qed.

(* ----- second order: the event a partner re-emits when it applies an integer-index event replays too
   (needed when the partner forwards it to its own partners: stars and chains) ----- *)
Definition int_index (ev : event) : Prop := match e_idx ev with EI _ => True | ES _ _ _ => False end.

Lemma splice_event_int_index l l' ev : splice_event l l' ev -> int_index ev.
Proof. intros []. exact I. Qed.

(* the handler's slice for an integer-index event is a plain one *)
Lemma apply_event_replayable l ev r : int_index ev -> apply_event l ev = Ok r -> replayable l r.
Proof.
  unfold int_index, apply_event, event_has_step, event_key.
  destruct (e_idx ev); [intros _|contradiction]. apply tl_setitem_plain_slice. reflexivity.
Qed.

Lemma reemitted_event_replays l ev l' ev' :
  int_index ev -> apply_event l ev = Ok (l', Some ev') ->
  int_index ev' /\ exists oev, apply_event l ev' = Ok (l', oev).
Proof.
  intros Hi H. apply (apply_event_replayable _ _ _ Hi) in H.
  split; [eapply splice_event_int_index|apply splice_event_replays]; exact H.
Qed.

Lemma replayable_event_int_index l m l' ev :
  replayable_mut m = true -> mutate l m = Ok (l', Some ev) -> int_index ev.
Proof. intros Hm H. exact (splice_event_int_index _ _ _ (mutate_replayable _ _ _ Hm H)). Qed.

(* a partner that applies an integer-index event without re-emitting one was not changed by it *)
Lemma apply_event_silent l ev l' : int_index ev -> apply_event l ev = Ok (l', None) -> l' = l.
Proof. exact (apply_event_replayable l ev (l', None)). Qed.
