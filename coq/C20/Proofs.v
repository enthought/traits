(* C20 — proofs, part 2: link creation / removal / partner death between the shapes of Steps.v,
   the protocol automaton, and the induction over histories. *)
From Coq Require Import ZArith List Bool Arith Lia.
From TV Require Import Common.Harness C20.ListSem C20.ListProofs C20.Model C20.Law C20.Termination C20.Unlinked C20.Steps.
Import ListNotations.
Open Scope Z_scope.

(* a link between the ends, created with the value [a] of the source on both *)
Lemma sync_ends_post md md' n m va vb x k p q mu a st' :
  inv md va vb -> md = MFresh \/ md = MOneway n m -> md' = MMutual n m \/ md' = MOneway n m -> link_ok n m ->
  In (x, k) (ends n m) -> In (p, q) (ends n m) -> (x, k) = (0%nat, n) \/ md' = MMutual n m ->
  plain (edges_of md) [va; vb] (Sync x k p q mu) = (Done, None) ->
  edges_after (edges_of md) (Sync x k p q mu) = edges_of md' ->
  kind_ok n a = true ->
  objs st' = shape md' (update n (fun _ => a) va) (update m (fun _ => a) vb) -> overflow st' = false ->
  NoDup (notes st') -> incl (notes st') (ends n m) ->
  post md md' va vb (Sync x k p q mu) (st', mk_obs Done st').
Proof.
  intros Hi Hmd Hmd' Hl Hx Hp Hsrc Hpl He Hk Ho Hov Hd Hin.
  assert (typed va /\ typed vb) as [Ta Tb] by (destruct Hmd as [-> | ->]; destruct Hi as (Ta & Tb & _); auto).
  pose proof (typed_nth va n Ta (proj1 Hl)) as Ha. pose proof (typed_nth vb m Tb (proj1 (proj2 Hl))) as Hb.
  assert (kind_ok m a = true) as Hkm by (rewrite <- (kind_ok_link n m a Hl); exact Hk).
  assert (inv md' (update n (fun _ => a) va) (update m (fun _ => a) vb)) as Hi'.
  { assert (typed (update n (fun _ => a) va) /\ typed (update m (fun _ => a) vb)) as [Ta' Tb']
      by (split; apply typed_update; assumption).
    destruct Hmd' as [-> | ->]; repeat split; try assumption; try apply Hl.
    rewrite !nth_error_update_hit by assumption. reflexivity. }
  apply (post_intro md md' va vb [] _ (st', mk_obs Done st') _ _ Hi Ho Hi').
  assert (snap_of md va vb = [va; vb]) as Hs by (destruct Hmd as [-> | ->]; reflexivity).
  destruct (succs_ends md' n m Hmd') as [S0 S1].
  apply (sync_lawful _ _ x k p q mu a (ends n m)); cbn [fst snd];
    rewrite ?(snapshot_shape (st_of md va vb []) md va vb eq_refl Hi), ?(snapshot_shape _ _ _ _ Ho Hi'), ?Hs, ?He; auto.
  - assert (In (1%nat, m) (succs (edges_of md') (0%nat, n))) as I0 by (rewrite S0; apply in_eq).
    intros y [<-|[<-|[]]]; destruct Hx as [[= <- <-]|[[= <- <-]|[]]];
      first [ apply reach_self | apply reach_succ; exact I0
            | destruct Hsrc as [Hsrc| ->]; [discriminate Hsrc|apply reach_succ; exact (eq_ind_r (fun l => In (0%nat, n) l) (in_eq _ _) S1)] ].
  - intros e Hin'. destruct Hmd' as [-> | ->]; cbn in Hin'; intuition subst; cbn; auto.
  - destruct Hmd' as [-> | ->]; reflexivity.
  - intros y [<-|[<-|[]]]; rewrite sval_two; assumption.
Qed.

Lemma fresh_sync F n m (mutual : bool) va vb nts :
  inv MFresh va vb -> link_ok n m ->
  post MFresh (if mutual then MMutual n m else MOneway n m) va vb (Sync 0%nat n 1%nat m mutual)
       (step (S (S F)) (st_of MFresh va vb nts) (Sync 0%nat n 1%nat m mutual)).
Proof.
  intros Hi Hl. pose proof Hi as (Ta & Tb & _).
  destruct (nth_error va n) as [a|] eqn:Ha; [|destruct (typed_nth va n Ta (proj1 Hl) Ha)].
  destruct (nth_error vb m) as [b|] eqn:Hb; [|destruct (typed_nth vb m Tb (proj1 (proj2 Hl)) Hb)].
  pose proof (typed_kind va n a Ta Ha) as Hk.
  assert (kind_ok m a = true) as Hkm by (rewrite <- (kind_ok_link n m a Hl); exact Hk).
  assert (nth_error vb m <> None) as Hb' by (rewrite Hb; discriminate).
  (* first direction: the target is a trait nothing listens to *)
  assert (sync1 (S (S F)) (clear_notes (st_of MFresh va vb nts)) 0%nat n 1%nat m =
          (mkS (shape (MOneway n m) va (update m (fun _ => a) vb)) (if val_eqb b a then [] else [(1%nat, m)]) false, true)) as R1.
  { unfold st_of, shape, fresh, clear_notes. sync_tables. st_cbn. rewrite (nth_error_nth _ _ _ Ha).
    rewrite assign_unlinked by (auto; right; split; reflexivity). st_cbn. rewrite (nth_error_nth _ _ _ Hb).
    destruct (val_eqb b a); st_unfold; reflexivity. }
  assert (plain (edges_of MFresh) [va; vb] (Sync 0%nat n 1%nat m mutual) = (Done, None)) as Hp
    by (cbn [plain edges_of existsb negb andb]; rewrite sval_two, Ha, Hkm; reflexivity).
  destruct mutual.
  - (* second direction: the source holds the value already *)
    assert (forall nl, sync1 (S (S F)) (mkS (shape (MOneway n m) va (update m (fun _ => a) vb)) nl false) 1%nat m 0%nat n =
             (mkS (shape (MMutual n m) (update n (fun _ => a) va) (update m (fun _ => a) vb)) nl false, true)) as R2.
    { intros nl. unfold shape, fresh. sync_tables. st_cbn. rewrite (nth_update_hit _ _ _ _ Hb').
      rewrite assign_same by (auto; st_cbn; rewrite (nth_error_nth _ _ _ Ha); apply val_eqb_refl).
      st_unfold. reflexivity. }
    rewrite (step_sync _ _ _ _ _ _ true _ _ R1 (R2 _)).
    apply (sync_ends_post MFresh (MMutual n m) n m va vb _ _ _ _ _ a); cbn [ends In notes]; auto; try reflexivity.
    + destruct (val_eqb b a); repeat constructor; intros [].
    + destruct (val_eqb b a); intros y Hy; cbn in *; tauto.
  - rewrite (step_sync _ _ _ _ _ _ false _ _ R1 eq_refl).
    apply (sync_ends_post MFresh (MOneway n m) n m va vb _ _ _ _ _ a); cbn [ends In notes]; auto; try reflexivity.
    + rewrite (update_same _ _ _ Ha). reflexivity.
    + destruct (val_eqb b a); repeat constructor; intros [].
    + destruct (val_eqb b a); intros y Hy; cbn in *; tauto.
Qed.

(* a one-way link completed to a mutual one from the other side: the old source takes the value of the new one *)
Lemma oneway_upgrade F n m va vb nts :
  inv (MOneway n m) va vb ->
  post (MOneway n m) (MMutual n m) va vb (Sync 1%nat m 0%nat n false)
       (step (S (S F)) (st_of (MOneway n m) va vb nts) (Sync 1%nat m 0%nat n false)).
Proof.
  intros Hi. pose proof Hi as (Ta & Tb & Hl).
  destruct (nth_error va n) as [a|] eqn:Ha; [|destruct (typed_nth va n Ta (proj1 Hl) Ha)].
  destruct (nth_error vb m) as [b|] eqn:Hb; [|destruct (typed_nth vb m Tb (proj1 (proj2 Hl)) Hb)].
  pose proof (typed_kind vb m b Tb Hb) as Hkm.
  assert (kind_ok n b = true) as Hk by (rewrite (kind_ok_link n m b Hl); exact Hkm).
  assert (exists nl, NoDup nl /\ incl nl (ends n m) /\
            sync1 (S (S F)) (clear_notes (st_of (MOneway n m) va vb nts)) 1%nat m 0%nat n =
            (mkS (shape (MMutual n m) (update n (fun _ => b) va) (update m (fun _ => b) vb)) nl false, true))
    as (nl & Hd & Hinc & R1).
  { unfold st_of, shape, fresh, clear_notes. sync_tables. st_cbn. rewrite (nth_error_nth _ _ _ Hb).
    destruct (val_eqb a b) eqn:Hab.
    - exists []. split; [constructor|]. split; [intros y []|].
      rewrite assign_same by (auto; st_cbn; rewrite (nth_error_nth _ _ _ Ha); exact Hab).
      st_unfold. rewrite (update_same _ _ _ Hb). reflexivity.
    - exists [(0%nat, n)]. split; [repeat constructor; intros []|]. split; [intros y Hy; cbn in *; tauto|].
      erewrite assign_spreads by (side; rewrite (nth_error_nth _ _ _ Ha); exact Hab). st_norm.
      rewrite (visit_serves _ _ 1%nat m []) by side.
      rewrite assign_same by (auto; st_cbn; rewrite (nth_error_nth _ _ _ Hb); apply val_eqb_refl).
      cbn [fold_left fst]. st_unfold. reflexivity. }
  rewrite (step_sync _ _ _ _ _ _ false _ _ R1 eq_refl).
  apply (sync_ends_post (MOneway n m) (MMutual n m) n m va vb _ _ _ _ _ b); cbn [ends In]; auto; try reflexivity.
  cbn [plain edges_of existsb node_eqb key_eqb fst snd Nat.eqb andb orb negb]. rewrite sval_two, Hb, Hk. reflexivity.
Qed.

(* ---------- link removal restores the pristine pool ---------- *)
(* removing the one link restores the pristine pool; every trait is as before *)
Lemma unlink_post md va vb o st' :
  inv md va vb -> match md with MDead _ => False | _ => True end -> match o with Unsync _ _ _ _ _ => True | _ => False end ->
  objs st' = shape MFresh va vb -> overflow st' = false -> notes st' = [] ->
  post md MFresh va vb o (st', mk_obs Done st').
Proof.
  intros Hi Hd Hop Ho Hov Hn.
  assert (inv MFresh va vb) as Hi' by (destruct md; try contradiction; destruct Hi as (Ta & Tb & _); repeat split; assumption).
  apply (post_intro md MFresh va vb [] o (st', mk_obs Done st') _ _ Hi Ho Hi').
  apply inert_lawful; cbn [fst snd]; auto; try (destruct o; try contradiction; exact I);
    rewrite (snapshot_shape (st_of md va vb []) md va vb eq_refl Hi), (snapshot_shape _ _ _ _ Ho Hi');
    destruct md; try contradiction; auto.
Qed.

Lemma mutual_unsync F n m va vb nts :
  inv (MMutual n m) va vb ->
  post (MMutual n m) MFresh va vb (Unsync 0%nat n 1%nat m true)
       (step (S (S F)) (st_of (MMutual n m) va vb nts) (Unsync 0%nat n 1%nat m true)).
Proof.
  intros Hi.
  assert (step (S (S F)) (st_of (MMutual n m) va vb nts) (Unsync 0%nat n 1%nat m true) =
          (mkS (shape MFresh va vb) [] false, mk_obs Done (mkS (shape MFresh va vb) [] false))) as ->.
  { unfold st_of, shape. unsync_tables.
    destruct (is_list_name n && is_list_name m), (is_list_name m && is_list_name n); unsync_tables; reflexivity. }
  apply (unlink_post (MMutual n m)); auto; reflexivity.
Qed.

Lemma mutual_unsync_rev F n m va vb nts :
  inv (MMutual n m) va vb ->
  post (MMutual n m) MFresh va vb (Unsync 1%nat m 0%nat n true)
       (step (S (S F)) (st_of (MMutual n m) va vb nts) (Unsync 1%nat m 0%nat n true)).
Proof.
  intros Hi.
  assert (step (S (S F)) (st_of (MMutual n m) va vb nts) (Unsync 1%nat m 0%nat n true) =
          (mkS (shape MFresh va vb) [] false, mk_obs Done (mkS (shape MFresh va vb) [] false))) as ->.
  { unfold st_of, shape. unsync_tables.
    destruct (is_list_name n && is_list_name m), (is_list_name m && is_list_name n); unsync_tables; reflexivity. }
  apply (unlink_post (MMutual n m)); auto; reflexivity.
Qed.

Lemma oneway_unsync F n m (mutual : bool) va vb nts :
  inv (MOneway n m) va vb ->
  post (MOneway n m) MFresh va vb (Unsync 0%nat n 1%nat m mutual)
       (step (S (S F)) (st_of (MOneway n m) va vb nts) (Unsync 0%nat n 1%nat m mutual)).
Proof.
  intros Hi.
  assert (step (S (S F)) (st_of (MOneway n m) va vb nts) (Unsync 0%nat n 1%nat m mutual) =
          (mkS (shape MFresh va vb) [] false, mk_obs Done (mkS (shape MFresh va vb) [] false))) as ->.
  { unfold st_of, shape, fresh. destruct mutual; unsync_tables;
      destruct (is_list_name n && is_list_name m); unsync_tables; reflexivity. }
  apply (unlink_post (MOneway n m)); auto; reflexivity.
Qed.

(* ---------- the partner is garbage-collected ---------- *)
Definition dead_of (md : mode) : mode :=
  match md with
  | MMutual n m | MOneway n m => MDead (Some (n, m))
  | MFresh => MDead None
  | MDead w => MDead w
  end.

Lemma collect_partner F md va vb nts :
  inv md va vb -> (match md with MDead _ => False | _ => True end) ->
  post md (dead_of md) va vb (Collect 1%nat) (step (S (S F)) (st_of md va vb nts) (Collect 1%nat)).
Proof.
  intros Hi Hd.
  assert (inv (dead_of md) va []) as Hi'
    by (destruct md as [|n m|n m|w]; try contradiction; destruct Hi as (Ta & _ & Hl); repeat split; try exact Ta; try apply Hl).
  assert (step (S (S F)) (st_of md va vb nts) (Collect 1%nat) =
          (mkS (shape (dead_of md) va []) [] false, mk_obs Done (mkS (shape (dead_of md) va []) [] false))) as ->
    by (destruct md as [|n m|n m|w]; try contradiction; reflexivity).
  apply (post_intro md (dead_of md) va vb nts _ (mkS (shape (dead_of md) va []) [] false, _) va [] Hi eq_refl Hi').
  apply inert_lawful; auto; cbn [fst snd];
    rewrite (snapshot_shape (st_of md va vb nts) md va vb eq_refl Hi), (snapshot_shape (mkS (shape (dead_of md) va []) [] false) _ va [] eq_refl Hi').
  - (* every link had an end in the dead object *)
    destruct md as [|n m|n m|w]; try contradiction; intros e [].
  - intros [[|[|x]] k]; destruct md as [|n m|n m|w]; try contradiction; cbn [dead_of snap_of fst];
      first [right; reflexivity | left; apply andb_false_r | right; destruct x; reflexivity].
Qed.

(* ---------- the protocol automaton and the induction over histories ---------- *)
Definition on_live (md : mode) (x : oid) : Prop :=
  match md with MDead _ => x = 0%nat | _ => (x < 2)%nat end.
Definition not_dead (md : mode) : Prop := match md with MDead _ => False | _ => True end.

Lemma live_sval md va vb x k :
  inv md va vb -> on_live md x -> (k < 4)%nat -> sval (snap_of md va vb) (x, k) <> None.
Proof.
  intros (Ta & Tb & _) Hx Hk. destruct Ta as (? & ? & ? & ? & ->).
  destruct k as [|[|[|[|k]]]]; try lia; clear Hk.
  all: destruct md; cbn in Hx; [| | |subst x; discriminate]; destruct Tb as (? & ? & ? & ? & ->);
    destruct x as [|[|x]]; try lia; discriminate.
Qed.

Section Protocol.
  (* the list mutators allowed in histories: any set whose events replay (C05's replay law);
     [simple_mut] (everything but slice keys) is proved to qualify in ListProofs.v *)
  Variable allowed : mut -> Prop.
  Hypothesis allowed_replays : forall mu, allowed mu -> forall l, replay_ok l mu.

  Inductive trans : mode -> op -> mode -> Prop :=
  | T_assign md x k v : on_live md x -> (k < 4)%nat -> trans md (Assign x k v) md
  | T_mut md x k mu : on_live md x -> (k < 4)%nat -> allowed mu -> trans md (Mut x k mu) md
  | T_sync n m b : link_ok n m ->
      trans MFresh (Sync 0%nat n 1%nat m b) (if b then MMutual n m else MOneway n m)
  | T_upgrade n m : trans (MOneway n m) (Sync 1%nat m 0%nat n false) (MMutual n m)
  | T_unsync n m : trans (MMutual n m) (Unsync 0%nat n 1%nat m true) MFresh
  | T_unsync_rev n m : trans (MMutual n m) (Unsync 1%nat m 0%nat n true) MFresh
  | T_unsync1 n m b : trans (MOneway n m) (Unsync 0%nat n 1%nat m b) MFresh
  | T_collect md : not_dead md -> trans md (Collect 1%nat) (dead_of md).

  Inductive accepts : mode -> list op -> Prop :=
  | A_nil md : accepts md []
  | A_cons md o md' r : trans md o md' -> accepts md' r -> accepts md (o :: r).

  Lemma trans_post F md o md' va vb nts :
    trans md o md' -> inv md va vb ->
    post md md' va vb o (step (S (S F)) (st_of md va vb nts) o).
  Proof.
    intros T Hi. destruct T.
    - apply assign_post; [exact Hi|apply live_sval; assumption].
    - apply mut_post; [exact Hi|apply live_sval; assumption|apply allowed_replays; assumption].
    - apply fresh_sync; auto.
    - apply oneway_upgrade; auto.
    - apply mutual_unsync; auto.
    - apply mutual_unsync_rev; auto.
    - apply oneway_unsync; auto.
    - apply collect_partner; auto.
  Qed.

  Lemma trans_edges md o md' va vb :
    trans md o md' -> inv md va vb -> edges_after (edges_of md) o = edges_of md'.
  Proof.
    intros T Hi. destruct T.
    all: try solve [reflexivity | destruct b; reflexivity].
    all: try solve [destruct Hi as (_ & _ & Hl & _); names_cases n m Hl; reflexivity].
    all: try solve [destruct Hi as (_ & _ & Hl); names_cases n m Hl; try destruct b; reflexivity].
    all: try solve [destruct md as [|n m|n m|w]; try contradiction; reflexivity].
  Qed.

  Lemma state_eta st md va vb :
    objs st = shape md va vb -> overflow st = false -> st = st_of md va vb (notes st).
  Proof. destruct st; cbn; intros -> ->; reflexivity. Qed.

  Theorem protocol_law F h : forall md va vb nts i,
    inv md va vb -> accepts md h ->
    law_hist i (edges_of md) (snap_of md va vb) (run (S (S F)) (st_of md va vb nts) h) = [].
  Proof.
    induction h as [|o r IH]; intros md va vb nts i Hi Ha; [reflexivity|].
    inversion Ha as [|md0 o0 md' r0 T Ha']; subst.
    pose proof (trans_post F _ _ _ _ _ nts T Hi) as (va' & vb' & Hs & Hi' & Hov & Hv & Hlaw).
    pose proof (trans_edges _ _ _ _ _ T Hi) as He.
    cbn [run]. destruct (step (S (S F)) (st_of md va vb nts) o) as [st' ob] eqn:Hst.
    cbn [fst snd] in *. cbn [law_hist]. rewrite Hlaw, He, Hv. cbn [map app].
    rewrite (state_eta _ _ _ _ Hs Hov). apply IH; assumption.
  Qed.

  (* every state reached by an accepted history has the shape of its mode, with fuel 2 *)
  Theorem protocol_no_overflow F h : forall md va vb nts,
    inv md va vb -> accepts md h ->
    Forall (fun p => ob_out (snd p) <> Raised RecursionError) (run (S (S F)) (st_of md va vb nts) h).
  Proof.
    induction h as [|o r IH]; intros md va vb nts Hi Ha; [constructor|].
    inversion Ha as [|md0 o0 md' r0 T Ha']; subst.
    pose proof (trans_post F _ _ _ _ _ nts T Hi) as (va' & vb' & Hs & Hi' & Hov & Hv & Hlaw).
    cbn [run]. destruct (step (S (S F)) (st_of md va vb nts) o) as [st' ob] eqn:Hst.
    cbn [fst snd] in *. constructor.
    - cbn [snd]. (* clause 5: the outcome is the plain operation's, which is never RecursionError *)
      unfold law_step in Hlaw.
      destruct (plain (edges_of md) (snap_of md va vb) o) as [expected target] eqn:Hp.
      repeat (apply app_eq_nil in Hlaw; destruct Hlaw as [? Hlaw]).
      match goal with H : chk 5 _ = [] |- _ => unfold chk in H;
        destruct (outcome_eqb (ob_out ob) expected) eqn:Ho; [|discriminate H] end.
      intros Hout. rewrite Hout in Ho.
      destruct expected as [|e]; [discriminate Ho|].
      assert (e = RecursionError) as -> by (destruct e; cbn in Ho; try discriminate; reflexivity).
      unfold plain in Hp. destruct o; try discriminate Hp.
      + destruct (kind_ok n v); discriminate Hp.
      + destruct (sval _ _) as [[z|l]|]; try discriminate Hp.
        destruct (mutate l m) as [[l' oev]|e] eqn:Hm; [discriminate Hp|].
        injection Hp as -> _. apply mutate_raises in Hm. destruct Hm; discriminate.
      + destruct (sval _ _); try discriminate Hp.
        match type of Hp with (if ?c then _ else _) = _ => destruct c; discriminate Hp end.
    - rewrite (state_eta _ _ _ _ Hs Hov). apply IH; assumption.
  Qed.
End Protocol.

(* ---------- explicit per-step readings ---------- *)
Lemma sval2 va vb x k : sval [va; vb] (x, k) = match x with O => nth_error va k | S O => nth_error vb k | _ => None end.
Proof. unfold sval. cbn. destruct x as [|[|[|x]]]; cbn; try reflexivity; destruct k; reflexivity. Qed.

(* mutual link: after every assignment / allowed mutation on any trait of either object the two linked
   traits are equal, and the tables are unchanged (so this holds again after the next operation) *)
Lemma mutual_converges_step F n m va vb nts o :
  inv (MMutual n m) va vb ->
  (match o with
   | Assign x k _ => (x < 2)%nat /\ (k < 4)%nat
   | Mut x k mu => (x < 2)%nat /\ (k < 4)%nat /\ (forall l, replay_ok l mu)
   | _ => False end) ->
  let r := step (S (S F)) (st_of (MMutual n m) va vb nts) o in
  sval (ob_vals (snd r)) (0%nat, n) = sval (ob_vals (snd r)) (1%nat, m) /\
  exists va' vb', objs (fst r) = shape (MMutual n m) va' vb' /\ inv (MMutual n m) va' vb' /\
                  overflow (fst r) = false.
Proof.
  intros Hi Ho r.
  assert (post (MMutual n m) (MMutual n m) va vb o r) as (va' & vb' & Hs & Hi' & Hov & Hv & _).
  { destruct o; try contradiction.
    - destruct Ho. apply assign_post; [exact Hi|apply live_sval; assumption].
    - destruct Ho as (? & ? & ?). apply mut_post; [exact Hi|apply live_sval; assumption|assumption]. }
  split; [|eauto].
  rewrite Hv. cbn [snap_of]. rewrite !sval2. destruct Hi' as (_ & _ & _ & He). exact He.
Qed.

(* removal of the link restores the pristine pool: objects that were never linked *)
Lemma removed_link_pristine F n m va vb nts :
  inv (MMutual n m) va vb ->
  exists va' vb', objs (fst (step (S (S F)) (st_of (MMutual n m) va vb nts) (Unsync 0%nat n 1%nat m true)))
                  = map fresh [va'; vb'] /\ ob_vals (snd (step (S (S F)) (st_of (MMutual n m) va vb nts) (Unsync 0%nat n 1%nat m true))) = [va'; vb'].
Proof.
  intros Hi. destruct (mutual_unsync F n m va vb nts Hi) as (va' & vb' & Hs & _ & _ & Hv & _).
  exists va', vb'. split; [exact Hs|exact Hv].
Qed.

Lemma chk_nil k b : chk k b = [] -> b = true.
Proof. destruct b; [reflexivity|discriminate]. Qed.

(* ---------- reading the clauses off  law_step = []  ---------- *)
Lemma val_eqb_eq a b : val_eqb a b = true -> a = b.
Proof.
  destruct a, b; cbn; try discriminate.
  - intros H. apply Z.eqb_eq in H. congruence.
  - intros H. apply zlist_eqb_eq in H. congruence.
Qed.
Lemma oval_eqb_eq a b : oval_eqb a b = true -> a = b.
Proof. destruct a, b; cbn; try discriminate; auto. intros H. apply val_eqb_eq in H. congruence. Qed.

Definition clause7 (ob : obs) : bool := forallb (forallb (fun c => c <=? 1)) (ob_cnt ob).

Lemma law_step_clauses E before o ob :
  law_step E before o ob = [] ->
  let E' := edges_after E o in
  let '(expected, target) := plain E before o in
  (* 1 *) forallb (fun e => negb (has_edge (snd e, fst e) E')
                           || negb (Bool.eqb (is_list_name (snd (fst e))) (is_list_name (snd (snd e))))
                           || is_any_name (snd (fst e)) || is_any_name (snd (snd e))
                           || (has_edge e E && has_edge (snd e, fst e) E
                               && negb (oval_eqb (sval before (fst e)) (sval before (snd e))))
                           || oval_eqb (sval (ob_vals ob) (fst e)) (sval (ob_vals ob) (snd e))) E' = true /\
  (* 4 *) forallb (fun y => has_node y (reach E' (origins o expected))
                            || negb (alive_in before (fst y) && alive_in (ob_vals ob) (fst y))
                            || (oval_eqb (sval (ob_vals ob) y) (sval before y) && (scnt (ob_cnt ob) y =? 0)))
                  (all_nodes before) = true /\
  (* 5 *) outcome_eqb (ob_out ob) expected = true /\
  (* 6 *) ob_logged ob = 0 /\
  (* 7 *) clause7 ob = true /\
  (* 8 *) match target with Some (x, v) => sval (ob_vals ob) x = Some v | None => True end.
Proof.
  unfold law_step. destruct (plain E before o) as [expected target]. intros H.
  repeat (apply app_eq_nil in H; let H1 := fresh "C" in destruct H as [H1 H]).
  apply chk_nil in C, C2, C3, C4, C5, H.
  repeat split; auto.
  - apply Z.eqb_eq; assumption.
  - destruct target as [[x v]|]; [|exact I]. apply oval_eqb_eq; assumption.
Qed.

Section ProtocolSteps.
  Variable allowed : mut -> Prop.
  Hypothesis allowed_replays : forall mu, allowed mu -> forall l, replay_ok l mu.

  (* every step of an accepted history satisfies the law for the links live at that step *)
  Theorem protocol_steps F h : forall md va vb nts,
    inv md va vb -> accepts allowed md h ->
    Forall (fun p => exists E before, law_step E before (fst p) (snd p) = [])
           (run (S (S F)) (st_of md va vb nts) h).
  Proof.
    induction h as [|o r IH]; intros md va vb nts Hi Ha; [constructor|].
    inversion Ha as [|md0 o0 md' r0 T Ha']; subst.
    pose proof (trans_post allowed allowed_replays F _ _ _ _ _ nts T Hi)
      as (va' & vb' & Hs & Hi' & Hov & Hv & Hlaw).
    cbn [run]. destruct (step (S (S F)) (st_of md va vb nts) o) as [st' ob] eqn:Hst.
    cbn [fst snd] in *. constructor; [cbn [fst snd]; eauto|].
    rewrite (state_eta _ _ _ _ Hs Hov). apply IH; assumption.
  Qed.

  Theorem protocol_one_notification F h md va vb nts :
    inv md va vb -> accepts allowed md h ->
    Forall (fun p => clause7 (snd p) = true /\ ob_logged (snd p) = 0)
           (run (S (S F)) (st_of md va vb nts) h).
  Proof.
    intros Hi Ha. eapply Forall_impl; [|apply protocol_steps; eassumption].
    intros [o ob] (E & before & Hl). cbn [fst snd] in *.
    pose proof (law_step_clauses _ _ _ _ Hl) as Hc. cbn zeta in Hc.
    destruct (plain E before o). destruct Hc as (_ & _ & _ & H6 & H7 & _). auto.
  Qed.
End ProtocolSteps.

(* ---------- one-way links ---------- *)
(* a value-changing assignment on the source reaches the target *)
Lemma oneway_source_assign F n m va vb nts v :
  inv (MOneway n m) va vb -> kind_ok n v = true -> nth_error va n <> Some v ->
  let r := step (S (S F)) (st_of (MOneway n m) va vb nts) (Assign 0%nat n v) in
  sval (ob_vals (snd r)) (0%nat, n) = Some v /\ sval (ob_vals (snd r)) (1%nat, m) = Some v.
Proof.
  intros Hi Hk Hne r.
  assert (n < 4)%nat as Hn by (destruct Hi as (_ & _ & Hl & _); exact Hl).
  destruct (assign_post F _ va vb nts 0%nat n v Hi (live_sval _ _ _ 0%nat n Hi ltac:(cbn; lia) Hn))
    as (va' & vb' & _ & _ & _ & _ & Hlaw).
  fold r in Hlaw. unfold law_step in Hlaw. cbn [edges_of snap_of plain edges_after] in Hlaw.
  rewrite Hk in Hlaw.
  repeat (apply app_eq_nil in Hlaw; let H1 := fresh "C" in destruct Hlaw as [H1 Hlaw]).
  apply chk_nil in C0, Hlaw. apply oval_eqb_eq in Hlaw. split; [exact Hlaw|].
  rewrite sval2 in C0. apply orb_prop in C0. destruct C0 as [C0|C0].
  - apply oval_eqb_eq in C0. contradiction.
  - unfold succs in C0. cbn [edges_of filter fst snd node_eqb key_eqb map] in C0.
    unfold node_eqb, key_eqb in C0. cbn [fst snd] in C0. rewrite !Nat.eqb_refl in C0.
    cbn [andb map snd forallb] in C0. rewrite andb_true_r in C0.
    (* the target's trait is of the source's kind, so it accepts v *)
    assert (is_any_name m = false /\ kind_ok m v = true) as [Ha Hkm].
    { destruct Hi as (_ & _ & Hl). clear - Hl Hk. names_cases n m Hl; destruct v; cbn in *; auto; discriminate. }
    rewrite Ha, Hkm in C0. cbn [negb orb] in C0. apply oval_eqb_eq in C0. exact C0.
Qed.
(* the reverse direction is inert: nothing done to object 1 reaches object 0 *)
Lemma oneway_reverse_inert F n m va vb nts o :
  inv (MOneway n m) va vb ->
  (match o with
   | Assign x k _ => x = 1%nat /\ (k < 4)%nat
   | Mut x k mu => x = 1%nat /\ (k < 4)%nat /\ (forall l, replay_ok l mu)
   | _ => False end) ->
  let r := step (S (S F)) (st_of (MOneway n m) va vb nts) o in
  forall j, (j < 4)%nat ->
    sval (ob_vals (snd r)) (0%nat, j) = nth_error va j /\ scnt (ob_cnt (snd r)) (0%nat, j) = 0.
Proof.
  intros Hi Ho r j Hj.
  assert (post (MOneway n m) (MOneway n m) va vb o r) as (va' & vb' & _ & Hi' & _ & Hv & Hlaw).
  { destruct o; try contradiction.
    - destruct Ho as [-> ?]. apply assign_post; [exact Hi|apply live_sval; cbn; auto].
    - destruct Ho as (-> & ? & ?). apply mut_post; [exact Hi|apply live_sval; cbn; auto|assumption]. }
  pose proof (law_step_clauses _ _ _ _ Hlaw) as Hc. cbn zeta in Hc.
  destruct (plain (edges_of (MOneway n m)) (snap_of (MOneway n m) va vb) o) as [expected target] eqn:Hp.
  destruct Hc as (_ & C4 & _).
  rewrite forallb_forall in C4.
  specialize (C4 (0%nat, j)). 
  assert (In (0%nat, j) (all_nodes (snap_of (MOneway n m) va vb))) as Hin.
  { cbn. destruct j as [|[|[|[|j]]]]; try lia; auto 10. }
  specialize (C4 Hin). clear Hin.
  destruct Hi as (Ta & Tb & Hl). 
  (* nothing leaves a trait of object 1, so the operation reaches at most that trait *)
  assert (has_node (0%nat, j) (reach (edges_after (edges_of (MOneway n m)) o) (origins o expected)) = false) as Hr.
  { assert (forall k, reach (edges_of (MOneway n m)) [(1%nat, k)] = [(1%nat, k)]) as R1
      by (intros k; apply reach_no_succs, (edges_unlinked (MOneway n m)); cbn; intros [[=]|[]]).
    destruct o; try contradiction; destruct Ho as [-> _]; cbn [edges_after];
      (destruct expected; cbn [origins]; [rewrite R1|rewrite reach_nil]; reflexivity). }
  rewrite Hr in C4. cbn [orb] in C4.
  assert (alive_in (snap_of (MOneway n m) va vb) 0%nat && alive_in (ob_vals (snd r)) 0%nat = true) as Ha.
  { rewrite Hv. cbn [snap_of]. unfold alive_in. cbn.
    destruct Ta as (? & ? & ? & ? & ->). destruct Hi' as ((? & ? & ? & ? & ->) & _). reflexivity. }
  cbn [fst] in C4. rewrite Ha in C4. cbn [negb orb] in C4. apply andb_prop in C4. destruct C4 as [C4a C4b].
  apply oval_eqb_eq in C4a. apply Z.eqb_eq in C4b. split; [|exact C4b].
  rewrite C4a. cbn [snap_of]. apply sval2.
Qed.
