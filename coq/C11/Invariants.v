(* C11 — the invariant of every history: a DelegatesTo attribute never acquires a local value, and the
   forwarder of a deferring attribute is attached exactly while the attribute is listenable and has no
   local value.  Deferring attributes may be declared listenable=False (no forwarder, ever); subclasses
   that re-declare a deferring attribute are ordinary class tables (the flattened class_traits of the
   subclass) and a delegate supplied by a default initialiser is an ordinary dict entry of the model, so
   both are covered by "all class tables, all pools". *)
From Coq Require Import ZArith List Bool Arith Lia.
From TV Require Import Common.Harness C11.Model C11.Law C11.Proofs.
Import ListNotations.
Open Scope Z_scope.

Definition deferring (st : state) (o : oid) (n : name) : Prop :=
  exists d r m, find_trait st o n = Some (Deleg d r m).

Record inv (st : state) : Prop := mkInv {
  inv_modify : forall o n d r, find_trait st o n = Some (Deleg d r true) -> dict_get st o n = None;
  inv_ltab : forall o n, (o < length (objs st))%nat ->
             (has_node (o, n) (ltab st) = true <->
              (deferring st o n /\ dict_get st o n = None /\ listenable st o n = true))
}.

Lemma dict_get_dict_set_same' st p t w :
  dict_get (dict_set st p t w) p t = Some w \/ (length (objs st) <= p)%nat.
Proof.
  destruct (Nat.lt_ge_cases p (length (objs st))) as [Hlt|Hge]; [left|right; exact Hge].
  apply dict_get_dict_set_same. exact Hlt.
Qed.

Lemma has_node_In x l : has_node x l = true <-> In x l.
Proof.
  unfold has_node. rewrite existsb_exists. split.
  - intros (y & Hy & E). apply node_eqb_eq in E. subst. exact Hy.
  - intros H. exists x. split; [exact H|apply node_eqb_refl].
Qed.

Lemma has_node_filter_neq x y l :
  node_eqb y x = false -> has_node y (filter (fun z => negb (node_eqb x z)) l) = has_node y l.
Proof.
  intros Hne. induction l as [|z l IH]; [reflexivity|]. cbn [filter].
  destruct (node_eqb x z) eqn:Exz; cbn [negb has_node existsb]; fold (has_node y l); rewrite <- IH; [|reflexivity].
  apply node_eqb_eq in Exz. subst z. rewrite Hne. reflexivity.
Qed.
Lemma has_node_filter_eq x l : has_node x (filter (fun z => negb (node_eqb x z)) l) = false.
Proof.
  destruct (has_node x (filter _ l)) eqn:E; [|reflexivity].
  apply has_node_In, filter_In in E. rewrite node_eqb_refl in E. destruct E. discriminate.
Qed.

Lemma has_node_add_other x y l :
  node_eqb y x = false -> has_node y (if has_node x l then l else l ++ [x]) = has_node y l.
Proof.
  intros Hne. destruct (has_node x l); [reflexivity|].
  unfold has_node. rewrite existsb_app. cbn. rewrite Hne. rewrite !orb_false_r. reflexivity.
Qed.

(* A change that keeps the class tables and leaves every node but x as it was keeps the invariant, if x is
   not a DelegatesTo attribute and its forwarder is right afterwards. *)
Lemma inv_change st st' x n :
  inv st -> same_frame st st' ->
  (forall d r, find_trait st x n <> Some (Deleg d r true)) ->
  (forall (o : nat) m, node_eqb (o, m) (x, n) = false ->
               dict_get st' o m = dict_get st o m /\ has_node (o, m) (ltab st') = has_node (o, m) (ltab st)) ->
  ((x < length (objs st))%nat ->
   (has_node (x, n) (ltab st') = true <->
    (deferring st x n /\ dict_get st' x n = None /\ listenable st x n = true))) ->
  inv st'.
Proof.
  intros [Hm Hl] Hf Hx Hoff Hat.
  assert (Hdef : forall o m, deferring st' o m <-> deferring st o m).
  { intros o m. unfold deferring. setoid_rewrite (frame_find_trait _ _ Hf). reflexivity. }
  split.
  - intros o m d r Htr. rewrite (frame_find_trait _ _ Hf) in Htr.
    destruct (Hoff o m) as [-> _]; [|exact (Hm _ _ _ _ Htr)].
    apply (node_neq_by_trait st). rewrite Htr. intros E. exact (Hx _ _ (eq_sym E)).
  - intros o m Ho. rewrite (frame_length _ _ Hf) in Ho. rewrite Hdef, (frame_listenable _ _ Hf).
    destruct (node_eqb (o, m) (x, n)) eqn:E.
    + apply node_eqb_eq in E. injection E as -> ->. exact (Hat Ho).
    + destruct (Hoff _ _ E) as [-> ->]. apply Hl, Ho.
Qed.

(* What an operation does to the state, whatever it notifies: nothing; one store at a node that does not
   defer; or, at a PrototypedFrom node, a local store with the forwarder detached, the local value dropped
   with the forwarder re-attached (listenable) or not (listenable=False), the forwarder re-attached where
   there was no local value. *)
Inductive effect (st : state) : state -> Prop :=
| E_none : effect st st
| E_store p t w : (forall d r m, find_trait st p t <> Some (Deleg d r m)) -> effect st (dict_set st p t w)
| E_local x n d r w :
    find_trait st x n = Some (Deleg d r false) -> (x < length (objs st))%nat ->
    effect st (ltab_del (dict_set st x n w) (x, n))
| E_unlocal x n d r :
    find_trait st x n = Some (Deleg d r false) -> (x < length (objs st))%nat -> listenable st x n = true ->
    effect st (ltab_add (dict_del st x n) (x, n))
| E_drop x n d r :
    find_trait st x n = Some (Deleg d r false) -> listenable st x n = false -> effect st (dict_del st x n)
| E_attach x n d r :
    find_trait st x n = Some (Deleg d r false) -> (x < length (objs st))%nat -> listenable st x n = true ->
    dict_get st x n = None -> effect st (ltab_add st (x, n)).

Lemma effect_frame st st' : effect st st' -> same_frame st st'.
Proof.
  destruct 1; try (split; reflexivity);
    first [exact (frame_dict_upd (nset _ _) st _) | exact (frame_dict_upd (ndel _) st _)].
Qed.

Lemma effect_inv st st' : effect st st' -> inv st -> inv st'.
Proof.
  intros He Hi. pose proof (effect_frame _ _ He) as Hf.
  destruct He as [|p t w Hnd|x n d r w Htr Hlt|x n d r Htr Hlt Hli|x n d r Htr Hli|x n d r Htr Hlt Hli Hd].
  - exact Hi.
  - apply (inv_change st _ p t Hi Hf); [intros d r; apply Hnd| |].
    + intros o m Hne. split; [apply dict_get_dict_set_other, Hne|reflexivity].
    + (* no forwarder before, none after *)
      intros Hlt. change (ltab (dict_set st p t w)) with (ltab st).
      split; intros H; [apply (inv_ltab _ Hi _ _ Hlt) in H|]; destruct H as [(d & r & m & E) _]; destruct (Hnd _ _ _ E).
  - apply (inv_change st _ x n Hi Hf); [intros d' r'; rewrite Htr; discriminate| |].
    + intros o m Hne. split; [apply dict_get_dict_set_other, Hne|apply has_node_filter_neq, Hne].
    + intros _. cbn [ltab_del ltab]. change (dict_get _ x n) with (dict_get (dict_set st x n w) x n).
      rewrite has_node_filter_eq, dict_get_dict_set_same by exact Hlt.
      split; [discriminate|]. intros (_ & H & _). discriminate.
  - apply (inv_change st _ x n Hi Hf); [intros d' r'; rewrite Htr; discriminate| |].
    + intros o m Hne. split; [apply dict_get_dict_del_other, Hne|apply has_node_add_other, Hne].
    + intros _. cbn [ltab_add ltab]. change (dict_get _ x n) with (dict_get (dict_del st x n) x n).
      rewrite has_node_add, dict_get_dict_del_same by exact Hlt.
      split; [|reflexivity]. intros _. split; [exists d, r, false; exact Htr|split; [reflexivity|exact Hli]].
  - apply (inv_change st _ x n Hi Hf); [intros d' r'; rewrite Htr; discriminate| |].
    + intros o m Hne. split; [apply dict_get_dict_del_other, Hne|reflexivity].
    + (* never attached *)
      intros Hlt. change (ltab (dict_del st x n)) with (ltab st). rewrite Hli.
      split; intros H; [apply (inv_ltab _ Hi _ _ Hlt) in H; rewrite Hli in H|]; destruct H as (_ & _ & H); discriminate.
  - apply (inv_change st _ x n Hi Hf); [intros d' r'; rewrite Htr; discriminate| |].
    + intros o m Hne. split; [reflexivity|apply has_node_add_other, Hne].
    + intros _. cbn [ltab_add ltab]. rewrite has_node_add. change (dict_get _ x n) with (dict_get st x n).
      split; [|reflexivity]. intros _. split; [exists d, r, false; exact Htr|split; assumption].
Qed.

Lemma set_plain_effect st p t tr v :
  (forall d r m, find_trait st p t <> Some (Deleg d r m)) -> effect st (fst (fst (set_plain st p t tr v))).
Proof.
  intros Hnd. destruct (set_plain_state st p t tr v) as [-> _].
  destruct (checked_by tr v); constructor. exact Hnd.
Qed.

Lemma set_attr_effect st x n v : (x < length (objs st))%nat -> effect st (fst (fst (set_attr st x n v))).
Proof.
  intros Hx. unfold set_attr. destruct (find_trait st x n) as [t|] eqn:Htr; [|constructor].
  assert (Hplain : forall tr, (forall d r m, t <> Deleg d r m) -> effect st (fst (fst (set_plain st x n tr v)))).
  { intros tr Ht. apply set_plain_effect. intros d r m. rewrite Htr. intros [= E]. exact (Ht _ _ _ E). }
  destruct t as [k dflt| |d r m|]; try (apply Hplain; discriminate).
  destruct (walk 100 st x d r n) as [[[p t] tr]|e] eqn:Hw; [|constructor].
  destruct m; [apply set_plain_effect, (walk_result _ _ _ _ _ _ _ _ _ Hw)|].
  fold (checked_by tr v). destruct (checked_by tr v) as [w|]; [|constructor].
  destruct (rd st x n); cbn [fst]; [eapply E_local; eassumption|constructor].
Qed.

Lemma del_attr_effect st x n : (x < length (objs st))%nat -> effect st (fst (fst (del_attr st x n))).
Proof.
  intros Hx. unfold del_attr. destruct (find_trait st x n) as [[k dflt| |d r [|]|]|] eqn:Htr; try constructor.
  destruct (walk 100 st x d r n) as [[[p t] tr]|e]; [|constructor].
  destruct (listenable st x n) eqn:Hli; destruct (dict_get st x n) as [old|] eqn:Hd; cbn [fst].
  - eapply E_unlocal; eassumption.
  - destruct tr; cbn [fst]; try constructor; eapply E_attach; eassumption.
  - eapply E_drop; eassumption.
  - destruct tr; constructor.
Qed.

Definition objs_in_range (st : state) : Prop :=
  forall f cur d r dn p t tr, walk f st cur d r dn = Ok (p, t, tr) -> True.

Definition op_in_range (st : state) (o : op) : Prop :=
  match o with Set_ x _ _ | Del x _ => (x < length (objs st))%nat end.

Lemma step_effect st o : op_in_range st o -> effect st (fst (step st o)).
Proof.
  intros Hx. unfold step.
  destruct o as [x n v|x n];
    [pose proof (set_attr_effect st x n v Hx) as H; destruct (set_attr st x n v) as [[st' out] evs]
    |pose proof (del_attr_effect st x n Hx) as H; destruct (del_attr st x n) as [[st' out] evs]];
    exact H.
Qed.

Theorem step_inv st o : inv st -> op_in_range st o -> inv (fst (step st o)).
Proof. intros Hi Hx. exact (effect_inv _ _ (step_effect st o Hx) Hi). Qed.

Lemma step_frame st o : op_in_range st o -> same_frame st (fst (step st o)).
Proof. intros Hx. exact (effect_frame _ _ (step_effect st o Hx)). Qed.

Fixpoint final (st : state) (ops : list op) : state :=
  match ops with [] => st | o :: r => final (fst (step st o)) r end.

Lemma history_keeps (P : state -> Prop) :
  (forall st o, op_in_range st o -> P st -> P (fst (step st o))) ->
  forall ops st, Forall (op_in_range st) ops -> P st -> P (final st ops).
Proof.
  intros Hstep. induction ops as [|o r IH]; intros st Hr HP; [exact HP|].
  inversion Hr as [|? ? Ho Hr']; subst. cbn [final]. apply IH; [|apply Hstep; assumption].
  eapply Forall_impl; [|exact Hr']. intros [y ? ?|y ?]; cbn [op_in_range];
    rewrite (frame_length _ _ (step_frame st o Ho)); auto.
Qed.

Theorem history_inv ops st : inv st -> Forall (op_in_range st) ops -> inv (final st ops).
Proof. intros Hi Hr. apply (history_keeps inv); [intros; apply step_inv| |]; assumption. Qed.

Definition all_listenable (st : state) : Prop := forall o n, listenable st o n = true.

Lemma history_all_listenable ops st :
  all_listenable st -> Forall (op_in_range st) ops -> all_listenable (final st ops).
Proof.
  intros Hal Hr. apply (history_keeps all_listenable); [|assumption..].
  intros st1 o Ho H o' n. rewrite (frame_listenable _ _ (step_frame st1 o Ho)). apply H.
Qed.

Lemma inv_all_listenable st : inv st -> all_listenable st -> forall o n, (o < length (objs st))%nat ->
  (has_node (o, n) (ltab st) = true <-> (deferring st o n /\ dict_get st o n = None)).
Proof.
  intros Hi Hal o n Ho. rewrite (inv_ltab _ Hi _ _ Ho), (Hal o n). split; [intros (H1 & H2 & _)|intros [H1 H2]]; auto.
Qed.

Definition wf_classes (cs : list cls) : Prop := forall c, In c cs -> NoDup (map fst (c_traits c)).

(* _init_trait_listeners attaches the forwarder of exactly the listenable deferring attributes *)
Lemma init_ltab_spec cs os o n :
  wf_classes cs ->
  (In (o, n) (init_ltab cs os) <->
   (o < length os)%nat /\ deferring (init_state cs os) o n /\ listenable (init_state cs os) o n = true).
Proof.
  intros Hwf. unfold init_ltab. rewrite in_flat_map.
  change (deferring (init_state cs os) o n)
    with (exists d r m, nassoc n (c_traits (nth (o_cls (nth o os dummy_obj)) cs dummy_cls)) = Some (Deleg d r m)).
  change (listenable (init_state cs os) o n) with (negb (unlisted n (nth (o_cls (nth o os dummy_obj)) cs dummy_cls))).
  split.
  - intros (o' & Ho' & Hin). apply in_seq in Ho'. cbn zeta in Hin. apply in_flat_map in Hin.
    destruct Hin as ([n' t'] & Hnt & Hin). cbn [fst snd] in Hin.
    destruct t' as [| |d r m|]; try contradiction.
    destruct (unlisted n' _) eqn:Hu; [contradiction|]. destruct Hin as [[= <- <-]|[]].
    split; [lia|]. split; [|rewrite Hu; reflexivity].
    exists d, r, m. apply In_nassoc; [|exact Hnt].
    destruct (nth_in_or_default (o_cls (nth o' os dummy_obj)) cs dummy_cls) as [Hc|Hc];
      [apply Hwf; exact Hc|rewrite Hc; constructor].
  - intros (Ho & (d & r & m & Htr) & Hli). exists o. split; [apply in_seq; lia|].
    cbn zeta. apply in_flat_map. exists (n, Deleg d r m). split; [apply nassoc_In; exact Htr|]. cbn [fst snd].
    apply negb_true_iff in Hli. rewrite Hli. left. reflexivity.
Qed.

(* construction with keyword arguments: PrototypedFrom attributes may start with a local value *)
Theorem init_inv_k cs os :
  wf_classes cs ->
  (forall o n d r, find_trait (init_state_k cs os) o n = Some (Deleg d r true) ->
                   dict_get (init_state_k cs os) o n = None) ->
  inv (init_state_k cs os).
Proof.
  intros Hwf Hmod. split; [exact Hmod|].
  intros o n Ho. cbn [init_state_k objs] in Ho. rewrite has_node_In.
  unfold init_state_k at 1. cbn [ltab]. unfold init_ltab_k. rewrite filter_In, (init_ltab_spec cs os o n Hwf).
  cbn [fst snd]. change (nassoc n (o_dict (nth o os dummy_obj))) with (dict_get (init_state_k cs os) o n).
  change (deferring (init_state cs os) o n) with (deferring (init_state_k cs os) o n).
  change (listenable (init_state cs os) o n) with (listenable (init_state_k cs os) o n).
  destruct (dict_get (init_state_k cs os) o n); intuition discriminate.
Qed.

Theorem init_inv cs os :
  wf_classes cs ->
  (forall o n, deferring (init_state cs os) o n -> dict_get (init_state cs os) o n = None) ->
  inv (init_state cs os).
Proof.
  intros Hwf Hnl. split.
  - intros o n d r Htr. apply Hnl. exists d, r, true. exact Htr.
  - intros o n Ho. cbn [init_state objs] in Ho. rewrite has_node_In.
    unfold init_state at 1. cbn [ltab]. rewrite (init_ltab_spec cs os o n Hwf).
    split; [intros (_ & H1 & H2)|intros (H1 & _ & H2)]; auto.
Qed.
