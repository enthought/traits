(* C11 — decidable forms of the two hypotheses under which an initial pool satisfies the history
   invariant (Invariants.init_inv_k): class tables without repeated names, and no DelegatesTo attribute
   given a local value by a constructor keyword. *)
From Coq Require Import ZArith List Bool Arith Lia.
From TV Require Import Common.Harness C11.Model C11.Law C11.Proofs C11.Invariants.
Import ListNotations.
Open Scope Z_scope.

Fixpoint name_mem (n : name) (l : list name) : bool :=
  match l with [] => false | x :: r => name_eqb n x || name_mem n r end.
Fixpoint nodupb (l : list name) : bool :=
  match l with [] => true | x :: r => negb (name_mem x r) && nodupb r end.
Lemma name_mem_In n l : In n l -> name_mem n l = true.
Proof. induction l as [|x r IH]; cbn; [contradiction|]. intros [->|H]; [rewrite name_eqb_refl; reflexivity|rewrite IH by exact H; apply orb_true_r]. Qed.
Lemma nodupb_sound l : nodupb l = true -> NoDup l.
Proof.
  induction l as [|x r IH]; cbn; [constructor|]. intros H. apply andb_prop in H. destruct H as [H1 H2].
  constructor; [|apply IH; exact H2]. intros Hin. rewrite (name_mem_In _ _ Hin) in H1. discriminate.
Qed.
Definition wf_classesb (cs : list cls) : bool := forallb (fun c => nodupb (map fst (c_traits c))) cs.
Lemma wf_classesb_sound cs : wf_classesb cs = true -> wf_classes cs.
Proof. intros H c Hc. unfold wf_classesb in H. rewrite forallb_forall in H. apply nodupb_sound. apply H. exact Hc. Qed.

Definition modify_no_localb (cs : list cls) (os : list obj) : bool :=
  forallb (fun ob => forallb (fun e => match nassoc (fst e) (c_traits (nth (o_cls ob) cs dummy_cls)) with
                                       | Some (Deleg _ _ true) => false
                                       | _ => true
                                       end) (o_dict ob)) os.
Lemma modify_no_localb_sound cs os :
  modify_no_localb cs os = true ->
  forall o n d r, find_trait (init_state_k cs os) o n = Some (Deleg d r true) ->
                  dict_get (init_state_k cs os) o n = None.
Proof.
  intros H o n d r Htr. unfold modify_no_localb in H. rewrite forallb_forall in H.
  change (dict_get (init_state_k cs os) o n) with (nassoc n (o_dict (nth o os dummy_obj))).
  change (find_trait (init_state_k cs os) o n)
    with (nassoc n (c_traits (nth (o_cls (nth o os dummy_obj)) cs dummy_cls))) in Htr.
  destruct (nassoc n (o_dict (nth o os dummy_obj))) as [v|] eqn:Hd; [|reflexivity].
  exfalso. destruct (Nat.lt_ge_cases o (length os)) as [Hlt|Hge].
  - specialize (H (nth o os dummy_obj) (nth_In _ _ Hlt)). rewrite forallb_forall in H.
    specialize (H (n, v) (nassoc_In _ _ _ Hd)). cbn [fst] in H. rewrite Htr in H. discriminate.
  - rewrite nth_overflow in Hd by exact Hge. discriminate.
Qed.
