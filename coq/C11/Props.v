(* C11 — property theorems only.  Each is closed by lemmas of Proofs.v / Invariants.v / Chain.v
   and followed by Print Assumptions; the Examples are checked by evaluation.

   The theorems speak about the model of Model.v for ALL configurations (any number of classes and
   objects, any trait tables, chains of any length below the 100-step limit), all values and all
   histories.  One hypothesis excludes the one remaining recorded finding, whose witness is proved below:
     no_deferring_locals / good_chain  (no deferring attribute on the chain holds a local value;
                                        otherwise a DelegatesTo assignment is stored past it).
   No hypothesis restricts the __prefix__ of the classes (every link of a chain is named from the object
   that owns it, /repo 2e526b5) or asks an attribute to be listenable (del of a listenable=False attribute
   is an ordinary delete, /repo fcaa594): class_prefix_at_later_hop_repaired and
   del_not_listenable_repaired are positive examples on the witnesses of those two findings. *)
From Coq Require Import ZArith List Bool Arith.
From TV Require Import Common.Harness C11.Model C11.Law C11.Proofs C11.Invariants C11.Chain C11.Invariants2.
Import ListNotations.
Open Scope Z_scope.

Theorem attr_name_table :
  forall class_prefix p n : name,
    attr_name RSame class_prefix n = n /\
    attr_name (RExplicit p) class_prefix n = p /\
    attr_name (RPrefix p) class_prefix n = p ++ n /\
    attr_name RClass class_prefix n = class_prefix ++ n.
Proof. intros. repeat split. Qed.
Print Assumptions attr_name_table.

(* the chain walk is total (structural recursion on the 100-step budget), returns a node that does
   not defer again, and its answer does not depend on budget left over *)
Theorem chain_terminates_or_errors :
  forall st f cur d r dn,
    (forall x, walk f st cur d r dn = Ok x -> forall k, walk (f + k) st cur d r dn = Ok x) /\
    (forall p t tr, walk f st cur d r dn = Ok (p, t, tr) ->
       (match tr with Deleg _ _ _ => False | _ => True end) /\
       forall d' r' m', find_trait st p t <> Some (Deleg d' r' m')).
Proof.
  intros st f cur d r dn. split.
  - intros x H. exact (walk_fuel_mono st f cur d r dn x H).
  - intros p t tr H. split.
    + exact (proj2 (walk_end st f cur d r dn p t tr H)).
    + exact (walk_result st f cur d r dn p t tr H).
Qed.
Print Assumptions chain_terminates_or_errors.

(* a deferring attribute reads as the attribute at the end of its chain: the very node an assignment
   through it addresses *)
Theorem delegatesto_reads_target :
  forall st, links_are_links st -> no_deferring_locals st ->
  forall f cur d r m dn p t tr,
    find_trait st cur dn = Some (Deleg d r m) ->
    walk f st cur d r dn = Ok (p, t, tr) ->
    (match find_trait st p t with Some (Deleg _ _ _) => False | _ => True end) /\
    forall g, read (f + S g) st cur dn = read (S g) st p t.
Proof.
  intros st Hl Hn f cur d r m dn p t tr Htr Hw.
  destruct (walk_read_agree_local st f cur d r m dn p t tr (walk_good_chain st Hl Hn _ _ _ _ _ _ _ Htr Hw) Htr Hw)
    as [H1 H2].
  split; [apply not_deleg_match, H1|exact H2].
Qed.
Print Assumptions delegatesto_reads_target.

(* DelegatesTo: one dict store, at the end of the chain, in the delegate - and it is read back *)
Theorem delegatesto_writes_delegate_only :
  forall st o n d r p t k dflt v w,
  links_are_links st -> no_deferring_locals st ->
  find_trait st o n = Some (Deleg d r true) ->
  walk 100 st o d r n = Ok (p, t, Normal k dflt) ->
  validate k v = Some w -> (p < length (objs st))%nat ->
  let st' := fst (fst (set_attr st o n v)) in
  st' = dict_set st p t w /\ forall g, read (100 + S g) st' o n = Ok w.
Proof.
  intros st o n d r p t k dflt v w Hl Hn Htr Hw.
  exact (delegatesto_write_then_read_local st o n d r p t k dflt v w (walk_good_chain st Hl Hn _ _ _ _ _ _ _ Htr Hw) Htr Hw).
Qed.
Print Assumptions delegatesto_writes_delegate_only.

(* the same two theorems with CHAIN-LOCAL hypotheses ([good_chain]: along the chain of this attribute every
   delegate reference is a Link trait holding an object and no hop holds a local value); other attributes may
   hold any local values *)
Theorem delegatesto_reads_target_chain_local :
  forall st f cur d r m dn p t tr,
    good_chain st cur dn ->
    find_trait st cur dn = Some (Deleg d r m) ->
    walk f st cur d r dn = Ok (p, t, tr) ->
    (forall d' r' m', find_trait st p t <> Some (Deleg d' r' m')) /\
    forall g, read (f + S g) st cur dn = read (S g) st p t.
Proof. exact walk_read_agree_local. Qed.
Print Assumptions delegatesto_reads_target_chain_local.

Theorem delegatesto_writes_delegate_only_chain_local :
  forall st o n d r p t k dflt v w,
  good_chain st o n ->
  find_trait st o n = Some (Deleg d r true) ->
  walk 100 st o d r n = Ok (p, t, Normal k dflt) ->
  validate k v = Some w -> (p < length (objs st))%nat ->
  let st' := fst (fst (set_attr st o n v)) in
  st' = dict_set st p t w /\ forall g, read (100 + S g) st' o n = Ok w.
Proof. exact delegatesto_write_then_read_local. Qed.
Print Assumptions delegatesto_writes_delegate_only_chain_local.

(* PrototypedFrom: the assignment is validated by the trait at the end of the chain and stored in the
   deferring object only; it then reads as the local value *)
Theorem prototyped_reads_until_local :
  forall st o n d r p t tr v w old,
  find_trait st o n = Some (Deleg d r false) ->
  walk 100 st o d r n = Ok (p, t, tr) ->
  checked_by tr v = Some w -> rd st o n = Ok old -> (o < length (objs st))%nat ->
  fst (fst (set_attr st o n v)) = ltab_del (dict_set st o n w) (o, n) /\
  snd (fst (set_attr st o n v)) = Done /\
  forall g, read (S g) (fst (fst (set_attr st o n v))) o n = Ok w.
Proof.
  intros st o n d r p t tr v w old Htr Hw Hc Hrd Ho.
  destruct (prototyped_store st o n d r p t tr v w old Htr Hw Hc Hrd) as [H1 H2].
  split; [exact H1|]. split; [exact H2|].
  intros g. rewrite H1. exact (read_after_local_store st o n w g Ho).
Qed.
Print Assumptions prototyped_reads_until_local.

Theorem prototyped_local_independent :
  forall st o n w, dict_get st o n = Some w ->
  forall p t v g, node_eqb (o, n) (p, t) = false -> read (S g) (dict_set st p t v) o n = Ok w.
Proof. exact Proofs.prototyped_local_independent. Qed.
Print Assumptions prototyped_local_independent.

Theorem delete_restores_link :
  forall st o n d r p t tr old,
  (o < length (objs st))%nat ->
  find_trait st o n = Some (Deleg d r false) ->
  walk 100 st o d r n = Ok (p, t, tr) ->
  dict_get st o n = Some old ->
  let st' := fst (fst (del_attr st o n)) in
  st' = (if listenable st o n then ltab_add (dict_del st o n) (o, n) else dict_del st o n) /\
  dict_get st' o n = None /\
  (listenable st o n = true -> has_node (o, n) (ltab st') = true) /\
  (listenable st o n = false -> ltab st' = ltab st) /\
  snd (fst (del_attr st o n)) = Done.
Proof. exact Proofs.delete_restores_link. Qed.
Print Assumptions delete_restores_link.

Theorem invalid_assignment_rejected_by_target_trait :
  forall st o n d r m p t tr v,
  find_trait st o n = Some (Deleg d r m) ->
  walk 100 st o d r n = Ok (p, t, tr) ->
  checked_by tr v = None ->
  set_attr st o n v = (st, Raised TraitError, []).
Proof. exact invalid_rejected. Qed.
Print Assumptions invalid_assignment_rejected_by_target_trait.

(* forwarding: after ANY history from a well-formed initial pool, a DelegatesTo attribute has no local
   value and the forwarder of a deferring attribute is attached iff it has no local value; whatever a
   change notifies is the changed attribute itself or an attribute whose forwarder is attached, and is
   notified with the new value; every attached forwarder that points at the changed attribute is notified
   (the last two hold of every state) *)
Theorem forward_iff_linked :
  forall cs os ops,
  wf_classes cs -> all_listenable (init_state cs os) ->
  (forall o n, deferring (init_state cs os) o n -> dict_get (init_state cs os) o n = None) ->
  Forall (fun o => match o with Set_ x _ _ | Del x _ => (x < length os)%nat end) ops ->
  let st := final (init_state cs os) ops in
  (forall o n d r, find_trait st o n = Some (Deleg d r true) -> dict_get st o n = None) /\
  (forall o n, (o < length (objs st))%nat ->
     (has_node (o, n) (ltab st) = true <-> (deferring st o n /\ dict_get st o n = None))) /\
  (forall f x w e, In e (change_at f st x w) ->
     (fst e = x \/ has_node (fst e) (ltab st) = true) /\ snd e = w) /\
  (forall f x y w, In y (ltab st) -> depends_on st y x = true ->
     In (fst y, snd y, w) (change_at (S (S f)) st x w)).
Proof.
  intros cs os ops Hwf Hal Hnl Hr st.
  assert (inv st) as Hi by (apply history_inv; [apply init_inv; assumption|exact Hr]).
  split; [exact (inv_modify _ Hi)|].
  split; [exact (inv_all_listenable st Hi (history_all_listenable ops _ Hal Hr))|]. split.
  - intros f x w e Hin. split; [exact (notified_only_if_attached st f x w e Hin)|exact (notified_with_new_value st f x w e Hin)].
  - intros f x y w Hy Hd. exact (attached_dependent_notified st f x y w Hy Hd).
Qed.
Print Assumptions forward_iff_linked.

(* the same for ALL class tables and pools of the correspondence: attributes declared listenable=False,
   objects constructed with keyword arguments that give PrototypedFrom attributes a local value
   (init_state_k), subclasses re-declaring a deferring attribute (= their flattened table), delegates
   from a default initialiser (= a dict entry).  The forwarder is attached iff the attribute is
   listenable and has no local value - after every history. *)
Theorem forward_iff_linked_general :
  forall cs os ops,
  wf_classes cs ->
  (forall o n d r, find_trait (init_state_k cs os) o n = Some (Deleg d r true) ->
                   dict_get (init_state_k cs os) o n = None) ->
  Forall (fun o => match o with Set_ x _ _ | Del x _ => (x < length os)%nat end) ops ->
  let st := final (init_state_k cs os) ops in
  (forall o n d r, find_trait st o n = Some (Deleg d r true) -> dict_get st o n = None) /\
  (forall o n, (o < length (objs st))%nat ->
     (has_node (o, n) (ltab st) = true <->
      (deferring st o n /\ dict_get st o n = None /\ listenable st o n = true))) /\
  (forall f x w e, In e (change_at f st x w) ->
     (fst e = x \/ has_node (fst e) (ltab st) = true) /\ snd e = w) /\
  (forall f x y w, In y (ltab st) -> depends_on st y x = true ->
     In (fst y, snd y, w) (change_at (S (S f)) st x w)).
Proof.
  intros cs os ops Hwf Hmod Hr st.
  assert (inv st) as [Hm Hl] by (apply history_inv; [apply init_inv_k; assumption|exact Hr]).
  split; [exact Hm|]. split; [exact Hl|]. split.
  - intros f x w e Hin. split; [exact (notified_only_if_attached st f x w e Hin)|exact (notified_with_new_value st f x w e Hin)].
  - intros f x y w Hy Hd. exact (attached_dependent_notified st f x y w Hy Hd).
Qed.
Print Assumptions forward_iff_linked_general.

(* ---------- the remaining finding (the model, which follows the code, violates the law) and the two
   repaired ones (positive examples on the former witnesses) ---------- *)
Definition X := [0%nat]. Definition Y := [1%nat]. Definition A := [2%nat]. Definition B := [3%nat].
Definition R := [4%nat]. Definition PARENT := [20%nat].
Definition par : cls := mkC [12%nat] [(PARENT, Link); (X, Normal KInt (VInt 1)); ([12%nat; 3%nat], Normal KInt (VInt 5));
                                       ([11%nat; 3%nat], Normal KRange (VInt 6)); (R, Normal KRange (VInt 7))] [].
Definition mid : cls := mkC [12%nat] [(PARENT, Link); (B, Deleg PARENT RClass true); (R, Deleg PARENT RSame false)] [].
Definition top : cls := mkC [11%nat] [(PARENT, Link); (A, Deleg PARENT (RExplicit B) true); (Y, Deleg PARENT (RExplicit R) true)] [].
Definition pool : list obj := [mkO 0 []; mkO 1 [(PARENT, VObj 0%nat)]; mkO 2 [(PARENT, VObj 1%nat)]].
Definition st0 := init_state [par; mid; top] pool.

(* The witness pool of finding "class-prefix-at-later-hop" (repaired in /repo, 2e526b5): '*' style at the second
   hop, classes with different __prefix__ - c.a = 44 is stored in p.<prefix of m>b, the attribute c.a reads from, and the
   name built from c's own prefix is left alone.  The chain-local theorem applies in this mixed-prefix pool. *)
Example good_chain_in_mixed_prefix_pool : good_chain st0 2%nat A /\ good_chain st0 2%nat Y.
Proof.
  split.
  - eapply GC_hop with (p := 1%nat); [reflexivity|reflexivity|reflexivity|reflexivity|].
    eapply GC_hop with (p := 0%nat); [reflexivity|reflexivity|reflexivity|reflexivity|].
    apply GC_end. intros d r m. vm_compute. discriminate.
  - eapply GC_hop with (p := 1%nat); [reflexivity|reflexivity|reflexivity|reflexivity|].
    eapply GC_hop with (p := 0%nat); [reflexivity|reflexivity|reflexivity|reflexivity|].
    apply GC_end. intros d r m. vm_compute. discriminate.
Qed.
Theorem class_prefix_at_later_hop_repaired :
  let st1 := fst (fst (set_attr st0 2%nat A (VInt 44))) in
  walk 100 st0 2%nat PARENT (RExplicit B) A = Ok (0%nat, [12%nat; 3%nat], Normal KInt (VInt 5)) /\
  st1 = dict_set st0 0%nat [12%nat; 3%nat] (VInt 44) /\
  (forall g, read (100 + S g) st1 2%nat A = Ok (VInt 44)) /\
  rd st0 2%nat A = Ok (VInt 5) /\ rd st1 0%nat [11%nat; 3%nat] = Ok (VInt 6).
Proof.
  intros st1. split; [vm_compute; reflexivity|].
  destruct (delegatesto_writes_delegate_only_chain_local st0 2%nat A PARENT (RExplicit B) 0%nat [12%nat; 3%nat]
              KInt (VInt 5) (VInt 44) (VInt 44)) as [H1 H2].
  - exact (proj1 good_chain_in_mixed_prefix_pool).
  - reflexivity.
  - vm_compute. reflexivity.
  - reflexivity.
  - vm_compute. repeat constructor.
  - split; [exact H1|]. split; [exact H2|]. vm_compute. split; reflexivity.
Qed.
Print Assumptions class_prefix_at_later_hop_repaired.

(* DelegatesTo over a PrototypedFrom attribute with a local value: c.y = 12 lands in p.r, c.y reads 30 *)
Theorem through_local_witness :
  let st1 := fst (fst (set_attr st0 1%nat R (VInt 30))) in
  let st2 := fst (fst (set_attr st1 2%nat Y (VInt 12))) in
  rd st1 2%nat Y = Ok (VInt 30) /\ rd st2 2%nat Y = Ok (VInt 30) /\ rd st2 0%nat R = Ok (VInt 12).
Proof. vm_compute. repeat split; reflexivity. Qed.
Print Assumptions through_local_witness.

(* The witness of finding "not-listenable" (repaired in /repo, fcaa594): deleting the local value of a
   PrototypedFrom(..., listenable=False) attribute is an ordinary delete - value gone, the inherited value
   notified, no forwarder attached, no exception; without a local value nothing happens. *)
Definition child_nl : cls := mkC [11%nat] [(PARENT, Link); (X, Deleg PARENT RSame false)] [X].
Definition st_nl := init_state [par; child_nl] [mkO 0 []; mkO 1 [(PARENT, VObj 0%nat)]].
Theorem del_not_listenable_repaired :
  listenable st_nl 1%nat X = false /\
  let st1 := fst (fst (set_attr st_nl 1%nat X (VInt 9))) in
  rd st1 1%nat X = Ok (VInt 9) /\
  snd (fst (del_attr st1 1%nat X)) = Done /\
  rd (fst (fst (del_attr st1 1%nat X))) 1%nat X = Ok (VInt 1) /\
  snd (del_attr st1 1%nat X) = [(1%nat, X, VInt 1)] /\
  ltab (fst (fst (del_attr st1 1%nat X))) = [] /\
  del_attr st_nl 1%nat X = (st_nl, Done, []).
Proof. vm_compute. repeat split; reflexivity. Qed.
Print Assumptions del_not_listenable_repaired.

(* Non-vacuity of forward_iff_linked_general: a pool with a listenable=False attribute and an object built
   with a constructor keyword (a = 5); its hypotheses are decided by the sound checkers of Invariants2.v;
   the history deletes both kinds of local value. *)
Definition child_k : cls :=
  mkC [11%nat] [(PARENT, Link); (X, Deleg PARENT RSame false); (A, Deleg PARENT (RExplicit X) false);
                (Y, Deleg PARENT (RExplicit X) true)] [X].
Definition pool_k : list obj := [mkO 0 []; mkO 1 [(PARENT, VObj 0%nat); (A, VInt 5)]].
Example general_invariant_nontrivial :
  let ops := [Set_ 1 X (VInt 9); Set_ 0 X (VInt 2); Del 1 X; Del 1 A; Set_ 1 Y (VInt 4)]%nat in
  let st := final (init_state_k [par; child_k] pool_k) ops in
  wf_classes [par; child_k]
  /\ ltab (init_state_k [par; child_k] pool_k) = [(1%nat, Y)]
  /\ map (fun p => ob_out (snd p)) (run (init_state_k [par; child_k] pool_k) ops)
     = [Done; Done; Done; Done; Done]
  /\ ltab st = [(1%nat, Y); (1%nat, A)]
  /\ (has_node (1%nat, A) (ltab st) = true <->
      (deferring st 1%nat A /\ dict_get st 1%nat A = None /\ listenable st 1%nat A = true)).
Proof.
  intros ops st. split; [apply wf_classesb_sound; vm_compute; reflexivity|].
  split; [vm_compute; reflexivity|]. split; [vm_compute; reflexivity|]. split; [vm_compute; reflexivity|].
  refine (proj1 (proj2 (forward_iff_linked_general [par; child_k] pool_k ops _ _ _)) 1%nat A _).
  - apply wf_classesb_sound. vm_compute. reflexivity.
  - apply modify_no_localb_sound. vm_compute. reflexivity.
  - unfold ops. repeat constructor.
  - vm_compute. repeat constructor.
Qed.

(* The attribute that REFERENCES the prototype is itself a deferring attribute
   (ref = DelegatesTo('parent') onto an inner object whose ref holds the prototype; x = PrototypedFrom('ref')).
   The model needs nothing new - [read], [walk] and [depends_on] read the reference through [rd], whatever trait
   it is - and the history invariant forward_iff_linked_general covers the shape (no hypothesis asks the
   reference to be a Link): a local assignment detaches the forwarder (the prototype's next change is not forwarded:
   2 events instead of 3), del re-attaches it (exactly one notification of x), a swap through the inner object
   notifies ref and nobody else, and the law holds on the whole history. *)
Definition REF := [22%nat].
Definition inn_r : cls := mkC [10%nat] [(PARENT, Link); (REF, Link)] [].
Definition top_r : cls := mkC [11%nat] [(PARENT, Link); (REF, Deleg PARENT RSame true); (X, Deleg REF RSame false);
                                         (Y, Deleg REF (RExplicit X) true)] [].
Definition pool_r : list obj := [mkO 0 []; mkO 0 []; mkO 1 [(REF, VObj 0%nat)]; mkO 2 [(PARENT, VObj 2%nat)]].
Example deferring_reference_covered :
  let ops := [Set_ 0 X (VInt 5); Set_ 3 X (VInt 9); Set_ 0 X (VInt 6); Del 3 X; Set_ 0 X (VInt 7);
              Set_ 2 REF (VObj 1%nat); Set_ 1 X (VInt 8); Set_ 3 Y (VInt 4)]%nat in
  let st0r := init_state_k [par; inn_r; top_r] pool_r in
  let st := final st0r ops in
  map (fun p => length (ob_events (snd p))) (run st0r ops) = [3; 1; 2; 1; 3; 1; 3; 3]%nat
  /\ nth 2 (map (fun p => ob_events (snd p)) (run st0r ops)) [] = [(0%nat, X, VInt 6); (3%nat, Y, VInt 6)]
  /\ nth 5 (map (fun p => ob_events (snd p)) (run st0r ops)) [] = [(3%nat, REF, VObj 1%nat)]
  /\ law_hist (mkG (classes st0r) (map o_cls (objs st0r))) 0 [] (mkObs Done [] (snapshot st0r) (locals st0r)) (run st0r ops) = []
  /\ (has_node (3%nat, X) (ltab st) = true <->
      (deferring st 3%nat X /\ dict_get st 3%nat X = None /\ listenable st 3%nat X = true)).
Proof.
  intros ops st0r st. split; [vm_compute; reflexivity|]. split; [vm_compute; reflexivity|].
  split; [vm_compute; reflexivity|]. split; [vm_compute; reflexivity|].
  refine (proj1 (proj2 (forward_iff_linked_general [par; inn_r; top_r] pool_r ops _ _ _)) 3%nat X _).
  - apply wf_classesb_sound. vm_compute. reflexivity.
  - apply modify_no_localb_sound. vm_compute. reflexivity.
  - unfold ops. repeat constructor.
  - vm_compute. repeat constructor.
Qed.

(* A run on a pool with a chain of two deferrals (the '*' style included): the history stores through the
   chain, breaks and restores a link, is rejected by the target's trait, and forwards notifications up the
   chain; the law holds on it. *)
Definition mid' : cls := mkC [12%nat] [(PARENT, Link); (B, Deleg PARENT RClass true); (R, Deleg PARENT RSame false)] [].
Definition top' : cls := mkC [12%nat] [(PARENT, Link); (A, Deleg PARENT (RExplicit B) true); (Y, Deleg PARENT (RExplicit R) false)] [].
Definition st0' := init_state [par; mid'; top'] pool.
Example history_nontrivial :
  let h := [Set_ 2 A (VInt 44); Set_ 2 Y (VInt 20); Set_ 0 R (VInt 9); Del 2 Y; Set_ 0 R (VInt 10);
            Set_ 2 Y (VInt 99); Set_ 1 R VBad]%nat in
  let tr := run st0' h in
  map (fun p => ob_out (snd p)) tr = [Done; Done; Done; Done; Done; Raised TraitError; Raised TraitError]
  /\ map (fun p => length (ob_events (snd p))) tr = [3; 1; 2; 1; 3; 0; 0]%nat
  /\ law_hist (mkG (classes st0') (map o_cls (objs st0'))) 0 [] (mkObs Done [] (snapshot st0') (locals st0')) tr = []
  /\ walk 100 st0' 2%nat PARENT (RExplicit B) A = Ok (0%nat, [12%nat; 3%nat], Normal KInt (VInt 5)).
Proof. vm_compute. repeat split; reflexivity. Qed.
