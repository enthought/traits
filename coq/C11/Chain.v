(* C11 — the agreement theorems: the node an assignment through a deferring attribute is stored at is the
   node the attribute reads from.  The hypothesis is CHAIN-LOCAL ([good_chain]): along the chain of the
   attribute in question every delegate reference is a Link trait that holds an object, and no hop holds a
   local value (a pool where every reference is a Link and no deferring attribute has a local value is a
   special case, [walk_good_chain]; a reference that is itself a deferring attribute is not covered).  Classes
   may have any __prefix__: setattr_delegate names every link from the object that owns it, as getattr_delegate
   does. *)
From Coq Require Import ZArith List Bool Arith Lia.
From TV Require Import Common.Harness C11.Model C11.Law C11.Proofs C11.Invariants.
Import ListNotations.
Open Scope Z_scope.

Inductive good_chain (st : state) : oid -> name -> Prop :=
| GC_end cur dn :
    (forall d r m, find_trait st cur dn <> Some (Deleg d r m)) -> good_chain st cur dn
| GC_hop cur dn d r m p :
    find_trait st cur dn = Some (Deleg d r m) ->
    find_trait st cur d = Some Link ->
    dict_get st cur dn = None ->
    rd st cur d = Ok (VObj p) ->
    good_chain st p (attr_name r (c_prefix (cls_of st cur)) dn) ->
    good_chain st cur dn.

Lemma good_chain_hop st cur dn d r m :
  good_chain st cur dn -> find_trait st cur dn = Some (Deleg d r m) ->
  find_trait st cur d = Some Link /\ dict_get st cur dn = None /\
  exists p, rd st cur d = Ok (VObj p) /\ good_chain st p (attr_name r (c_prefix (cls_of st cur)) dn).
Proof.
  intros Hg Htr. destruct Hg as [? ? Hend|? ? d0 r0 m0 p Htr0 Hd Hloc Hrd Hrest]; [destruct (Hend _ _ _ Htr)|].
  rewrite Htr in Htr0. injection Htr0 as <- <- <-. eauto.
Qed.

Theorem walk_read_agree_local st : forall f cur d r m dn p t tr,
  good_chain st cur dn ->
  find_trait st cur dn = Some (Deleg d r m) ->
  walk f st cur d r dn = Ok (p, t, tr) ->
  (forall d' r' m', find_trait st p t <> Some (Deleg d' r' m')) /\
  forall g, read (f + S g) st cur dn = read (S g) st p t.
Proof.
  induction f as [|f IH]; intros cur d r m dn p t tr Hg Htr Hw; [discriminate|].
  split; [exact (walk_result _ _ _ _ _ _ _ _ _ Hw)|].
  destruct (good_chain_hop _ _ _ _ _ _ Hg Htr) as (Hd & Hloc & p1 & Hrd & Hrest).
  cbn [walk] in Hw. rewrite Hrd in Hw.
  set (dn' := attr_name r (c_prefix (cls_of st cur)) dn) in *.
  (* reading follows the same hop *)
  assert (forall g, read (S f + S g) st cur dn = read (f + S g) st p1 dn') as Hstep.
  { intros g. change (S f + S g)%nat with (S (f + S g)). cbn [read].
    rewrite Hloc, Htr. replace (f + S g)%nat with (S (f + g)) by lia.
    (* the reference reads the same with the fuel left here as with [rd]'s *)
    rewrite (read_link st cur d (f + g) (pred read_fuel) Hd).
    change (read (S (pred read_fuel)) st cur d) with (rd st cur d). rewrite Hrd. reflexivity. }
  intros g. rewrite Hstep.
  destruct (find_trait st p1 dn') as [[k dflt| |d' r' m'|]|] eqn:Hft.
  3: exact (proj2 (IH _ _ _ _ _ _ _ _ Hrest Hft Hw) g).
  (* the chain ends at (p1, dn'), which reads the same with any fuel *)
  all: injection Hw as <- <- <-; destruct f; [reflexivity|]; apply read_terminal; rewrite Hft; exact I.
Qed.

(* a store at a plain node is not seen by the delegate references ... *)
Lemma rd_dict_set_link st p t k dflt w cur d :
  find_trait st p t = Some (Normal k dflt) -> find_trait st cur d = Some Link ->
  rd (dict_set st p t w) cur d = rd st cur d.
Proof.
  intros Hp Hd. unfold rd, read_fuel. rewrite !read_at_link by (rewrite ?find_trait_dict_set; exact Hd).
  rewrite dict_get_dict_set_other by (apply (node_neq_by_trait st); rewrite Hp, Hd; discriminate). reflexivity.
Qed.

(* ... so it leaves every good chain good, and the walk along it the same *)
Lemma good_chain_dict_set st p t k dflt w :
  find_trait st p t = Some (Normal k dflt) ->
  forall cur dn, good_chain st cur dn -> good_chain (dict_set st p t w) cur dn.
Proof.
  intros Hp cur dn Hg. induction Hg as [cur dn Hend|cur dn d r m p1 Htr Hd Hloc Hrd Hrest IH].
  - apply GC_end. intros d r m. rewrite find_trait_dict_set. apply Hend.
  - eapply GC_hop with (p := p1).
    + rewrite find_trait_dict_set. exact Htr.
    + rewrite find_trait_dict_set. exact Hd.
    + rewrite dict_get_dict_set_other; [exact Hloc|].
      apply (node_neq_by_trait st). rewrite Htr, Hp. discriminate.
    + rewrite (rd_dict_set_link st p t k dflt w cur d Hp Hd). exact Hrd.
    + rewrite cls_of_dict_set. exact IH.
Qed.

Lemma walk_dict_set_local st p t k dflt w :
  find_trait st p t = Some (Normal k dflt) ->
  forall f cur d r m dn, good_chain st cur dn -> find_trait st cur dn = Some (Deleg d r m) ->
    walk f (dict_set st p t w) cur d r dn = walk f st cur d r dn.
Proof.
  intros Hp. induction f as [|f IH]; intros cur d r m dn Hg Htr; [reflexivity|].
  destruct (good_chain_hop _ _ _ _ _ _ Hg Htr) as (Hd & _ & p1 & Hrd & Hrest).
  cbn [walk]. rewrite (rd_dict_set_link st p t k dflt w cur d Hp Hd). rewrite Hrd.
  rewrite cls_of_dict_set, find_trait_dict_set.
  destruct (find_trait st p1 _) as [[| |d' r' m'|]|] eqn:E; try reflexivity.
  eapply IH; [exact Hrest|exact E].
Qed.

Theorem delegatesto_write_then_read_local st o n d r p t k dflt v w :
  good_chain st o n ->
  find_trait st o n = Some (Deleg d r true) ->
  walk 100 st o d r n = Ok (p, t, Normal k dflt) ->
  validate k v = Some w -> (p < length (objs st))%nat ->
  let st' := fst (fst (set_attr st o n v)) in
  st' = dict_set st p t w /\ forall g, read (100 + S g) st' o n = Ok w.
Proof.
  intros Hg Htr Hw Hv Hp st'.
  destruct (delegatesto_store st o n d r p t (Normal k dflt) v w Htr Hw Hv) as [Hst _].
  subst st'. rewrite Hst. split; [reflexivity|].
  pose proof (walk_returns_class_trait _ _ _ _ _ _ _ _ _ _ Hw) as Hpt.
  set (st1 := dict_set st p t w).
  assert (good_chain st1 o n) as Hg1 by (apply (good_chain_dict_set st p t k dflt w Hpt); exact Hg).
  assert (walk 100 st1 o d r n = Ok (p, t, Normal k dflt)) as Hw1.
  { unfold st1. erewrite walk_dict_set_local; eauto. }
  assert (find_trait st1 o n = Some (Deleg d r true)) as Htr1 by (unfold st1; rewrite find_trait_dict_set; exact Htr).
  destruct (walk_read_agree_local st1 _ _ _ _ _ _ _ _ _ Hg1 Htr1 Hw1) as [_ Hread].
  intros g. rewrite Hread. apply read_local. apply dict_get_dict_set_same. exact Hp.
Qed.

(* In a pool where every delegate reference is a Link and no deferring attribute holds a local value, every
   chain the walk gets through is good. *)
Lemma walk_good_chain st :
  links_are_links st -> no_deferring_locals st ->
  forall f cur d r m dn x,
    find_trait st cur dn = Some (Deleg d r m) -> walk f st cur d r dn = Ok x -> good_chain st cur dn.
Proof.
  intros Hlinks Hloc. induction f as [|f IH]; intros cur d r m dn x Htr Hw; [discriminate|].
  cbn [walk] in Hw. destruct (rd st cur d) as [[z| | |p1]|e] eqn:Hrd; try discriminate.
  apply (GC_hop st cur dn d r m p1 Htr (Hlinks _ _ _ _ _ Htr) (Hloc _ _ _ _ _ Htr) Hrd).
  destruct (find_trait st p1 _) as [[| |d' r' m'|]|] eqn:E.
  3: exact (IH _ _ _ _ _ _ E Hw).
  all: apply GC_end; intros; rewrite E; discriminate.
Qed.
