(* C11 — proofs about the model of deferred traits.  stdlib + lia. *)
From Coq Require Import ZArith List Bool Arith Lia.
From TV Require Import Common.Harness C11.Model C11.Law.
Import ListNotations.
Open Scope Z_scope.

Lemma name_eqb_refl a : name_eqb a a = true.
Proof. induction a; cbn; auto. rewrite Nat.eqb_refl. exact IHa. Qed.
Lemma name_eqb_eq a : forall b, name_eqb a b = true -> a = b.
Proof.
  induction a as [|x a IH]; destruct b as [|y b]; cbn; try discriminate; auto.
  intros H. apply andb_prop in H. destruct H as [H1 H2]. apply Nat.eqb_eq in H1. apply IH in H2. congruence.
Qed.
Lemma node_eqb_refl x : node_eqb x x = true.
Proof. unfold node_eqb. rewrite Nat.eqb_refl, name_eqb_refl. reflexivity. Qed.
Lemma node_eqb_eq x y : node_eqb x y = true -> x = y.
Proof.
  unfold node_eqb. intros H. apply andb_prop in H. destruct H as [H1 H2].
  apply Nat.eqb_eq in H1. apply name_eqb_eq in H2. destruct x, y; cbn in *; congruence.
Qed.
Lemma node_neq_by_trait st o n p t :
  find_trait st o n <> find_trait st p t -> node_eqb (o, n) (p, t) = false.
Proof.
  intros H. destruct (node_eqb (o, n) (p, t)) eqn:E; [|reflexivity].
  apply node_eqb_eq in E. injection E as -> ->. contradiction.
Qed.

Lemma nassoc_nset_same {A} n (a : A) l : nassoc n (nset n a l) = Some a.
Proof.
  induction l as [|[k b] l IH]; cbn.
  - rewrite name_eqb_refl. reflexivity.
  - destruct (name_eqb n k) eqn:E; cbn; rewrite ?name_eqb_refl, ?E; auto.
Qed.
Lemma nassoc_nset_other {A} n m (a : A) l : name_eqb m n = false -> nassoc m (nset n a l) = nassoc m l.
Proof.
  intros Hne. induction l as [|[k b] l IH]; cbn.
  - rewrite Hne. reflexivity.
  - destruct (name_eqb n k) eqn:E; cbn.
    + apply name_eqb_eq in E. subst k. rewrite Hne. reflexivity.
    + destruct (name_eqb m k); auto.
Qed.
Lemma nassoc_ndel_same {A} n (l : list (name * A)) : nassoc n (ndel n l) = None.
Proof.
  induction l as [|[k b] l IH]; cbn; [reflexivity|].
  destruct (name_eqb n k) eqn:E; [exact IH|]. cbn. rewrite E. exact IH.
Qed.
Lemma nassoc_ndel_other {A} n m (l : list (name * A)) : name_eqb m n = false -> nassoc m (ndel n l) = nassoc m l.
Proof.
  intros Hne. induction l as [|[k b] l IH]; cbn; [reflexivity|].
  destruct (name_eqb n k) eqn:E.
  - apply name_eqb_eq in E. subst k. rewrite Hne. exact IH.
  - cbn. destruct (name_eqb m k); auto.
Qed.
Lemma nassoc_In {A} n (a : A) l : nassoc n l = Some a -> In (n, a) l.
Proof.
  induction l as [|[k b] l IH]; cbn; [discriminate|].
  destruct (name_eqb n k) eqn:E.
  - intros [= <-]. apply name_eqb_eq in E. subst. left. reflexivity.
  - intros H. right. apply IH. exact H.
Qed.
Lemma In_nassoc {A} n (a : A) l : NoDup (map fst l) -> In (n, a) l -> nassoc n l = Some a.
Proof.
  induction l as [|[k b] l IH]; cbn; intros Hnd Hin; [contradiction|].
  inversion Hnd as [|? ? Hnotin Hnd']; subst.
  destruct Hin as [[= -> ->]|Hin].
  - rewrite name_eqb_refl. reflexivity.
  - destruct (name_eqb n k) eqn:E.
    + apply name_eqb_eq in E. subst k. exfalso. apply Hnotin. apply (in_map fst) in Hin. exact Hin.
    + apply IH; assumption.
Qed.

Lemma nth_update_same {A} (f : A -> A) d : forall l i, (i < length l)%nat -> nth i (update i f l) d = f (nth i l d).
Proof. induction l as [|x l IH]; intros [|i] H; cbn in *; try lia; auto. apply IH. lia. Qed.
Lemma nth_update_other {A} (f : A -> A) d : forall l i j, i <> j -> nth j (update i f l) d = nth j l d.
Proof. induction l as [|x l IH]; intros [|i] [|j] H; cbn; auto; try congruence. Qed.
Lemma update_length {A} (f : A -> A) : forall l i, length (update i f l) = length l.
Proof. induction l as [|x l IH]; intros [|i]; cbn; auto. Qed.
Lemma nth_update_map {A} (f : A -> A) d : (forall a, f a = a -> True) -> f d = d ->
  forall l i j, nth j (update i f l) d = if Nat.eqb i j then f (nth j l d) else nth j l d.
Proof.
  intros _ Hd. induction l as [|x l IH]; intros [|i] [|j]; cbn; auto.
  - destruct (Nat.eqb i j); auto.
Qed.
Lemma map_update {A B} (g : A -> B) (f : A -> A) : (forall a, g (f a) = g a) ->
  forall l i, map g (update i f l) = map g l.
Proof. intros H. induction l as [|x l IH]; intros [|i]; cbn; rewrite ?H, ?IH; reflexivity. Qed.

Definition same_frame (st st' : state) : Prop :=
  classes st' = classes st /\ map o_cls (objs st') = map o_cls (objs st).

Lemma frame_cls_of st st' : same_frame st st' -> forall o, cls_of st' o = cls_of st o.
Proof.
  intros [Hc Ho] o. unfold cls_of, get_obj. rewrite Hc, <- !(map_nth o_cls), Ho. reflexivity.
Qed.
Lemma frame_find_trait st st' : same_frame st st' -> forall o n, find_trait st' o n = find_trait st o n.
Proof. intros H o n. unfold find_trait. rewrite (frame_cls_of _ _ H). reflexivity. Qed.
Lemma frame_listenable st st' : same_frame st st' -> forall o n, listenable st' o n = listenable st o n.
Proof. intros H o n. unfold listenable. rewrite (frame_cls_of _ _ H). reflexivity. Qed.
Lemma frame_length st st' : same_frame st st' -> length (objs st') = length (objs st).
Proof. intros [_ Ho]. rewrite <- (map_length o_cls), Ho. apply map_length. Qed.

Definition dict_upd (F : list (name * value) -> list (name * value)) (st : state) (p : oid) : state :=
  mkS (classes st) (update p (fun ob => mkO (o_cls ob) (F (o_dict ob))) (objs st)) (ltab st).

Lemma dict_set_upd st p t w : dict_set st p t w = dict_upd (nset t w) st p.
Proof. reflexivity. Qed.
Lemma dict_del_upd st p t : dict_del st p t = dict_upd (ndel t) st p.
Proof. reflexivity. Qed.

Lemma frame_dict_upd F st p : same_frame st (dict_upd F st p).
Proof. split; [reflexivity|]. apply map_update. reflexivity. Qed.

Lemma dict_get_dict_upd_same F st p n :
  (p < length (objs st))%nat -> dict_get (dict_upd F st p) p n = nassoc n (F (o_dict (get_obj st p))).
Proof. intros Hlt. unfold dict_get, get_obj, dict_upd. cbn [objs]. rewrite nth_update_same by exact Hlt. reflexivity. Qed.

Lemma dict_get_dict_upd_other F st p o n :
  (o = p -> forall l, nassoc n (F l) = nassoc n l) -> dict_get (dict_upd F st p) o n = dict_get st o n.
Proof.
  intros H. unfold dict_get, get_obj, dict_upd. cbn [objs].
  destruct (Nat.eq_dec p o) as [->|Hpo]; [|rewrite nth_update_other by exact Hpo; reflexivity].
  destruct (Nat.lt_ge_cases o (length (objs st))) as [Hlt|Hge].
  - rewrite nth_update_same by exact Hlt. apply H. reflexivity.
  - rewrite !nth_overflow by (rewrite ?update_length; lia). reflexivity.
Qed.

Lemma other_name o n p t : node_eqb (o, n) (p, t) = false -> o = p -> name_eqb n t = false.
Proof. unfold node_eqb. cbn. intros H ->. rewrite Nat.eqb_refl in H. exact H. Qed.

Lemma cls_of_dict_set st p t w o : cls_of (dict_set st p t w) o = cls_of st o.
Proof. exact (frame_cls_of _ _ (frame_dict_upd (nset t w) st p) o). Qed.
Lemma find_trait_dict_set st p t w o n : find_trait (dict_set st p t w) o n = find_trait st o n.
Proof. exact (frame_find_trait _ _ (frame_dict_upd (nset t w) st p) o n). Qed.
Lemma dict_get_dict_set_same st p t w :
  (p < length (objs st))%nat -> dict_get (dict_set st p t w) p t = Some w.
Proof. intros Hlt. rewrite dict_set_upd, dict_get_dict_upd_same by exact Hlt. apply nassoc_nset_same. Qed.
Lemma dict_get_dict_set_other st p t w o n :
  node_eqb (o, n) (p, t) = false -> dict_get (dict_set st p t w) o n = dict_get st o n.
Proof.
  intros Hne. rewrite dict_set_upd. apply dict_get_dict_upd_other. intros E l. apply nassoc_nset_other, (other_name _ _ _ _ Hne E).
Qed.

Lemma find_trait_dict_del st p t o n : find_trait (dict_del st p t) o n = find_trait st o n.
Proof. exact (frame_find_trait _ _ (frame_dict_upd (ndel t) st p) o n). Qed.
Lemma dict_get_dict_del_same st p t : (p < length (objs st))%nat -> dict_get (dict_del st p t) p t = None.
Proof. intros Hlt. rewrite dict_del_upd, dict_get_dict_upd_same by exact Hlt. apply nassoc_ndel_same. Qed.
Lemma dict_get_dict_del_other st p t o n :
  node_eqb (o, n) (p, t) = false -> dict_get (dict_del st p t) o n = dict_get st o n.
Proof.
  intros Hne. rewrite dict_del_upd. apply dict_get_dict_upd_other. intros E l. apply nassoc_ndel_other, (other_name _ _ _ _ Hne E).
Qed.

Lemma read_terminal st o n a b :
  (match find_trait st o n with Some (Deleg _ _ _) => False | _ => True end) ->
  read (S a) st o n = read (S b) st o n.
Proof.
  intros H. cbn [read]. destruct (dict_get st o n); [reflexivity|].
  destruct (find_trait st o n) as [[| | |]|]; try reflexivity. contradiction.
Qed.

Lemma read_local st o n v g : dict_get st o n = Some v -> read (S g) st o n = Ok v.
Proof. intros H. cbn [read]. rewrite H. reflexivity. Qed.

(* well-formedness used by the agreement theorem *)
Definition links_are_links (st : state) : Prop :=
  forall o n d r m, find_trait st o n = Some (Deleg d r m) -> find_trait st o d = Some Link.
(* excludes finding "through-local": no deferring attribute holds a local value *)
Definition no_deferring_locals (st : state) : Prop :=
  forall o n d r m, find_trait st o n = Some (Deleg d r m) -> dict_get st o n = None.

Lemma read_at_link st o d g :
  find_trait st o d = Some Link -> read (S g) st o d = match dict_get st o d with Some v => Ok v | None => Ok VNone end.
Proof. intros H. cbn [read]. rewrite H. reflexivity. Qed.
Lemma read_link st o d a b : find_trait st o d = Some Link -> read (S a) st o d = read (S b) st o d.
Proof. intros H. rewrite !read_at_link by exact H. reflexivity. Qed.

Theorem walk_fuel_mono st : forall f cur d r dn x,
  walk f st cur d r dn = Ok x -> forall k, walk (f + k) st cur d r dn = Ok x.
Proof.
  induction f as [|f IH]; intros cur d r dn x Hw k; [discriminate|].
  cbn [walk plus] in *. destruct (rd st cur d) as [[z| | |p1]|e]; try discriminate.
  destruct (find_trait st p1 _) as [[| | |]|]; try exact Hw. apply IH. exact Hw.
Qed.

(* the chain was followed to its end: the trait returned is the class trait of the node returned (the
   wildcard Python attribute if there is none), and it does not defer again *)
Lemma walk_end st : forall f cur d r dn p t tr,
  walk f st cur d r dn = Ok (p, t, tr) ->
  tr = match find_trait st p t with Some t' => t' | None => PyAttr end /\
  match tr with Deleg _ _ _ => False | _ => True end.
Proof.
  induction f as [|f IH]; intros cur d r dn p t tr Hw; [discriminate|].
  cbn [walk] in Hw. destruct (rd st cur d) as [[z| | |p1]|e]; try discriminate.
  destruct (find_trait st p1 _) as [[| | |]|] eqn:E; try (injection Hw as <- <- <-; rewrite E; split; [reflexivity|exact I]).
  eapply IH. exact Hw.
Qed.

Lemma walk_result st f cur d r dn p t tr :
  walk f st cur d r dn = Ok (p, t, tr) -> forall d' r' m', find_trait st p t <> Some (Deleg d' r' m').
Proof. intros Hw d' r' m' E. destruct (walk_end _ _ _ _ _ _ _ _ _ Hw) as [-> H]. rewrite E in H. exact H. Qed.

Lemma not_deleg_match (o : option trait) :
  (forall d r m, o <> Some (Deleg d r m)) -> match o with Some (Deleg _ _ _) => False | _ => True end.
Proof. intros H. destruct o as [[]|]; try exact I. exact (H _ _ _ eq_refl). Qed.

Lemma walk_returns_class_trait st f cur d r dn p t k dflt :
  walk f st cur d r dn = Ok (p, t, Normal k dflt) -> find_trait st p t = Some (Normal k dflt).
Proof.
  intros Hw. destruct (walk_end _ _ _ _ _ _ _ _ _ Hw) as [E _].
  destruct (find_trait st p t); [congruence|discriminate].
Qed.

Definition checked_by (t : trait) (v : value) : option value :=
  match t with
  | Normal k _ => validate k v
  | Link => validate_link v
  | Deleg _ _ _ => None
  | PyAttr => Some v
  end.

Lemma set_plain_state st o n t v :
  fst (fst (set_plain st o n t v)) = match checked_by t v with Some w => dict_set st o n w | None => st end
  /\ (checked_by t v = None -> set_plain st o n t v = (st, Raised TraitError, []))
  /\ (checked_by t v <> None -> snd (fst (set_plain st o n t v)) = Done).
Proof. unfold set_plain. fold (checked_by t v). destruct (checked_by t v); repeat split; congruence. Qed.

Theorem invalid_rejected st o n d r m p t tr v :
  find_trait st o n = Some (Deleg d r m) ->
  walk 100 st o d r n = Ok (p, t, tr) ->
  checked_by tr v = None ->
  set_attr st o n v = (st, Raised TraitError, []).
Proof.
  intros Htr Hw Hc. unfold set_attr. rewrite Htr, Hw.
  destruct m; [apply set_plain_state, Hc|]. fold (checked_by tr v). rewrite Hc. reflexivity.
Qed.

Theorem delegatesto_store st o n d r p t tr v w :
  find_trait st o n = Some (Deleg d r true) ->
  walk 100 st o d r n = Ok (p, t, tr) ->
  checked_by tr v = Some w ->
  fst (fst (set_attr st o n v)) = dict_set st p t w /\ snd (fst (set_attr st o n v)) = Done.
Proof.
  intros Htr Hw Hc. unfold set_attr. rewrite Htr, Hw.
  destruct (set_plain_state st p t tr v) as (H1 & _ & H2). rewrite H1, Hc.
  split; [reflexivity|]. apply H2. rewrite Hc. discriminate.
Qed.

Theorem prototyped_store st o n d r p t tr v w old :
  find_trait st o n = Some (Deleg d r false) ->
  walk 100 st o d r n = Ok (p, t, tr) ->
  checked_by tr v = Some w ->
  rd st o n = Ok old ->
  fst (fst (set_attr st o n v)) = ltab_del (dict_set st o n w) (o, n) /\ snd (fst (set_attr st o n v)) = Done.
Proof.
  intros Htr Hw Hc Hrd. unfold set_attr. rewrite Htr, Hw. fold (checked_by tr v). rewrite Hc, Hrd.
  split; reflexivity.
Qed.

Theorem prototyped_local_independent st o n w :
  dict_get st o n = Some w ->
  forall p t v g, node_eqb (o, n) (p, t) = false ->
    read (S g) (dict_set st p t v) o n = Ok w.
Proof.
  intros Hl p t v g Hne. apply read_local. rewrite dict_get_dict_set_other by exact Hne. exact Hl.
Qed.

Theorem read_after_local_store st o n w g :
  (o < length (objs st))%nat -> read (S g) (ltab_del (dict_set st o n w) (o, n)) o n = Ok w.
Proof. intros Hlt. apply read_local. exact (dict_get_dict_set_same st o n w Hlt). Qed.

Lemma has_node_add x l : has_node x (if has_node x l then l else l ++ [x]) = true.
Proof.
  destruct (has_node x l) eqn:E; [exact E|].
  unfold has_node. rewrite existsb_app. cbn. rewrite node_eqb_refl. rewrite orb_true_r. reflexivity.
Qed.

Theorem delete_restores_link st o n d r p t tr old :
  (o < length (objs st))%nat ->
  find_trait st o n = Some (Deleg d r false) ->
  walk 100 st o d r n = Ok (p, t, tr) ->
  dict_get st o n = Some old ->
  let st' := fst (fst (del_attr st o n)) in
  st' = (if listenable st o n then ltab_add (dict_del st o n) (o, n) else dict_del st o n) /\
  dict_get st' o n = None /\
  (listenable st o n = true -> has_node (o, n) (ltab st') = true) /\
  (listenable st o n = false -> ltab st' = ltab st) /\
  snd (fst (del_attr st o n)) = Done.
Proof.
  intros Hlt Htr Hw Hl st'. subst st'. unfold del_attr. rewrite Htr, Hw, Hl.
  pose proof (dict_get_dict_del_same st o n Hlt) as Hnone.
  destruct (listenable st o n); cbn [fst snd].
  - split; [reflexivity|]. split; [exact Hnone|]. split; [|split; [discriminate|reflexivity]].
    intros _. apply has_node_add.
  - split; [reflexivity|]. split; [exact Hnone|]. split; [discriminate|]. split; reflexivity.
Qed.

Theorem notified_only_if_attached st : forall f x w e,
  In e (change_at f st x w) -> fst e = x \/ has_node (fst e) (ltab st) = true.
Proof.
  induction f as [|f IH]; intros x w e Hin; [contradiction|].
  cbn [change_at] in Hin. destruct Hin as [<-|Hin].
  - left. destruct x. reflexivity.
  - right. apply in_flat_map in Hin. destruct Hin as (y & Hy & Hin).
    destruct (depends_on st y x); [|contradiction].
    destruct (IH _ _ _ Hin) as [->|H]; [|exact H].
    unfold has_node. apply existsb_exists. exists y. split; [exact Hy|apply node_eqb_refl].
Qed.

Theorem attached_dependent_notified st f x y w :
  In y (ltab st) -> depends_on st y x = true ->
  In (fst y, snd y, w) (change_at (S (S f)) st x w).
Proof.
  intros Hy Hd. cbn [change_at]. right. apply in_flat_map. exists y. split; [exact Hy|].
  rewrite Hd. left. reflexivity.
Qed.

Theorem notified_with_new_value st : forall f x w e, In e (change_at f st x w) -> snd e = w.
Proof.
  induction f as [|f IH]; intros x w e Hin; [contradiction|].
  cbn [change_at] in Hin. destruct Hin as [<-|Hin]; [reflexivity|].
  apply in_flat_map in Hin. destruct Hin as (y & _ & Hin).
  destruct (depends_on st y x); [|contradiction]. eapply IH. exact Hin.
Qed.
